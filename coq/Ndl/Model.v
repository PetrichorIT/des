(* Wire format and runner of the NDL model (see tools/props/c18.py for the generator side).

   script := 0 which byte*                         grammar stream: FromStr + Display of one string
           | 1 mode doc                            document stream: parse, elaborate, (mode odd:) build
   which  mod 5: 0 TypClause<String> 1 TypClause<ModuleGenericsDef> 2 ModuleGenericsDef 3 FieldDef 4 ConnectionEndpointDef
   doc    := str(entry) nmods module* nlinks link*
   module := str(key) inh [str] ngates str* nsubs (str str)* nconns (str str lk [str])*      inh, lk: odd = present
   link   := str(name) latency_us jitter_us bitrate
   str    := len byte{len}                          (bytes are taken mod 128)

   A document is what serde hands to the FromStr impls: every key / scalar that def.rs parses is
   a raw string here and goes through Grammar.v.

   output (grammar)  := 1 value lp(display) roundtrip | 2 class | 9 site
   output (document) := 2 kind*                     (sorted candidate error kinds; Io = 3 for a string def.rs rejects)
                      | 9 site                      (model only: a panic site of def.rs / mod.rs)
                      | 7 kind                      (model only: transform failed although there is no candidate)
                      | 8                           (model only: out of fuel)
                      | 1 tree                      (mode even)
                      | 1 tree 4                    (mode odd, a submodule name is not identifier-like: build not attempted)
                      | 1 tree 5 (1 nmods mod* nedges edge* den | 2 kind [0] | 9 site [0] | 8)
   see the serialisers below for tree / mod / edge. *)
From Coq Require Import List NArith Bool.
From DesVerif Require Import Common.Codec Ndl.Bytes Ndl.Grammar Ndl.Def Ndl.Transform Ndl.Build Ndl.Denote Ndl.Realisable.
Import ListNotations.
Open Scope N_scope.

(* ---- decoding ---- *)
Definition nxt (l : list N) : N * list N := match l with [] => (0, []) | x :: r => (x, r) end.
Definition clamp (s : bytes) : bytes := map (fun b => b mod 128) s.
Definition take_str (l : list N) : bytes * list N := let '(s, r) := take_lp l in (clamp s, r).
Definition count (n : N) (r : list N) : nat := N.to_nat (N.min n (N.of_nat (length r))).

Fixpoint take_many {A} (one : list N -> A * list N) (k : nat) (l : list N) : list A * list N :=
  match k with
  | O => ([], l)
  | S k' => let '(a, r) := one l in let '(more, r') := take_many one k' r in (a :: more, r')
  end.
Definition counted {A} (one : list N -> A * list N) (l : list N) : list A * list N :=
  let '(n, r) := nxt l in take_many one (count n r) r.

Record raw_module := { rm_key : bytes; rm_inherit : option bytes; rm_gates : list bytes;
                       rm_subs : list (bytes * bytes); rm_conns : list (bytes * bytes * option bytes) }.
Record raw_doc := { rd_entry : bytes; rd_modules : list raw_module; rd_links : list (bytes * Link) }.

Definition take_opt_str (l : list N) : option bytes * list N :=
  let '(f, r) := nxt l in
  if N.odd f then let '(s, r') := take_str r in (Some s, r') else (None, r).
Definition take_pair (l : list N) : (bytes * bytes) * list N :=
  let '(a, r) := take_str l in let '(b, r') := take_str r in ((a, b), r').
Definition take_conn (l : list N) : (bytes * bytes * option bytes) * list N :=
  let '(ab, r) := take_pair l in let '(lk, r') := take_opt_str r in ((ab, lk), r').
Definition take_module (l : list N) : raw_module * list N :=
  let '(k, r) := take_str l in
  let '(inh, r) := take_opt_str r in
  let '(gs, r) := counted take_str r in
  let '(ss, r) := counted take_pair r in
  let '(cs, r) := counted take_conn r in
  ({| rm_key := k; rm_inherit := inh; rm_gates := gs; rm_subs := ss; rm_conns := cs |}, r).
Definition take_link (l : list N) : (bytes * Link) * list N :=
  let '(nm, r) := take_str l in
  let '(a, r) := nxt r in let '(b, r) := nxt r in let '(c, r) := nxt r in
  ((nm, {| l_lat := a; l_jit := b; l_rate := c |}), r).
Definition decode_doc (l : list N) : raw_doc :=
  let '(e, r) := take_str l in
  let '(ms, r) := counted take_module r in
  let '(ls, _) := counted take_link r in
  {| rd_entry := e; rd_modules := ms; rd_links := ls |}.

(* ---- serde: every string through its FromStr; the first failure fails the document (ErrorKind::Io) ---- *)
Definition io {A} (r : res A) : res A := match r with Err _ => Err K_IO | x => x end.

Definition parse_module (fx : bool) (m : raw_module) : res (TypClause Generic * ModuleDef) :=
  do key <- io (typclause_from_str fx generic_from_str (rm_key m));
  do gates <- io (collect field_from_str (rm_gates m));
  do subs <- io (collect (fun ab => do f <- field_from_str (fst ab);
                                    do t <- typclause_from_str fx string_from_str (snd ab); Ok (f, t)) (rm_subs m));
  do conns <- io (collect (fun c => do a <- endpoint_from_str (fst (fst c));
                                     do b <- endpoint_from_str (snd (fst c));
                                     Ok {| cd_lhs := a; cd_rhs := b; cd_link := snd c |}) (rm_conns m));
  Ok (key, {| md_inherit := rm_inherit m; md_gates := gates; md_subs := subs; md_conns := conns |}).

Definition parse_doc (fx : bool) (d : raw_doc) : res Def :=
  do ms <- collect (parse_module fx) (rd_modules d);
  Ok {| d_entry := rd_entry d; d_modules := ms; d_links := rd_links d |}.

(* ---- canonical output ---- *)
Fixpoint lex_leb (a b : list N) : bool :=
  match a, b with
  | [], _ => true
  | _ :: _, [] => false
  | x :: a', y :: b' => if x <? y then true else if y <? x then false else lex_leb a' b'
  end.
Fixpoint insert_sorted (x : list N) (l : list (list N)) : list (list N) :=
  match l with
  | [] => [x]
  | y :: r => if lex_leb x y then x :: l else y :: insert_sorted x r
  end.
Definition sort_lists (l : list (list N)) : list (list N) := fold_right insert_sorted [] l.
Definition sorted_concat (l : list (list N)) : list N := N.of_nat (length l) :: concat (sort_lists l).

Definition lp (s : bytes) : list N := N.of_nat (length s) :: s.
Definition ser_kard (k : Kard) : list N := match k with Atom => [0] | Cluster n => [n + 1] end.
Definition ser_field (f : FieldDef) : list N := lp (fd_ident f) ++ ser_kard (fd_kard f).
Definition ser_acc (a : Accessor) : list N := lp (ac_name a) ++ [match ac_index a with Some i => i + 1 | None => 0 end].
Definition ser_path (p : list Accessor) : list N := N.of_nat (length p) :: flat_map ser_acc p.
Definition ser_link (l : option Link) : list N :=
  match l with None => [0] | Some k => [1; l_lat k * 1000; l_jit k * 1000; l_rate k] end.
Definition ser_conn (c : Conn) : list N := ser_path (cn_l c) ++ ser_path (cn_r c) ++ ser_link (cn_link c).

Fixpoint ser_node (n : Node) : list N :=
  match n with
  | mkNode typ subs gates conns =>
    lp typ ++ sorted_concat (map ser_field gates) ++
    sorted_concat ((fix go (l : list (FieldDef * Node)) : list (list N) :=
                      match l with [] => [] | (f, sn) :: r => (ser_field f ++ ser_node sn) :: go r end) subs) ++
    N.of_nat (length conns) :: flat_map ser_conn conns
  end.

(* flat view shared by the built state and the denotation *)
Definition ser_gate_pos (g : gate_pos) : list N := let '(p, nm, k) := g in ser_path p ++ lp nm ++ [k].
Definition ser_flat (mods : list (path * ident)) (gates : list (path * ident * N * N))
           (edges : list (gate_pos * gate_pos * option Link)) : list N :=
  sorted_concat (map (fun m =>
      ser_path (fst m) ++ lp (snd m) ++
      sorted_concat (map (fun g => let '(_, nm, sz, k) := g in lp nm ++ [sz; k])
                         (filter (fun g => let '(p, _, _, _) := g in path_eqb p (fst m)) gates))) mods) ++
  sorted_concat (map (fun e => let '(a, b, l) := e in ser_gate_pos a ++ ser_gate_pos b ++ ser_link l) edges).

(* the registry of the harness: the types M0..M31, T0..T7 and m0..m7 are registered, each with its own software;
   symbols are compared exactly (m3 is not M3) *)
Definition registered (s : ident) : bool :=
  match s with
  | [77; d] => is_digit d
  | [77; d1; d2] => ((d1 =? 49) || (d1 =? 50)) && is_digit d2 || (d1 =? 51) && ((d2 =? 48) || (d2 =? 49))
  | [84; d] => (48 <=? d) && (d <=? 55)
  | [109; d] => (48 <=? d) && (d <=? 55)
  | _ => false
  end.

Definition ident_like (s : bytes) : bool := match s with [] => false | _ => forallb name_char s end.
Fixpoint names_ok (n : Node) : bool :=
  match n with
  | mkNode _ subs _ _ =>
    (fix go (l : list (FieldDef * Node)) : bool :=
       match l with [] => true | (f, sn) :: r => ident_like (fd_ident f) && names_ok sn && go r end) subs
  end.

Definition dedup_sorted (l : list N) : list N :=
  fold_right (fun x acc => match acc with y :: _ => if x =? y then acc else x :: acc | [] => [x] end) []
             (concat (sort_lists (map (fun x => [x]) l))).

(* [den] = 1 iff the built state equals the flattening of the denoted tree and the tree is [realisable], and
   also when the description has no denotation ([denote_tree d = None]: nothing to compare with);
   a failing build of a realisable tree (impossible, BuildTotal.realisable_builds) would print a trailing 0 *)
Definition run_build (d : Def) (n : Node) : list N :=
  if negb (names_ok n) then [4] else
  let bad := if realisable registered n then [0] else [] in
  5 :: match build registered n with
       | Ok st =>
         let out := ser_flat (bs_mods st) (state_gates st) (state_edges st) in
         let den := match denote_tree d with
                    | Some dn => if list_eqb N.eqb out (ser_flat (den_mods dn []) (den_gates dn []) (conn_set (den_conns dn []) []))
                                    && realisable registered n
                                 then 1 else 0
                    | None => 1
                    end in
         1 :: out ++ [den]
       | Err k => [2; k] ++ bad
       | Panic s => [9; s] ++ bad
       | OutOfFuel => [8]
       end.

Definition run_doc (fx : bool) (mode : N) (rd : raw_doc) : list N :=
  match parse_doc fx rd with
  | Err k => [2; k]
  | Panic s => [9; s]
  | OutOfFuel => [8]
  | Ok d =>
    match cands fx d with
    | (_ :: _) as ks => 2 :: dedup_sorted ks
    | [] =>
      match transform fx d with
      | Ok n => 1 :: ser_node n ++ (if N.odd mode then run_build d n else [])
      | Err k => [7; k]
      | Panic s => [9; s]
      | OutOfFuel => [8]
      end
    end
  end.

(* ---- grammar stream ---- *)
Definition ser_generic (g : Generic) : list N := lp (g_binding g) ++ lp (g_bound g).
Definition ser_kard64 (k : Kard) : list N := match k with Atom => [0] | Cluster n => [1; n / 4294967296; n mod 4294967296] end.
Definition ser_field64 (f : FieldDef) : list N := lp (fd_ident f) ++ ser_kard64 (fd_kard f).
Definition ser_tc {A} (sa : A -> list N) (t : TypClause A) : list N :=
  lp (tc_ident t) ++ N.of_nat (length (tc_args t)) :: flat_map sa (tc_args t).

Definition out_parse {A} (r : res A) (ser : A -> list N) (disp : A -> res bytes) (again : bytes -> res A)
           (eqb : A -> A -> bool) : list N :=
  match r with
  | Ok v => match disp v with
            | Ok s => 1 :: ser v ++ lp s ++ [match again s with Ok v' => if eqb v v' then 1 else 0 | _ => 0 end]
            | Panic p => [9; p]
            | _ => [8]
            end
  | Err e => [2; e]
  | Panic p => [9; p]
  | OutOfFuel => [8]
  end.

Definition generic_eqb (a b : Generic) : bool := beq (g_binding a) (g_binding b) && beq (g_bound a) (g_bound b).
Definition tc_eqb {A} (e : A -> A -> bool) (a b : TypClause A) : bool :=
  beq (tc_ident a) (tc_ident b) && list_eqb e (tc_args a) (tc_args b).

Definition run_grammar (fx : bool) (which : N) (s : bytes) : list N :=
  let w := which mod 5 in
  if w =? 0 then out_parse (typclause_from_str fx string_from_str s) (ser_tc lp) (typclause_display (fun x => x))
                           (typclause_from_str fx string_from_str) (tc_eqb beq)
  else if w =? 1 then out_parse (typclause_from_str fx generic_from_str s) (ser_tc ser_generic) (typclause_display generic_display)
                                (typclause_from_str fx generic_from_str) (tc_eqb generic_eqb)
  else if w =? 2 then out_parse (generic_from_str s) ser_generic (fun g => Ok (generic_display g)) generic_from_str generic_eqb
  else if w =? 3 then out_parse (field_from_str s) ser_field64 (fun f => Ok (field_display f)) field_from_str field_eqb
  else out_parse (endpoint_from_str s) (fun e => N.of_nat (length e) :: flat_map ser_field64 e)
                 (fun e => Ok (endpoint_display e)) endpoint_from_str (list_eqb field_eqb).

Definition run_fx (fx : bool) (input : list N) : list N :=
  let '(stream, r) := nxt input in
  if stream =? 0 then let '(which, r') := nxt r in run_grammar fx which (clamp r')
  else let '(mode, r') := nxt r in run_doc fx mode (decode_doc r').

Definition run (input : list N) : list N := run_fx true input.
