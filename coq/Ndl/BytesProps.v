From Coq Require Import List NArith Bool Lia ZifyBool.
From DesVerif Require Import Ndl.Bytes.
Import ListNotations.
Open Scope N_scope.

Lemma beq_refl : forall a, beq a a = true.
Proof. induction a as [|x a IH]; cbn [beq]; [reflexivity|]. rewrite N.eqb_refl, IH. reflexivity. Qed.

Lemma beq_eq : forall a b, beq a b = true <-> a = b.
Proof.
  induction a as [|x a IH]; intros [|y b]; cbn [beq]; split; intros H; try reflexivity; try discriminate.
  - apply andb_true_iff in H as [H1 H2]. apply N.eqb_eq in H1. apply IH in H2. congruence.
  - injection H as -> ->. rewrite N.eqb_refl. cbn [andb]. apply IH. reflexivity.
Qed.

Lemma not_in_cons_eqb : forall c x a, ~ In c (x :: a) -> (x =? c) = false /\ ~ In c a.
Proof.
  intros c x a H. split; [apply N.eqb_neq; intros ->; apply H; left; reflexivity|].
  intros Hi. apply H. right. exact Hi.
Qed.

Lemma not_in_app : forall (c : N) x y, ~ In c x -> ~ In c y -> ~ In c (x ++ y).
Proof. intros c x y Hx Hy H. apply in_app_or in H as [H|H]; [exact (Hx H)|exact (Hy H)]. Qed.

Lemma not_in_join : forall (c : N) sep l, ~ In c sep -> Forall (fun a => ~ In c a) l -> ~ In c (join sep l).
Proof.
  intros c sep l Hs H. induction H as [|a l Ha Hl IH]; [intros []|].
  destruct l as [|b l]; [exact Ha|].
  change (join sep (a :: b :: l)) with (a ++ sep ++ join sep (b :: l)).
  apply not_in_app; [exact Ha|]. apply not_in_app; [exact Hs|exact IH].
Qed.

(* ---- split_once ---- *)
Lemma split_once_char_app : forall c a b, ~ In c a -> split_once_char c (a ++ c :: b) = Some (a, b).
Proof.
  intros c a b. induction a as [|x a IH]; intros Hn; cbn [app split_once_char].
  - rewrite N.eqb_refl. reflexivity.
  - apply not_in_cons_eqb in Hn as [Hx Hn]. rewrite Hx, (IH Hn). reflexivity.
Qed.

Lemma split_once_char_none : forall c s, ~ In c s -> split_once_char c s = None.
Proof.
  intros c s. induction s as [|x s IH]; intros Hn; cbn [split_once_char]; [reflexivity|].
  apply not_in_cons_eqb in Hn as [Hx Hn]. rewrite Hx, (IH Hn). reflexivity.
Qed.

Lemma split_once_2_step : forall p1 p2 x s, (x =? p1) = false -> s <> [] ->
  split_once_2 p1 p2 (x :: s) = match split_once_2 p1 p2 s with Some (a, b) => Some (x :: a, b) | None => None end.
Proof. intros p1 p2 x [|y t] Hx Hs; [congruence|]. cbn [split_once_2]. rewrite Hx. reflexivity. Qed.

Lemma split_once_2_app : forall p1 p2 a b, ~ In p1 a -> split_once_2 p1 p2 (a ++ p1 :: p2 :: b) = Some (a, b).
Proof.
  intros p1 p2 a b. induction a as [|x a IH]; intros Hn.
  - cbn [app split_once_2]. rewrite !N.eqb_refl. reflexivity.
  - apply not_in_cons_eqb in Hn as [Hx Hn].
    change ((x :: a) ++ p1 :: p2 :: b) with (x :: (a ++ p1 :: p2 :: b)).
    rewrite split_once_2_step by (try exact Hx; destruct a; discriminate).
    rewrite (IH Hn). reflexivity.
Qed.

(* ---- split ---- *)
(* split undoes join whenever the splitter passes over a piece without the pattern's first byte and cuts at the
   separator; the one-byte and the two-byte splitter both do *)
Section SplitJoin.
  Variables (c : N) (sep : bytes) (sp : bytes -> bytes -> list bytes).
  Hypothesis sp_none : forall a cur, ~ In c a -> sp cur a = [rev cur ++ a].
  Hypothesis sp_app : forall a r cur, ~ In c a -> sp cur (a ++ sep ++ r) = (rev cur ++ a) :: sp [] r.

  Lemma split_join : forall l, l <> [] -> Forall (fun a => ~ In c a) l -> sp [] (join sep l) = l.
  Proof.
    induction l as [|a l IH]; intros Hne Hf; [congruence|].
    inversion Hf as [|? ? Ha Hl]; subst. destruct l as [|b l].
    - cbn [join]. rewrite sp_none by exact Ha. reflexivity.
    - change (join sep (a :: b :: l)) with (a ++ sep ++ join sep (b :: l)).
      rewrite sp_app by exact Ha. cbn [rev app]. f_equal. apply IH; [discriminate|exact Hl].
  Qed.
End SplitJoin.

Lemma split_char_acc_none : forall c a cur, ~ In c a -> split_char_acc c cur a = [rev cur ++ a].
Proof.
  intros c a. induction a as [|x a IH]; intros cur Hn; cbn [split_char_acc].
  - rewrite app_nil_r. reflexivity.
  - apply not_in_cons_eqb in Hn as [Hx Hn]. rewrite Hx, (IH _ Hn). cbn [rev]. rewrite <- app_assoc. reflexivity.
Qed.

Lemma split_char_acc_app : forall c a r cur, ~ In c a ->
  split_char_acc c cur (a ++ c :: r) = (rev cur ++ a) :: split_char_acc c [] r.
Proof.
  intros c a r. induction a as [|x a IH]; intros cur Hn; cbn [app split_char_acc].
  - rewrite N.eqb_refl, app_nil_r. reflexivity.
  - apply not_in_cons_eqb in Hn as [Hx Hn]. rewrite Hx, (IH _ Hn). cbn [rev]. rewrite <- app_assoc. reflexivity.
Qed.

Lemma split_char_join : forall c l, l <> [] -> Forall (fun a => ~ In c a) l -> split_char c (join [c] l) = l.
Proof. intros c. exact (split_join c [c] (split_char_acc c) (split_char_acc_none c) (split_char_acc_app c)). Qed.

Lemma split_2_acc_none : forall p1 p2 a cur, ~ In p1 a -> split_2_acc p1 p2 cur a = [rev cur ++ a].
Proof.
  intros p1 p2 a. induction a as [|x a IH]; intros cur Hn; cbn [split_2_acc].
  - rewrite app_nil_r. reflexivity.
  - apply not_in_cons_eqb in Hn as [Hx Hn].
    destruct a as [|y r]; [reflexivity|]. rewrite Hx. cbn [andb].
    rewrite (IH _ Hn). cbn [rev]. rewrite <- app_assoc. reflexivity.
Qed.

Lemma split_2_acc_step : forall p1 p2 x s cur, (x =? p1) = false -> s <> [] ->
  split_2_acc p1 p2 cur (x :: s) = split_2_acc p1 p2 (x :: cur) s.
Proof. intros p1 p2 x [|y t] cur Hx Hs; [congruence|]. cbn [split_2_acc]. rewrite Hx. reflexivity. Qed.

Lemma split_2_acc_app : forall p1 p2 a r cur, ~ In p1 a ->
  split_2_acc p1 p2 cur (a ++ p1 :: p2 :: r) = (rev cur ++ a) :: split_2_acc p1 p2 [] r.
Proof.
  intros p1 p2 a r. induction a as [|x a IH]; intros cur Hn.
  - cbn [app split_2_acc]. rewrite !N.eqb_refl, app_nil_r. reflexivity.
  - apply not_in_cons_eqb in Hn as [Hx Hn].
    change ((x :: a) ++ p1 :: p2 :: r) with (x :: (a ++ p1 :: p2 :: r)).
    rewrite split_2_acc_step by (try exact Hx; destruct a; discriminate).
    rewrite (IH _ Hn). cbn [rev]. rewrite <- app_assoc. reflexivity.
Qed.

Lemma split_2_join : forall p1 p2 l, l <> [] -> Forall (fun a => ~ In p1 a) l ->
  split_2 p1 p2 (join [p1; p2] l) = l.
Proof.
  intros p1 p2. exact (split_join p1 [p1; p2] (split_2_acc p1 p2) (split_2_acc_none p1 p2) (split_2_acc_app p1 p2)).
Qed.

(* ---- ends_with / trim_end_matches / trim ---- *)
Lemma last_is_snoc : forall c s x, last_is c (s ++ [x]) = (x =? c).
Proof. intros c s x. unfold last_is. rewrite rev_app_distr. reflexivity. Qed.

Lemma last_is_false : forall c s, ~ In c s -> last_is c s = false.
Proof.
  intros c s Hn. unfold last_is. destruct (rev s) as [|x r] eqn:E; [reflexivity|].
  apply N.eqb_neq. intros ->. apply Hn. apply in_rev. rewrite E. left. reflexivity.
Qed.

Lemma drop_while_all : forall f pre s, Forall (fun b => f b = true) pre -> drop_while f (pre ++ s) = drop_while f s.
Proof. intros f pre s H. induction H as [|x pre Hx _ IH]; cbn [app drop_while]; [reflexivity|]. rewrite Hx. exact IH. Qed.

Lemma drop_while_stop : forall f s, (forall x r, s = x :: r -> f x = false) -> drop_while f s = s.
Proof. intros f [|x r] H; cbn [drop_while]; [reflexivity|]. rewrite (H x r eq_refl). reflexivity. Qed.

Lemma trim_end_matches_snoc : forall c s, ~ In c s -> trim_end_matches c (s ++ [c]) = s.
Proof.
  intros c s Hn. unfold trim_end_matches. rewrite rev_app_distr. cbn [rev app drop_while].
  rewrite N.eqb_refl. rewrite drop_while_stop; [apply rev_involutive|].
  intros x r E. apply N.eqb_neq. intros <-. apply Hn. apply in_rev. rewrite E. left. reflexivity.
Qed.

Lemma trim_spec : forall pre core suf,
  Forall (fun b => is_ws b = true) pre -> Forall (fun b => is_ws b = false) core -> Forall (fun b => is_ws b = true) suf ->
  trim (pre ++ core ++ suf) = core.
Proof.
  intros pre core suf Hp Hc Hs. unfold trim. rewrite (drop_while_all _ _ _ Hp).
  destruct core as [|x core].
  - cbn [app]. assert (E : drop_while is_ws suf = []).
    { rewrite <- (app_nil_r suf). rewrite (drop_while_all _ _ _ Hs). reflexivity. }
    rewrite E. reflexivity.
  - rewrite (drop_while_stop _ ((x :: core) ++ suf)).
    2:{ intros y r E. cbn [app] in E. injection E as <- _. inversion Hc; assumption. }
    rewrite rev_app_distr. rewrite drop_while_all by (apply Forall_rev; exact Hs).
    rewrite drop_while_stop; [apply rev_involutive|].
    intros y r E. assert (Hin : In y (x :: core)) by (apply in_rev; rewrite E; left; reflexivity).
    rewrite Forall_forall in Hc. apply Hc. exact Hin.
Qed.

Lemma trim_id : forall s, Forall (fun b => is_ws b = false) s -> trim s = s.
Proof.
  intros s H. pose proof (trim_spec [] s [] (Forall_nil _) H (Forall_nil _)) as E.
  cbn [app] in E. rewrite app_nil_r in E. exact E.
Qed.

(* ---- decimal numbers ---- *)
Lemma digits_value_app : forall x y a,
  digits_value a (x ++ y) = match digits_value a x with Some v => digits_value v y | None => None end.
Proof.
  induction x as [|d x IH]; intros y a; cbn [app digits_value]; [reflexivity|].
  destruct (is_digit d); [|reflexivity]. destruct (_ <=? USIZE_MAX); [apply IH|reflexivity].
Qed.

Lemma to_dec_fuel_acc : forall f n acc, to_dec_fuel f n acc = to_dec_fuel f n [] ++ acc.
Proof.
  induction f as [|f IH]; intros n acc; cbn [to_dec_fuel]; [reflexivity|].
  destruct (n <? 10); [reflexivity|].
  rewrite (IH (n / 10) (_ :: acc)), (IH (n / 10) [_]). rewrite <- app_assoc. reflexivity.
Qed.

Lemma digit_ok : forall r, r < 10 -> is_digit (48 + r) = true.
Proof. intros r H. unfold is_digit. lia. Qed.

Lemma to_dec_fuel_S : forall f n acc,
  to_dec_fuel (S f) n acc = if n <? 10 then (48 + n mod 10) :: acc else to_dec_fuel f (n / 10) ((48 + n mod 10) :: acc).
Proof. reflexivity. Qed.

Lemma to_dec_fuel_digits : forall f n acc, Forall (fun b => is_digit b = true) acc ->
  Forall (fun b => is_digit b = true) (to_dec_fuel f n acc).
Proof.
  induction f as [|f IH]; intros n acc Hacc; [exact Hacc|]. rewrite to_dec_fuel_S.
  assert (Hd : Forall (fun b => is_digit b = true) ((48 + n mod 10) :: acc)).
  { constructor; [|exact Hacc]. apply digit_ok. apply N.mod_lt. discriminate. }
  destruct (n <? 10); [exact Hd|apply IH; exact Hd].
Qed.

Lemma to_dec_nonempty : forall n, to_dec n <> [].
Proof.
  intros n. unfold to_dec. rewrite to_dec_fuel_S. destruct (n <? 10); [discriminate|].
  rewrite to_dec_fuel_acc. apply not_eq_sym, app_cons_not_nil.
Qed.

(* the digits of n are those of n / 10 followed by n mod 10 *)
Lemma to_dec_fuel_value : forall f n, n < 2 ^ N.of_nat f -> n <= USIZE_MAX ->
  digits_value 0 (to_dec_fuel (S f) n []) = Some n.
Proof.
  induction f as [|f IH]; intros n Hn Hmax.
  - assert (E : n = 0) by (cbn in Hn; lia). rewrite E. reflexivity.
  - assert (Hm : n mod 10 < 10) by (apply N.mod_lt; discriminate).
    assert (Hlast : forall a, a * 10 + n mod 10 = n -> digits_value a [48 + n mod 10] = Some n).
    { intros a Ha. cbn [digits_value]. rewrite (digit_ok _ Hm), (N.add_comm 48), N.add_sub, Ha.
      apply N.leb_le in Hmax. rewrite Hmax. reflexivity. }
    rewrite to_dec_fuel_S. destruct (N.ltb_spec n 10) as [Hlt|Hge].
    + apply Hlast. rewrite (N.mod_small n 10 Hlt). reflexivity.
    + assert (Hle : n / 10 <= n) by (apply N.div_le_upper_bound; lia).
      rewrite to_dec_fuel_acc, digits_value_app, IH.
      * apply Hlast. rewrite N.mul_comm. symmetry. apply N.div_mod. discriminate.
      * apply N.div_lt_upper_bound; [discriminate|]. rewrite Nat2N.inj_succ, N.pow_succ_r' in Hn. lia.
      * lia.
Qed.

Lemma to_dec_value : forall n, n <= USIZE_MAX -> digits_value 0 (to_dec n) = Some n.
Proof. intros n. unfold to_dec. apply to_dec_fuel_value. rewrite N2Nat.id. apply N.size_gt. Qed.

(* ---- identifier characters are none of the grammar's separators ---- *)
Definition wf_name (s : bytes) : Prop := Forall (fun b => name_char b = true) s.

Lemma name_char_not_ws : forall b, name_char b = true -> is_ws b = false.
Proof. intros b H. unfold name_char, is_digit, is_ws in *. lia. Qed.

Lemma wf_name_not_in : forall s c, wf_name s -> name_char c = false -> ~ In c s.
Proof.
  intros s c H Hc Hi. unfold wf_name in H. rewrite Forall_forall in H. apply H in Hi. congruence.
Qed.

Lemma wf_name_no_ws : forall s, wf_name s -> Forall (fun b => is_ws b = false) s.
Proof. intros s. apply Forall_impl. exact name_char_not_ws. Qed.

Lemma to_dec_name : forall n, wf_name (to_dec n).
Proof.
  intros n. eapply Forall_impl; [|apply to_dec_fuel_digits; constructor].
  intros b Hb. unfold name_char. rewrite Hb. reflexivity.
Qed.

Lemma parse_usize_to_dec : forall n, n <= USIZE_MAX -> parse_usize (to_dec n) = Some n.
Proof.
  intros n Hn. unfold parse_usize. pose proof (to_dec_name n) as Hd. pose proof (to_dec_nonempty n) as Hne.
  destruct (to_dec n) as [|x r] eqn:E; [congruence|].
  assert (Hx : (x =? PLUS) = false).
  { apply N.eqb_neq. intros ->. inversion Hd as [|? ? Hp _]. discriminate Hp. }
  rewrite Hx, <- E. apply to_dec_value. exact Hn.
Qed.
