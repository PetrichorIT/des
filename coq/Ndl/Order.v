(* The dependency-ordering loop of `transform` (mod.rs): it terminates within
   (number of definitions + 1) iterations, never indexes out of bounds, returns either
   UnresolvableDependency or the definitions rearranged so that every definition comes
   after everything it requires; and it fails whenever a group of definitions can never
   become resolvable (unknown symbols, cycles). *)
From Coq Require Import List NArith Bool PeanoNat Permutation.
From DesVerif Require Import Ndl.Bytes Ndl.BytesProps Ndl.Grammar Ndl.GrammarProps Ndl.Def Ndl.Transform.
Import ListNotations.
Local Open Scope nat_scope.

Inductive DepOrdered : list ident -> list entry -> Prop :=
| DO_nil : forall prov, DepOrdered prov []
| DO_cons : forall prov e l, resolvable prov e = true -> DepOrdered (e_ident e :: prov) l -> DepOrdered prov (e :: l).

Lemma in_required_symbols : forall self m s,
  (In s (map (fun st => tc_ident (snd st)) (md_subs m) ++ flat_map (fun st => tc_args (snd st)) (md_subs m)) /\
   is_binding (tc_args self) s = false) \/
  In s (map g_bound (tc_args self)) \/ md_inherit m = Some s ->
  In s (required_symbols self m).
Proof.
  intros self m s H. unfold required_symbols. apply in_or_app. destruct H as [[H Hnb]|H].
  - left. apply filter_In. split; [exact H|]. rewrite Hnb. reflexivity.
  - right. apply in_or_app. destruct H as [H|H]; [left; exact H|right]. rewrite H. left. reflexivity.
Qed.

(* `inherit` is required whatever the module's own generic bindings are called: the parent is added AFTER the
   bindings are subtracted (def.rs required_symbols, step 3), so `Host(P <- Iface)` with `inherit: P` waits for a
   global definition P *)
Lemma inherit_is_required : forall self m p, md_inherit m = Some p -> In p (required_symbols self m).
Proof. intros self m p H. apply in_required_symbols. right. right. exact H. Qed.

(* the bound of EVERY type parameter is required, whatever the parameters are called: bounds are added after all
   bindings have been subtracted (def.rs required_symbols: pass (1) removes the bindings, pass (2) adds the bounds), so in
   `Lan(Host <- Node, Node <- Switch)` the global module Node stays required although a later parameter is called Node *)
Lemma bounds_are_required : forall self m g, In g (tc_args self) -> In (g_bound g) (required_symbols self m).
Proof. intros self m g Hg. apply in_required_symbols. right. left. apply in_map. exact Hg. Qed.

Lemma unbound_names_are_required : forall self m f t s,
  In (f, t) (md_subs m) -> (s = tc_ident t \/ In s (tc_args t)) -> is_binding (tc_args self) s = false ->
  In s (required_symbols self m).
Proof.
  intros self m f t s Hin Hs Hnb. apply in_required_symbols. left. split; [|exact Hnb].
  apply in_or_app. destruct Hs as [->|Hs].
  - left. apply in_map_iff. exists (f, t). split; [reflexivity|exact Hin].
  - right. apply in_flat_map. exists (f, t). split; [exact Hin|exact Hs].
Qed.

Lemma position_spec : forall {A} (f : A -> bool) l k, position f l = Some k ->
  exists a, nth_error l k = Some a /\ f a = true.
Proof.
  intros A f l. induction l as [|a l IH]; intros k H; cbn [position] in H; [discriminate|].
  destruct (f a) eqn:Ea.
  - injection H as <-. exists a. split; [reflexivity|exact Ea].
  - destruct (position f l) as [k'|]; cbn [option_map] in H; [|discriminate].
    injection H as <-. destruct (IH k' eq_refl) as (b & Hb & Hf). exists b. split; assumption.
Qed.

Lemma nth_error_middle : forall {A} k (l : list A) a, nth_error l k = Some a ->
  l = firstn k l ++ a :: skipn (S k) l.
Proof.
  intros A k. induction k as [|k IH]; intros [|b l] a H; try discriminate H; cbn [nth_error] in H.
  - injection H as ->. reflexivity.
  - cbn [firstn skipn app]. f_equal. exact (IH l a H).
Qed.

Lemma swap0_spec : forall {A} k (l : list A) a, nth_error l k = Some a ->
  exists tl, swap0 k l = Some (a :: tl) /\ Permutation (a :: tl) l.
Proof.
  intros A k [|b r] a H; [destruct k; discriminate H|]. destruct k as [|k']; cbn [nth_error] in H.
  - injection H as ->. exists r. split; reflexivity.
  - cbn [swap0]. rewrite H. exists (firstn k' r ++ b :: skipn (S k') r). split; [reflexivity|].
    rewrite (nth_error_middle k' r a H) at 3. rewrite <- !Permutation_middle. apply perm_swap.
Qed.

Lemma mem_ident_In : forall s l, mem_ident s l = true <-> In s l.
Proof.
  intros s l. unfold mem_ident. rewrite existsb_exists. split.
  - intros (x & Hx & Hb). apply beq_eq in Hb. subst. exact Hx.
  - intros H. exists s. split; [exact H|apply beq_refl].
Qed.

Lemma resolvable_spec : forall prov e, resolvable prov e = true -> forall s, In s (snd e) -> In s prov.
Proof.
  intros prov e H s Hs. unfold resolvable in H. rewrite forallb_forall in H. apply mem_ident_In, H, Hs.
Qed.

(* one run of the loop: outcome and shape *)
Lemma order_loop_perm : forall fuel done rest prov, length rest < fuel ->
  match order_loop fuel done rest prov with
  | Ok l => exists l', l = rev done ++ l' /\ DepOrdered prov l' /\ Permutation l' rest
  | Err k => k = K_UNRESOLVABLE_DEPENDENCY
  | _ => False
  end.
Proof.
  induction fuel as [|f IH]; intros done rest prov Hlen; [inversion Hlen|].
  destruct rest as [|r0 rest']; cbn [order_loop].
  - exists []. split; [symmetry; apply app_nil_r|]. split; constructor.
  - destruct (position (resolvable prov) (r0 :: rest')) as [next|] eqn:Ep; [|reflexivity].
    destruct (position_spec _ _ _ Ep) as (m & Hn & Hres).
    destruct (swap0_spec _ _ _ Hn) as (tl & -> & Hp).
    rewrite <- (Permutation_length Hp) in Hlen. apply Nat.succ_lt_mono in Hlen.
    specialize (IH (m :: done) tl (e_ident m :: prov) Hlen).
    destruct (order_loop f (m :: done) tl (e_ident m :: prov)) as [l|k| |]; try exact IH.
    destruct IH as (l' & -> & Hdo & Hp'). exists (m :: l'). split; [|split].
    + cbn [rev]. rewrite <- app_assoc. reflexivity.
    + constructor; assumption.
    + rewrite <- Hp. constructor. exact Hp'.
Qed.

Lemma order_entries_spec : forall d,
  match order_loop (S (length (d_modules d))) [] (entries d) [] with
  | Ok l => DepOrdered [] l /\ Permutation l (entries d)
  | Err k => k = K_UNRESOLVABLE_DEPENDENCY
  | _ => False
  end.
Proof.
  intros d. pose proof (order_loop_perm (S (length (d_modules d))) [] (entries d) []) as H.
  unfold entries in H at 1. rewrite map_length in H. specialize (H (Nat.lt_succ_diag_r _)).
  destruct (order_loop _ [] (entries d) []) as [l|k| |]; try exact H.
  destruct H as (l' & -> & Hdo & Hp). split; assumption.
Qed.

Lemma transform_ok : forall fx d n, transform fx d = Ok n ->
  exists ordered arch g, DepOrdered [] ordered /\ Permutation ordered (entries d) /\
    elaborate fx ordered [] (d_links d) = Ok arch /\ lookup (d_entry d) arch = Some (n, g).
Proof.
  intros fx d n H. unfold transform in H. pose proof (order_entries_spec d) as Ho.
  apply bind_ok in H as (ordered & Eo & H). rewrite Eo in Ho. destruct Ho as [Hdo Hp].
  apply bind_ok in H as (arch & Ee & H).
  destruct (lookup (d_entry d) arch) as [[n' g]|] eqn:El; [|discriminate H]. injection H as ->.
  exists ordered, arch, g. repeat split; assumption.
Qed.

(* a group of definitions none of which can ever be placed *)
Definition blocked (all : list entry) (C : list entry) : Prop :=
  C <> [] /\ incl C all /\
  forall e, In e C -> exists s, In s (snd e) /\ forall e', In e' all -> e_ident e' = s -> In e' C.

Lemma dep_ordered_avoids : forall all C prov l,
  DepOrdered prov l -> incl l all ->
  (forall e, In e C -> exists s, In s (snd e) /\ ~ In s prov /\ forall e', In e' all -> e_ident e' = s -> In e' C) ->
  forall e, In e l -> ~ In e C.
Proof.
  intros all C prov l H. induction H as [prov|prov e0 l Hres Hdo IH]; intros Hincl HC e Hin; [destruct Hin|].
  assert (H0 : ~ In e0 C).
  { intros Hc. destruct (HC _ Hc) as (s & Hs & Hnp & _). exact (Hnp (resolvable_spec _ _ Hres s Hs)). }
  destruct Hin as [<-|Hin]; [exact H0|].
  apply IH; [intros x Hx; apply Hincl; right; exact Hx| |exact Hin].
  intros e' He'. destruct (HC _ He') as (s & Hs & Hnp & Hcl). exists s. split; [exact Hs|]. split; [|exact Hcl].
  intros [E|Hp]; [|exact (Hnp Hp)]. apply H0. apply Hcl; [apply Hincl; left; reflexivity|exact E].
Qed.

Lemma order_loop_blocked : forall all C, blocked all C ->
  order_loop (S (length all)) [] all [] = Err K_UNRESOLVABLE_DEPENDENCY.
Proof.
  intros all C (Hne & Hincl & HC).
  pose proof (order_loop_perm (S (length all)) [] all [] (Nat.lt_succ_diag_r _)) as H.
  destruct (order_loop (S (length all)) [] all []) as [l|k| |]; try contradiction; [|congruence].
  exfalso. destruct H as (l' & _ & Hdo & Hp).
  destruct C as [|c C']; [congruence|].
  assert (Hc : In c l') by (apply (Permutation_in _ (Permutation_sym Hp)); apply Hincl; left; reflexivity).
  refine (dep_ordered_avoids all (c :: C') [] l' Hdo _ _ c Hc (or_introl eq_refl)).
  - intros x Hx. exact (Permutation_in _ Hp Hx).
  - intros e He. destruct (HC _ He) as (s & Hs & Hcl). exists s. repeat split; auto.
Qed.
