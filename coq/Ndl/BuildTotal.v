(* A tree that is [realisable] (Realisable.v) is built without panic and without registry error --
   equivalently, every panic site of the build (module path exists, missing child / gate, gate
   connected to itself, third connection) and MissingRegistrySymbol are reached only by trees that
   are not realisable. *)
From Coq Require Import List NArith Bool Lia Arith Permutation.
From Coq Require FinFun.
From DesVerif Require Import Ndl.Bytes Ndl.BytesProps Ndl.Grammar Ndl.Def Ndl.Transform Ndl.Build Ndl.Denote
     Ndl.BuildProps Ndl.Realisable Ndl.BuildConns.
Import ListNotations.
Local Open Scope nat_scope.

Lemma rangeN_in : forall n j, In j (rangeN n) <-> (j < n)%N.
Proof.
  intros n j. unfold rangeN. rewrite in_map_iff. split.
  - intros (i & <- & Hi). apply in_seq in Hi. lia.
  - intros H. exists (N.to_nat j). split; [apply N2Nat.id|]. apply in_seq. lia.
Qed.

Lemma rangeN_nodup : forall n, NoDup (rangeN n).
Proof.
  intros n. unfold rangeN. apply FinFun.Injective_map_NoDup; [intros a b; apply Nat2N.inj|apply seq_NoDup].
Qed.

Lemma sub_paths_in : forall p f sp,
  In sp (sub_paths p f) <->
  exists a, sp = p ++ [a] /\ ac_name a = fd_ident f /\ index_fits (fd_kard f) (ac_index a) = true.
Proof.
  intros p f sp. unfold sub_paths. destruct (fd_kard f) as [|n].
  - split.
    + intros [<-|[]]. eexists. repeat split.
    + intros ([nm [j|]] & -> & <- & Hi); [discriminate|]. left. reflexivity.
  - rewrite in_map_iff. split.
    + intros (k & <- & Hk). eexists. split; [reflexivity|]. split; [reflexivity|]. apply N.ltb_lt, rangeN_in. exact Hk.
    + intros ([nm [j|]] & -> & <- & Hi); [|discriminate]. exists j. split; [reflexivity|]. apply rangeN_in, N.ltb_lt. exact Hi.
Qed.

Lemma den_mods_prefix : forall n p q s, In (q, s) (den_mods n p) -> exists r, q = p ++ r.
Proof.
  intros n. induction n as [t subs g c IH] using Node_ind'. intros p q s H. rewrite den_mods_unfold in H.
  destruct H as [E|H]; [injection E as <- _; exists []; rewrite app_nil_r; reflexivity|].
  apply in_flat_map in H as (j & Hj & Hin). apply in_jobs in Hj as (s0 & Hs0 & Esn & Hsp). rewrite Esn in Hin.
  rewrite Forall_forall in IH. destruct (IH s0 Hs0 _ _ _ Hin) as (r & ->).
  apply sub_paths_in in Hsp as (a & -> & _). rewrite <- app_assoc. eexists. reflexivity.
Qed.

Lemma den_mods_head : forall n p, In (p, n_typ n) (den_mods n p).
Proof. intros [t s g c] p. rewrite den_mods_unfold. left. reflexivity. Qed.

Lemma den_mods_job : forall t subs g c p j, In j (jobs p subs) ->
  incl (den_mods (snd j) (fst j)) (den_mods (mkNode t subs g c) p).
Proof. intros t subs g c p j Hj x Hx. rewrite den_mods_unfold. right. apply in_flat_map. exists j. split; assumption. Qed.

Lemma den_gates_job : forall t subs g c p j, In j (jobs p subs) ->
  incl (den_gates (snd j) (fst j)) (den_gates (mkNode t subs g c) p).
Proof.
  intros t subs g c p j Hj x Hx. rewrite den_gates_unfold. apply in_or_app. right. apply in_flat_map. exists j. split; assumption.
Qed.

(* ---- the degree of a gate: slots of Gate::connect vs the denoted set ---- *)
Lemma filter_length_map : forall {A B} (f : A -> bool) (g : B -> bool) (h : A -> B) l,
  (forall x, In x l -> f x = g (h x)) -> length (filter f l) = length (filter g (map h l)).
Proof.
  intros A B f g h l H. induction l as [|x l IH]; [reflexivity|]. cbn [filter map].
  rewrite <- (H x (or_introl eq_refl)). destruct (f x); cbn [length]; rewrite IH; auto; intros y Hy; apply H; right; exact Hy.
Qed.

Lemma perm_filter_length : forall {A} (f : A -> bool) l l', Permutation l l' -> length (filter f l) = length (filter f l').
Proof.
  intros A f l l' H. induction H as [|x l l' _ IH|x y l|l l' l'' _ IH1 _ IH2]; cbn [filter]; [reflexivity| | |congruence].
  - destruct (f x); cbn [length]; rewrite IH; reflexivity.
  - destruct (f x), (f y); reflexivity.
Qed.

Lemma degree_spec : forall st acc a, inv st acc -> canonical st a ->
  length (slots st a) = degree (pos_of st a) acc.
Proof.
  intros st acc a [(Hids & Hk & Hcan) Hp] Ha. unfold degree.
  rewrite <- (perm_filter_length _ _ _ Hp), <- (map_length (fun c => (a, fst c, snd c))), <- (slots_filter st a Hk).
  unfold state_edges. apply filter_length_map.
  intros [[x y] k] Hin. cbn [fst snd]. unfold from_pos. cbn [fst].
  destruct (Hcan _ _ _ Hin) as [Hx _]. destruct (N.eqb_spec x a) as [->|Hne].
  - symmetry. apply gate_pos_eqb_eq. reflexivity.
  - symmetry. destruct (gate_pos_eqb (pos_of st x) (pos_of st a)) eqn:E; [|reflexivity].
    apply gate_pos_eqb_eq in E. exfalso. apply Hne. exact (canonical_inj st x a Hids Hx Ha E).
Qed.

Lemma wiring_ok_cons : forall a b k r acc,
  wiring_ok ((a, b, k) :: r) acc =
  if gate_pos_eqb a b then false
  else if connected a b acc then wiring_ok r acc
  else if Nat.leb 2 (degree a acc) || Nat.leb 2 (degree b acc) then false
  else wiring_ok r (acc ++ [(a, b, k); (b, a, k)]).
Proof. reflexivity. Qed.

Lemma wiring_ok_app : forall l1 l2 acc, wiring_ok (l1 ++ l2) acc = wiring_ok l1 acc && wiring_ok l2 (conn_set l1 acc).
Proof.
  induction l1 as [|[[a b] k] l1 IH]; intros l2 acc; [reflexivity|]. cbn [app]. rewrite !wiring_ok_cons, conn_set_cons.
  destruct (gate_pos_eqb a b); [reflexivity|]. destruct (connected a b acc); [apply IH|].
  destruct (_ || _); [reflexivity|apply IH].
Qed.

Lemma wiring_ok_step : forall e l acc, wiring_ok (e :: l) acc = wiring_ok [e] acc && wiring_ok l (conn_set [e] acc).
Proof. intros e l acc. exact (wiring_ok_app [e] l acc). Qed.

Lemma two_leb_of_nat : forall n, (2 <=? N.of_nat n)%N = Nat.leb 2 n.
Proof. intros n. destruct (Nat.leb_spec 2 n); [apply N.leb_le|apply N.leb_gt]; lia. Qed.

Lemma connect_succeeds : forall st acc a b k, inv st acc -> canonical st a -> canonical st b ->
  wiring_ok [(pos_of st a, pos_of st b, k)] acc = true -> exists st', connect st a b k = Ok st'.
Proof.
  intros st acc a b k Hinv Ha Hb Hw. rewrite wiring_ok_cons in Hw. unfold connect.
  destruct (N.eqb_spec a b) as [->|_].
  - rewrite (proj2 (gate_pos_eqb_eq _ _) eq_refl) in Hw. discriminate.
  - destruct (gate_pos_eqb _ _); [discriminate|]. destruct (existsb _ (slots st a)) eqn:Es; [eexists; reflexivity|].
    destruct (connected _ _ acc) eqn:Hc.
    + exfalso. pose proof Hinv as [(_ & Hk & _) _].
      apply (present_iff st acc a b Hinv Ha Hb) in Hc. apply (connected_iff st a b Hk) in Hc. congruence.
    + rewrite <- (degree_spec st acc a Hinv Ha), <- (degree_spec st acc b Hinv Hb) in Hw. rewrite !two_leb_of_nat.
      destruct (_ || _); [discriminate|]. eexists. reflexivity.
Qed.

Lemma has_module_in : forall st q, has_module st q = true <-> In q (map fst (bs_mods st)).
Proof.
  intros st q. unfold has_module. rewrite existsb_exists. split.
  - intros (m & Hm & E). apply path_eqb_eq in E. subst. apply in_map. exact Hm.
  - intros H. apply in_map_iff in H as (m & <- & Hm). exists m. split; [exact Hm|apply path_eqb_eq; reflexivity].
Qed.

Lemma access_ok : forall e n p st, resolves e n = true ->
  incl (den_mods n p) (bs_mods st) -> incl (den_gates n p) (state_gates st) ->
  exists id, access_gate st p e = Ok id.
Proof.
  induction e as [|a rest IH]; intros n p st Hr Hms Hgs; [discriminate|]. destruct n as [t subs g c].
  cbn [resolves access_gate] in *. destruct rest as [|b rest'].
  - apply existsb_exists in Hr as (gd & Hgd & Hb). apply andb_true_iff in Hb as [Hn Hlt]. cbn [n_gates] in Hgd.
    apply beq_eq in Hn. apply N.ltb_lt in Hlt. fold (acc_pos a).
    assert (Hin : In (p, ac_name a, as_size (fd_kard gd), acc_pos a) (state_gates st)).
    { apply Hgs. rewrite den_gates_unfold, <- Hn. apply in_or_app. left. apply in_flat_map. exists gd. split; [exact Hgd|].
      apply in_map, rangeN_in. exact Hlt. }
    apply in_map_iff in Hin as (gr & E & Hin). injection E as Hp Hnm _ Hk.
    unfold find_gate. destruct (find _ (bs_gates st)) as [y|] eqn:Ef; [eexists; reflexivity|].
    apply (find_none _ _ Ef) in Hin. rewrite Hp, Hnm, Hk, (proj2 (path_eqb_eq p p) eq_refl), beq_refl, N.eqb_refl in Hin. discriminate.
  - apply existsb_exists in Hr as (s & Hs & Hb). apply andb_true_iff in Hb as [Hb Hres]. apply andb_true_iff in Hb as [Hn Hfit].
    cbn [n_subs] in Hs. apply beq_eq in Hn.
    assert (Hjob : In (p ++ [a], snd s) (jobs p subs)).
    { apply in_jobs. exists s. split; [exact Hs|]. split; [reflexivity|]. apply sub_paths_in. exists a. auto. }
    pose proof (incl_tran (den_mods_job t subs g c p _ Hjob) Hms) as Hms'.
    pose proof (incl_tran (den_gates_job t subs g c p _ Hjob) Hgs) as Hgs'. cbn [fst snd] in Hms', Hgs'.
    rewrite (proj2 (has_module_in st (p ++ [a]))); [exact (IH (snd s) (p ++ [a]) st Hres Hms' Hgs')|].
    apply (in_map fst _ (p ++ [a], n_typ (snd s))). apply Hms'. apply den_mods_head.
Qed.

(* ---- distinct submodule paths ---- *)
Lemma fits_same_shape : forall k k' i, index_fits k i = true -> index_fits k' i = true -> same_shape k k' = true.
Proof. intros [|n] [|n'] [j|]; cbn; intros; try discriminate; reflexivity. Qed.

Lemma sub_paths_nodup : forall p f, NoDup (sub_paths p f).
Proof.
  intros p f. unfold sub_paths. destruct (fd_kard f) as [|n]; [constructor; [intros []|constructor]|].
  apply FinFun.Injective_map_NoDup; [|apply rangeN_nodup].
  intros a b E. apply app_inv_head in E. injection E as E. exact E.
Qed.

Lemma jobs_nodup : forall p subs, has_dup_field subs = false -> NoDup (map fst (jobs p subs)).
Proof.
  intros p subs. induction subs as [|s subs IH]; intros H; [constructor|].
  cbn [has_dup_field] in H. apply orb_false_iff in H as [Hs Hr]. unfold jobs. cbn [flat_map]. fold (jobs p subs).
  rewrite map_app, map_map. cbn [fst]. rewrite map_id.
  assert (Hdisj : forall sp, In sp (sub_paths p (fst s)) -> ~ In sp (map fst (jobs p subs))).
  { intros sp Hsp Hin. apply in_map_iff in Hin as (j & <- & Hj). apply in_jobs in Hj as (s' & Hs' & _ & Hsp').
    apply sub_paths_in in Hsp as (a & Ea & Hna & Hfa). apply sub_paths_in in Hsp' as (a' & Ea' & Hna' & Hfa').
    rewrite Ea in Ea'. apply app_inv_head in Ea'. injection Ea' as <-.
    assert (Hex : existsb (fun o => beq (fd_ident (fst s)) (fd_ident (fst o)) && same_shape (fd_kard (fst s)) (fd_kard (fst o))) subs = true).
    { apply existsb_exists. exists s'. split; [exact Hs'|]. rewrite <- Hna, <- Hna', beq_refl. cbn [andb].
      exact (fits_same_shape _ _ _ Hfa Hfa'). }
    congruence. }
  clear Hs. induction (sub_paths_nodup p (fst s)) as [|x l Hx Hl IHl]; [exact (IH Hr)|].
  cbn [app]. constructor.
  - intros Hin. apply in_app_or in Hin as [Hin|Hin]; [exact (Hx Hin)|]. exact (Hdisj x (or_introl eq_refl) Hin).
  - apply IHl. intros sp Hsp. apply Hdisj. right. exact Hsp.
Qed.

Lemma tree_ok_unfold : forall t subs g c, tree_ok (mkNode t subs g c) = true ->
  (forall x, In x c -> resolves (cn_l x) (mkNode t subs g c) && resolves (cn_r x) (mkNode t subs g c) = true) /\
  has_dup_field subs = false /\ (forall s, In s subs -> tree_ok (snd s) = true).
Proof.
  intros t subs g c H. cbn [tree_ok] in H. apply andb_true_iff in H as [H H3]. apply andb_true_iff in H as [H1 H2].
  split; [rewrite forallb_forall in H1; exact H1|]. split; [destruct (has_dup_field subs); [discriminate|reflexivity]|].
  clear H1 H2. induction subs as [|s subs IH]; intros s0 Hs0; [destruct Hs0|].
  apply andb_true_iff in H3 as [Ha Hb]. destruct Hs0 as [<-|Hs0]; [exact Ha|exact (IH Hb s0 Hs0)].
Qed.

Section Total.
  Variable registered : ident -> bool.

  Lemma exec_app : forall a b st, exec registered st (a ++ b) = do s1 <- exec registered st a; exec registered s1 b.
  Proof.
    induction a as [|x a IH]; intros b st; cbn [app exec bind]; [reflexivity|].
    destruct (exec1 registered st x) as [s| | |]; cbn [bind]; [apply IH|reflexivity|reflexivity|reflexivity].
  Qed.

  (* What [l] needs is stated about [pre] alone: the build state is a function of the actions carried out ([after]). *)
  Definition runs (pre l : list action) : Prop :=
    forall st, after registered pre st -> exists st', exec registered st l = Ok st'.

  Lemma runs_app : forall pre l1 l2, runs pre l1 -> runs (pre ++ l1) l2 -> runs pre (l1 ++ l2).
  Proof.
    intros pre l1 l2 H1 H2 st Ha. destruct (H1 st Ha) as (st1 & E1).
    destruct (H2 st1 (after_exec registered _ _ _ _ Ha E1)) as (st2 & E2). exists st2. rewrite exec_app, E1. exact E2.
  Qed.

  Lemma runs_module : forall pre p t,
    ~ In p (map fst (flat_map mod_of pre)) -> registered t = true -> runs pre [ACreateModule p t].
  Proof.
    intros pre p t Hp Ht st (Hm & _). rewrite <- Hm in Hp. cbn [exec exec1].
    destruct (has_module st p) eqn:E; [exfalso; apply Hp, has_module_in; exact E|]. rewrite Ht. eexists. reflexivity.
  Qed.

  Lemma runs_gates : forall pre p g, runs pre (gate_actions p g).
  Proof.
    intros pre p g st _. revert st. pose proof (gate_actions_in p g) as H.
    induction (gate_actions p g) as [|a l IH]; intros st; [eexists; reflexivity|].
    destruct (H a (or_introl eq_refl)) as (nm & sz & k & ->). cbn [exec exec1 bind]. apply IH. intros x Hx. apply H. right. exact Hx.
  Qed.

  Lemma runs_connect : forall pre n p f t k,
    incl (den_mods n p) (flat_map mod_of pre) -> incl (den_gates n p) (flat_map gate_of pre) ->
    resolves f n && resolves t n = true ->
    wiring_ok [(abs_gate p f, abs_gate p t, k)] (conn_set (flat_map conn_of pre) []) = true ->
    runs pre [AConnect p f t k].
  Proof.
    intros pre n p f t k Hms Hgs Hres Hw st (Hm & Hg & Hinv & _). rewrite <- Hm in Hms. rewrite <- Hg in Hgs.
    apply andb_prop in Hres as [Hf Ht].
    destruct (access_ok _ _ _ _ Hf Hms Hgs) as (a & Ea). destruct (access_ok _ _ _ _ Ht Hms Hgs) as (b & Eb).
    pose proof Hinv as [(Hids & _) _].
    destruct (access_gate_spec _ _ _ _ Hids Ea) as [Hca Hpa]. destruct (access_gate_spec _ _ _ _ Hids Eb) as [Hcb Hpb].
    rewrite <- Hpa, <- Hpb in Hw. destruct (connect_succeeds st _ a b k Hinv Hca Hcb Hw) as (st' & Ec).
    exists st'. cbn [exec exec1]. rewrite Ea, Eb. cbn [bind]. rewrite Ec. reflexivity.
  Qed.

  Lemma runs_connects : forall n p cs pre,
    incl (den_mods n p) (flat_map mod_of pre) -> incl (den_gates n p) (flat_map gate_of pre) ->
    (forall c, In c cs -> resolves (cn_l c) n && resolves (cn_r c) n = true) ->
    wiring_ok (map (fun c => (abs_gate p (cn_l c), abs_gate p (cn_r c), cn_link c)) cs) (conn_set (flat_map conn_of pre) []) = true ->
    runs pre (connect_actions p cs).
  Proof.
    intros n p cs. induction cs as [|c cs IH]; intros pre Hms Hgs Hres Hw; [intros st _; eexists; reflexivity|].
    cbn [map] in Hw. rewrite wiring_ok_step in Hw. apply andb_true_iff in Hw as [Hw1 Hw2].
    apply (runs_app pre [AConnect p (cn_l c) (cn_r c) (cn_link c)]).
    - exact (runs_connect pre n p _ _ _ Hms Hgs (Hres c (or_introl eq_refl)) Hw1).
    - apply IH.
      + rewrite flat_map_app. apply incl_appl. exact Hms.
      + rewrite flat_map_app. apply incl_appl. exact Hgs.
      + intros x Hx. apply Hres. right. exact Hx.
      + rewrite flat_map_app, conn_set_app. exact Hw2.
  Qed.

  Definition fresh (pre : list action) (p : path) : Prop := forall q, ~ In (p ++ q) (map fst (flat_map mod_of pre)).
  Definition builds (n : Node) : Prop := forall p pre,
    fresh pre p -> tree_ok n = true ->
    forallb (fun m => registered (snd m)) (den_mods n p) = true ->
    wiring_ok (den_conns n p) (conn_set (flat_map conn_of pre) []) = true ->
    runs pre (plan n p).

  Lemma runs_jobs : forall js pre,
    (forall j, In j js -> builds (snd j)) ->
    (forall j, In j js -> fresh pre (fst j)) -> NoDup (map fst js) ->
    (forall j j' q r, In j js -> In j' js -> fst j ++ q = fst j' ++ r -> fst j = fst j') ->
    (forall j, In j js -> tree_ok (snd j) = true /\ forallb (fun m => registered (snd m)) (den_mods (snd j) (fst j)) = true) ->
    wiring_ok (flat_map (fun j => den_conns (snd j) (fst j)) js) (conn_set (flat_map conn_of pre) []) = true ->
    runs pre (flat_map (fun j => plan (snd j) (fst j)) js).
  Proof.
    induction js as [|[sp sn] js IH]; intros pre Hb Hf Hnd Hpf Hok Hw; [intros st _; eexists; reflexivity|].
    cbn [flat_map fst snd] in *. rewrite wiring_ok_app in Hw. apply andb_true_iff in Hw as [Hw1 Hw2].
    destruct (Hok _ (or_introl eq_refl)) as [Ht Hreg]. inversion Hnd as [|? ? Hsp Hnd']; subst.
    apply runs_app; [exact (Hb _ (or_introl eq_refl) sp pre (Hf _ (or_introl eq_refl)) Ht Hreg Hw1)|].
    apply IH; [intros j Hj; apply Hb; right; exact Hj| |exact Hnd'| | |].
    - intros j Hj q Hin. rewrite flat_map_app, plan_mods, map_app in Hin.
      apply in_app_or in Hin as [Hin|Hin]; [exact (Hf j (or_intror Hj) q Hin)|].
      apply in_map_iff in Hin as ([q' s] & Eq & Hin). cbn [fst] in Eq. subst q'.
      destruct (den_mods_prefix _ _ _ _ Hin) as (r & Er).
      pose proof (Hpf j (sp, sn) q r (or_intror Hj) (or_introl eq_refl) Er) as E. cbn [fst] in E.
      apply Hsp. rewrite <- E. apply in_map. exact Hj.
    - intros j j' q r Hj Hj'. apply Hpf; right; assumption.
    - intros j Hj. apply Hok. right. exact Hj.
    - rewrite flat_map_app, plan_conns, conn_set_app. exact Hw2.
  Qed.

  Lemma builds_all : forall n, builds n.
  Proof.
    intros n. induction n as [t subs g c IH] using Node_ind'. intros p pre Hfresh Hok Hreg Hw.
    destruct (tree_ok_unfold _ _ _ _ Hok) as (Hres & Hdup & Hsubs).
    rewrite den_mods_unfold in Hreg. cbn [forallb snd] in Hreg. apply andb_true_iff in Hreg as [Hrt Hrj].
    rewrite den_conns_unfold, wiring_ok_app in Hw. apply andb_true_iff in Hw as [Hwj Hwc].
    rewrite plan_unfold. apply (runs_app pre [ACreateModule p t]).
    { apply runs_module; [|exact Hrt]. rewrite <- (app_nil_r p). apply Hfresh. }
    apply runs_app; [apply runs_gates|]. set (pre1 := (pre ++ [ACreateModule p t]) ++ gate_actions p g).
    assert (Em : flat_map mod_of pre1 = flat_map mod_of pre ++ [(p, t)]).
    { unfold pre1. rewrite !flat_map_app, mods_gate_actions, app_nil_r. reflexivity. }
    assert (Eg : flat_map gate_of pre1 = flat_map gate_of pre ++ own_gates (mkNode t subs g c) p).
    { unfold pre1. rewrite !flat_map_app, <- gates_gate_actions. cbn [flat_map gate_of app]. rewrite app_nil_r. reflexivity. }
    assert (Ec : flat_map conn_of pre1 = flat_map conn_of pre).
    { unfold pre1. rewrite !flat_map_app, conns_gate_actions, !app_nil_r. reflexivity. }
    apply runs_app.
    - apply runs_jobs.
      + intros j Hj. apply in_jobs in Hj as (s & Hs & -> & _). rewrite Forall_forall in IH. exact (IH s Hs).
      + intros j Hj q. apply in_jobs in Hj as (s & _ & _ & Hsp). apply sub_paths_in in Hsp as (a & -> & _).
        rewrite Em, map_app, <- app_assoc. intros Hin. apply in_app_or in Hin as [Hin|[Hin|[]]]; [exact (Hfresh _ Hin)|].
        cbn [fst] in Hin. rewrite <- (app_nil_r p) in Hin at 1. apply app_inv_head in Hin. discriminate.
      + apply jobs_nodup. exact Hdup.
      + intros j j' q r Hj Hj' E. apply in_jobs in Hj as (s & _ & _ & Hsp). apply in_jobs in Hj' as (s' & _ & _ & Hsp').
        apply sub_paths_in in Hsp as (a & Ea & _). apply sub_paths_in in Hsp' as (a' & Ea' & _).
        rewrite Ea, Ea', <- !app_assoc in E. apply app_inv_head in E. injection E as -> _. congruence.
      + intros j Hj. split.
        * apply in_jobs in Hj as (s & Hs & -> & _). exact (Hsubs s Hs).
        * rewrite forallb_forall in *. intros m Hm. apply Hrj. apply in_flat_map. exists j. split; assumption.
      + rewrite Ec. exact Hwj.
    - apply (runs_connects (mkNode t subs g c)).
      + rewrite flat_map_app, Em, (jobs_proj _ _ plan_mods), <- app_assoc, den_mods_unfold. apply incl_appr, incl_refl.
      + rewrite flat_map_app, Eg, (jobs_proj _ _ plan_gates), <- app_assoc, den_gates_unfold. apply incl_appr, incl_refl.
      + exact Hres.
      + rewrite flat_map_app, Ec, (jobs_proj _ _ plan_conns), conn_set_app. exact Hwc.
  Qed.

  (* a realisable tree is built *)
  Theorem realisable_builds : forall n, realisable registered n = true -> exists st, build registered n = Ok st.
  Proof.
    intros n H. unfold realisable in H. apply andb_true_iff in H as [H H3]. apply andb_true_iff in H as [H1 H2].
    apply (builds_all n [] []); try assumption; [intros q []|apply after_nil].
  Qed.
End Total.
