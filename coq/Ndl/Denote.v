(* What a description denotes, read off the description top-down: no dependency order, no
   archetype table, no cloning.  [den_node k] is the module tree of type [k]: its own gate
   clusters and submodule fields followed by those of its `inherit` chain, every submodule
   expanded recursively, and the connection statements (inherited ones first) expanded against
   exactly those fields.  [den_mods / den_gates / den_conns] flatten such a tree into the three
   sets the property speaks about: module paths with symbols, gates per path, and connections
   between absolute gate positions with their link parameters.

   Generic definitions denote a tree with open type parameters: a field of parameter type is the
   bound's tree labelled with the parameter; an instantiation `G(A1..An)` is G's tree with every such
   field replaced by the tree of the corresponding argument, which must conform to the bound.

   Shared with Transform.v, and so not cross-checked by comparing the two: the expansion of connection
   statements (transform_connections), set_extend, the duplicate checks (has_dup_binding, has_dup_field),
   conform_to, subst_field and inner_ty_to_outer_ty.  What differs is the recursion: top-down by name and
   fuel here, bottom-up over the dependency order and the archetype table there. *)
From Coq Require Import List NArith Bool.
From DesVerif Require Import Ndl.Bytes Ndl.Grammar Ndl.Def Ndl.Transform Ndl.Build.
Import ListNotations.
Open Scope N_scope.

Definition find_entry (d : Def) (k : ident) : option (TypClause Generic * ModuleDef) :=
  find (fun im => beq (tc_ident (fst im)) k) (d_modules d).

Fixpoint map_opt {A B} (f : A -> option B) (l : list A) : option (list B) :=
  match l with
  | [] => Some []
  | a :: r => match f a, map_opt f r with Some b, Some bs => Some (b :: bs) | _, _ => None end
  end.

(* one submodule field, given what the other definitions denote ([look]) *)
Section Field.
  Variable look : ident -> option (Node * list Generic).

  (* the substitution `G(A1..An)` denotes: A_i must not be a parameter of the enclosing definition, must be a
     definition without parameters of its own, and must conform to the bound of G's i-th parameter *)
  Fixpoint den_sigma (self_args reqs : list Generic) (args : list ident) : option (list (ident * Node)) :=
    match reqs with
    | [] => Some []
    | gb :: reqs' =>
      match args with
      | [] => None
      | name :: args' =>
        if is_binding self_args name then None else
        match look name, look (g_bound gb) with
        | Some (repl, []), Some (iface, _) =>
          if conform_to repl iface then option_map (cons (g_binding gb, repl)) (den_sigma self_args reqs' args') else None
        | _, _ => None
        end
      end
    end.

  (* `f: T` with T a parameter: the bound's tree labelled T;  `f: M`: M's tree;
     `f: G(A1..An)`: G's tree with every field of parameter type replaced by the argument's tree *)
  Definition den_field (self_args : list Generic) (st : FieldDef * TypClause ident) : option (FieldDef * Node) :=
    let (field, typ) := st in
    if kard_eqb (fd_kard field) (Cluster 0) then None else
    match tc_args typ with
    | [] =>
      match look (inner_ty_to_outer_ty self_args (tc_ident typ)) with
      | Some (n, []) => Some (field, set_typ n (tc_ident typ))
      | _ => None
      end
    | _ :: _ =>
      if is_binding self_args (tc_ident typ) then None else
      match look (tc_ident typ) with
      | Some (node, reqs) =>
        if Nat.eqb (length reqs) (length (tc_args typ)) then
          match den_sigma self_args reqs (tc_args typ) with
          | Some sigma => Some (field, mkNode (n_typ node) (map (subst_field sigma) (n_subs node)) (n_gates node) (n_conns node))
          | None => None
          end
        else None
      | None => None
      end
    end.
End Field.

(* the tree (with its open type parameters) a definition denotes *)
Fixpoint den_node (d : Def) (fuel : nat) (k : ident) : option (Node * list Generic) :=
  match fuel with
  | O => None
  | S f =>
    match find_entry d k with
    | None => None
    | Some (self, m) =>
      if has_dup_binding (tc_args self) || existsb (fun v => kard_eqb (fd_kard v) (Cluster 0)) (md_gates m) then None else
      match map_opt (den_field (den_node d f) (tc_args self)) (md_subs m),
            match md_inherit m with None => Some (mkNode [] [] [] [], []) | Some p => den_node d f p end with
      | Some subs_own, Some (parent, _) =>
        let gates := set_extend (set_extend [] (md_gates m)) (n_gates parent) in
        let subs := subs_own ++ n_subs parent in
        if has_dup_field subs then None else
        match transform_connections (n_conns parent) (md_conns m) subs gates (d_links d) with
        | Ok conns => Some (mkNode k subs gates conns, tc_args self)
        | _ => None
        end
      | _, _ => None
      end
    end
  end.

Definition denote_tree (d : Def) : option Node :=
  option_map fst (den_node d (S (length (d_modules d))) (d_entry d)).

(* ---- flattening ---- *)

Fixpoint den_mods (n : Node) (p : path) : list (path * ident) :=
  match n with
  | mkNode typ subs _ _ =>
    (p, typ) ::
    (fix go (l : list (FieldDef * Node)) : list (path * ident) :=
       match l with
       | [] => []
       | (f, sn) :: r => flat_map (fun sp => den_mods sn sp) (sub_paths p f) ++ go r
       end) subs
  end.

Definition own_gates (n : Node) (p : path) : list (path * ident * N * N) :=
  flat_map (fun g => map (fun k => (p, fd_ident g, as_size (fd_kard g), k)) (rangeN (as_size (fd_kard g)))) (n_gates n).

Fixpoint den_gates (n : Node) (p : path) : list (path * ident * N * N) :=
  match n with
  | mkNode typ subs gates conns =>
    own_gates (mkNode typ subs gates conns) p ++
    (fix go (l : list (FieldDef * Node)) : list (path * ident * N * N) :=
       match l with
       | [] => []
       | (f, sn) :: r => flat_map (fun sp => den_gates sn sp) (sub_paths p f) ++ go r
       end) subs
  end.

(* the absolute position an endpoint names, seen from the module at [p] *)
Definition abs_gate (p : path) (e : Endpoint) : gate_pos :=
  match rev e with
  | [] => (p, [], 0)
  | last :: init_rev => (p ++ rev init_rev, ac_name last, match ac_index last with Some i => i | None => 0 end)
  end.

Definition own_conns (n : Node) (p : path) : list (gate_pos * gate_pos * option Link) :=
  map (fun c => (abs_gate p (cn_l c), abs_gate p (cn_r c), cn_link c)) (n_conns n).

(* in the order the build connects: children first, then the module's own statements *)
Fixpoint den_conns (n : Node) (p : path) : list (gate_pos * gate_pos * option Link) :=
  match n with
  | mkNode typ subs gates conns =>
    (fix go (l : list (FieldDef * Node)) : list (gate_pos * gate_pos * option Link) :=
       match l with
       | [] => []
       | (f, sn) :: r => flat_map (fun sp => den_conns sn sp) (sub_paths p f) ++ go r
       end) subs ++
    own_conns (mkNode typ subs gates conns) p
  end.

(* the connection set a list of connection statements denotes: both directions; a pair that is
   connected twice counts once, with the link of the first statement (Gate::connect ignores the repeat) *)
Definition half_edge := (gate_pos * gate_pos * option Link)%type.
Definition gate_pos_eqb (a b : gate_pos) : bool :=
  let '(p, n, k) := a in let '(q, m, j) := b in path_eqb p q && beq n m && (k =? j).
Fixpoint conn_set (l : list half_edge) (acc : list half_edge) : list half_edge :=
  match l with
  | [] => acc
  | (a, b, k) :: r =>
    if existsb (fun e => gate_pos_eqb (fst (fst e)) a && gate_pos_eqb (snd (fst e)) b) acc then conn_set r acc
    else conn_set r (acc ++ [(a, b, k); (b, a, k)])
  end.

(* the three sets of the property *)
Definition denotation (n : Node) : list (path * ident) * list (path * ident * N * N) * list half_edge :=
  (den_mods n [], den_gates n [], conn_set (den_conns n []) []).
