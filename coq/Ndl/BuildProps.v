(* The plan of a build, one level at a time, and what it creates: the modules, the gates and the
   connection statements of [plan n p], in the order of the plan, are the flattenings
   [den_mods / den_gates / den_conns] of the tree. *)
From Coq Require Import List NArith Bool.
From DesVerif Require Import Common.Lists Ndl.Bytes Ndl.Grammar Ndl.Def Ndl.Build Ndl.Denote.
Import ListNotations.
Local Open Scope nat_scope.

(* induction over the nested tree *)
Fixpoint Node_ind' (P : Node -> Prop)
         (H : forall t subs g c, Forall (fun s => P (snd s)) subs -> P (mkNode t subs g c)) (n : Node) : P n :=
  match n with
  | mkNode t subs g c =>
    H t subs g c ((fix go (l : list (FieldDef * Node)) : Forall (fun s => P (snd s)) l :=
                     match l with
                     | [] => Forall_nil _
                     | s :: r => Forall_cons s (Node_ind' P H (snd s)) (go r)
                     end) subs)
  end.

Lemma flat_map_ext_in : forall {A B} (f g : A -> list B) l, (forall a, In a l -> f a = g a) -> flat_map f l = flat_map g l.
Proof. exact (@Lists.flat_map_ext_in). Qed.

Lemma flat_map_flat_map : forall {A B C} (f : A -> list B) (g : B -> list C) l,
  flat_map g (flat_map f l) = flat_map (fun a => flat_map g (f a)) l.
Proof.
  intros A B C f g l. induction l as [|a l IH]; [reflexivity|]. cbn [flat_map]. rewrite flat_map_app, IH. reflexivity.
Qed.

Definition jobs (p : path) (subs : list (FieldDef * Node)) : list (path * Node) :=
  flat_map (fun s => map (fun sp => (sp, snd s)) (sub_paths p (fst s))) subs.
Definition gate_actions (p : path) (gs : list FieldDef) : list action :=
  flat_map (fun g => map (fun k => ACreateGate p (fd_ident g) (as_size (fd_kard g)) k) (rangeN (as_size (fd_kard g)))) gs.
Definition connect_actions (p : path) (cs : list Conn) : list action :=
  map (fun c => AConnect p (cn_l c) (cn_r c) (cn_link c)) cs.

Lemma jobs_fix : forall {A} (f : Node -> path -> list A) p subs,
  (fix go (l : list (FieldDef * Node)) : list A :=
     match l with [] => [] | (fd, sn) :: r => flat_map (fun sp => f sn sp) (sub_paths p fd) ++ go r end) subs
  = flat_map (fun j => f (snd j) (fst j)) (jobs p subs).
Proof.
  intros A f p subs. induction subs as [|[fd sn] subs IH]; [reflexivity|].
  unfold jobs. cbn [flat_map fst snd]. rewrite flat_map_app. fold (jobs p subs). rewrite <- IH. f_equal.
  induction (sub_paths p fd) as [|sp r IHr]; [reflexivity|]. cbn [map flat_map fst snd]. rewrite IHr. reflexivity.
Qed.

Lemma plan_unfold : forall t subs g c p,
  plan (mkNode t subs g c) p =
  ACreateModule p t :: gate_actions p g ++ flat_map (fun j => plan (snd j) (fst j)) (jobs p subs) ++ connect_actions p c.
Proof. intros. cbn [plan]. rewrite (jobs_fix plan). reflexivity. Qed.

Lemma den_mods_unfold : forall t subs g c p,
  den_mods (mkNode t subs g c) p = (p, t) :: flat_map (fun j => den_mods (snd j) (fst j)) (jobs p subs).
Proof. intros. cbn [den_mods]. rewrite (jobs_fix den_mods). reflexivity. Qed.

Lemma den_gates_unfold : forall t subs g c p,
  den_gates (mkNode t subs g c) p = own_gates (mkNode t subs g c) p ++ flat_map (fun j => den_gates (snd j) (fst j)) (jobs p subs).
Proof. intros. cbn [den_gates]. rewrite (jobs_fix den_gates). reflexivity. Qed.

Lemma den_conns_unfold : forall t subs g c p,
  den_conns (mkNode t subs g c) p = flat_map (fun j => den_conns (snd j) (fst j)) (jobs p subs) ++ own_conns (mkNode t subs g c) p.
Proof. intros. cbn [den_conns]. rewrite (jobs_fix den_conns). reflexivity. Qed.

Lemma in_jobs : forall p subs j,
  In j (jobs p subs) <-> exists s, In s subs /\ snd j = snd s /\ In (fst j) (sub_paths p (fst s)).
Proof.
  intros p subs j. unfold jobs. rewrite in_flat_map. split; intros (s & Hs & H); exists s; (split; [exact Hs|]).
  - apply in_map_iff in H as (sp & <- & Hsp). split; [reflexivity|exact Hsp].
  - destruct H as [E Hsp]. apply in_map_iff. exists (fst j). rewrite <- E. split; [destruct j; reflexivity|exact Hsp].
Qed.

Lemma gate_actions_in : forall p gs a, In a (gate_actions p gs) -> exists nm sz k, a = ACreateGate p nm sz k.
Proof.
  intros p gs a H. apply in_flat_map in H as (g & _ & H). apply in_map_iff in H as (k & <- & _). eauto.
Qed.

Lemma connect_actions_in : forall p cs a, In a (connect_actions p cs) -> exists f t k, a = AConnect p f t k.
Proof. intros p cs a H. apply in_map_iff in H as (c & <- & _). eauto. Qed.

Definition mod_of (a : action) : list (path * ident) :=
  match a with ACreateModule p s => [(p, s)] | _ => [] end.
Definition gate_of (a : action) : list (path * ident * N * N) :=
  match a with ACreateGate p nm sz k => [(p, nm, sz, k)] | _ => [] end.
Definition conn_of (a : action) : list half_edge :=
  match a with AConnect p f t k => [(abs_gate p f, abs_gate p t, k)] | _ => [] end.

Lemma mods_gate_actions : forall p gs, flat_map mod_of (gate_actions p gs) = [].
Proof. intros p gs. apply flat_map_nil. intros a H. apply gate_actions_in in H as (nm & sz & k & ->). reflexivity. Qed.
Lemma conns_gate_actions : forall p gs, flat_map conn_of (gate_actions p gs) = [].
Proof. intros p gs. apply flat_map_nil. intros a H. apply gate_actions_in in H as (nm & sz & k & ->). reflexivity. Qed.
Lemma mods_connect_actions : forall p cs, flat_map mod_of (connect_actions p cs) = [].
Proof. intros p cs. apply flat_map_nil. intros a H. apply connect_actions_in in H as (f & t & k & ->). reflexivity. Qed.
Lemma gates_connect_actions : forall p cs, flat_map gate_of (connect_actions p cs) = [].
Proof. intros p cs. apply flat_map_nil. intros a H. apply connect_actions_in in H as (f & t & k & ->). reflexivity. Qed.

Lemma gates_gate_actions : forall p n, flat_map gate_of (gate_actions p (n_gates n)) = own_gates n p.
Proof.
  intros p n. unfold gate_actions, own_gates. rewrite flat_map_flat_map. apply flat_map_ext. intros g.
  induction (rangeN (as_size (fd_kard g))) as [|k r IH]; [reflexivity|]. cbn [map flat_map gate_of app]. rewrite IH. reflexivity.
Qed.

Lemma conns_connect_actions : forall p n, flat_map conn_of (connect_actions p (n_conns n)) = own_conns n p.
Proof.
  intros p n. unfold connect_actions, own_conns. induction (n_conns n) as [|c cs IH]; [reflexivity|].
  cbn [map flat_map conn_of app]. rewrite IH. reflexivity.
Qed.

(* a projection of the plan is the flattening that takes the same four parts of every node *)
Lemma plan_proj : forall {A} (pr : action -> list A) (den : Node -> path -> list A),
  (forall t subs g c p, den (mkNode t subs g c) p =
     pr (ACreateModule p t) ++ flat_map pr (gate_actions p g) ++
     flat_map (fun j => den (snd j) (fst j)) (jobs p subs) ++ flat_map pr (connect_actions p c)) ->
  forall n p, flat_map pr (plan n p) = den n p.
Proof.
  intros A pr den Hden n. induction n as [t subs g c IH] using Node_ind'. intros p.
  rewrite plan_unfold, Hden. cbn [flat_map]. rewrite !flat_map_app, flat_map_flat_map. do 3 f_equal.
  apply flat_map_ext_in. intros j Hj. apply in_jobs in Hj as (s & Hs & -> & _).
  rewrite Forall_forall in IH. exact (IH s Hs (fst j)).
Qed.

Theorem plan_mods : forall n p, flat_map mod_of (plan n p) = den_mods n p.
Proof.
  apply plan_proj. intros t subs g c p.
  rewrite den_mods_unfold, mods_gate_actions, mods_connect_actions, app_nil_r. reflexivity.
Qed.

Theorem plan_gates : forall n p, flat_map gate_of (plan n p) = den_gates n p.
Proof.
  apply plan_proj. intros t subs g c p.
  rewrite den_gates_unfold, <- gates_gate_actions, gates_connect_actions, app_nil_r. reflexivity.
Qed.

Theorem plan_conns : forall n p, flat_map conn_of (plan n p) = den_conns n p.
Proof.
  apply plan_proj. intros t subs g c p.
  rewrite den_conns_unfold, conns_gate_actions, <- conns_connect_actions. reflexivity.
Qed.

Lemma jobs_proj : forall {A} (pr : action -> list A) (den : Node -> path -> list A),
  (forall n p, flat_map pr (plan n p) = den n p) ->
  forall js : list (path * Node),
  flat_map pr (flat_map (fun j => plan (snd j) (fst j)) js) = flat_map (fun j => den (snd j) (fst j)) js.
Proof. intros A pr den H js. rewrite flat_map_flat_map. apply flat_map_ext. intros j. apply H. Qed.
