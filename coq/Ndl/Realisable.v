(* An executable reading of "the described wiring is realisable", on the elaborated tree:
   [tree_ok]     every connection endpoint names a submodule field chain (indices fitting the fields'
                 shapes) and a gate position of the tree, and no node has two submodule fields of one
                 name and shape (what transform guarantees apart from known finding F11c);
   [registered]  (a parameter of [realisable], the registry's membership test) every symbol of the tree is known to it;
   [wiring_ok]   going through the connection statements in build order, no statement connects a
                 position to itself and none gives a position a third peer (a repeated pair is skipped,
                 as Gate::connect does). *)
From Coq Require Import List NArith Bool.
From DesVerif Require Import Ndl.Bytes Ndl.Grammar Ndl.Def Ndl.Transform Ndl.Build Ndl.Denote.
Import ListNotations.
Open Scope N_scope.

Definition index_fits (k : Kard) (i : option N) : bool :=
  match k, i with
  | Atom, None => true
  | Cluster n, Some j => j <? n
  | _, _ => false
  end.
Definition acc_pos (a : Accessor) : N := match ac_index a with Some i => i | None => 0 end.

Fixpoint resolves (e : Endpoint) (n : Node) {struct e} : bool :=
  match e with
  | [] => false
  | a :: rest =>
    match rest with
    | [] => existsb (fun g => beq (fd_ident g) (ac_name a) && (acc_pos a <? as_size (fd_kard g))) (n_gates n)
    | _ :: _ => existsb (fun s => beq (fd_ident (fst s)) (ac_name a) && index_fits (fd_kard (fst s)) (ac_index a) &&
                                  resolves rest (snd s)) (n_subs n)
    end
  end.

Fixpoint tree_ok (n : Node) : bool :=
  match n with
  | mkNode t subs g c =>
    forallb (fun x => resolves (cn_l x) (mkNode t subs g c) && resolves (cn_r x) (mkNode t subs g c)) c &&
    negb (has_dup_field subs) &&
    (fix go (l : list (FieldDef * Node)) : bool :=
       match l with [] => true | s :: r => tree_ok (snd s) && go r end) subs
  end.

Definition from_pos (a : gate_pos) (e : half_edge) : bool := gate_pos_eqb (fst (fst e)) a.
Definition degree (a : gate_pos) (acc : list half_edge) : nat := length (filter (from_pos a) acc).
Definition connected (a b : gate_pos) (acc : list half_edge) : bool :=
  existsb (fun e => gate_pos_eqb (fst (fst e)) a && gate_pos_eqb (snd (fst e)) b) acc.

Fixpoint wiring_ok (l : list half_edge) (acc : list half_edge) : bool :=
  match l with
  | [] => true
  | (a, b, k) :: r =>
    if gate_pos_eqb a b then false
    else if connected a b acc then wiring_ok r acc
    else if Nat.leb 2 (degree a acc) || Nat.leb 2 (degree b acc) then false
    else wiring_ok r (acc ++ [(a, b, k); (b, a, k)])
  end.

Definition realisable (registered : ident -> bool) (n : Node) : bool :=
  tree_ok n && forallb (fun m => registered (snd m)) (den_mods n []) && wiring_ok (den_conns n []) [].
