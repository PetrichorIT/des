(* transform_total: with [fx = true] `transform` returns Ok or Err on
   every parsed description: no expect/assert of mod.rs is reachable and the ordering
   loop does not run out of fuel. *)
From Coq Require Import List NArith Bool PeanoNat Permutation.
From DesVerif Require Import Ndl.Bytes Ndl.BytesProps Ndl.Grammar Ndl.GrammarProps Ndl.Def Ndl.Transform Ndl.Order.
Import ListNotations.
Local Open Scope nat_scope.

(* what parsing guarantees (GrammarProps.endpoint_from_str_nonempty) *)
Definition wf_conn (c : ConnDef) : Prop := cd_lhs c <> [] /\ cd_rhs c <> [].
Definition wf_module (m : ModuleDef) : Prop := Forall wf_conn (md_conns m).
Definition wf_parsed (d : Def) : Prop := Forall (fun im => wf_module (snd im)) (d_modules d).

(* [bounds_ok]: the lookup of a placeholder's interface cannot miss *)
Definition has (arch : archetypes) (s : ident) : Prop := lookup s arch <> None.
Definition bounds_ok (arch : archetypes) : Prop :=
  forall k n gens, In (k, (n, gens)) arch -> forall g, In g gens -> has arch (g_bound g).

Lemma lookup_in : forall {V} k (l : list (ident * V)) v, lookup k l = Some v -> In (k, v) l.
Proof.
  intros V k l. induction l as [|[k' v'] l IH]; intros v H; cbn [lookup] in H; [discriminate|].
  destruct (beq k k') eqn:E.
  - apply beq_eq in E. injection H as <-. subst. left. reflexivity.
  - right. apply IH. exact H.
Qed.

Lemma has_cons : forall arch s kv, has arch s -> has (kv :: arch) s.
Proof.
  intros arch s [k v] H. unfold has in *. cbn [lookup]. destruct (beq s k); [discriminate|exact H].
Qed.

Lemma has_head : forall arch k v, has ((k, v) :: arch) k.
Proof. intros. unfold has. cbn [lookup]. rewrite beq_refl. discriminate. Qed.

Lemma has_some : forall arch s, has arch s -> exists v, lookup s arch = Some v.
Proof. intros arch s H. unfold has in H. destruct (lookup s arch) as [v|]; [exists v; reflexivity|congruence]. Qed.

(* ---- connections ---- *)
Lemma iter_kard_returns : forall d a, returns (iter_for_kardinality_access d a).
Proof.
  intros d a. unfold iter_for_kardinality_access.
  destruct (fd_kard d), (fd_kard a); try exact I. destruct (_ <? _)%N; exact I.
Qed.

Lemma collect_concat_returns_in : forall {A B} (f : A -> res (list B)) l,
  (forall a, In a l -> returns (f a)) -> returns (collect_concat f l).
Proof.
  intros A B f l Hf. induction l as [|a l IH]; cbn [collect_concat]; eauto 8 with returns datatypes.
Qed.
#[export] Hint Resolve iter_kard_returns collect_concat_returns_in : returns.

Lemma endpoint_inner_returns : forall accessors, accessors <> [] ->
  forall pos subs gates, returns (transform_connection_endpoint_inner pos accessors subs gates).
Proof.
  induction accessors as [|a rest IH]; intros Hne pos subs gates; [congruence|].
  cbn [transform_connection_endpoint_inner]. destruct rest as [|b rest'].
  - destruct (find _ gates) as [gd|]; auto with returns.
  - destruct (find _ subs) as [[sname snode]|]; [|exact I].
    apply returns_bind; [apply iter_kard_returns|]. intros it.
    (* the recursive calls are on [b :: rest'] *)
    apply collect_concat_returns_in. intros lm _. apply IH. discriminate.
Qed.

(* P_ACCESSORS_EMPTY is unreachable: both endpoints of a parsed statement are non-empty *)
Lemma transform_connection_returns : forall def subs gates links, wf_conn def ->
  returns (transform_connection def subs gates links).
Proof.
  intros def subs gates links [Hl Hr]. unfold transform_connection, transform_connection_endpoint.
  apply returns_bind; [exact (endpoint_inner_returns _ Hl _ _ _)|]. intros lhs.
  apply returns_bind; [exact (endpoint_inner_returns _ Hr _ _ _)|]. intros rhs. auto 6 with returns.
Qed.

Lemma transform_connections_returns : forall initial defs subs gates links, Forall wf_conn defs ->
  returns (transform_connections initial defs subs gates links).
Proof.
  intros initial defs subs gates links H. unfold transform_connections. rewrite Forall_forall in H.
  apply returns_bind; [|intros; exact I]. apply collect_concat_returns_in.
  intros d Hd. exact (transform_connection_returns d subs gates links (H d Hd)).
Qed.

(* ---- submodules ---- *)
Lemma inner_outer_binding : forall args s, is_binding args s = true ->
  exists g, In g args /\ inner_ty_to_outer_ty args s = g_bound g.
Proof.
  induction args as [|a r IH]; intros s H; cbn [is_binding existsb] in H; [discriminate|].
  cbn [inner_ty_to_outer_ty]. destruct (beq (g_binding a) s) eqn:E.
  - exists a. split; [left; reflexivity|reflexivity].
  - cbn [orb] in H. destruct (IH s H) as (g & Hg & Eg). exists g. split; [right; exact Hg|exact Eg].
Qed.

Lemma inner_outer_plain : forall args s, is_binding args s = false -> inner_ty_to_outer_ty args s = s.
Proof.
  induction args as [|a r IH]; intros s H; cbn [inner_ty_to_outer_ty]; [reflexivity|].
  cbn [is_binding existsb] in H. apply orb_false_iff in H as [H1 H2]. rewrite H1. apply IH. exact H2.
Qed.

Lemma replace_loop_returns : forall self_args arch req args node,
  length req = length args ->
  (forall a, In a args -> is_binding self_args a = false -> has arch a) ->
  (forall g, In g req -> has arch (g_bound g)) ->
  returns (replace_loop true self_args arch req args node).
Proof.
  intros self_args arch req. induction req as [|gb req IH]; intros args node Hlen Hargs Hreq; cbn [replace_loop]; [exact I|].
  destruct args as [|name args]; [discriminate|]. cbn [andb].
  destruct (is_binding self_args name) eqn:Eb; [exact I|].
  destruct (has_some arch name (Hargs name (or_introl eq_refl) Eb)) as ([repl deps] & ->).
  destruct deps as [|d deps]; [|exact I].
  destruct (has_some arch (g_bound gb) (Hreq gb (or_introl eq_refl))) as ([iface ?] & ->).
  destruct (negb _); [exact I|].
  apply IH.
  - injection Hlen as Hlen. exact Hlen.
  - intros a Ha. apply Hargs. right. exact Ha.
  - intros g Hg. apply Hreq. right. exact Hg.
Qed.

Section Module.
  Variables (self : TypClause Generic) (m : ModuleDef) (arch : archetypes) (links : list (ident * Link)).
  Hypothesis Hdeps : forall s, In s (required_symbols self m) -> has arch s.
  Hypothesis Hbounds : bounds_ok arch.

  Lemma dep_of_submodule : forall f t s, In (f, t) (md_subs m) ->
    (s = tc_ident t \/ In s (tc_args t)) -> is_binding (tc_args self) s = false -> has arch s.
  Proof. intros f t s Hin Hs Hnb. exact (Hdeps s (unbound_names_are_required self m f t s Hin Hs Hnb)). Qed.

  Lemma dep_of_bound : forall g, In g (tc_args self) -> has arch (g_bound g).
  Proof. intros g Hg. exact (Hdeps _ (bounds_are_required self m g Hg)). Qed.

  Lemma transform_submodule_returns : forall f t, In (f, t) (md_subs m) ->
    returns (transform_submodule true f self t arch).
  Proof.
    intros f t Hin. unfold transform_submodule. destruct (kard_eqb _ _); [exact I|].
    destruct (tc_args t) as [|a0 args0] eqn:Eargs.
    - assert (Hh : has arch (inner_ty_to_outer_ty (tc_args self) (tc_ident t))).
      { destruct (is_binding (tc_args self) (tc_ident t)) eqn:Eb.
        - destruct (inner_outer_binding _ _ Eb) as (g & Hg & ->). apply dep_of_bound. exact Hg.
        - rewrite inner_outer_plain by exact Eb. eapply dep_of_submodule; [exact Hin|left; reflexivity|exact Eb]. }
      destruct (has_some _ _ Hh) as ([node reqs] & ->). destruct reqs; exact I.
    - cbn [andb]. destruct (is_binding (tc_args self) (tc_ident t)) eqn:Eb; [exact I|].
      destruct (has_some _ _ (dep_of_submodule f t (tc_ident t) Hin (or_introl eq_refl) Eb)) as ([node req_args] & El).
      rewrite El. destruct (Nat.eqb (length req_args) (length (a0 :: args0))) eqn:Elen; cbn [negb]; [|exact I].
      apply returns_bind; [|intros; exact I]. apply replace_loop_returns.
      + apply Nat.eqb_eq. exact Elen.
      + intros a Ha Hnb. eapply dep_of_submodule; [exact Hin| |exact Hnb]. right. rewrite Eargs. exact Ha.
      + intros g Hg. apply lookup_in in El. exact (Hbounds _ _ _ El g Hg).
  Qed.

  Lemma transform_submodules_returns : returns (transform_submodules true self (md_subs m) arch).
  Proof. apply collect_returns_in. intros [f t] Hft. apply transform_submodule_returns. exact Hft. Qed.

  Lemma transform_module_returns : wf_module m -> returns (transform_module true self m arch links).
  Proof.
    intros Hwf. unfold transform_module. destruct (has_dup_binding _); [exact I|].
    apply returns_bind; [unfold transform_gates; auto with returns|]. intros gates.
    apply returns_bind; [exact transform_submodules_returns|]. intros subs.
    apply returns_bind.
    { destruct (md_inherit m) as [p|] eqn:Ei; [|exact I].
      (* P_INHERIT_LOOKUP is unreachable: the parent is a required symbol, so the table holds it *)
      pose proof (Hdeps p (inherit_is_required self m p Ei)) as Hp.
      unfold has in Hp. destruct (lookup p arch) as [[a ?]|]; [exact I|congruence]. }
    intros [[gates' subs'] conns0]. destruct (true && has_dup_field subs'); [exact I|].
    apply returns_bind; [exact (transform_connections_returns _ _ _ _ _ Hwf)|]. intros conns. exact I.
  Qed.
End Module.

(* what a successful transform_module has computed (the inversion DenoteTree.module_matches works from);
   a module without `inherit` extends the empty node *)
Inductive module_built (fx : bool) self m (nodes : archetypes) links : Node * list Generic -> Prop :=
| MB : forall gates subs parent conns,
    has_dup_binding (tc_args self) = false ->
    transform_gates (md_gates m) = Ok gates ->
    transform_submodules fx self (md_subs m) nodes = Ok subs ->
    match md_inherit m with
    | None => parent = mkNode [] [] [] []
    | Some p => exists pg, lookup p nodes = Some (parent, pg)
    end ->
    (fx && has_dup_field (subs ++ n_subs parent)) = false ->
    transform_connections (n_conns parent) (md_conns m) (subs ++ n_subs parent)
                          (set_extend gates (n_gates parent)) links = Ok conns ->
    module_built fx self m nodes links
      (mkNode (tc_ident self) (subs ++ n_subs parent) (set_extend gates (n_gates parent)) conns, tc_args self).

Lemma transform_module_ok : forall fx self m nodes links r,
  transform_module fx self m nodes links = Ok r -> module_built fx self m nodes links r.
Proof.
  intros fx self m nodes links r H. unfold transform_module in H.
  destruct (has_dup_binding (tc_args self)) eqn:Eb; [discriminate H|].
  apply bind_ok in H as (gates & Eg & H). apply bind_ok in H as (subs & Es & H).
  apply bind_ok in H as ([[gates' subs'] conns0] & Ei & H).
  destruct (fx && has_dup_field subs') eqn:Ed; [discriminate H|].
  apply bind_ok in H as (conns & Ec & H). injection H as <-.
  destruct (md_inherit m) as [p|] eqn:Em.
  - destruct (lookup p nodes) as [[parent pg]|] eqn:El; [|discriminate Ei]. injection Ei as <- <- <-.
    refine (MB _ _ _ _ _ gates subs parent conns Eb Eg Es _ Ed Ec). rewrite Em. exists pg. exact El.
  - injection Ei as <- <- <-. revert Ed Ec. rewrite <- (app_nil_r subs). intros Ed Ec.
    refine (MB _ _ _ _ _ gates subs (mkNode [] [] [] []) conns Eb Eg Es _ Ed Ec). rewrite Em. reflexivity.
Qed.

Lemma transform_module_generics : forall fx self m arch links r,
  transform_module fx self m arch links = Ok r -> snd r = tc_args self.
Proof. intros fx self m arch links r H. destruct (transform_module_ok _ _ _ _ _ _ H). reflexivity. Qed.

(* ---- the elaboration loop over a dependency-ordered list ---- *)
Definition entry_ok (e : entry) : Prop :=
  snd e = required_symbols (fst (fst e)) (snd (fst e)) /\ wf_module (snd (fst e)).

Lemma elaborate_returns : forall l prov arch links,
  DepOrdered prov l -> Forall entry_ok l ->
  (forall s, In s prov -> has arch s) -> bounds_ok arch ->
  returns (elaborate true l arch links).
Proof.
  induction l as [|e l IH]; intros prov arch links Hdo Hok Hprov Hb; cbn [elaborate]; [exact I|].
  inversion Hdo as [|? ? ? Hres Hdo']; subst. inversion Hok as [|? ? [Hreq Hwf] Hok']; subst.
  assert (Hdeps : forall s, In s (required_symbols (fst (fst e)) (snd (fst e))) -> has arch s).
  { intros s Hs. apply Hprov, (resolvable_spec _ _ Hres). rewrite Hreq. exact Hs. }
  apply returns_bind_ok; [exact (transform_module_returns _ _ _ links Hdeps Hb Hwf)|]. intros [n g] Em.
  apply (IH (e_ident e :: prov)); [exact Hdo'|exact Hok'| |].
  - intros s [<-|Hs]; [apply has_head|apply has_cons; apply Hprov; exact Hs].
  - intros k n' gens [E|Hin] g0 Hg0.
    + injection E as <- <- <-. apply transform_module_generics in Em. cbn [snd] in Em. subst g. apply has_cons.
      apply Hdeps, bounds_are_required. exact Hg0.
    + apply has_cons. exact (Hb _ _ _ Hin g0 Hg0).
Qed.

Lemma entries_ok : forall d, wf_parsed d -> Forall entry_ok (entries d).
Proof.
  intros d H. unfold entries. apply Forall_forall. intros e He. apply in_map_iff in He as (im & <- & Him).
  split; [reflexivity|]. unfold wf_parsed in H. rewrite Forall_forall in H. exact (H im Him).
Qed.

Theorem transform_total : forall d, wf_parsed d -> returns (transform true d).
Proof.
  intros d Hwf. unfold transform.
  pose proof (order_entries_spec d) as Ho.
  destruct (order_loop _ [] (entries d) []) as [ordered|k| |]; cbn [bind]; try contradiction; [|exact I].
  destruct Ho as [Hdo Hp]. apply returns_bind; [|auto with returns].
  apply (elaborate_returns ordered []); [exact Hdo| | |].
  - apply (Permutation_Forall (Permutation_sym Hp)), entries_ok. exact Hwf.
  - intros s [].
  - intros k n gens [].
Qed.
