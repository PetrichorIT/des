(* The state of a build as a function of the actions carried out ([after]): its modules and gates
   are those the actions create, in order, and its connections -- read per gate, both directions,
   with link parameters -- are, up to order, the connection set the actions' statements denote
   ([conn_set]: statements in build order, positions made absolute, a pair connected twice counted
   once with the first link).  With BuildProps.plan_* this is build_matches_denotation for modules,
   gates and connections. *)
From Coq Require Import List NArith Bool Lia Arith Permutation.
From DesVerif Require Import Common.Lists Ndl.Bytes Ndl.BytesProps Ndl.Grammar Ndl.Def Ndl.Build Ndl.Denote Ndl.Realisable
     Ndl.BuildProps.
Import ListNotations.
Local Open Scope nat_scope.

Lemma list_eqb_eq : forall {A} (e : A -> A -> bool), (forall x y, e x y = true <-> x = y) ->
  forall a b, list_eqb e a b = true <-> a = b.
Proof.
  intros A e He. induction a as [|x a IH]; intros [|y b]; cbn [list_eqb]; split; intros H; try reflexivity; try discriminate.
  - apply andb_true_iff in H as [H1 H2]. apply He in H1. apply IH in H2. congruence.
  - injection H as -> ->. apply andb_true_iff. split; [apply He; reflexivity|apply IH; reflexivity].
Qed.

Lemma opt_eqb_eq : forall {A} (e : A -> A -> bool), (forall x y, e x y = true <-> x = y) ->
  forall a b, opt_eqb e a b = true <-> a = b.
Proof.
  intros A e He [x|] [y|]; cbn [opt_eqb]; split; intros H; try reflexivity; try discriminate.
  - apply He in H. congruence.
  - injection H as ->. apply He. reflexivity.
Qed.

Lemma acc_eqb_eq : forall a b, acc_eqb a b = true <-> a = b.
Proof.
  intros [n1 i1] [n2 i2]. unfold acc_eqb. cbn [ac_name ac_index]. rewrite andb_true_iff, beq_eq, (opt_eqb_eq N.eqb N.eqb_eq).
  split; [intros [-> ->]; reflexivity|intros H; injection H as -> ->; split; reflexivity].
Qed.

Lemma path_eqb_eq : forall a b, path_eqb a b = true <-> a = b.
Proof. apply list_eqb_eq. exact acc_eqb_eq. Qed.

Lemma gate_pos_eqb_eq : forall a b, gate_pos_eqb a b = true <-> a = b.
Proof.
  intros [[p n] k] [[q m] j]. unfold gate_pos_eqb. rewrite !andb_true_iff, path_eqb_eq, beq_eq, N.eqb_eq.
  split; [intros [[-> ->] ->]; reflexivity|intros H; injection H as -> -> ->; auto].
Qed.

(* [canonical st id]: the gate with this id is the first one with its (path, name, position), so [find_gate]
   returns it and [pos_of] is injective on such ids. *)
Definition ids_ok (st : bstate) : Prop :=
  forall i g, nth_error (bs_gates st) i = Some g -> gr_id g = N.of_nat i.
Definition canonical (st : bstate) (id : N) : Prop :=
  exists g, In g (bs_gates st) /\ gr_id g = id /\ find_gate st (gr_path g) (gr_name g) (gr_pos g) = Some id.
Definition keys_nodup (cs : list (N * list (N * option Link))) : Prop := NoDup (map fst cs).
Definition wf_state (st : bstate) : Prop :=
  ids_ok st /\ keys_nodup (bs_conns st) /\
  forall x y k, In (x, y, k) (id_edges st) -> canonical st x /\ canonical st y.

Lemma ids_unique : forall st g1 g2, ids_ok st -> In g1 (bs_gates st) -> In g2 (bs_gates st) -> gr_id g1 = gr_id g2 -> g1 = g2.
Proof.
  intros st g1 g2 H H1 H2 E. apply In_nth_error in H1 as [i1 H1]. apply In_nth_error in H2 as [i2 H2].
  pose proof (H _ _ H1) as E1. pose proof (H _ _ H2) as E2. rewrite E1, E2 in E. apply Nat2N.inj in E. subst i2.
  rewrite H1 in H2. congruence.
Qed.

Lemma pos_of_gate : forall st g, ids_ok st -> In g (bs_gates st) -> pos_of st (gr_id g) = (gr_path g, gr_name g, gr_pos g).
Proof.
  intros st g H Hin. unfold pos_of. destruct (find _ (bs_gates st)) as [g0|] eqn:E.
  - apply find_some in E as [Hin0 E0]. apply N.eqb_eq in E0. rewrite (ids_unique st g0 g H Hin0 Hin E0). reflexivity.
  - exfalso. apply (find_none _ _ E) in Hin. rewrite N.eqb_refl in Hin. discriminate.
Qed.

Lemma canonical_inj : forall st x y, ids_ok st -> canonical st x -> canonical st y -> pos_of st x = pos_of st y -> x = y.
Proof.
  intros st x y H (gx & Hx & <- & Fx) (gy & Hy & <- & Fy) E.
  rewrite (pos_of_gate st gx H Hx), (pos_of_gate st gy H Hy) in E. injection E as E1 E2 E3.
  rewrite E1, E2, E3 in Fx. congruence.
Qed.

Lemma find_gate_canonical : forall st p nm k id, ids_ok st -> find_gate st p nm k = Some id ->
  canonical st id /\ pos_of st id = (p, nm, k).
Proof.
  intros st p nm k id H Hf. pose proof Hf as Hf'. unfold find_gate in Hf.
  destruct (find _ (bs_gates st)) as [g|] eqn:E; [|discriminate]. injection Hf as <-. apply find_some in E as [Hin Hb].
  apply andb_true_iff in Hb as [Hb H3]. apply andb_true_iff in Hb as [H1 H2].
  apply path_eqb_eq in H1. apply beq_eq in H2. apply N.eqb_eq in H3. subst p nm k.
  split; [exists g; repeat split; assumption|apply pos_of_gate; assumption].
Qed.

Lemma abs_gate_cons : forall p a b rest, abs_gate p (a :: b :: rest) = abs_gate (p ++ [a]) (b :: rest).
Proof.
  intros p a b rest. unfold abs_gate. change (rev (a :: b :: rest)) with (rev (b :: rest) ++ [a]).
  destruct (rev (b :: rest)) as [|last init_rev] eqn:E.
  - exfalso. apply (f_equal (@length _)) in E. rewrite rev_length in E. discriminate.
  - cbn [app]. rewrite rev_app_distr. cbn [rev app]. rewrite <- app_assoc. reflexivity.
Qed.

Lemma access_gate_spec : forall st accessors p id, ids_ok st -> access_gate st p accessors = Ok id ->
  canonical st id /\ pos_of st id = abs_gate p accessors.
Proof.
  intros st accessors. induction accessors as [|a rest IH]; intros p id H Ha; cbn [access_gate] in Ha; [discriminate|].
  destruct rest as [|b rest'].
  - destruct (find_gate st p (ac_name a) _) as [g|] eqn:E; [|discriminate]. injection Ha as <-.
    destruct (find_gate_canonical _ _ _ _ _ H E) as [Hc Hp]. split; [exact Hc|].
    rewrite Hp. unfold abs_gate. cbn [rev app]. rewrite app_nil_r. reflexivity.
  - destruct (has_module st (p ++ [a])); [|discriminate]. rewrite abs_gate_cons. apply IH; assumption.
Qed.

(* ---- stability when modules and gates are added ---- *)
Definition extends (st st' : bstate) : Prop :=
  bs_conns st' = bs_conns st /\ exists more, bs_gates st' = bs_gates st ++ more.

Lemma canonical_extends : forall st st' id, extends st st' -> canonical st id -> canonical st' id.
Proof.
  intros st st' id [_ (more & Eg)] (g & Hin & Hid & Hf). exists g. rewrite Eg. split; [apply in_or_app; left; exact Hin|].
  split; [exact Hid|]. unfold find_gate in *. rewrite Eg. destruct (find _ (bs_gates st)) as [g0|] eqn:E; [|discriminate].
  rewrite (find_app_some _ _ more _ E). exact Hf.
Qed.

Lemma pos_of_extends : forall st st' id, ids_ok st -> extends st st' -> canonical st id -> pos_of st' id = pos_of st id.
Proof.
  intros st st' id H [_ (more & Eg)] (g & Hin & Hid & _). unfold pos_of. rewrite Eg.
  destruct (find (fun g0 => (gr_id g0 =? id)%N) (bs_gates st)) as [g0|] eqn:E.
  - rewrite (find_app_some _ _ more _ E). reflexivity.
  - exfalso. apply (find_none _ _ E) in Hin. rewrite Hid, N.eqb_refl in Hin. discriminate.
Qed.

Lemma state_edges_extends : forall st st', wf_state st -> extends st st' -> state_edges st' = state_edges st.
Proof.
  intros st st' (Hids & _ & Hcan) Hext. unfold state_edges. assert (Ee : id_edges st' = id_edges st).
  { unfold id_edges. destruct Hext as [-> _]. reflexivity. }
  rewrite Ee. apply map_ext_in. intros [[x y] k] Hin. cbn [fst snd]. destruct (Hcan _ _ _ Hin) as [Hx Hy].
  rewrite (pos_of_extends _ _ _ Hids Hext Hx), (pos_of_extends _ _ _ Hids Hext Hy). reflexivity.
Qed.

(* [flat cs] is Build.id_edges on a bare table: [id_edges st] unfolds to [flat (bs_conns st)]. *)
Definition flat (cs : list (N * list (N * option Link))) : list (N * N * option Link) :=
  flat_map (fun e => map (fun c => (fst e, fst c, snd c)) (snd e)) cs.

Lemma put_slot_absent : forall cs g c, ~ In g (map fst cs) ->
  map (fun e : N * list (N * option Link) => if (fst e =? g)%N then (fst e, snd e ++ [c]) else e) cs = cs.
Proof.
  intros cs g c. induction cs as [|e cs IH]; intros Hn; [reflexivity|]. cbn [map] in *.
  destruct (N.eqb_spec (fst e) g) as [E|_]; [exfalso; apply Hn; left; exact E|].
  rewrite IH; [reflexivity|]. intros Hi. apply Hn. right. exact Hi.
Qed.

Lemma existsb_key : forall (cs : list (N * list (N * option Link))) g,
  existsb (fun e => (fst e =? g)%N) cs = true <-> In g (map fst cs).
Proof.
  intros cs g. rewrite existsb_exists. split.
  - intros (e & He & Eg). apply N.eqb_eq in Eg. subst. apply in_map. exact He.
  - intros H. apply in_map_iff in H as (e & <- & He). exists e. split; [exact He|apply N.eqb_refl].
Qed.

Lemma put_slot_spec : forall cs g c, keys_nodup cs ->
  Permutation (flat (put_slot cs g c)) (flat cs ++ [(g, fst c, snd c)]) /\ keys_nodup (put_slot cs g c).
Proof.
  intros cs g c Hnd. unfold put_slot. destruct (existsb _ cs) eqn:Ee.
  - apply existsb_key in Ee. split.
    + induction cs as [|e cs IH]; [destruct Ee|]. cbn [map] in Hnd, Ee. inversion Hnd as [|? ? He Hr]; subst.
      cbn [map]. destruct (N.eqb_spec (fst e) g) as [E|Ene].
      * subst g. rewrite put_slot_absent by exact He. unfold flat. cbn [flat_map fst snd]. rewrite map_app. cbn [map].
        rewrite <- !app_assoc. apply Permutation_app_head. apply Permutation_app_comm.
      * destruct Ee as [E|Ee]; [congruence|]. unfold flat in *. cbn [flat_map]. rewrite <- app_assoc.
        apply Permutation_app_head. exact (IH Hr Ee).
    + unfold keys_nodup in *. rewrite map_map.
      erewrite map_ext; [exact Hnd|]. intros e. destruct (fst e =? g)%N; reflexivity.
  - split.
    + unfold flat. rewrite flat_map_app. cbn [flat_map map fst snd]. rewrite app_nil_r. apply Permutation_refl.
    + unfold keys_nodup in *. rewrite map_app. apply (Permutation_NoDup (Permutation_cons_append _ g)).
      constructor; [|exact Hnd]. intros Hx. apply existsb_key in Hx. congruence.
Qed.

Lemma filter_group : forall (k : N) (cs : list (N * option Link)) a,
  filter (fun x : N * N * option Link => (fst (fst x) =? a)%N) (map (fun c : N * option Link => (k, fst c, snd c)) cs)
  = if (k =? a)%N then map (fun c : N * option Link => (k, fst c, snd c)) cs else [].
Proof.
  intros k cs a. induction cs as [|c cs IH]; [destruct (k =? a)%N; reflexivity|]. cbn [map filter fst]. rewrite IH.
  destruct (k =? a)%N; reflexivity.
Qed.

Lemma slots_filter : forall st a, keys_nodup (bs_conns st) ->
  filter (fun e => (fst (fst e) =? a)%N) (id_edges st) = map (fun c => (a, fst c, snd c)) (slots st a).
Proof.
  intros st a. unfold slots, id_edges, keys_nodup. generalize (bs_conns st). intros cs Hnd.
  induction cs as [|e cs IH]; [reflexivity|]. cbn [map] in Hnd. inversion Hnd as [|? ? He Hr]; subst.
  cbn [find flat_map]. rewrite filter_app, filter_group, (IH Hr). destruct (N.eqb_spec (fst e) a) as [<-|_]; [|reflexivity].
  destruct (find _ cs) as [e'|] eqn:E; [|apply app_nil_r].
  exfalso. apply find_some in E as [Hin E]. apply N.eqb_eq in E. apply He. rewrite <- E. apply in_map. exact Hin.
Qed.

Lemma slots_spec : forall st a y k, keys_nodup (bs_conns st) ->
  (In (y, k) (slots st a) <-> In (a, y, k) (id_edges st)).
Proof.
  intros st a y k Hnd.
  assert (H : In (a, y, k) (id_edges st) <-> In (a, y, k) (filter (fun e => (fst (fst e) =? a)%N) (id_edges st))).
  { rewrite filter_In. cbn [fst]. rewrite N.eqb_refl. tauto. }
  rewrite H, (slots_filter st a Hnd), in_map_iff. split.
  - intros Hin. exists (y, k). split; [reflexivity|exact Hin].
  - intros ([y' k'] & E & Hin). injection E as <- <-. exact Hin.
Qed.

Lemma connected_iff : forall st a b, keys_nodup (bs_conns st) ->
  (existsb (fun c => (fst c =? b)%N) (slots st a) = true <-> exists k, In (a, b, k) (id_edges st)).
Proof.
  intros st a b Hnd. rewrite existsb_exists. split.
  - intros ([y k] & Hin & E). cbn [fst] in E. apply N.eqb_eq in E. subst y. exists k. apply slots_spec; assumption.
  - intros (k & H). exists (b, k). split; [apply slots_spec; assumption|apply N.eqb_refl].
Qed.

Lemma connect_spec : forall st a b l st', keys_nodup (bs_conns st) -> connect st a b l = Ok st' ->
  bs_mods st' = bs_mods st /\ bs_gates st' = bs_gates st /\ keys_nodup (bs_conns st') /\
  (((exists k, In (a, b, k) (id_edges st)) /\ st' = st) \/
   ((~ exists k, In (a, b, k) (id_edges st)) /\ Permutation (id_edges st') (id_edges st ++ [(a, b, l); (b, a, l)]))).
Proof.
  intros st a b l st' Hnd H. unfold connect in H. destruct (a =? b)%N; [discriminate|].
  destruct (existsb _ (slots st a)) eqn:Ec.
  - injection H as <-. repeat split; try assumption. left. split; [apply connected_iff; assumption|reflexivity].
  - destruct (_ || _); [discriminate|]. injection H as <-. cbn [bs_mods bs_gates bs_conns].
    destruct (put_slot_spec (bs_conns st) a (b, l) Hnd) as [P1 N1].
    destruct (put_slot_spec _ b (a, l) N1) as [P2 N2].
    repeat split; try assumption. right. split.
    + intros Hex. apply connected_iff in Hex; [congruence|exact Hnd].
    + unfold id_edges. cbn [bs_conns]. fold (flat (put_slot (put_slot (bs_conns st) a (b, l)) b (a, l))).
      eapply Permutation_trans; [exact P2|]. fold (flat (bs_conns st)).
      rewrite (app_assoc _ [(a, b, l)] [(b, a, l)]). apply Permutation_app_tail. exact P1.
Qed.

(* ---- the simulation between exec and conn_set ---- *)
Definition inv (st : bstate) (acc : list half_edge) : Prop := wf_state st /\ Permutation (state_edges st) acc.

Lemma conn_set_cons : forall a b k r acc,
  conn_set ((a, b, k) :: r) acc = if connected a b acc then conn_set r acc else conn_set r (acc ++ [(a, b, k); (b, a, k)]).
Proof. reflexivity. Qed.

Lemma conn_set_app : forall x y acc, conn_set (x ++ y) acc = conn_set y (conn_set x acc).
Proof.
  induction x as [|[[a b] k] x IH]; intros y acc; [reflexivity|]. cbn [app]. rewrite !conn_set_cons.
  destruct (connected a b acc); apply IH.
Qed.

Lemma present_iff : forall st acc a b, inv st acc -> canonical st a -> canonical st b ->
  (connected (pos_of st a) (pos_of st b) acc = true <-> exists k, In (a, b, k) (id_edges st)).
Proof.
  intros st acc a b [(Hids & _ & Hcan) Hp] Ha Hb. unfold connected. rewrite existsb_exists. split.
  - intros ([[x y] k] & Hin & E). cbn [fst snd] in E. apply andb_true_iff in E as [E1 E2].
    apply gate_pos_eqb_eq in E1. apply gate_pos_eqb_eq in E2. subst x y.
    apply (Permutation_in _ (Permutation_sym Hp)) in Hin. unfold state_edges in Hin.
    apply in_map_iff in Hin as ([[x' y'] k'] & E & Hin'). cbn [fst snd] in E. injection E as E1 E2 <-.
    destruct (Hcan _ _ _ Hin') as [Hx Hy].
    rewrite (canonical_inj st x' a Hids Hx Ha E1), (canonical_inj st y' b Hids Hy Hb E2) in Hin'. exists k'. exact Hin'.
  - intros (k & Hin). exists (pos_of st a, pos_of st b, k). split.
    + apply (Permutation_in _ Hp). unfold state_edges. apply in_map_iff. exists (a, b, k). split; [reflexivity|exact Hin].
    + cbn [fst snd]. apply andb_true_iff. split; apply gate_pos_eqb_eq; reflexivity.
Qed.

Lemma ids_ok_snoc : forall st g, ids_ok st -> gr_id g = N.of_nat (length (bs_gates st)) ->
  forall i g', nth_error (bs_gates st ++ [g]) i = Some g' -> gr_id g' = N.of_nat i.
Proof.
  intros st g H Hg i g' Hn. destruct (Nat.lt_ge_cases i (length (bs_gates st))) as [Hlt|Hge].
  - rewrite nth_error_app1 in Hn by exact Hlt. exact (H _ _ Hn).
  - rewrite nth_error_app2 in Hn by exact Hge. destruct (i - length (bs_gates st)) as [|j] eqn:Ej.
    + cbn in Hn. injection Hn as <-. rewrite Hg. f_equal. lia.
    + cbn in Hn. destruct j; discriminate.
Qed.

Lemma inv_extends : forall st st' acc, inv st acc -> extends st st' -> ids_ok st' -> inv st' acc.
Proof.
  intros st st' acc [Hwf Hp] Hext Hids'. rewrite <- (state_edges_extends st st' Hwf Hext) in Hp. split; [|exact Hp].
  destruct Hwf as (_ & Hk & Hcan). destruct Hext as [Ec Eg] eqn:Eext. split; [exact Hids'|]. split; [rewrite Ec; exact Hk|].
  intros x y k Hin. unfold id_edges in Hin. rewrite Ec in Hin. destruct (Hcan _ _ _ Hin) as [Hx Hy].
  split; eapply canonical_extends; try eassumption; split; assumption.
Qed.

(* Gate::connect adds the pair in both directions unless it is there already *)
Lemma connect_sim : forall st acc a b l st', inv st acc -> canonical st a -> canonical st b -> connect st a b l = Ok st' ->
  bs_mods st' = bs_mods st /\ bs_gates st' = bs_gates st /\ inv st' (conn_set [(pos_of st a, pos_of st b, l)] acc).
Proof.
  intros st acc a b l st' Hinv Hca Hcb H. pose proof Hinv as [(Hids & Hk & Hcan) Hp].
  destruct (connect_spec _ _ _ _ _ Hk H) as (Hm & Hg & Hk' & Hcase). split; [exact Hm|]. split; [exact Hg|].
  rewrite conn_set_cons. cbn [conn_set]. pose proof (present_iff st acc a b Hinv Hca Hcb) as Hpres.
  destruct Hcase as [[Hex ->]|[Hnex Hperm]]; [rewrite (proj2 Hpres Hex); exact Hinv|].
  destruct (connected _ _ acc); [exfalso; apply Hnex, Hpres; reflexivity|].
  assert (Hcan' : forall id, canonical st id -> canonical st' id).
  { intros id (g & Hin & Hid & Hf). exists g. rewrite Hg. split; [exact Hin|]. split; [exact Hid|].
    unfold find_gate in *. rewrite Hg. exact Hf. }
  assert (Hpos : forall id, pos_of st' id = pos_of st id) by (intros id; unfold pos_of; rewrite Hg; reflexivity).
  split.
  - split; [intros i g; rewrite Hg; apply Hids|]. split; [exact Hk'|].
    intros x y k Hin. apply (Permutation_in _ Hperm) in Hin. apply in_app_or in Hin as [Hin|Hin].
    + destruct (Hcan _ _ _ Hin) as [Hx Hy]. split; apply Hcan'; assumption.
    + destruct Hin as [E|[E|[]]]; injection E as <- <- _; split; apply Hcan'; assumption.
  - unfold state_edges. erewrite map_ext; [|intros e; rewrite !Hpos; reflexivity].
    eapply Permutation_trans; [apply Permutation_map; exact Hperm|]. rewrite map_app. cbn [map fst snd].
    apply Permutation_app_tail. exact Hp.
Qed.

Section Sim.
  Variable registered : ident -> bool.

  Definition after (pre : list action) (st : bstate) : Prop :=
    bs_mods st = flat_map mod_of pre /\ state_gates st = flat_map gate_of pre /\
    inv st (conn_set (flat_map conn_of pre) []) /\
    Forall (fun m => registered (snd m) = true) (flat_map mod_of pre).

  Lemma after_nil : after [] bs_empty.
  Proof.
    split; [reflexivity|]. split; [reflexivity|]. split; [|constructor]. split; [|constructor].
    split; [intros i g Hn; destruct i; discriminate|]. split; [constructor|]. intros x y k [].
  Qed.

  Lemma after_step : forall pre st a st', after pre st -> exec1 registered st a = Ok st' -> after (pre ++ [a]) st'.
  Proof.
    intros pre st a st' (Hm & Hg & Hinv & Hr) H. pose proof Hinv as [(Hids & _) _]. rewrite <- Hm in Hr.
    unfold after. rewrite !flat_map_app, conn_set_app, Forall_app. cbn [flat_map]. rewrite !app_nil_r, <- Hm, <- Hg.
    destruct a as [p s|p nm sz k|p f t l]; cbn [exec1] in H; cbn [mod_of gate_of conn_of conn_set].
    - destruct (has_module st p); [discriminate|]. destruct (registered s) eqn:Hs; [|discriminate]. injection H as <-.
      split; [reflexivity|]. split; [symmetry; apply app_nil_r|]. split.
      + apply (inv_extends st); [exact Hinv| |exact Hids]. split; [reflexivity|]. exists []. symmetry. apply app_nil_r.
      + split; [exact Hr|]. constructor; [exact Hs|constructor].
    - injection H as <-. split; [symmetry; apply app_nil_r|]. split; [apply map_app|]. split; [|split; [exact Hr|constructor]].
      apply (inv_extends st); [exact Hinv| |].
      + split; [reflexivity|]. eexists. reflexivity.
      + intros i g'. apply ids_ok_snoc; [exact Hids|reflexivity].
    - destruct (access_gate st p f) as [a| | |] eqn:Ea; cbn [bind] in H; try discriminate.
      destruct (access_gate st p t) as [b| | |] eqn:Eb; cbn [bind] in H; try discriminate.
      destruct (access_gate_spec _ _ _ _ Hids Ea) as [Hca Hpa]. destruct (access_gate_spec _ _ _ _ Hids Eb) as [Hcb Hpb].
      destruct (connect_sim _ _ _ _ _ _ Hinv Hca Hcb H) as (Hm' & Hg' & Hinv'). rewrite Hpa, Hpb in Hinv'.
      unfold state_gates. rewrite Hm', Hg', !app_nil_r.
      split; [reflexivity|]. split; [reflexivity|]. split; [exact Hinv'|]. split; [exact Hr|constructor].
  Qed.

  Lemma after_exec : forall l pre st st', after pre st -> exec registered st l = Ok st' -> after (pre ++ l) st'.
  Proof.
    induction l as [|a l IH]; intros pre st st' Ha H; cbn [exec] in H.
    - injection H as <-. rewrite app_nil_r. exact Ha.
    - destruct (exec1 registered st a) as [st1| | |] eqn:E1; cbn [bind] in H; try discriminate.
      change (a :: l) with ([a] ++ l). rewrite app_assoc. exact (IH _ _ _ (after_step _ _ _ _ Ha E1) H).
  Qed.

  Theorem build_after : forall n st, build registered n = Ok st -> after (plan n []) st.
  Proof. intros n st H. exact (after_exec _ [] _ _ after_nil H). Qed.
End Sim.
