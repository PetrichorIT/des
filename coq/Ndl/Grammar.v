(* The string grammar of des-net-utils/src/ndl/def.rs (FromStr / Display of TypClause,
   ModuleGenericsDef, FieldDef, ConnectionEndpointDef) over byte strings.

   Every function returns [res]: [Ok v], [Err e] (the Rust function returned Err / the
   serde visitor reports a custom error), or [Panic site] (an assert!/expect of def.rs
   fired); the fourth constructor [OutOfFuel] is for loops of the model that carry fuel (only
   Transform.order_loop does).  The flag [fx] selects the version of the code (Transform.v says
   which commits); in this file [fx = false] makes an unterminated argument list hit
   `assert!(rem.ends_with(')'))`, [fx = true] makes it an error. *)
From Coq Require Import List NArith Bool.
From DesVerif Require Import Ndl.Bytes.
Import ListNotations.
Open Scope N_scope.

Inductive res (A : Type) : Type :=
| Ok (a : A)
| Err (e : N)
| Panic (site : N)
| OutOfFuel.
Arguments Ok {A} a.  Arguments Err {A} e.  Arguments Panic {A} site.  Arguments OutOfFuel {A}.

Definition bind {A B} (r : res A) (f : A -> res B) : res B :=
  match r with Ok a => f a | Err e => Err e | Panic s => Panic s | OutOfFuel => OutOfFuel end.
Notation "'do' x <- r ; k" := (bind r (fun x => k)) (at level 200, x pattern, r at level 100, k at level 200).

(* iter.map(f).collect::<Result<Vec<_>, _>>(): stops at the first Err *)
Fixpoint collect {A B} (f : A -> res B) (l : list A) : res (list B) :=
  match l with
  | [] => Ok []
  | a :: r => do b <- f a; do bs <- collect f r; Ok (b :: bs)
  end.

(* parse error classes (what the error text says) *)
Definition E_NO_CLOSING_PAREN : N := 1.   (* "invalid typ clause: expected closing parenthesis" *)
Definition E_INVALID_ARG : N := 2.        (* "invalid arg: .." *)
Definition E_NO_OPENING_BRACKET : N := 3. (* "invalid syntax: expected opening bracket" *)
Definition E_PARSE_INT : N := 4.          (* ParseIntError *)
(* panic sites of def.rs *)
Definition P_ASSERT_ENDS_WITH_PAREN : N := 1.   (* def.rs:213 (pinned code) *)
Definition P_REDUCE_NON_EMPTY : N := 2.         (* Display for TypClause: expect("args is non empty") *)

Inductive Kard := Atom | Cluster (n : N).
Record FieldDef := { fd_ident : bytes; fd_kard : Kard }.
Record Generic := { g_binding : bytes; g_bound : bytes }.
Record TypClause (A : Type) := { tc_ident : bytes; tc_args : list A }.
Arguments tc_ident {A} _.  Arguments tc_args {A} _.

(* ---- impl FromStr for TypClause<Arg> ---- *)
Definition typclause_from_str {A} (fx : bool) (arg_from_str : bytes -> res A) (s : bytes) : res (TypClause A) :=
  match split_once_char LPAREN s with
  | None => Ok {| tc_ident := s; tc_args := [] |}
  | Some (ident, rem) =>
    if negb (last_is RPAREN rem)
    then (if fx then Err E_NO_CLOSING_PAREN else Panic P_ASSERT_ENDS_WITH_PAREN)
    else
      let rem := trim_end_matches RPAREN rem in
      do args <- collect arg_from_str (split_2 COMMA SPACE rem);
      Ok {| tc_ident := trim ident; tc_args := args |}
  end.

(* String: FromStr is infallible *)
Definition string_from_str (s : bytes) : res bytes := Ok s.

(* ---- impl FromStr for ModuleGenericsDef ---- *)
Definition generic_from_str (s : bytes) : res Generic :=
  match split_once_2 LT MINUS s with
  | None => Err E_INVALID_ARG
  | Some (binding, bound) => Ok {| g_binding := trim binding; g_bound := trim bound |}
  end.

(* ---- impl FromStr for FieldDef ---- *)
Definition field_from_str (s : bytes) : res FieldDef :=
  if last_is RBRACK s then
    match split_once_char LBRACK s with
    | None => Err E_NO_OPENING_BRACKET
    | Some (ident, cluster) =>
      match parse_usize (trim_end_matches RBRACK cluster) with
      | Some n => Ok {| fd_ident := ident; fd_kard := Cluster n |}
      | None => Err E_PARSE_INT
      end
    end
  else Ok {| fd_ident := s; fd_kard := Atom |}.

(* ---- impl FromStr for ConnectionEndpointDef ---- *)
Definition endpoint_from_str (s : bytes) : res (list FieldDef) :=
  collect field_from_str (split_char SLASH s).

(* ---- Display ---- *)
Definition generic_display (g : Generic) : bytes :=
  g_binding g ++ [SPACE; LT; MINUS; SPACE] ++ g_bound g.

Definition field_display (f : FieldDef) : bytes :=
  match fd_kard f with
  | Atom => fd_ident f
  | Cluster n => fd_ident f ++ [LBRACK] ++ to_dec n ++ [RBRACK]
  end.

(* args.iter().map(to_string).reduce(..).expect("args is non empty") *)
Definition reduce_args (l : list bytes) : res bytes :=
  match l with [] => Panic P_REDUCE_NON_EMPTY | _ => Ok (join [COMMA; SPACE] l) end.

Definition typclause_display {A} (arg_display : A -> bytes) (t : TypClause A) : res bytes :=
  match tc_args t with
  | [] => Ok (tc_ident t)
  | _ => do a <- reduce_args (map arg_display (tc_args t));
         Ok (tc_ident t ++ [LPAREN] ++ a ++ [RPAREN])
  end.

Definition endpoint_display (e : list FieldDef) : bytes := join [SLASH] (map field_display e).

(* ---- equality tests used by the elaborator ---- *)
Definition kard_eqb (a b : Kard) : bool :=
  match a, b with
  | Atom, Atom => true
  | Cluster n, Cluster m => n =? m
  | _, _ => false
  end.
Definition field_eqb (a b : FieldDef) : bool := beq (fd_ident a) (fd_ident b) && kard_eqb (fd_kard a) (fd_kard b).
