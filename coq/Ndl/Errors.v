(* errors_classified: what the theorems of Properties/C18.v on the ErrorKind of each malformation share,
   and five facts stated for their own sake (one atom and one cluster of a name are no duplicate; a conforming
   argument lets the replacement loop go on; an error of the loop or of a gate / submodule access surfaces).
   Every statement is about the function of mod.rs that detects the malformation.  [fx] is arbitrary unless
   the check exists only with [fx = true]. *)
From Coq Require Import List NArith Bool Arith.
From DesVerif Require Import Ndl.Bytes Ndl.BytesProps Ndl.Grammar Ndl.GrammarProps Ndl.Def Ndl.Transform Ndl.Order.
Import ListNotations.
Local Open Scope nat_scope.

(* ---- unresolvable or cyclic dependencies; unknown type ---- *)
(* a group of definitions each of which requires a name that only members of the group define (or nobody defines) *)
Theorem unresolvable_group : forall fx d (C : list (TypClause Generic * ModuleDef)),
  C <> [] -> incl C (d_modules d) ->
  (forall im, In im C -> exists s, In s (required_symbols (fst im) (snd im)) /\
                                   forall im', In im' (d_modules d) -> tc_ident (fst im') = s -> In im' C) ->
  transform fx d = Err K_UNRESOLVABLE_DEPENDENCY.
Proof.
  intros fx d C Hne Hincl Hdep. unfold transform.
  replace (length (d_modules d)) with (length (entries d)) by (unfold entries; apply map_length).
  rewrite (order_loop_blocked _ (map (fun im => (im, required_symbols (fst im) (snd im))) C)); [reflexivity|].
  split; [destruct C; [congruence|discriminate]|]. split.
  - intros e He. apply in_map_iff in He as (im & <- & Him). unfold entries. apply in_map_iff.
    exists im. split; [reflexivity|apply Hincl; exact Him].
  - intros e He. apply in_map_iff in He as (im & <- & Him). destruct (Hdep im Him) as (s & Hs & Hcl).
    exists s. split; [exact Hs|]. intros e' He' Ee'.
    unfold entries in He'. apply in_map_iff in He' as (im' & <- & Him').
    apply (in_map (fun im0 => (im0, required_symbols (fst im0) (snd im0)))). exact (Hcl im' Him' Ee').
Qed.

(* ---- per definition ---- *)
(* one atom and one cluster of a name are not a duplicate: `x` next to `x[2]` is legal and denotes x, x[0], x[1] *)
Lemma atom_and_cluster_no_dup : forall f k (na nb : Node),
  has_dup_field [({| fd_ident := f; fd_kard := Atom |}, na); ({| fd_ident := f; fd_kard := Cluster k |}, nb)] = false.
Proof. intros. cbn. rewrite andb_false_r. reflexivity. Qed.

(* the field is not a cluster of size 0 (which transform_submodule rejects first, InvalidSubmodule) *)
Definition nonzero (f : FieldDef) : Prop := kard_eqb (fd_kard f) (Cluster 0) = false.

(* conformance compares the inlined subtrees: a submodule of the interface must be matched by a submodule of the argument
   that is equal as a TREE (field, symbol, gates as a set, submodules and connections recursively) -- an equal field name
   and type symbol are not enough (`x: B(C1)` and `x: B(C2)` both carry the symbol B) *)
Lemma deep_mismatch_not_conform : forall repl iface s,
  In s (n_subs iface) -> (forall o, In o (n_subs repl) -> sub_eqb o s = false) -> conform_to repl iface = false.
Proof.
  intros repl iface s Hs Hno. unfold conform_to. apply andb_false_iff. left. apply andb_false_iff. right.
  apply not_true_is_false. intros H. rewrite forallb_forall in H. specialize (H s Hs).
  apply existsb_exists in H as (o & Ho & E). rewrite (Hno o Ho) in E. discriminate.
Qed.

Lemma sub_eqb_needs_equal_subtrees : forall f f' t t' subs subs' g g' c c',
  sub_eqb (f, mkNode t subs g c) (f', mkNode t' subs' g' c') = true ->
  length subs = length subs' /\ forall i a b, nth_error subs i = Some a -> nth_error subs' i = Some b -> sub_eqb a b = true.
Proof.
  intros f f' t t' subs subs' g g' c c' H. unfold sub_eqb in H. cbn [fst snd node_eqb] in H.
  apply andb_true_iff in H as [_ H]. apply andb_true_iff in H as [H _]. apply andb_true_iff in H as [H _].
  apply andb_true_iff in H as [_ H]. revert subs' H. induction subs as [|[fa na] subs IH]; intros [|[fb nb] subs'] H; try discriminate.
  - split; [reflexivity|]. intros [|i] a b Ha; discriminate.
  - apply andb_true_iff in H as [H Hr]. destruct (IH subs' Hr) as [Hl Hn]. split; [cbn [length]; f_equal; exact Hl|].
    intros [|i] a b Ha Hb; cbn [nth_error] in Ha, Hb.
    + injection Ha as <-. injection Hb as <-. unfold sub_eqb. cbn [fst snd]. exact H.
    + exact (Hn i a b Ha Hb).
Qed.

(* a conforming first argument is substituted and the loop goes on with the next one *)
Theorem conforming_argument_step : forall fx self_args nodes gb req name args node repl iface gi,
  is_binding self_args name = false -> lookup name nodes = Some (repl, []) ->
  lookup (g_bound gb) nodes = Some (iface, gi) -> conform_to repl iface = true ->
  replace_loop fx self_args nodes (gb :: req) (name :: args) node =
  replace_loop fx self_args nodes req args
               (mkNode (n_typ node) (replace_subs (g_binding gb) repl (n_subs node)) (n_gates node) (n_conns node)).
Proof. intros. cbn [replace_loop]. rewrite H, andb_false_r, H0, H1, H2. reflexivity. Qed.

Lemma replace_error_lifts : forall fx field self typ nodes node reqs k,
  nonzero field -> tc_args typ <> [] -> is_binding (tc_args self) (tc_ident typ) = false ->
  lookup (tc_ident typ) nodes = Some (node, reqs) -> length reqs = length (tc_args typ) ->
  replace_loop fx (tc_args self) nodes reqs (tc_args typ) node = Err k ->
  transform_submodule fx field self typ nodes = Err k.
Proof.
  intros fx field self typ nodes node reqs k Hz Ha Hb Hl Hlen Hr. unfold transform_submodule. rewrite Hz.
  destruct (tc_args typ) as [|a0 r0] eqn:E; [congruence|]. rewrite Hb, andb_false_r, Hl.
  apply Nat.eqb_eq in Hlen. rewrite Hlen. cbn [negb]. rewrite Hr. reflexivity.
Qed.

(* ---- connections ---- *)
(* an access error of the gate / of the first submodule on the way surfaces from the endpoint *)
Lemma gate_access_error_lifts : forall pos acc subs gates gd k,
  find (fun g => beq (fd_ident g) (fd_ident acc)) gates = Some gd -> iter_for_kardinality_access gd acc = Err k ->
  transform_connection_endpoint_inner pos [acc] subs gates = Err k.
Proof. intros. cbn [transform_connection_endpoint_inner]. rewrite H, H0. reflexivity. Qed.

Lemma submodule_access_error_lifts : forall pos acc b rest subs gates sn snode k,
  find (fun s => beq (fd_ident (fst s)) (fd_ident acc)) subs = Some (sn, snode) -> iter_for_kardinality_access sn acc = Err k ->
  transform_connection_endpoint_inner pos (acc :: b :: rest) subs gates = Err k.
Proof. intros. cbn [transform_connection_endpoint_inner]. rewrite H, H0. reflexivity. Qed.

Lemma elaborate_app : forall fx pre post arch links,
  elaborate fx (pre ++ post) arch links = do a <- elaborate fx pre arch links; elaborate fx post a links.
Proof.
  intros fx pre. induction pre as [|e pre IH]; intros post arch links; cbn [app elaborate bind]; [reflexivity|].
  destruct (transform_module fx _ _ arch links) as [a| | |]; cbn [bind]; try reflexivity. apply IH.
Qed.

Lemma elaborate_keys : forall fx l arch links arch', elaborate fx l arch links = Ok arch' ->
  forall k v, lookup k arch' = Some v -> lookup k arch <> None \/ exists e, In e l /\ e_ident e = k.
Proof.
  intros fx l. induction l as [|e l IH]; intros arch links arch' H k v Hk; cbn [elaborate] in H.
  - injection H as <-. left. congruence.
  - destruct (transform_module fx _ _ arch links) as [a| | |]; cbn [bind] in H; try discriminate.
    destruct (IH _ _ _ H k v Hk) as [Hl|(e' & He' & Ee')].
    + cbn [lookup] in Hl. destruct (beq k (e_ident e)) eqn:Eb.
      * right. exists e. split; [left; reflexivity|]. apply beq_eq in Eb. congruence.
      * left. exact Hl.
    + right. exists e'. split; [right; exact He'|exact Ee'].
Qed.

Lemma collect_errs : forall {A B} (f : A -> res B) l,
  match collect f l with
  | Ok _ => flat_map (fun a => match f a with Err k => [k] | _ => [] end) l = []
  | Err k => In k (flat_map (fun a => match f a with Err k => [k] | _ => [] end) l)
  | _ => True
  end.
Proof.
  intros A B f l. destruct (collect f l) as [v|k| |] eqn:E; [| |exact I|exact I].
  - apply collect_ok in E. induction E as [|a b l v Eb _ IH]; cbn [flat_map]; [reflexivity|]. rewrite Eb. exact IH.
  - apply collect_err in E as (a & Ha & Ea). apply in_flat_map. exists a. split; [exact Ha|].
    rewrite Ea. left. reflexivity.
Qed.

Lemma module_cands_err : forall fx self m nodes links k,
  transform_module fx self m nodes links = Err k -> In k (module_cands fx self m nodes links).
Proof.
  intros fx self m nodes links k H. unfold module_cands. pose proof H as H0. unfold transform_module in H.
  destruct (has_dup_binding _); [injection H as <-; left; reflexivity|].
  apply bind_err in H as [Eg|(gs & Eg & H)]; rewrite Eg; [left; reflexivity|].
  unfold transform_submodules in H.
  pose proof (collect_errs (fun ft => transform_submodule fx (fst ft) self (snd ft) nodes) (md_subs m)) as Hc.
  apply bind_err in H as [Es|(ss & Es & _)]; rewrite Es in Hc.
  - destruct (flat_map _ (md_subs m)); [destruct Hc|exact Hc].
  - rewrite Hc, H0. left. reflexivity.
Qed.

Lemma not_failed_nil : forall deps, existsb (fun s => mem_ident s []) deps = false.
Proof. induction deps as [|s deps IH]; [reflexivity|]. cbn [existsb mem_ident]. exact IH. Qed.

Lemma elaborate_all_spec : forall fx l arch links,
  match elaborate fx l arch links with
  | Ok a => elaborate_all fx l arch [] links = (a, [])
  | Err k => In k (snd (elaborate_all fx l arch [] links))
  | _ => True
  end.
Proof.
  intros fx l. induction l as [|e l IH]; intros arch links; cbn [elaborate elaborate_all]; [reflexivity|].
  rewrite not_failed_nil.
  destruct (transform_module fx _ _ arch links) as [a|k| |] eqn:Em; cbn [bind]; [apply IH| |exact I|exact I].
  destruct (elaborate_all fx l arch [e_ident e] links) as [arch2 ks]. cbn [snd].
  apply in_or_app. left. apply module_cands_err. exact Em.
Qed.

(* what the runner prints on failure ([cands]: the kinds of all errors that some hash-map
   iteration order can meet first) versus `transform` in document order: transform's error
   is one of the candidates, and a transform that succeeds has no candidate (with totality:
   exactly then, C18_ok_iff_no_candidate). *)
Theorem cands_spec : forall fx d,
  match transform fx d with
  | Ok _ => cands fx d = []
  | Err k => In k (cands fx d)
  | _ => True
  end.
Proof.
  intros fx d. unfold transform, cands.
  destruct (order_loop _ [] (entries d) []) as [ordered|k| |]; cbn [bind]; [|left; reflexivity|exact I|exact I].
  pose proof (elaborate_all_spec fx ordered [] (d_links d)) as Ha.
  destruct (elaborate fx ordered [] (d_links d)) as [arch|k| |]; cbn [bind]; [| |exact I|exact I].
  - rewrite Ha. destruct (lookup (d_entry d) arch) as [[n g]|]; [reflexivity|left; reflexivity].
  - destruct (elaborate_all fx ordered [] [] (d_links d)) as [arch2 ks]. destruct ks; [destruct Ha|exact Ha].
Qed.
