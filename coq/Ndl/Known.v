(* Known finding F11c.  The replacement loop of transform_submodule recognises placeholders by their symbol
   only.  A generic definition that inherits a submodule whose (global) type is named like one of its own
   type parameters gets that submodule replaced at every instantiation as well; inherited connections into
   it may then name gates the argument does not have, so the elaborated tree has an endpoint that does
   not resolve and the build panics at access_gate(..).expect("gate" / "child").

   [KnownClass d]: the description elaborates to a tree that is not [tree_ok].
   [f11c_shape d]: the narrow syntactic shape of the finding (what tools/props/c18.py `known_class` tests):
   some definition G with a type parameter T has, along its `inherit` chain, a definition with a submodule
   field of type `T` (no arguments); or an instantiation `G(A1..An)` passes an argument named like a later type
   parameter of G.  Every KnownClass description met by the check has this shape (the
   monitor raises a violation otherwise); KnownClass d -> f11c_shape d = true is not proved.
   [f11c_shape] and its two helpers occur in no theorem except the two witnesses of Refuted/C18.v; they are
   kept equal to `known_class` of c18.py by hand. *)
From Coq Require Import List NArith Bool.
From DesVerif Require Import Ndl.Bytes Ndl.Grammar Ndl.Def Ndl.Transform Ndl.Denote Ndl.Realisable.
Import ListNotations.

Definition KnownClass (d : Def) : Prop := exists n, transform true d = Ok n /\ tree_ok n = false.

Fixpoint chain_uses (d : Def) (fuel : nat) (binds : list Generic) (k : option ident) : bool :=
  match fuel, k with
  | S f, Some name =>
    match find_entry d name with
    | Some (_, m) =>
      existsb (fun st => match tc_args (snd st) with [] => is_binding binds (tc_ident (snd st)) | _ => false end) (md_subs m)
      || chain_uses d f binds (md_inherit m)
    | None => false
    end
  | _, _ => false
  end.

(* second shape, same cause: in `x: G(A1..An)` an earlier argument A_i is named like a LATER type parameter of G; after
   A_i's tree has been substituted its symbol matches that parameter and the loop replaces it again *)
Fixpoint arg_named_like_later (reqs : list Generic) (args : list ident) : bool :=
  match reqs, args with
  | _ :: reqs', a :: args' => is_binding reqs' a || arg_named_like_later reqs' args'
  | _, _ => false
  end.

Definition f11c_shape (d : Def) : bool :=
  existsb (fun im => match tc_args (fst im) with
                     | [] => false
                     | binds => chain_uses d (length (d_modules d)) binds (md_inherit (snd im))
                     end) (d_modules d) ||
  existsb (fun im => existsb (fun st => match find_entry d (tc_ident (snd st)) with
                                        | Some (g, _) => arg_named_like_later (tc_args g) (tc_args (snd st))
                                        | None => false
                                        end) (md_subs (snd im))) (d_modules d).
