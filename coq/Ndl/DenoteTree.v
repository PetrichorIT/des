(* For build_matches_denotation: with distinct definition names, every entry of the archetype table that
   `elaborate` builds bottom-up (dependency order, clones, generic replacement loop) is the tree [den_node]
   denotes top-down for that name -- generic definitions and their instantiations included
   ([elaborate_matches]).  C18_tree_is_denotation (Properties/C18.v) reads the statement about `transform`
   and [denote_tree] off it.  What is compared is the recursion scheme: Denote.v shares the expansion of
   connections, the duplicate checks, conformance and the substitution of a field with Transform.v. *)
From Coq Require Import List NArith Bool PeanoNat.
From DesVerif Require Import Ndl.Bytes Ndl.BytesProps Ndl.Grammar Ndl.GrammarProps Ndl.Def Ndl.Transform Ndl.Total Ndl.Subst Ndl.Denote.
Import ListNotations.
Local Open Scope nat_scope.

Definition names (d : Def) : list ident := map (fun im => tc_ident (fst im)) (d_modules d).

Lemma find_entry_nodup : forall d im, NoDup (names d) -> In im (d_modules d) ->
  find_entry d (tc_ident (fst im)) = Some im.
Proof.
  intros d im. unfold find_entry, names. induction (d_modules d) as [|x l IH]; intros Hnd Hin; [destruct Hin|].
  cbn [map] in Hnd. inversion Hnd as [|? ? Hx Hl]; subst. cbn [find].
  destruct Hin as [->|Hin].
  - rewrite beq_refl. reflexivity.
  - destruct (beq (tc_ident (fst x)) (tc_ident (fst im))) eqn:E.
    + apply beq_eq in E. exfalso. apply Hx. rewrite E. apply in_map_iff. exists im. split; [reflexivity|exact Hin].
    + apply IH; assumption.
Qed.

(* [ole]: the definedness order on options; [below]: the same on lookup functions.  Every step of the
   denotation is monotone in its lookup, which gives monotonicity of [den_node] in its fuel. *)
Definition ole {A} (o o' : option A) : Prop := forall v, o = Some v -> o' = Some v.
Definition below (look look' : ident -> option (Node * list Generic)) : Prop := forall k, ole (look k) (look' k).

Lemma ole_refl : forall {A} (o : option A), ole o o.
Proof. intros A o v H. exact H. Qed.

Lemma ole_bind : forall {A B} (o o' : option A) (f f' : A -> option B),
  ole o o' -> (forall x, ole (f x) (f' x)) ->
  ole (match o with Some x => f x | None => None end) (match o' with Some x => f' x | None => None end).
Proof.
  intros A B o o' f f' Ho Hf v H. destruct o as [x|]; [|discriminate H]. rewrite (Ho x eq_refl). exact (Hf x v H).
Qed.

(* every step of den_sigma and den_field that consults [look] is a bind on its answer *)
Lemma den_sigma_mono : forall look look' self_args reqs args, below look look' ->
  ole (den_sigma look self_args reqs args) (den_sigma look' self_args reqs args).
Proof.
  intros look look' self_args reqs args Hb. revert args.
  induction reqs as [|gb reqs IH]; intros args; cbn [den_sigma]; [apply ole_refl|].
  destruct args as [|name args]; [apply ole_refl|]. destruct (is_binding self_args name); [apply ole_refl|].
  apply ole_bind; [apply Hb|]. intros [repl deps]. destruct deps; [|apply ole_refl].
  apply ole_bind; [apply Hb|]. intros [iface gi]. destruct (conform_to repl iface); [|apply ole_refl].
  apply ole_bind; [apply IH|]. intros sg. apply ole_refl.
Qed.

Lemma den_field_mono : forall look look' self_args st, below look look' ->
  ole (den_field look self_args st) (den_field look' self_args st).
Proof.
  intros look look' self_args [field typ] Hb. unfold den_field.
  destruct (kard_eqb _ _); [apply ole_refl|]. destruct (tc_args typ) as [|a0 r0].
  - apply ole_bind; [apply Hb|]. intros x. apply ole_refl.
  - destruct (is_binding _ _); [apply ole_refl|]. apply ole_bind; [apply Hb|]. intros [node reqs].
    destruct (Nat.eqb _ _); [|apply ole_refl]. apply ole_bind; [apply den_sigma_mono; exact Hb|]. intros sg. apply ole_refl.
Qed.

Lemma map_opt_mono : forall {A B} (f g : A -> option B) l,
  (forall a, ole (f a) (g a)) -> ole (map_opt f l) (map_opt g l).
Proof.
  intros A B f g l Hfg. induction l as [|a l IH]; cbn [map_opt]; [apply ole_refl|].
  apply ole_bind; [apply Hfg|]. intros b. apply ole_bind; [exact IH|]. intros bs. apply ole_refl.
Qed.

Lemma den_node_step : forall d f f', below (den_node d f) (den_node d f') -> below (den_node d (S f)) (den_node d (S f')).
Proof.
  intros d f f' Hb k. cbn [den_node].
  destruct (find_entry d k) as [[self m]|]; [|apply ole_refl]. destruct (_ || _); [apply ole_refl|].
  apply ole_bind; [apply map_opt_mono; intros st; apply den_field_mono; exact Hb|]. intros subs_own.
  apply ole_bind; [|intros x; apply ole_refl]. destruct (md_inherit m) as [p|]; [apply Hb|apply ole_refl].
Qed.

Lemma den_node_mono : forall d f, below (den_node d f) (den_node d (S f)).
Proof.
  intros d f. induction f as [|f IH]; [intros k v H; discriminate H|]. apply den_node_step. exact IH.
Qed.

(* ---- one definition against the archetype table ---- *)
Section OneModule.
  Variables (look : ident -> option (Node * list Generic)) (arch : archetypes).
  Hypothesis Harch : below (fun k => lookup k arch) look.

  Lemma sigma_matches : forall self_args reqs args node node',
    replace_run true self_args arch reqs args node node' ->
    den_sigma look self_args reqs args = Some (sigma_of arch reqs args).
  Proof.
    intros self_args reqs args node node' H.
    induction H as [args node|gb reqs name args repl iface gi node node' Eb E1 E2 Ec _ IH]; [reflexivity|].
    cbn [den_sigma sigma_of]. cbn [andb] in Eb.
    rewrite Eb, E1, (Harch _ _ E1), (Harch _ _ E2), Ec, IH. reflexivity.
  Qed.

  Lemma field_matches : forall self st b,
    transform_submodule true (fst st) self (snd st) arch = Ok b -> den_field look (tc_args self) st = Some b.
  Proof.
    intros self [field typ] b H. apply transform_submodule_ok in H as [Ek H]. unfold den_field. cbn [fst snd] in *. rewrite Ek.
    destruct H as [node Ea El|node reqs node' Ea Eb El Elen Er].
    - rewrite Ea, (Harch _ _ El). reflexivity.
    - destruct (tc_args typ) as [|a0 r0]; [congruence|]. cbn [andb] in Eb.
      rewrite Eb, (Harch _ _ El), Elen, Nat.eqb_refl, (sigma_matches _ _ _ _ _ (replace_loop_ok _ _ _ _ _ _ _ Er)).
      apply replace_loop_spec in Er as [-> _]. reflexivity.
  Qed.

  Lemma submodules_match : forall self subs ss,
    transform_submodules true self subs arch = Ok ss -> map_opt (den_field look (tc_args self)) subs = Some ss.
  Proof.
    intros self subs ss H. apply collect_ok in H.
    induction H as [|st b subs ss Eb _ IH]; cbn [map_opt]; [reflexivity|]. rewrite (field_matches _ _ _ Eb), IH. reflexivity.
  Qed.
End OneModule.

Lemma module_matches : forall d f arch im r,
  NoDup (names d) -> In im (d_modules d) -> below (fun k => lookup k arch) (den_node d f) ->
  transform_module true (fst im) (snd im) arch (d_links d) = Ok r ->
  den_node d (S f) (tc_ident (fst im)) = Some r.
Proof.
  intros d f arch im r Hnd Him Harch H. pose proof (find_entry_nodup d im Hnd Him) as Hfind.
  destruct im as [self m]. cbn [fst snd] in *.
  destruct (transform_module_ok _ _ _ _ _ _ H) as [gates subs parent conns Hb Hg Hs Hp Hd Hc].
  unfold transform_gates in Hg. destruct (existsb _ (md_gates m)) eqn:Eg; [discriminate Hg|]. injection Hg as <-.
  cbn [andb] in Hd. cbn [den_node]. rewrite Hfind, Hb, Eg, (submodules_match (den_node d f) arch Harch _ _ _ Hs).
  destruct (md_inherit m) as [p|].
  - destruct Hp as (pg & Hp). rewrite (Harch _ _ Hp). cbv beta iota zeta. rewrite Hd, Hc. reflexivity.
  - subst parent. cbv beta iota zeta. rewrite Hd, Hc. reflexivity.
Qed.

(* ---- the elaboration loop ---- *)
Lemma elaborate_matches : forall d (l : list entry) arch arch' f,
  NoDup (names d) -> (forall e, In e l -> In (fst e) (d_modules d)) ->
  below (fun k => lookup k arch) (den_node d f) ->
  elaborate true l arch (d_links d) = Ok arch' ->
  below (fun k => lookup k arch') (den_node d (f + length l)).
Proof.
  intros d l. induction l as [|e l IH]; intros arch arch' f Hnd Hin Harch H; cbn [elaborate length] in *.
  - injection H as <-. rewrite Nat.add_0_r. exact Harch.
  - apply bind_ok in H as (r & Em & H).
    pose proof (module_matches d f arch (fst e) r Hnd (Hin e (or_introl eq_refl)) Harch Em) as Hden.
    rewrite <- Nat.add_succ_comm.
    apply (IH ((e_ident e, r) :: arch) arch' (S f) Hnd); [intros x Hx; apply Hin; right; exact Hx| |exact H].
    intros k v Hk. cbn [lookup] in Hk. destruct (beq k (e_ident e)) eqn:Eb.
    + apply beq_eq in Eb. subst k. injection Hk as <-. exact Hden.
    + apply den_node_mono. exact (Harch _ _ Hk).
Qed.
