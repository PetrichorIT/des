(* From the document to the description: every string goes through its FromStr (Model.parse_doc).
   Parsing returns (never panics) and what it returns satisfies [wf_parsed]; with Total.transform_total this
   makes [elaborate_document] total (C18_document_total in Properties/C18.v). *)
From Coq Require Import List NArith Bool.
From DesVerif Require Import Ndl.Bytes Ndl.Grammar Ndl.GrammarProps Ndl.Def Ndl.Transform Ndl.Total Ndl.Model.
Import ListNotations.

Lemma io_returns : forall {A} (r : res A), returns r -> returns (io r).
Proof. intros A [a|e|s|] H; cbn in *; auto. Qed.
#[export] Hint Resolve io_returns : returns.

Lemma io_ok : forall {A} (r : res A) a, io r = Ok a -> r = Ok a.
Proof. intros A [x|e|s|] a H; cbn in H; congruence. Qed.

Lemma parse_module_returns : forall m, returns (parse_module true m).
Proof. intros m. unfold parse_module. auto 12 with returns. Qed.
#[export] Hint Resolve parse_module_returns : returns.

Lemma parse_doc_returns : forall rd, returns (parse_doc true rd).
Proof. intros rd. unfold parse_doc. auto with returns. Qed.

Lemma parse_module_wf : forall fx m im, parse_module fx m = Ok im -> wf_module (snd im).
Proof.
  intros fx m im H. unfold parse_module in H.
  apply bind_ok in H as (key & _ & H). apply bind_ok in H as (gates & _ & H). apply bind_ok in H as (subs & _ & H).
  apply bind_ok in H as (conns & Ec & H). injection H as <-. unfold wf_module. cbn [snd md_conns].
  apply io_ok, collect_ok in Ec. induction Ec as [|raw c l v Hraw _ IH]; constructor; [|exact IH].
  apply bind_ok in Hraw as (a & Ea & Hraw). apply bind_ok in Hraw as (b & Eb & Hraw). injection Hraw as <-.
  split; cbn [cd_lhs cd_rhs]; eapply endpoint_from_str_nonempty; eassumption.
Qed.

Lemma parse_doc_wf : forall fx rd d, parse_doc fx rd = Ok d -> wf_parsed d.
Proof.
  intros fx rd d H. unfold parse_doc in H. apply bind_ok in H as (ms & Ec & H). injection H as <-.
  unfold wf_parsed. cbn [d_modules]. apply collect_ok in Ec. induction Ec as [|m im l v Hm _ IH]; constructor; [|exact IH].
  exact (parse_module_wf fx m im Hm).
Qed.

Definition elaborate_document (fx : bool) (rd : raw_doc) : res Node := do d <- parse_doc fx rd; transform fx d.
