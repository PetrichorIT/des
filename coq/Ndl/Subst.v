(* The substitution step of transform_submodule (mod.rs, "Replace all instances of the generic
   binding with the concrete typ"): when `x: G(A1, .., An)` elaborates, EVERY submodule field of G's
   archetype whose type is the i-th type parameter carries the elaborated node of Ai afterwards, every
   other field is untouched, and no field keeps a placeholder -- for all instantiations. *)
From Coq Require Import List NArith Bool PeanoNat.
From DesVerif Require Import Ndl.Bytes Ndl.BytesProps Ndl.Grammar Ndl.GrammarProps Ndl.Def Ndl.Transform.
Import ListNotations.

(* the substitution the arguments denote: (parameter, elaborated argument) in parameter order *)
Fixpoint sigma_of (nodes : archetypes) (reqs : list Generic) (args : list ident) : list (ident * Node) :=
  match reqs, args with
  | gb :: reqs', name :: args' =>
    match lookup name nodes with
    | Some (repl, _) => (g_binding gb, repl) :: sigma_of nodes reqs' args'
    | None => []
    end
  | _, _ => []
  end.

(* a successful run of the replacement loop, round by round (also what DenoteTree.sigma_matches inducts on) *)
Inductive replace_run (fx : bool) (self_args : list Generic) (nodes : archetypes) :
  list Generic -> list ident -> Node -> Node -> Prop :=
| RR_nil : forall args node, replace_run fx self_args nodes [] args node node
| RR_cons : forall gb reqs name args repl iface gi node node',
    (fx && is_binding self_args name) = false ->
    lookup name nodes = Some (repl, []) -> lookup (g_bound gb) nodes = Some (iface, gi) ->
    conform_to repl iface = true ->
    replace_run fx self_args nodes reqs args
      (mkNode (n_typ node) (replace_subs (g_binding gb) repl (n_subs node)) (n_gates node) (n_conns node)) node' ->
    replace_run fx self_args nodes (gb :: reqs) (name :: args) node node'.

Lemma replace_loop_ok : forall fx self_args nodes reqs args node node',
  replace_loop fx self_args nodes reqs args node = Ok node' -> replace_run fx self_args nodes reqs args node node'.
Proof.
  intros fx self_args nodes reqs. induction reqs as [|gb reqs IH]; intros args node node' H; cbn [replace_loop] in H.
  - injection H as <-. constructor.
  - destruct args as [|name args]; [discriminate H|].
    destruct (fx && is_binding self_args name) eqn:Eb; [discriminate H|].
    destruct (lookup name nodes) as [[repl deps]|] eqn:E1; [|discriminate H].
    destruct deps; [|destruct fx; discriminate H].
    destruct (lookup (g_bound gb) nodes) as [[iface gi]|] eqn:E2; [|discriminate H].
    destruct (conform_to repl iface) eqn:Ec; [|discriminate H].
    exact (RR_cons _ _ _ _ _ _ _ _ _ _ _ _ Eb E1 E2 Ec (IH _ _ _ H)).
Qed.

Lemma replace_run_spec : forall fx self_args nodes reqs args node node',
  replace_run fx self_args nodes reqs args node node' ->
  node' = mkNode (n_typ node) (map (subst_field (sigma_of nodes reqs args)) (n_subs node)) (n_gates node) (n_conns node) /\
  map fst (sigma_of nodes reqs args) = map g_binding reqs.
Proof.
  intros fx self_args nodes reqs args node node' H.
  induction H as [args node|gb reqs name args repl iface gi node node' _ E1 _ _ _ [-> E]].
  - split; [|reflexivity]. destruct node as [t s g c]. cbn [sigma_of n_typ n_subs n_gates n_conns].
    unfold subst_field. cbn [fold_left]. rewrite map_id. reflexivity.
  - cbn [sigma_of]. rewrite E1. cbn [map fst n_typ n_subs n_gates n_conns]. split.
    + f_equal. unfold replace_subs. rewrite map_map. reflexivity.
    + f_equal. exact E.
Qed.

Lemma replace_loop_spec : forall fx self_args nodes reqs args node node',
  replace_loop fx self_args nodes reqs args node = Ok node' ->
  node' = mkNode (n_typ node) (map (subst_field (sigma_of nodes reqs args)) (n_subs node)) (n_gates node) (n_conns node) /\
  map fst (sigma_of nodes reqs args) = map g_binding reqs.
Proof.
  intros fx self_args nodes reqs args node node' H.
  exact (replace_run_spec _ _ _ _ _ _ _ (replace_loop_ok _ _ _ _ _ _ _ H)).
Qed.

(* the two shapes of a submodule field that elaborates: `f: M` and `f: G(A1..An)` *)
Inductive submodule_built (fx : bool) field self typ (nodes : archetypes) : FieldDef * Node -> Prop :=
| SB_plain : forall node,
    tc_args typ = [] -> lookup (inner_ty_to_outer_ty (tc_args self) (tc_ident typ)) nodes = Some (node, []) ->
    submodule_built fx field self typ nodes (field, set_typ node (tc_ident typ))
| SB_generic : forall node reqs node',
    tc_args typ <> [] -> (fx && is_binding (tc_args self) (tc_ident typ)) = false ->
    lookup (tc_ident typ) nodes = Some (node, reqs) -> length reqs = length (tc_args typ) ->
    replace_loop fx (tc_args self) nodes reqs (tc_args typ) node = Ok node' ->
    submodule_built fx field self typ nodes (field, node').

Lemma transform_submodule_ok : forall fx field self typ nodes res,
  transform_submodule fx field self typ nodes = Ok res ->
  kard_eqb (fd_kard field) (Cluster 0) = false /\ submodule_built fx field self typ nodes res.
Proof.
  intros fx field self [name args] nodes res H. unfold transform_submodule in H. cbn [tc_args tc_ident] in H.
  destruct (kard_eqb _ _); [discriminate H|]. split; [reflexivity|].
  destruct args as [|a0 r0].
  - destruct (lookup _ nodes) as [[node reqs]|] eqn:El; [|discriminate H]. destruct reqs; [|discriminate H].
    injection H as <-. apply SB_plain; [reflexivity|exact El].
  - destruct (fx && _) eqn:Eb; [discriminate H|].
    destruct (lookup _ nodes) as [[node reqs]|] eqn:El; [|discriminate H].
    destruct (Nat.eqb (length reqs) (length (a0 :: r0))) eqn:Elen; [|discriminate H]. apply Nat.eqb_eq in Elen.
    apply bind_ok in H as (node' & Er & H). injection H as <-.
    apply (SB_generic _ _ _ _ _ node reqs node'); [discriminate|exact Eb|exact El|exact Elen|exact Er].
Qed.

Lemma subst_field_miss : forall sigma s, ~ In (n_typ (snd s)) (map fst sigma) -> subst_field sigma s = s.
Proof.
  intros sigma s. unfold subst_field. induction sigma as [|[b r] sigma IH]; intros Hs; [reflexivity|].
  cbn [fold_left]. unfold subst1 at 2. cbn [fst snd]. destruct (beq (n_typ (snd s)) b) eqn:Eb.
  - apply beq_eq in Eb. exfalso. apply Hs. left. symmetry. exact Eb.
  - apply IH. intros Hi. apply Hs. right. exact Hi.
Qed.

(* ... and no field keeps a placeholder: when the arguments' own symbols are not parameter names, no submodule of
   the instantiated node has a parameter as its type *)
Lemma subst_field_no_placeholder : forall sigma s,
  (forall b r, In (b, r) sigma -> ~ In (n_typ r) (map fst sigma)) ->
  ~ In (n_typ (snd (subst_field sigma s))) (map fst sigma).
Proof.
  (* the last parameter either replaced the field, by a node whose symbol is no parameter, or left it as the
     earlier ones made it *)
  intros sigma s. unfold subst_field. induction sigma as [|[b r] sg IH] using rev_ind; intros Hfresh; [intros []|].
  rewrite fold_left_app. cbn [fold_left]. unfold subst1 at 1. cbn [fst snd].
  destruct (beq (n_typ (snd (fold_left subst1 sg s))) b) eqn:Eb.
  - apply (Hfresh b r). apply in_or_app. right. left. reflexivity.
  - rewrite map_app. intros Hi. apply in_app_or in Hi as [Hi|[E|[]]].
    + revert Hi. apply IH. intros b' r' Hin Hi. apply (Hfresh b' r' (in_or_app _ _ _ (or_introl Hin))).
      rewrite map_app. apply in_or_app. left. exact Hi.
    + cbn [fst] in E. rewrite E, beq_refl in Eb. discriminate Eb.
Qed.
