(* des-net-utils/src/ndl/mod.rs, function by function: required_symbols (def.rs), the
   dependency-ordering loop of [transform], transform_module / _gates / _submodules /
   _submodule / _connections / _connection / _connection_endpoint(_inner) and
   iter_for_kardinality_access.  The numbers (0) (1) (2) (4b) (5) in the section comments are those of
   the comments in transform_module of mod.rs; its (3) and (4) are part of [transform_module] here.

   The flag [fx] selects the version of the Rust code, here and in Grammar.v: [fx = true] is /repo
   with fix: 5295e98 (the expect/assert sites of def.rs and mod.rs report errors) and fix: a6f4ffc
   (two submodule fields of one name and shape are rejected); [fx = false] is the code before both
   fixes, called the pinned code wherever it is mentioned. *)
From Coq Require Import List NArith Bool.
From DesVerif Require Import Ndl.Bytes Ndl.Grammar Ndl.Def.
Import ListNotations.
Open Scope N_scope.

Definition archetypes := list (ident * (Node * list Generic)).

(* TypClause<ModuleGenericsDef>::inner_ty_to_outer_ty *)
Fixpoint inner_ty_to_outer_ty (args : list Generic) (s : ident) : ident :=
  match args with
  | [] => s
  | a :: r => if beq (g_binding a) s then g_bound a else inner_ty_to_outer_ty r s
  end.

Definition is_binding (args : list Generic) (s : ident) : bool := existsb (fun a => beq (g_binding a) s) args.

(* ModuleDef::required_symbols *)
Definition required_symbols (typ : TypClause Generic) (m : ModuleDef) : list ident :=
  let s0 := map (fun st => tc_ident (snd st)) (md_subs m) ++ flat_map (fun st => tc_args (snd st)) (md_subs m) in
  let s1 := filter (fun x => negb (is_binding (tc_args typ) x)) s0 in
  s1 ++ map g_bound (tc_args typ) ++ match md_inherit m with Some p => [p] | None => [] end.

(* ---- (0) the ordering loop ---- *)
Definition entry := (TypClause Generic * ModuleDef * list ident)%type.
Definition e_ident (e : entry) : ident := tc_ident (fst (fst e)).

Fixpoint position {A} (f : A -> bool) (l : list A) : option nat :=
  match l with
  | [] => None
  | a :: r => if f a then Some O else option_map S (position f r)
  end.

(* slice.swap(0, k) on the remaining part modules[idx..] *)
Definition swap0 {A} (k : nat) (l : list A) : option (list A) :=
  match k, l with
  | O, _ :: _ => Some l
  | S k', a :: r =>
    match nth_error r k' with
    | Some b => Some (b :: firstn k' r ++ a :: skipn (S k') r)
    | None => None
    end
  | _, [] => None
  end.

Definition resolvable (prov : list ident) (e : entry) : bool := forallb (fun s => mem_ident s prov) (snd e).

Fixpoint order_loop (fuel : nat) (done : list entry) (rest : list entry) (prov : list ident) : res (list entry) :=
  match rest with
  | [] => Ok (rev done)
  | _ :: _ =>
    match fuel with
    | O => OutOfFuel
    | S f =>
      match position (resolvable prov) rest with
      | None => Err K_UNRESOLVABLE_DEPENDENCY
      | Some next =>
        match swap0 next rest with
        | Some (m :: tl) => order_loop f (m :: done) tl (e_ident m :: prov)
        | _ => Panic P_ORDER_INDEX
        end
      end
    end
  end.

(* ---- (1) gates ---- *)
Definition transform_gates (defs : list FieldDef) : res (list FieldDef) :=
  if existsb (fun v => kard_eqb (fd_kard v) (Cluster 0)) defs then Err K_INVALID_GATE
  else Ok (set_extend [] defs).

(* ---- (2) submodules ---- *)
Definition replace_subs (binding : ident) (repl : Node) (subs : list (FieldDef * Node)) : list (FieldDef * Node) :=
  map (fun s => if beq (n_typ (snd s)) binding then (fst s, repl) else s) subs.

(* the same per field: one field through a substitution (parameter, node), parameter by parameter *)
Definition subst1 (s : FieldDef * Node) (br : ident * Node) : FieldDef * Node :=
  if beq (n_typ (snd s)) (fst br) then (fst s, snd br) else s.
Definition subst_field (sigma : list (ident * Node)) (s : FieldDef * Node) : FieldDef * Node :=
  fold_left subst1 sigma s.

Fixpoint replace_loop (fx : bool) (self_args : list Generic) (nodes : archetypes)
         (req_args : list Generic) (args : list ident) (node : Node) : res Node :=
  match req_args with
  | [] => Ok node
  | gb :: req' =>
    match args with
    | [] => Panic P_TYP_ARGS_INDEX
    | name :: args' =>
      if fx && is_binding self_args name then Err K_GENERIC_PASSED_AS_TYP_ARGUMENT else
      match lookup name nodes with
      | None => Panic P_REPLACEMENT_LOOKUP
      | Some (repl, repl_deps) =>
        match repl_deps with
        | _ :: _ => if fx then Err K_INVALID_TYP_STATEMENT else Panic P_ASSERT_REPLACEMENT_DEPS
        | [] =>
          match lookup (g_bound gb) nodes with
          | None => Panic P_INTERFACE_LOOKUP
          | Some (iface, _) =>
            if negb (conform_to repl iface) then Err K_DOES_NOT_CONFORM
            else replace_loop fx self_args nodes req' args'
                              (mkNode (n_typ node) (replace_subs (g_binding gb) repl (n_subs node)) (n_gates node) (n_conns node))
          end
        end
      end
    end
  end.

Definition transform_submodule (fx : bool) (field : FieldDef) (self : TypClause Generic) (typ : TypClause ident)
           (nodes : archetypes) : res (FieldDef * Node) :=
  if kard_eqb (fd_kard field) (Cluster 0) then Err K_INVALID_SUBMODULE else
  match tc_args typ with
  | [] =>
    match lookup (inner_ty_to_outer_ty (tc_args self) (tc_ident typ)) nodes with
    | None => Panic P_SUBMODULE_TYP_LOOKUP
    | Some (node, reqs) =>
      match reqs with
      | [] => Ok (field, set_typ node (tc_ident typ))
      | _ :: _ => Err K_INVALID_TYP_STATEMENT
      end
    end
  | _ :: _ =>
    if fx && is_binding (tc_args self) (tc_ident typ) then Err K_INVALID_TYP_STATEMENT else
    match lookup (tc_ident typ) nodes with
    | None => Panic P_GENERIC_BASE_LOOKUP
    | Some (node, req_args) =>
      if negb (Nat.eqb (length req_args) (length (tc_args typ))) then Err K_INVALID_TYP_STATEMENT
      else do node' <- replace_loop fx (tc_args self) nodes req_args (tc_args typ) node; Ok (field, node')
    end
  end.

Definition transform_submodules (fx : bool) (self : TypClause Generic) (defs : list (FieldDef * TypClause ident))
           (nodes : archetypes) : res (list (FieldDef * Node)) :=
  collect (fun ft => transform_submodule fx (fst ft) self (snd ft) nodes) defs.

(* ---- (5) connections ---- *)
Definition iter_for_kardinality_access (def access : FieldDef) : res (list Accessor) :=
  let name := fd_ident access in
  match fd_kard def, fd_kard access with
  | Atom, Atom => Ok [{| ac_name := name; ac_index := None |}]
  | Cluster n, Cluster i => if i <? n then Ok [{| ac_name := name; ac_index := Some i |}]
                            else Err K_CONNECTION_INDEX_OUT_OF_BOUNDS
  | Atom, Cluster _ => Err K_CONNECTION_INDEX_OUT_OF_BOUNDS
  | Cluster n, Atom => Ok (map (fun i => {| ac_name := name; ac_index := Some i |}) (rangeN n))
  end.

Fixpoint collect_concat {A B} (f : A -> res (list B)) (l : list A) : res (list B) :=
  match l with
  | [] => Ok []
  | a :: r => do x <- f a; do y <- collect_concat f r; Ok (x ++ y)
  end.

Fixpoint transform_connection_endpoint_inner (pos : list Accessor) (accessors : list FieldDef)
         (subs : list (FieldDef * Node)) (gates : list FieldDef) : res (list Endpoint) :=
  match accessors with
  | [] => Panic P_ACCESSORS_EMPTY
  | accessor :: rest =>
    match rest with
    | [] =>
      match find (fun g => beq (fd_ident g) (fd_ident accessor)) gates with
      | None => Err K_UNKNOWN_GATE_IN_CONNECTION
      | Some gate_def => do it <- iter_for_kardinality_access gate_def accessor;
                         Ok (map (fun fin => pos ++ [fin]) it)
      end
    | _ :: _ =>
      match find (fun s => beq (fd_ident (fst s)) (fd_ident accessor)) subs with
      | None => Err K_UNKNOWN_SUBMODULE_IN_CONNECTION
      | Some (sname, snode) =>
        do it <- iter_for_kardinality_access sname accessor;
        collect_concat (fun lm => transform_connection_endpoint_inner (pos ++ [lm]) rest (n_subs snode) (n_gates snode)) it
      end
    end
  end.

Definition transform_connection_endpoint (accessors : list FieldDef) subs gates : res (list Endpoint) :=
  transform_connection_endpoint_inner [] accessors subs gates.

Definition transform_connection (def : ConnDef) subs gates (links : list (ident * Link)) : res (list Conn) :=
  do lhs <- transform_connection_endpoint (cd_lhs def) subs gates;
  do rhs <- transform_connection_endpoint (cd_rhs def) subs gates;
  if negb (Nat.eqb (length lhs) (length rhs)) then Err K_UNEQUAL_PEERS else
  do link <- match cd_link def with
             | None => Ok None
             | Some l => match lookup l links with Some v => Ok (Some v) | None => Err K_UNKNOWN_LINK end
             end;
  Ok (map (fun lr => {| cn_l := fst lr; cn_r := snd lr; cn_link := link |}) (combine lhs rhs)).

Definition transform_connections (initial : list Conn) (defs : list ConnDef) subs gates links : res (list Conn) :=
  do more <- collect_concat (fun d => transform_connection d subs gates links) defs;
  Ok (initial ++ more).

(* ---- transform_module ---- *)
Fixpoint has_dup_binding (args : list Generic) : bool :=
  match args with
  | [] => false
  | a :: r => is_binding r (g_binding a) || has_dup_binding r
  end.

(* (4b) two submodule fields of one name and shape (both atoms or both clusters) *)
Definition same_shape (a b : Kard) : bool :=
  match a, b with Atom, Atom => true | Cluster _, Cluster _ => true | _, _ => false end.
Fixpoint has_dup_field (subs : list (FieldDef * Node)) : bool :=
  match subs with
  | [] => false
  | s :: r => existsb (fun o => beq (fd_ident (fst s)) (fd_ident (fst o)) && same_shape (fd_kard (fst s)) (fd_kard (fst o))) r
              || has_dup_field r
  end.

Definition transform_module (fx : bool) (self : TypClause Generic) (def : ModuleDef) (nodes : archetypes)
           (links : list (ident * Link)) : res (Node * list Generic) :=
  if has_dup_binding (tc_args self) then Err K_SYMBOL_ALREADY_DEFINED else
  do gates <- transform_gates (md_gates def);
  do subs <- transform_submodules fx self (md_subs def) nodes;
  do inh <- match md_inherit def with
            | None => Ok (gates, subs, [])
            | Some parent =>
              match lookup parent nodes with
              | None => Panic P_INHERIT_LOOKUP
              | Some (arch, _) => Ok (set_extend gates (n_gates arch), subs ++ n_subs arch, n_conns arch)
              end
            end;
  let '(gates, subs, conns0) := inh in
  if fx && has_dup_field subs then Err K_SYMBOL_ALREADY_DEFINED else
  do conns <- transform_connections conns0 (md_conns def) subs gates links;
  Ok (mkNode (tc_ident self) subs gates conns, tc_args self).

(* ---- transform ---- *)
Fixpoint elaborate (fx : bool) (ordered : list entry) (arch : archetypes) (links : list (ident * Link)) : res archetypes :=
  match ordered with
  | [] => Ok arch
  | e :: r => do a <- transform_module fx (fst (fst e)) (snd (fst e)) arch links;
              elaborate fx r ((e_ident e, a) :: arch) links
  end.

Definition entries (d : Def) : list entry := map (fun im => (im, required_symbols (fst im) (snd im))) (d_modules d).

Definition transform (fx : bool) (d : Def) : res Node :=
  do ordered <- order_loop (S (length (d_modules d))) [] (entries d) [];
  do arch <- elaborate fx ordered [] (d_links d);
  match lookup (d_entry d) arch with
  | Some (n, _) => Ok n
  | None => Err K_UNKNOWN_MODULE
  end.

(* ---- every error the hash-map iteration order could surface ----
   The code walks FxHashMaps (module definitions, submodule fields); which of several faulty
   items it meets first is an artefact of the hash.  [cands] lists the kind of every item
   that can be met first: every faulty submodule field of a module, for every faulty module
   all of whose dependencies elaborate. *)
Definition module_cands (fx : bool) (self : TypClause Generic) (def : ModuleDef) (nodes : archetypes) links : list N :=
  if has_dup_binding (tc_args self) then [K_SYMBOL_ALREADY_DEFINED] else
  match transform_gates (md_gates def) with
  | Err k => [k]
  | _ =>
    let es := flat_map (fun ft => match transform_submodule fx (fst ft) self (snd ft) nodes with Err k => [k] | _ => [] end) (md_subs def) in
    match es with
    | _ :: _ => es
    | [] => match transform_module fx self def nodes links with Err k => [k] | _ => [] end
    end
  end.

Fixpoint elaborate_all (fx : bool) (ordered : list entry) (arch : archetypes) (failed : list ident) links : archetypes * list N :=
  match ordered with
  | [] => (arch, [])
  | e :: r =>
    if existsb (fun s => mem_ident s failed) (snd e) then elaborate_all fx r arch (e_ident e :: failed) links
    else match transform_module fx (fst (fst e)) (snd (fst e)) arch links with
         | Ok a => elaborate_all fx r ((e_ident e, a) :: arch) failed links
         | _ => let '(arch', ks) := elaborate_all fx r arch (e_ident e :: failed) links in
                (arch', module_cands fx (fst (fst e)) (snd (fst e)) arch links ++ ks)
         end
  end.

Definition cands (fx : bool) (d : Def) : list N :=
  match order_loop (S (length (d_modules d))) [] (entries d) [] with
  | Ok ordered =>
    let '(arch, ks) := elaborate_all fx ordered [] [] (d_links d) in
    match ks with
    | _ :: _ => ks
    | [] => match lookup (d_entry d) arch with Some _ => [] | None => [K_UNKNOWN_MODULE] end
    end
  | Err k => [k]
  | _ => []
  end.
