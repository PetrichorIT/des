(* [returns] (Ok or Err) with its inversion lemmas for bind and collect and the hint database that walks
   `do` chains; totality of the FromStr / Display impls of def.rs (no input string panics); what the
   round trips from_str (display v) = Ok v need about well-formed values; the assert! of the pinned code. *)
From Coq Require Import List NArith Bool.
From DesVerif Require Import Ndl.Bytes Ndl.BytesProps Ndl.Grammar.
Import ListNotations.
Open Scope N_scope.

(* the function returned: Ok or Err, no panic, no fuel exhaustion *)
Definition returns {A} (r : res A) : Prop := match r with Ok _ | Err _ => True | _ => False end.

Lemma returns_bind_ok : forall {A B} (r : res A) (f : A -> res B),
  returns r -> (forall a, r = Ok a -> returns (f a)) -> returns (bind r f).
Proof. intros A B [a|e|s|] f Hr Hf; cbn in *; auto. Qed.

Lemma returns_bind : forall {A B} (r : res A) (f : A -> res B),
  returns r -> (forall a, returns (f a)) -> returns (bind r f).
Proof. intros A B r f Hr Hf. apply returns_bind_ok; auto. Qed.

Lemma bind_ok : forall {A B} (r : res A) (f : A -> res B) b,
  bind r f = Ok b -> exists a, r = Ok a /\ f a = Ok b.
Proof. intros A B [a|e|s|] f b H; try discriminate H. exists a. split; [reflexivity|exact H]. Qed.

Lemma bind_err : forall {A B} (r : res A) (f : A -> res B) k,
  bind r f = Err k -> r = Err k \/ exists a, r = Ok a /\ f a = Err k.
Proof.
  intros A B [a|e|s|] f k H; try discriminate H.
  - right. exists a. split; [reflexivity|exact H].
  - left. injection H as ->. reflexivity.
Qed.

(* [returns] is closed under what the functions are written with: Ok, Err, bind, `if`, `match` on an option
   or a pair, collect.  The closure lemmas of io (Doc.v) and collect_concat (Total.v) and the totality lemmas
   of the functions that need no hypothesis join where they are proved.  [auto n with returns] walks a `do`
   chain; n bounds its nesting (one per bind, `if`, `match` and collect; 5 when omitted).  A lemma with a side
   condition (a non-empty endpoint, wf_conn, a table holding the required symbols) is not a hint: it is applied
   by hand, so that each use of such a fact shows; returns_bind_ok stays out as well, its premise [r = Ok a]
   would be introduced at every bind.  Constants are opaque to the Resolve hints, so each applies to the
   function it names only; [exact I] and hypotheses convert freely, so the last hint also closes an `if` or
   `match` that reduces to Ok or Err. *)
Create HintDb returns discriminated.
#[export] Hint Constants Opaque : returns.

Lemma returns_if : forall {A} (c : bool) (x y : res A), returns x -> returns y -> returns (if c then x else y).
Proof. intros A [|] x y Hx Hy; assumption. Qed.

Lemma returns_option : forall {A B} (o : option A) (f : A -> res B) e,
  (forall a, returns (f a)) -> returns e -> returns (match o with Some a => f a | None => e end).
Proof. intros A B [a|] f e Hf He; [apply Hf|exact He]. Qed.

Lemma returns_pair : forall {A B C} (p : A * B) (f : A -> B -> res C),
  (forall a b, returns (f a b)) -> returns (let '(a, b) := p in f a b).
Proof. intros A B C [a b] f Hf. apply Hf. Qed.

#[export] Hint Resolve returns_bind returns_if returns_option returns_pair : returns.
#[export] Hint Extern 0 (returns _) => exact I : returns.

Lemma collect_returns_in : forall {A B} (f : A -> res B) l,
  (forall a, In a l -> returns (f a)) -> returns (collect f l).
Proof.
  intros A B f l Hf. induction l as [|a l IH]; cbn [collect]; eauto 8 with returns datatypes.
Qed.
#[export] Hint Resolve collect_returns_in : returns.

Lemma collect_ok : forall {A B} (f : A -> res B) l v,
  collect f l = Ok v <-> Forall2 (fun a b => f a = Ok b) l v.
Proof.
  intros A B f l. induction l as [|a l IH]; intros v; cbn [collect]; split; intros H.
  - injection H as <-. constructor.
  - inversion H. reflexivity.
  - apply bind_ok in H as (b & Eb & H). apply bind_ok in H as (bs & Ebs & H). injection H as <-.
    constructor; [exact Eb|apply IH; exact Ebs].
  - inversion H as [|? b ? bs Eb Hbs]; subst. apply IH in Hbs. rewrite Eb, Hbs. reflexivity.
Qed.

Lemma collect_err : forall {A B} (f : A -> res B) l k,
  collect f l = Err k -> exists a, In a l /\ f a = Err k.
Proof.
  intros A B f l k. induction l as [|a l IH]; intros H; cbn [collect] in H; [discriminate H|].
  apply bind_err in H as [Ea|(b & _ & H)]; [exists a; split; [left; reflexivity|exact Ea]|].
  apply bind_err in H as [El|(bs & _ & H)]; [|discriminate H].
  destruct (IH El) as (a' & Ha' & Ea'). exists a'. split; [right; exact Ha'|exact Ea'].
Qed.

Lemma typclause_from_str_returns : forall {A} (arg : bytes -> res A) s,
  (forall x, returns (arg x)) -> returns (typclause_from_str true arg s).
Proof.
  intros A arg s Harg. unfold typclause_from_str.
  destruct (split_once_char LPAREN s) as [[ident rem]|]; [|exact I].
  (* a missing closing parenthesis: Err with [fx = true]; with [false] this leaf is the assert! *)
  destruct (negb (last_is RPAREN rem)); [exact I|]. auto with returns.
Qed.

Lemma generic_from_str_returns : forall s, returns (generic_from_str s).
Proof. intros s. unfold generic_from_str. auto with returns. Qed.

Lemma field_from_str_returns : forall s, returns (field_from_str s).
Proof. intros s. unfold field_from_str. auto 7 with returns. Qed.
#[export] Hint Resolve typclause_from_str_returns generic_from_str_returns field_from_str_returns : returns.

Lemma endpoint_from_str_returns : forall s, returns (endpoint_from_str s).
Proof. intros s. unfold endpoint_from_str. auto with returns. Qed.
#[export] Hint Resolve endpoint_from_str_returns : returns.

Lemma typclause_display_returns : forall {A} (d : A -> bytes) t, returns (typclause_display d t).
Proof.
  intros A d t. unfold typclause_display. destruct (tc_args t) as [|a r]; [exact I|].
  cbn [map reduce_args bind]. exact I.
Qed.

Lemma split_char_acc_nonempty : forall c s cur, split_char_acc c cur s <> [].
Proof.
  intros c s. induction s as [|x s IH]; intros cur; cbn [split_char_acc]; [discriminate|].
  destruct (x =? c); [discriminate|apply IH].
Qed.

Lemma collect_length : forall {A B} (f : A -> res B) l v, collect f l = Ok v -> length v = length l.
Proof. intros A B f l v H. apply collect_ok in H. induction H; cbn [length]; congruence. Qed.

(* an endpoint that parses has at least one accessor (transform's assert!(!accessors.is_empty())) *)
Lemma endpoint_from_str_nonempty : forall s e, endpoint_from_str s = Ok e -> e <> [].
Proof.
  intros s e H. apply collect_length in H. intros ->. cbn [length] in H.
  unfold split_char in H. pose proof (split_char_acc_nonempty SLASH s []) as Hn.
  destruct (split_char_acc SLASH [] s); [congruence|discriminate].
Qed.

(* ---- round trips ---- *)
Definition wf_kard (k : Kard) : Prop := match k with Atom => True | Cluster n => n <= USIZE_MAX end.
Definition wf_field (f : FieldDef) : Prop := wf_name (fd_ident f) /\ wf_kard (fd_kard f).
Definition wf_generic (g : Generic) : Prop := wf_name (g_binding g) /\ wf_name (g_bound g).

Lemma field_display_not_in : forall f c, wf_field f -> name_char c = false -> c <> LBRACK -> c <> RBRACK ->
  ~ In c (field_display f).
Proof.
  intros f c [Hn _] Hc Hl Hr. unfold field_display. destruct (fd_kard f) as [|n]; [exact (wf_name_not_in _ _ Hn Hc)|].
  rewrite !in_app_iff. intros [H|[H|[H|H]]].
  - exact (wf_name_not_in _ _ Hn Hc H).
  - destruct H as [E|[]]. congruence.
  - exact (wf_name_not_in _ _ (to_dec_name n) Hc H).
  - destruct H as [E|[]]. congruence.
Qed.

Lemma generic_display_not_in : forall g c, wf_generic g -> name_char c = false -> c <> SPACE -> c <> LT -> c <> MINUS ->
  ~ In c (generic_display g).
Proof.
  intros g c [Ha Hb] Hc H1 H2 H3. unfold generic_display. rewrite !in_app_iff. intros [H|[H|H]].
  - exact (wf_name_not_in _ _ Ha Hc H).
  - destruct H as [E|[E|[E|[E|[]]]]]; congruence.
  - exact (wf_name_not_in _ _ Hb Hc H).
Qed.

Lemma collect_map_roundtrip : forall {A} (parse : bytes -> res A) (disp : A -> bytes) l,
  Forall (fun a => parse (disp a) = Ok a) l -> collect parse (map disp l) = Ok l.
Proof.
  intros A parse disp l H. apply collect_ok. induction H as [|a l Ha _ IH]; cbn [map]; constructor; assumption.
Qed.

(* TypClause<Arg>: the displayed arguments must not contain the separator's comma *)
Lemma typclause_roundtrip : forall {A} (parse : bytes -> res A) (disp : A -> bytes) (t : TypClause A),
  wf_name (tc_ident t) ->
  Forall (fun a => parse (disp a) = Ok a /\ ~ In COMMA (disp a) /\ ~ In RPAREN (disp a)) (tc_args t) ->
  exists s, typclause_display disp t = Ok s /\ typclause_from_str true parse s = Ok t.
Proof.
  intros A parse disp [ident args] Hn Hargs. cbn [tc_ident tc_args] in *.
  unfold typclause_display. cbn [tc_ident tc_args]. destruct args as [|a r].
  - exists ident. split; [reflexivity|]. unfold typclause_from_str.
    rewrite split_once_char_none; [reflexivity|]. apply wf_name_not_in; [exact Hn|reflexivity].
  - set (l := map disp (a :: r)). assert (Hl : l <> []) by discriminate.
    assert (Hred : reduce_args l = Ok (join [COMMA; SPACE] l)) by (unfold l; reflexivity).
    rewrite Hred. cbn [bind]. eexists. split; [reflexivity|].
    unfold typclause_from_str. change ([LPAREN] ++ join [COMMA; SPACE] l ++ [RPAREN]) with (LPAREN :: (join [COMMA; SPACE] l ++ [RPAREN])).
    rewrite split_once_char_app by (apply wf_name_not_in; [exact Hn|reflexivity]).
    rewrite last_is_snoc, N.eqb_refl. cbn [negb].
    rewrite trim_end_matches_snoc.
    2:{ apply not_in_join; [intros [E|[E|[]]]; discriminate E|].
        apply Forall_map. eapply Forall_impl; [|exact Hargs]. intros x Hx. apply Hx. }
    rewrite split_2_join; [|exact Hl|].
    2:{ apply Forall_map. eapply Forall_impl; [|exact Hargs]. intros x Hx. apply Hx. }
    unfold l. rewrite collect_map_roundtrip.
    2:{ eapply Forall_impl; [|exact Hargs]. cbn. tauto. }
    cbn [bind]. rewrite trim_id by (apply wf_name_no_ws; exact Hn). reflexivity.
Qed.

Lemma string_arg_ok : forall s, wf_name s ->
  string_from_str s = Ok s /\ ~ In COMMA s /\ ~ In RPAREN s.
Proof.
  intros s H. split; [reflexivity|]. split; apply wf_name_not_in; try exact H; reflexivity.
Qed.

(* [fx = false], the pinned code: the assert! fires (the witness C18_pinned_unclosed_clause_panics of Refuted/C18.v) *)
Lemma pinned_unclosed_clause_panics :
  typclause_from_str false generic_from_str [65; 40; 84; 32; 60; 45; 32; 73] = Panic P_ASSERT_ENDS_WITH_PAREN.
Proof. reflexivity. Qed.
