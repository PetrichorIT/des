(* Model of the seeded ring simulation of harness/src/bin/determ.rs.
   Randomness is an explicit input: [rs] are the values of the handlers' random
   draws (already reduced mod 4), [js] the jitter samples in ns, both in the order
   in which the run consumes them.  Module identifiers come from an arbitrary
   supply [mid] and are only ever compared for equality.  The event set is the
   two-list specification of C01/C03.  No proofs in this file. *)
From Coq Require Import List NArith PArith Bool.
From DesVerif Require Import Common.Fuel Common.Codec CQueue.Model CQueue.Spec.
Import ListNotations.
Open Scope N_scope.

Record msg := { m_dst : N;      (* module id of the receiver *)
                m_ttl : N; m_token : N;
                m_sent : option N;  (* None for an injected kick *)
                m_hoplat : N }.

Record cfg := { c_k : N; c_lat : list N; c_jit : list N; c_mid : N -> N }.

Record st := { fes : sp; msgs : list msg; rs : list N; js : list N;
               used_r : N; used_j : N; log : list (list N) }.

Definition nthN (l : list N) (i : N) : N := nth (N.to_nat i) l 0.

(* module index of an identifier: first index i < k with mid i = id *)
Fixpoint find_idx (mid : N -> N) (id : N) (k : nat) (i : N) : option N :=
  match k with
  | O => None
  | S k' => if mid i =? id then Some i else find_idx mid id k' (i + 1)
  end.

Definition schedule (s : st) (time : N) (m : msg) : st :=
  let p := N.of_nat (length (msgs s)) in
  {| fes := fst (fst (sp_add (fes s) time p)); msgs := msgs s ++ [m];
     rs := rs s; js := js s; used_r := used_r s; used_j := used_j s; log := log s |}.

Definition take_r (s : st) : N * st :=
  match rs s with
  | [] => (0, {| fes := fes s; msgs := msgs s; rs := []; js := js s;
                 used_r := used_r s + 1; used_j := used_j s; log := log s |})
  | r :: rest => (r mod 4, {| fes := fes s; msgs := msgs s; rs := rest; js := js s;
                             used_r := used_r s + 1; used_j := used_j s; log := log s |})
  end.

Definition take_j (s : st) : N * st :=
  match js s with
  | [] => (0, {| fes := fes s; msgs := msgs s; rs := rs s; js := [];
                 used_r := used_r s; used_j := used_j s + 1; log := log s |})
  | j :: rest => (j, {| fes := fes s; msgs := msgs s; rs := rs s; js := rest;
                        used_r := used_r s; used_j := used_j s + 1; log := log s |})
  end.

Definition add_log (s : st) (e : list N) : st :=
  {| fes := fes s; msgs := msgs s; rs := rs s; js := js s;
     used_r := used_r s; used_j := used_j s; log := log s ++ [e] |}.

(* Ring::handle_message *)
Definition handle (c : cfg) (s : st) (now : N) (m : msg) : st :=
  match find_idx (c_mid c) (m_dst m) (N.to_nat (c_k c)) 0 with
  | None => s
  | Some i =>
      let '(r, s1) := take_r s in
      let jit := match m_sent m with None => 0 | Some t => now - t - m_hoplat m end in
      let s2 := add_log s1 [i; now; m_ttl m; m_token m; r; jit] in
      if (0 <? m_ttl m) && negb (r =? 0) then
        let lat := nthN (c_lat c) i in
        let '(j, s3) := if 0 <? nthN (c_jit c) i then take_j s2 else (0, s2) in
        schedule s3 (now + lat + j)
          {| m_dst := c_mid c ((i + 1) mod c_k c); m_ttl := m_ttl m - 1; m_token := m_token m;
             m_sent := Some now; m_hoplat := lat |}
      else s2
  end.

Definition set_fes (s : st) (f : sp) : st :=
  {| fes := f; msgs := msgs s; rs := rs s; js := js s;
     used_r := used_r s; used_j := used_j s; log := log s |}.

Definition loop_step (c : cfg) (s : st) : st + st :=
  match sp_fetch (fes s) with
  | (f, OFetched p t) =>
      match nth_error (msgs s) (N.to_nat p) with
      | Some m => inl (handle c (set_fes s f) t m)
      | None => inl (set_fes s f)
      end
  | _ => inr s
  end.

(* every token makes at most ttl <= 15 hops; [simulate] below gives 17 * kicks + 1 steps.
   That this is enough is not proved: a run that exhausts it prints [8], which the
   differential run would show. *)
Definition run_loop (c : cfg) (fuel : positive) (s : st) : st * bool :=
  match iter_until fuel (loop_step c) s with
  | inr s' => (s', true)
  | inl s' => (s', false)
  end.

Fixpoint add_kicks (c : cfg) (s : st) (tok : N) (ks : list (N * N * N)) : st :=
  match ks with
  | [] => s
  | (t, dst, ttl) :: r =>
      add_kicks c (schedule s t {| m_dst := c_mid c (dst mod c_k c); m_ttl := ttl mod 16; m_token := tok;
                                   m_sent := None; m_hoplat := 0 |}) (tok + 1) r
  end.

Definition init (rs js : list N) : st :=
  {| fes := sp_new; msgs := []; rs := rs; js := js; used_r := 0; used_j := 0; log := [] |}.

Definition simulate (c : cfg) (ks : list (N * N * N)) (rs js : list N) : st * bool :=
  run_loop c (Pos.of_succ_nat (17 * length ks)) (add_kicks c (init rs js) 0 ks).

(* ---- wire format ----
   seed k (lat jit)*k nk (time dst ttl)*nk rounds d ntasks restarts  nr r*  nj j*
   (rounds, d, ntasks, restarts configure the racing tasks, which only the 3-run comparison observes)
   output: 1 1 n (m now ttl token r jit)*n   -- the two leading ones are the
   reproducibility flags the implementation reports (the model is a function). *)
Fixpoint take_pairs (k : nat) (l : list N) : list (N * N) * list N :=
  match k with
  | O => ([], l)
  | S k' => match l with
            | a :: b :: r => let '(ps, rest) := take_pairs k' r in ((a, b) :: ps, rest)
            | _ => (repeat (0, 0) k, [])
            end
  end.

Fixpoint take_triples (k : nat) (l : list N) : list (N * N * N) * list N :=
  match k with
  | O => ([], l)
  | S k' => match l with
            | a :: b :: c :: r => let '(ts, rest) := take_triples k' r in ((a, b, c) :: ts, rest)
            | _ => ([], [])
            end
  end.

Definition default_mid (i : N) : N := 255 + i.

Definition run_with (mid : N -> N) (input : list N) : list N :=
  match input with
  | _seed :: k0 :: r0 =>
      let k := N.max (k0 mod 6) 1 in
      let '(lj, r1) := take_pairs (N.to_nat k) r0 in
      match r1 with
      | nk :: r2 =>
          let '(ks, r3) := take_triples (N.to_nat nk) r2 in
          let r4 := match r3 with _ :: _ :: _ :: _ :: r => r | _ => [] end in
          let '(rs, r5) := take_lp r4 in
          let '(js, _) := take_lp r5 in
          let c := {| c_k := k; c_lat := map fst lj; c_jit := map snd lj; c_mid := mid |} in
          let '(s, ok) := simulate c ks rs js in
          if ok then [1; 1; N.of_nat (length (log s))] ++ concat (log s) else [8]
      | [] => [7]
      end
  | _ => [7]
  end.

Definition run (input : list N) : list N := run_with default_mid input.
