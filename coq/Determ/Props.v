(* (1) The random stream is consumed at fixed sites -- exactly one
   handler draw per handled message; (2) module identifiers are only compared for
   equality: any injective identifier supply yields the same observable trace. *)
From Coq Require Import List NArith Lia Bool.
From DesVerif Require Import Common.Fuel CQueue.Spec Determ.Model.
Import ListNotations.
Open Scope N_scope.

Definition draws_ok (s : st) : Prop := used_r s = N.of_nat (length (log s)).

Lemma schedule_fields s t m :
  used_r (schedule s t m) = used_r s /\ used_j (schedule s t m) = used_j s /\ log (schedule s t m) = log s /\
  rs (schedule s t m) = rs s /\ js (schedule s t m) = js s.
Proof. repeat split. Qed.

Lemma handle_draws c s now m : draws_ok s -> draws_ok (handle c s now m).
Proof.
  unfold draws_ok, handle. intros H.
  destruct (find_idx (c_mid c) (m_dst m) (N.to_nat (c_k c)) 0) as [i|]; [|exact H].
  assert (Hr : used_r (snd (take_r s)) = used_r s + 1 /\ log (snd (take_r s)) = log s).
  { unfold take_r. destruct (rs s); cbn; split; reflexivity. }
  destruct (take_r s) as [r s1]. cbn [snd] in Hr. destruct Hr as [Hu Hl].
  set (s2 := add_log s1 _).
  assert (H2 : used_r s2 = N.of_nat (length (log s2))).
  { unfold s2, add_log. cbn [used_r log]. rewrite app_length, Hu, Hl, H. cbn [length]. lia. }
  destruct ((0 <? m_ttl m) && negb (r =? 0)); [|exact H2].
  destruct (0 <? nthN (c_jit c) i).
  - assert (Hj : used_r (snd (take_j s2)) = used_r s2 /\ log (snd (take_j s2)) = log s2).
    { unfold take_j. destruct (js s2); cbn; split; reflexivity. }
    destruct (take_j s2) as [j s3]. cbn [snd] in Hj. destruct Hj as [Hu3 Hl3].
    cbn [schedule used_r log]. rewrite Hu3, Hl3. exact H2.
  - cbn [schedule used_r log]. exact H2.
Qed.

Lemma loop_step_draws c s : draws_ok s ->
  match loop_step c s with inl s' | inr s' => draws_ok s' end.
Proof.
  intros H. unfold loop_step. destruct (sp_fetch (fes s)) as [f o]. destruct o; try exact H.
  destruct (nth_error (msgs s) (N.to_nat pay)) as [m|]; [apply handle_draws|]; exact H.
Qed.

Lemma add_kicks_draws c ks : forall s tok, draws_ok s -> draws_ok (add_kicks c s tok ks).
Proof.
  induction ks as [|[[t d] l] ks IH]; intros s tok H; cbn [add_kicks]; [exact H|]. apply IH. exact H.
Qed.

(* one handler draw per logged (= handled) message, no more, no fewer *)
Theorem one_draw_per_handled_message c ks rs0 js0 :
  used_r (fst (simulate c ks rs0 js0)) = N.of_nat (length (log (fst (simulate c ks rs0 js0)))).
Proof.
  unfold simulate, run_loop. rewrite iter_until_nat.
  assert (H0 : draws_ok (add_kicks c (init rs0 js0) 0 ks)) by (apply add_kicks_draws; reflexivity).
  pose proof (iter_nat_inv draws_ok draws_ok (loop_step c) (loop_step_draws c)
                (Pos.to_nat (Pos.of_succ_nat (17 * length ks))) _ H0) as H.
  destruct (iter_nat _ _ _) as [s'|s']; exact H.
Qed.

Lemma Forall2_length {A B} (R : A -> B -> Prop) l1 l2 : Forall2 R l1 l2 -> length l1 = length l2.
Proof. induction 1; cbn; congruence. Qed.

Definition inj_on (mid : N -> N) (k : N) : Prop :=
  forall i j, i < k -> j < k -> mid i = mid j -> i = j.

Lemma find_idx_spec mid k : inj_on mid k -> forall n i0 i,
  i0 + N.of_nat n = k -> i0 <= i -> i < k -> find_idx mid (mid i) n i0 = Some i.
Proof.
  intros Hinj. induction n as [|n IH]; intros i0 i Hk Hle Hlt; [lia|]. cbn [find_idx].
  destruct (mid i0 =? mid i) eqn:E.
  - apply N.eqb_eq in E. f_equal. apply Hinj; [lia|lia|exact E].
  - apply N.eqb_neq in E. apply IH; [lia| |exact Hlt].
    destruct (N.eq_dec i0 i) as [->|]; [congruence|lia].
Qed.

(* messages of the two runs differ only in how the receiver is named *)
Definition msg_rel (mid1 mid2 : N -> N) (k : N) (a b : msg) : Prop :=
  exists i, i < k /\ m_dst a = mid1 i /\ m_dst b = mid2 i /\
            m_ttl a = m_ttl b /\ m_token a = m_token b /\ m_sent a = m_sent b /\ m_hoplat a = m_hoplat b.

Record st_rel (mid1 mid2 : N -> N) (k : N) (a b : st) : Prop := {
  r_fes : fes a = fes b; r_msgs : Forall2 (msg_rel mid1 mid2 k) (msgs a) (msgs b);
  r_rs : rs a = rs b; r_js : js a = js b; r_ur : used_r a = used_r b; r_uj : used_j a = used_j b;
  r_log : log a = log b }.

Definition cfg_with (c : cfg) (mid : N -> N) : cfg :=
  {| c_k := c_k c; c_lat := c_lat c; c_jit := c_jit c; c_mid := mid |}.

Lemma schedule_rel mid1 mid2 k a b t ma mb :
  st_rel mid1 mid2 k a b -> msg_rel mid1 mid2 k ma mb -> st_rel mid1 mid2 k (schedule a t ma) (schedule b t mb).
Proof.
  intros [Hf Hm Hr Hj Hur Huj Hl] Hab. constructor; cbn [schedule fes msgs rs js used_r used_j log]; try assumption.
  - rewrite Hf, (Forall2_length _ _ _ Hm). reflexivity.
  - apply Forall2_app; [exact Hm|constructor; [exact Hab|constructor]].
Qed.

Lemma take_r_rel mid1 mid2 k a b : st_rel mid1 mid2 k a b ->
  fst (take_r a) = fst (take_r b) /\ st_rel mid1 mid2 k (snd (take_r a)) (snd (take_r b)).
Proof.
  intros [Hf Hm Hr Hj Hur Huj Hl]. unfold take_r. rewrite Hr. destruct (rs b) as [|r rest]; cbn [fst snd].
  - split; [reflexivity|]. constructor; cbn [fes msgs rs js used_r used_j log]; try assumption; try reflexivity. rewrite Hur; reflexivity.
  - split; [reflexivity|]. constructor; cbn [fes msgs rs js used_r used_j log]; try assumption; try reflexivity. rewrite Hur; reflexivity.
Qed.

Lemma take_j_rel mid1 mid2 k a b : st_rel mid1 mid2 k a b ->
  fst (take_j a) = fst (take_j b) /\ st_rel mid1 mid2 k (snd (take_j a)) (snd (take_j b)).
Proof.
  intros [Hf Hm Hr Hj Hur Huj Hl]. unfold take_j. rewrite Hj. destruct (js b) as [|j rest]; cbn [fst snd].
  - split; [reflexivity|]. constructor; cbn [fes msgs rs js used_r used_j log]; try assumption; try reflexivity. rewrite Huj; reflexivity.
  - split; [reflexivity|]. constructor; cbn [fes msgs rs js used_r used_j log]; try assumption; try reflexivity. rewrite Huj; reflexivity.
Qed.

Lemma add_log_rel mid1 mid2 k a b e : st_rel mid1 mid2 k a b -> st_rel mid1 mid2 k (add_log a e) (add_log b e).
Proof.
  intros [Hf Hm Hr Hj Hur Huj Hl]. constructor; cbn [add_log fes msgs rs js used_r used_j log]; try assumption.
  rewrite Hl; reflexivity.
Qed.

Lemma handle_rel c mid1 mid2 a b now ma mb :
  c_k c <> 0 -> inj_on mid1 (c_k c) -> inj_on mid2 (c_k c) ->
  st_rel mid1 mid2 (c_k c) a b -> msg_rel mid1 mid2 (c_k c) ma mb ->
  st_rel mid1 mid2 (c_k c) (handle (cfg_with c mid1) a now ma) (handle (cfg_with c mid2) b now mb).
Proof.
  intros Hk I1 I2 HR [i [Hi [Da [Db [Et [Ek [Es Eh]]]]]]]. unfold handle. cbn [cfg_with c_mid c_k c_lat c_jit].
  rewrite Da, Db.
  rewrite (find_idx_spec mid1 (c_k c) I1 (N.to_nat (c_k c)) 0 i) by lia.
  rewrite (find_idx_spec mid2 (c_k c) I2 (N.to_nat (c_k c)) 0 i) by lia.
  pose proof (take_r_rel _ _ _ _ _ HR) as HRr.
  destruct (take_r a) as [r a1]. destruct (take_r b) as [r' b1]. cbn [fst snd] in HRr. destruct HRr as [<- HR1].
  rewrite Et, Ek, Es, Eh.
  set (e := [i; now; m_ttl mb; m_token mb; r; match m_sent mb with Some t => now - t - m_hoplat mb | None => 0 end]).
  pose proof (add_log_rel _ _ _ _ _ e HR1) as HR2.
  destruct ((0 <? m_ttl mb) && negb (r =? 0)); [|exact HR2].
  assert (Hm' : forall t0, msg_rel mid1 mid2 (c_k c)
            {| m_dst := mid1 ((i + 1) mod c_k c); m_ttl := m_ttl mb - 1; m_token := m_token mb; m_sent := Some t0; m_hoplat := nthN (c_lat c) i |}
            {| m_dst := mid2 ((i + 1) mod c_k c); m_ttl := m_ttl mb - 1; m_token := m_token mb; m_sent := Some t0; m_hoplat := nthN (c_lat c) i |}).
  { intros t0. exists ((i + 1) mod c_k c). split; [apply N.mod_lt; exact Hk|]. cbn. repeat split. }
  destruct (0 <? nthN (c_jit c) i).
  - pose proof (take_j_rel _ _ _ _ _ HR2) as HRj.
    destruct (take_j (add_log a1 e)) as [j a3]. destruct (take_j (add_log b1 e)) as [j' b3].
    cbn [fst snd] in HRj. destruct HRj as [<- HR3]. apply schedule_rel; [exact HR3|apply Hm'].
  - apply schedule_rel; [exact HR2|apply Hm'].
Qed.

Lemma loop_step_rel c mid1 mid2 a b :
  c_k c <> 0 -> inj_on mid1 (c_k c) -> inj_on mid2 (c_k c) -> st_rel mid1 mid2 (c_k c) a b ->
  match loop_step (cfg_with c mid1) a, loop_step (cfg_with c mid2) b with
  | inl a', inl b' | inr a', inr b' => st_rel mid1 mid2 (c_k c) a' b'
  | _, _ => False
  end.
Proof.
  intros Hk I1 I2 HR. unfold loop_step. rewrite (r_fes _ _ _ _ _ HR).
  destruct (sp_fetch (fes b)) as [f o]. destruct o; try exact HR.
  assert (HRf : st_rel mid1 mid2 (c_k c) (set_fes a f) (set_fes b f)).
  { destruct HR as [Hf Hm Hr Hj Hur Huj Hl]. constructor; cbn [set_fes fes msgs rs js used_r used_j log]; congruence. }
  pose proof (r_msgs _ _ _ _ _ HR) as Hm.
  destruct (nth_error (msgs a) (N.to_nat pay)) as [ma|] eqn:Ea; destruct (nth_error (msgs b) (N.to_nat pay)) as [mb|] eqn:Eb.
  - apply (handle_rel c mid1 mid2 _ _ time ma mb Hk I1 I2 HRf).
    clear - Hm Ea Eb. revert Ea Eb. generalize (N.to_nat pay). induction Hm as [|x y la lb Hxy Hm IH]; intros [|n] Ea Eb; cbn in *; try discriminate.
    + injection Ea as <-. injection Eb as <-. exact Hxy.
    + eapply IH; eassumption.
  - exfalso. apply nth_error_None in Eb. assert (nth_error (msgs a) (N.to_nat pay) <> None) by congruence.
    apply nth_error_Some in H. rewrite (Forall2_length _ _ _ Hm) in H. lia.
  - exfalso. apply nth_error_None in Ea. assert (nth_error (msgs b) (N.to_nat pay) <> None) by congruence.
    apply nth_error_Some in H. rewrite <- (Forall2_length _ _ _ Hm) in H. lia.
  - exact HRf.
Qed.

Lemma add_kicks_rel c mid1 mid2 ks : forall a b tok,
  c_k c <> 0 -> st_rel mid1 mid2 (c_k c) a b ->
  st_rel mid1 mid2 (c_k c) (add_kicks (cfg_with c mid1) a tok ks) (add_kicks (cfg_with c mid2) b tok ks).
Proof.
  induction ks as [|[[t d] l] ks IH]; intros a b tok Hk HR; cbn [add_kicks]; [exact HR|].
  apply IH; [exact Hk|]. apply schedule_rel; [exact HR|]. cbn [cfg_with c_mid c_k].
  exists (d mod c_k c). split; [apply N.mod_lt; exact Hk|]. cbn. repeat split.
Qed.

(* the observable trace does not depend on which (injective) identifiers the modules got *)
Theorem trace_invariant_under_module_ids c mid1 mid2 ks rs0 js0 :
  c_k c <> 0 -> inj_on mid1 (c_k c) -> inj_on mid2 (c_k c) ->
  log (fst (simulate (cfg_with c mid1) ks rs0 js0)) = log (fst (simulate (cfg_with c mid2) ks rs0 js0)) /\
  snd (simulate (cfg_with c mid1) ks rs0 js0) = snd (simulate (cfg_with c mid2) ks rs0 js0).
Proof.
  intros Hk I1 I2. unfold simulate, run_loop. rewrite !iter_until_nat.
  assert (H0 : st_rel mid1 mid2 (c_k c) (init rs0 js0) (init rs0 js0)) by (constructor; try reflexivity; constructor).
  pose proof (add_kicks_rel c mid1 mid2 ks _ _ 0 Hk H0) as H1.
  pose proof (iter_nat_sim _ _ _ _ (fun a b => loop_step_rel c mid1 mid2 a b Hk I1 I2)
                (Pos.to_nat (Pos.of_succ_nat (17 * length ks))) _ _ H1) as H2.
  destruct (iter_nat _ (loop_step (cfg_with c mid1)) _) as [a'|a'], (iter_nat _ (loop_step (cfg_with c mid2)) _) as [b'|b']; try contradiction;
    (split; [exact (r_log _ _ _ _ _ H2)|reflexivity]).
Qed.
