(* Channel instances are independent. For every channel c the part of a
   multi-channel run (Channel.Multi: shared event set, shared log) that concerns
   c -- its channel record, its jitter samples, its part of the log, its events
   in the order the shared event set returns them -- is a run of the
   single-channel model (Channel.Model) on c's own part of the script. That
   single-channel run does not mention any other channel, so neither offers to
   other channels nor their states (queues, busy periods) have any influence;
   and every theorem proved about the single-channel model holds of every
   channel of a multi-channel run.
   At the level of the event sets: the events of channel c, seen through the
   shared event set, are in the same order as in an event set that holds
   channel c's events only. [Rproj] relates the two event sets; it is kept by
   fetches and by adds on either side. *)
From Coq Require Import List Arith NArith Lia ZifyBool.
From DesVerif Require Import CQueue.Model CQueue.Spec CQueue.SpecProps
  Channel.Model Channel.Queue Channel.Trace Channel.Core Channel.Multi.
Import ListNotations.
Open Scope N_scope.

Lemma divmod b y r : r < b -> (b * y + r) / b = y /\ (b * y + r) mod b = r.
Proof.
  intros H. split.
  - symmetry. apply N.div_unique with (r := r); [exact H|reflexivity].
  - symmetry. apply N.mod_unique with (q := y); [exact H|reflexivity].
Qed.

Lemma dec_enc_mev c e : c < NCH -> dec_mev (enc_at c e) = lift c e.
Proof.
  unfold NCH. intros Hc. unfold enc_at, dec_mev. destruct e as [|m|k]; cbn [lift enc_mev]; unfold NCH;
    rewrite ?(N.mod_small c 16) by exact Hc.
  - destruct (divmod 3 c 0) as [E1 E2]; [lia|]. rewrite N.add_0_r in E1, E2. rewrite E1, E2. cbn [N.eqb].
    rewrite N.mod_small by exact Hc. reflexivity.
  - destruct (divmod 3 (16 * m + c) 1) as [E1 E2]; [lia|]. rewrite E1, E2. cbn [N.eqb Pos.eqb].
    destruct (divmod 16 m c Hc) as [F1 F2]. rewrite F1, F2. reflexivity.
  - destruct (divmod 3 k 2) as [E1 E2]; [lia|]. rewrite E1, E2. reflexivity.
Qed.

Lemma dec_mev_chan p : match dec_mev p with MUnbusy c => c < NCH | MExit c _ => c < NCH | MWake _ => True end.
Proof.
  unfold dec_mev, NCH. destruct (p mod 3 =? 0); [apply N.mod_lt; discriminate|].
  destruct (p mod 3 =? 1); [apply N.mod_lt; discriminate|exact I].
Qed.

(* in a well-formed event set the new event goes behind everything that is not later,
   in front of everything later: its id is the largest *)
Lemma sins_time_cut Q t p :
  SI Q ->
  exists l1 l2, s_rest Q = l1 ++ l2 /\ sins (newp Q t p) (s_rest Q) = l1 ++ newp Q t p :: l2 /\
    (forall y, In y l1 -> etime y <= t) /\ (forall y, In y l2 -> t < etime y).
Proof.
  intros HQ. destruct (sins_cut (newp Q t p) (s_rest Q)) as (l1 & l2 & E1 & E2 & H1 & H2).
  specialize (H2 (SI_sorted _ HQ)). rewrite Forall_forall in H1, H2. exists l1, l2. repeat split; try assumption.
  - intros y Hy. specialize (H1 y Hy). unfold key_lt in H1. cbn [newp etime] in H1. lia.
  - intros y Hy. specialize (H2 y Hy). unfold key_lt in H2. cbn [newp etime eid] in H2.
    assert (eid y < s_next Q) by (apply (SI_ids _ HQ); unfold spend; rewrite E1; apply in_or_app; right; apply in_or_app; right; exact Hy).
    lia.
Qed.

Lemma split_by_time {X} (t : N) (A B A' B' : list (N * X)) :
  Forall (fun a => fst a <= t) A -> Forall (fun a => t < fst a) B ->
  Forall (fun a => fst a <= t) A' -> Forall (fun a => t < fst a) B' ->
  A ++ B = A' ++ B' -> A = A' /\ B = B'.
Proof.
  revert A'. induction A as [|a A IH]; intros A' HA HB HA' HB' E.
  - destruct A' as [|a' A']; [split; [reflexivity|exact E]|]. cbn [app] in E. subst B.
    inversion HB; subst. inversion HA'; subst. lia.
  - destruct A' as [|a' A']; cbn [app] in E.
    + subst B'. inversion HB'; subst. inversion HA; subst. lia.
    + injection E as <- E. inversion HA; subst. inversion HA'; subst.
      destruct (IH A') as [-> ->]; try assumption. split; reflexivity.
Qed.

Section Proj.
(* which events of the shared set belong to the channel looked at, and as what *)
Variable proj_ev : mev -> option cev.

Definition pv1 (x : ev) : list (N * cev) :=
  match proj_ev (dec_mev (epay x)) with Some e => [(etime x, e)] | None => [] end.
Definition pv (l : list ev) : list (N * cev) := flat_map pv1 l.
Definition sv (l : list ev) : list (N * cev) := map (fun x => (etime x, dec_ev (epay x))) l.

Lemma pv_app l1 l2 : pv (l1 ++ l2) = pv l1 ++ pv l2.
Proof. apply flat_map_app. Qed.

Lemma pv_cons x l : pv (x :: l) = pv1 x ++ pv l.
Proof. reflexivity. Qed.

Lemma pv_times l (P : N -> Prop) : (forall y, In y l -> P (etime y)) -> Forall (fun a => P (fst a)) (pv l).
Proof.
  intros H. apply Forall_forall. intros a Ha. unfold pv in Ha. apply in_flat_map in Ha. destruct Ha as [x [Hx Ha]].
  unfold pv1 in Ha. destruct (proj_ev (dec_mev (epay x))); [destruct Ha as [<-|[]]; apply H, Hx|destruct Ha].
Qed.

Lemma sv_times l (P : N -> Prop) : (forall y, In y l -> P (etime y)) -> Forall (fun a => P (fst a)) (sv l).
Proof.
  intros H. apply Forall_forall. intros a Ha. unfold sv in Ha. apply in_map_iff in Ha. destruct Ha as [x [<- Hx]]. apply H, Hx.
Qed.

Record Rproj (Q P : sp) : Prop := {
  pj_zero : pv (s_zero Q) = sv (s_zero P);
  pj_rest : pv (s_rest Q) = sv (s_rest P);
  pj_SIQ : SI Q;
  pj_SIP : SI P;
  pj_le : s_tcur P <= s_tcur Q
}.

Lemma Rproj_add_other Q P t encf e :
  Rproj Q P -> s_tcur Q <= t -> proj_ev (dec_mev (encf e)) = None -> Rproj (qaddf encf Q t e) P.
Proof.
  intros [Hz Hr HQ HP Hle] Ht Hn.
  assert (Hnew : pv1 (newp Q t (encf e)) = []) by (unfold pv1; cbn [newp epay]; rewrite Hn; reflexivity).
  destruct (qaddf_shape encf Q t e Ht) as [_ [[_ [Ez Er]]|[_ [Ez Er]]]];
    constructor; rewrite ?Ez, ?Er, ?qaddf_tcur; try assumption; try (apply qaddf_SI; assumption).
  - rewrite pv_app, pv_cons, Hnew, !app_nil_r. exact Hz.
  - destruct (sins_cut (newp Q t (encf e)) (s_rest Q)) as (l1 & l2 & E1 & E2 & _).
    rewrite E2, pv_app, pv_cons, Hnew. cbn [app]. rewrite <- pv_app, <- E1. exact Hr.
Qed.

Lemma Rproj_add_same Q P t enc1 e1 enc2 e2 e :
  Rproj Q P -> s_tcur P = s_tcur Q -> s_tcur Q <= t ->
  proj_ev (dec_mev (enc1 e1)) = Some e -> dec_ev (enc2 e2) = e -> Rproj (qaddf enc1 Q t e1) (qaddf enc2 P t e2).
Proof.
  intros [Hz Hr HQ HP Hle] Hs Ht Hp Hd.
  assert (Hnew : pv1 (newp Q t (enc1 e1)) = [(t, e)]) by (unfold pv1; cbn [newp epay etime]; rewrite Hp; reflexivity).
  assert (Hnew' : sv [newp P t (enc2 e2)] = [(t, e)]) by (cbn [sv map newp etime epay]; rewrite Hd; reflexivity).
  destruct (qaddf_shape enc1 Q t e1 Ht) as [_ [[Et [Ez Er]]|[Et [Ez Er]]]];
    (destruct (qaddf_shape enc2 P t e2) as [_ [[Et' [Ez' Er']]|[Et' [Ez' Er']]]]; [lia|try lia..]);
    constructor; rewrite ?Ez, ?Er, ?Ez', ?Er', ?qaddf_tcur; try assumption; try (apply qaddf_SI; assumption).
  - rewrite pv_app. unfold sv. rewrite map_app. fold (sv (s_zero P)) (sv [newp P t (enc2 e2)]). rewrite Hz, Hnew', pv_cons, Hnew. reflexivity.
  - destruct (sins_time_cut Q t (enc1 e1) HQ) as (l1 & l2 & E1 & E2 & H1 & H2).
    destruct (sins_time_cut P t (enc2 e2) HP) as (k1 & k2 & F1 & F2 & G1 & G2).
    rewrite E1, F1, pv_app in Hr. unfold sv in Hr. rewrite map_app in Hr. fold (sv k1) (sv k2) in Hr.
    destruct (split_by_time t _ _ _ _ (pv_times l1 (fun x => x <= t) H1) (pv_times l2 (fun x => t < x) H2)
                (sv_times k1 (fun x => x <= t) G1) (sv_times k2 (fun x => t < x) G2) Hr) as [A B].
    rewrite E2, F2, pv_app. unfold sv. rewrite map_app. change (newp P t (enc2 e2) :: k2) with ([newp P t (enc2 e2)] ++ k2).
    rewrite map_app. fold (sv k1) (sv k2) (sv [newp P t (enc2 e2)]). rewrite Hnew', <- A, <- B, pv_cons, Hnew. reflexivity.
Qed.

Lemma Rproj_fetch_other Q P x Q' :
  Rproj Q P -> fetched Q x Q' -> proj_ev (dec_mev (epay x)) = None -> Rproj Q' P.
Proof.
  intros [Hz Hr HQ HP Hle] HF Hn. pose proof (f_tcur _ _ _ HF). pose proof (f_le _ _ _ HF).
  assert (Hx : pv1 x = []) by (unfold pv1; rewrite Hn; reflexivity).
  destruct (f_shape _ _ _ HF) as [[Ez Er]|[Ez [Er Ez']]].
  - rewrite Ez, pv_cons, Hx in Hz. constructor; rewrite ?Er; [assumption..|exact (f_SI _ _ _ HF)|exact HP|lia].
  - rewrite Er, pv_cons, Hx in Hr. rewrite Ez in Hz. constructor; rewrite ?Ez'; [assumption..|exact (f_SI _ _ _ HF)|exact HP|lia].
Qed.

Lemma Rproj_fetch_same Q P x Q' e :
  Rproj Q P -> fetched Q x Q' -> proj_ev (dec_mev (epay x)) = Some e ->
  exists y P', sp_fetch P = (P', OFetched (epay y) (etime y)) /\ fetched P y P' /\ dec_ev (epay y) = e /\ etime y = etime x /\ Rproj Q' P'.
Proof.
  intros [Hz Hr HQ HP Hle] HF Hp.
  assert (Hx : pv1 x = [(etime x, e)]) by (unfold pv1; rewrite Hp; reflexivity).
  pose proof (fetch_spec P HP) as HfP. unfold pend in HfP.
  destruct (f_shape _ _ _ HF) as [[Ez Er]|[Ez [Er Ez']]].
  - rewrite Ez, pv_cons, Hx in Hz. destruct (s_zero P) as [|y zp] eqn:EzP; cbn [sv map] in Hz; [discriminate Hz|]. injection Hz as Hty Hdy Hz.
    cbn [app] in HfP. destruct HfP as (P' & EfP & HFP). exists y, P'. refine (conj EfP (conj HFP (conj (eq_sym Hdy) (conj (eq_sym Hty) _)))).
    pose proof (f_tcur _ _ _ HF). pose proof (f_tcur _ _ _ HFP).
    destruct (f_shape _ _ _ HFP) as [[Ez2 Er2]|[Ez2 _]]; rewrite EzP in Ez2; [|discriminate Ez2]. injection Ez2 as Ez2.
    constructor; rewrite ?Er, ?Er2, <- ?Ez2; [assumption..|exact (f_SI _ _ _ HF)|exact (f_SI _ _ _ HFP)|lia].
  - (* both current-instant lists are empty, the event heads both sorted parts *)
    rewrite Ez in Hz. rewrite Er, pv_cons, Hx in Hr.
    destruct (s_zero P) as [|? ?] eqn:EzP; cbn [pv sv flat_map map] in Hz; [|discriminate Hz].
    destruct (s_rest P) as [|y r'] eqn:ErP; cbn [sv map] in Hr; [discriminate Hr|]. injection Hr as Hty Hdy Hr.
    cbn [app] in HfP. destruct HfP as (P' & EfP & HFP). exists y, P'. refine (conj EfP (conj HFP (conj (eq_sym Hdy) (conj (eq_sym Hty) _)))).
    pose proof (f_tcur _ _ _ HF). pose proof (f_tcur _ _ _ HFP).
    destruct (f_shape _ _ _ HFP) as [[Ez2 _]|[_ [Er2 Ez2]]]; [rewrite EzP in Ez2; discriminate Ez2|]. rewrite ErP in Er2. injection Er2 as Er2.
    constructor; rewrite ?Ez', ?Ez2, <- ?Er2; [reflexivity|assumption|exact (f_SI _ _ _ HF)|exact (f_SI _ _ _ HFP)|lia].
Qed.

End Proj.

Definition notwake (e : cev) : Prop := match e with EWake _ => False | _ => True end.

(* the two states agree on everything but the event set and the older log *)
Definition Sim (L : list item) (s1 s2 : st) : Prop :=
  ch s1 = ch s2 /\ orc s1 = orc s2 /\ s_tcur (q s1) = s_tcur (q s2) /\ log s2 = log s1 ++ L.

Definition Par (h : (cev -> N) -> st -> st) : Prop :=
  forall enc1 enc2 L s1 s2, Sim L s1 s2 ->
    Sim L (h enc1 s1) (h enc2 s2) /\
    exists evs, Forall (fun te => s_tcur (q s1) <= fst te /\ notwake (snd te)) evs /\
                q (h enc1 s1) = addall enc1 evs (q s1) /\ q (h enc2 s2) = addall enc2 evs (q s2).

Lemma Par_comp h1 h2 : Par h1 -> Par h2 -> Par (fun e s => h2 e (h1 e s)).
Proof.
  intros P1 P2 enc1 enc2 L s1 s2 HS. destruct (P1 enc1 enc2 L s1 s2 HS) as [HS1 [ev1 [F1 [A1 B1]]]].
  destruct (P2 enc1 enc2 L _ _ HS1) as [HS2 [ev2 [F2 [A2 B2]]]]. split; [exact HS2|].
  exists (ev1 ++ ev2). split; [|rewrite !addall_app, <- A1, <- B1; split; assumption].
  apply Forall_app. split; [exact F1|]. rewrite A1, addall_tcur in F2. exact F2.
Qed.

Lemma Par_quiet (f : st -> st) :
  (forall s, ch (f s) = ch s /\ orc (f s) = orc s /\ q (f s) = q s) ->
  (forall L s1 s2, Sim L s1 s2 -> log (f s2) = log (f s1) ++ L) ->
  Par (fun _ s => f s).
Proof.
  intros Hf Hl enc1 enc2 L s1 s2 HS. pose proof HS as [Hc [Ho [Ht _]]].
  destruct (Hf s1) as [A1 [A2 A3]]. destruct (Hf s2) as [B1 [B2 B3]]. split.
  - unfold Sim. rewrite A1, A2, A3, B1, B2, B3. refine (conj Hc (conj Ho (conj Ht (Hl L s1 s2 HS)))).
  - exists []. split; [constructor|]. split; assumption.
Qed.

Lemma Par_sample : Par (fun _ s => sample s).
Proof.
  apply Par_quiet; [intros s; repeat split|]. intros L s1 s2 [Hc [Ho [Ht Hl]]].
  unfold sample, now. cbn [emit log]. rewrite Hl, Hc, Ht. reflexivity.
Qed.

Section Handlers.
Variable tx : N -> N.
Variable mt : metrics.

Lemma Par_send m len fq : Par (fun e s => send_message current e tx mt s m len fq).
Proof.
  intros enc1 enc2 L s1 s2 HS. pose proof HS as (Hc & Ho & Ht & Hl).
  assert (Hn : now s2 = now s1) by (symmetry; exact Ht).
  destruct (busy (ch s1)) eqn:Hb.
  - (* refused or queued: no event *)
    rewrite !(send_busy tx mt) by (rewrite <- ?Hc; exact Hb). rewrite <- Hc, Hn.
    destruct (m_pol mt) as [|lim]; [|destruct (over lim (acc (ch s1) + len))];
      (split; [unfold Sim; cbn [emit set_ch ch q orc log]; rewrite Hl; auto|exists []; repeat split; constructor]).
  - rewrite !(send_idle tx mt) by (rewrite <- ?Hc; exact Hb).
    assert (Hj : take_jitter mt s2 = take_jitter mt s1) by (unfold take_jitter; rewrite Ho; reflexivity).
    assert (He : send_evs tx mt s2 m len = send_evs tx mt s1 m len) by (unfold send_evs, jit_of; rewrite Hn, Hj; reflexivity).
    split.
    + unfold Sim, jit_of. cbn [ch q orc log]. rewrite !addall_tcur, <- Hc, Hn, Hj, Hl. auto.
    + exists (send_evs tx mt s1 m len). rewrite He. split; [|split; reflexivity].
      unfold send_evs, now. destruct (tx len =? 0); repeat constructor; cbn [fst]; lia.
Qed.

Lemma Par_offer o : Par (fun e s => offer current e tx mt s o).
Proof.
  unfold offer. apply (Par_comp (fun e s => send_message current e tx mt (sample s) (fst o) (snd o) false) (fun _ s => sample s)); [|apply Par_sample].
  apply (Par_comp (fun _ s => sample s) (fun e s => send_message current e tx mt s (fst o) (snd o) false)); [apply Par_sample|apply Par_send].
Qed.

Lemma Par_drain k : Par (fun e s => drain current e tx mt k s).
Proof.
  induction k as [|k IH]; intros enc1 enc2 L s1 s2 HS; cbn [drain].
  - split; [exact HS|]. exists []. repeat split; constructor.
  - pose proof HS as [Hc [Ho [Ht Hl]]]. rewrite <- Hc. destruct (busy (ch s1)).
    + split; [exact HS|]. exists []. repeat split; constructor.
    + destruct (buffer (ch s1)) as [|[m len] r] eqn:Eb.
      * split; [exact HS|]. exists []. repeat split; constructor.
      * set (d1 := set_ch s1 _). set (d2 := set_ch s2 _).
        assert (HSd : Sim L d1 d2) by (unfold d1, d2, Sim; cbn [set_ch ch q orc log]; repeat split; assumption).
        exact (Par_comp (fun e s => send_message current e tx mt s m len true) (fun e s => drain current e tx mt k s)
                 (Par_send m len true) IH enc1 enc2 L d1 d2 HSd).
Qed.

Lemma Par_unbusy : Par (fun e s => unbusy current e tx mt s).
Proof.
  intros enc1 enc2 L s1 s2 HS. pose proof HS as [Hc [Ho [Ht Hl]]]. unfold unbusy. cbn [drain_all current buffer].
  rewrite <- Hc. set (u1 := emit _ _). set (u2 := emit _ _).
  assert (HSu : Sim L u1 u2).
  { unfold u1, u2, Sim, now. cbn [emit set_ch ch q orc log]. rewrite Hl, Ht. repeat split; assumption. }
  exact (Par_drain _ enc1 enc2 L u1 u2 HSu).
Qed.

Lemma Par_exit m : Par (fun _ s => handle_exit s m).
Proof.
  apply Par_quiet; [intros s; repeat split|]. intros L s1 s2 [Hc [Ho [Ht Hl]]].
  unfold handle_exit, sample, now. cbn [emit log ch q]. rewrite Hl, Hc, Ht. reflexivity.
Qed.

End Handlers.

(* ---- the projection on channel c ---- *)
Section Project.
Variable txs : N -> N -> N.
Variable mts : N -> metrics.
Variable mbursts : list (N * list (N * N * N)).
Variable c : N.
Hypothesis Hc : c < NCH.

(* channel c's part of a burst, and the script of channel c: its non-empty bursts *)
Definition projb (b : N * list (N * N * N)) : N * list (N * N) :=
  (fst b, flat_map (fun o => if fst (fst o) mod NCH =? c then [(snd (fst o), snd o)] else []) (snd b)).
Definition nonempty (b : N * list (N * N)) : bool := match snd b with [] => false | _ => true end.
Definition pbursts_of (bs : list (N * list (N * N * N))) : list (N * list (N * N)) := filter nonempty (map projb bs).
Definition pbursts := pbursts_of mbursts.
Definition rank (k : N) : N := N.of_nat (length (pbursts_of (firstn (N.to_nat k) mbursts))).

Definition proj_ev (e : mev) : option cev :=
  match e with
  | MUnbusy c' => if c' =? c then Some EUnbusy else None
  | MExit c' m => if c' =? c then Some (EExit m) else None
  | MWake k => match nth_error mbursts (N.to_nat k) with
               | Some b => if nonempty (projb b) then Some (EWake (rank k)) else None
               | None => None
               end
  end.

Definition plog (l : list (N * item)) : list item := flat_map (fun ci => if fst ci =? c then [snd ci] else []) l.

Notation Rproj := (Project.Rproj proj_ev).

Record Rp (M : mst) (S : st) : Prop := {
  rp_ch : inst_of M c = ch S;
  rp_orc : orcs M c = orc S;
  rp_log : plog (mlog M) = log S;
  rp_q : Rproj (mq M) (q S)
}.

Lemma plog_same l rest : plog (map (pair c) l ++ rest) = l ++ plog rest.
Proof.
  unfold plog. rewrite flat_map_app. f_equal. induction l as [|i l IH]; cbn [map flat_map fst snd app]; [reflexivity|].
  rewrite N.eqb_refl, IH. reflexivity.
Qed.

Lemma plog_other c' l rest : c' <> c -> plog (map (pair c') l ++ rest) = plog rest.
Proof.
  intros Hn. unfold plog. rewrite flat_map_app. replace (flat_map _ (map (pair c') l)) with (@nil item); [reflexivity|].
  induction l as [|i l IH]; cbn [map flat_map fst snd app]; [reflexivity|].
  replace (c' =? c) with false by lia. exact IH.
Qed.

Lemma proj_same e : notwake e -> proj_ev (dec_mev (enc_at c e)) = Some e.
Proof.
  intros Hn. rewrite dec_enc_mev by exact Hc. destruct e as [|m|k]; cbn [lift proj_ev]; rewrite ?N.eqb_refl; [reflexivity..|destruct Hn].
Qed.

Lemma proj_other c' e : c' < NCH -> c' <> c -> notwake e -> proj_ev (dec_mev (enc_at c' e)) = None.
Proof.
  intros Hc' Hn Hw. rewrite dec_enc_mev by exact Hc'. destruct e as [|m|k]; cbn [lift proj_ev];
    [replace (c' =? c) with false by lia; reflexivity..|destruct Hw].
Qed.

Lemma Rproj_addall_same evs : forall Q P,
  Rproj Q P -> s_tcur P = s_tcur Q ->
  Forall (fun te => s_tcur Q <= fst te /\ notwake (snd te)) evs ->
  Rproj (addall (enc_at c) evs Q) (addall enc_ev evs P).
Proof.
  induction evs as [|[t e] evs IH]; intros Q P HR Hs HF; cbn [addall fold_left fst snd]; [exact HR|].
  inversion HF as [|? ? [Ht Hw] HF']; subst. cbn [fst snd] in Ht, Hw.
  apply IH.
  - eapply Rproj_add_same; [exact HR|exact Hs|exact Ht|apply proj_same; exact Hw|apply dec_enc].
  - rewrite !qaddf_tcur. exact Hs.
  - rewrite qaddf_tcur. exact HF'.
Qed.

Lemma Rproj_addall_other c' evs : forall Q P,
  c' < NCH -> c' <> c -> Rproj Q P ->
  Forall (fun te => s_tcur Q <= fst te /\ notwake (snd te)) evs ->
  Rproj (addall (enc_at c') evs Q) P.
Proof.
  induction evs as [|[t e] evs IH]; intros Q P Hc' Hn HR HF; cbn [addall fold_left fst snd]; [exact HR|].
  inversion HF as [|? ? [Ht Hw] HF']; subst. cbn [fst snd] in Ht, Hw.
  apply IH; try assumption.
  - apply Rproj_add_other; [exact HR|exact Ht|apply proj_other; assumption].
  - rewrite qaddf_tcur. exact HF'.
Qed.

(* a handler runs for channel c on both sides *)
Lemma on_same h M S :
  Par h -> Rp M S -> s_tcur (q S) = s_tcur (mq M) ->
  Rp (on c (h (enc_at c)) M) (h enc_ev S) /\ s_tcur (q (h enc_ev S)) = s_tcur (mq (on c (h (enc_at c)) M)).
Proof.
  intros HP [H1 H2 H3 H4] Hs.
  assert (HS : Sim (log S) (view c M) S) by (unfold Sim, view; cbn [ch q orc log app]; repeat split; auto).
  destruct (HP (enc_at c) enc_ev (log S) _ _ HS) as [[A1 [A2 [A3 A4]]] [evs [HF [B1 B2]]]].
  split; [|cbn [on back mq]; symmetry; exact A3].
  constructor; cbn [on back chs orcs mlog mq].
  - unfold inst_of. cbn [on back chs]. unfold upd. rewrite N.eqb_refl. exact A1.
  - unfold upd. rewrite N.eqb_refl. exact A2.
  - rewrite plog_same, H3. symmetry. exact A4.
  - rewrite B1, B2. cbn [view q] in *. apply Rproj_addall_same; [exact H4|exact Hs|exact HF].
Qed.

(* a handler runs for another channel *)
Lemma on_other c' h M S :
  c' < NCH -> c' <> c -> Par h -> Rp M S ->
  Rp (on c' (h (enc_at c')) M) S /\ s_tcur (mq (on c' (h (enc_at c')) M)) = s_tcur (mq M).
Proof.
  intros Hc' Hn HP [H1 H2 H3 H4].
  assert (HS : Sim [] (view c' M) (view c' M)) by (unfold Sim; rewrite app_nil_r; repeat split).
  destruct (HP (enc_at c') (enc_at c') [] _ _ HS) as [_ [evs [HF [B1 _]]]].
  split; [|cbn [on back mq]; rewrite B1, addall_tcur; reflexivity].
  constructor; cbn [on back chs orcs mlog mq].
  - rewrite <- H1. unfold inst_of. cbn [on back chs]. unfold upd. replace (c =? c') with false by lia.
    destruct (chs M c); reflexivity.
  - unfold upd. replace (c =? c') with false by lia. exact H2.
  - rewrite plog_other by exact Hn. exact H3.
  - rewrite B1. cbn [view q] in *. apply Rproj_addall_other; assumption.
Qed.

Notation moffer := (Multi.moffer own_instance txs mts).
Notation sstep := (Model.step current enc_ev (txs c) (mts c) pbursts).
Notation ssteps := (Model.steps current enc_ev (txs c) (mts c) pbursts).
Notation mstep := (Multi.mstep own_instance txs mts mbursts).
Notation msteps := (Multi.msteps own_instance txs mts mbursts).

Definition offs_c (offs : list (N * N * N)) : list (N * N) := snd (projb (0, offs)).

(* one handler invocation: the sends into c happen on both sides, the others only in the multi run *)
Lemma fold_offers offs : forall M S,
  Rp M S -> (s_tcur (q S) = s_tcur (mq M) \/ offs_c offs = []) ->
  Rp (fold_left moffer offs M) (fold_left (offer current enc_ev (txs c) (mts c)) (offs_c offs) S).
Proof.
  induction offs as [|[[c0 m] len] offs IH]; intros M S HR Hs; [exact HR|].
  cbn [fold_left]. unfold offs_c, projb in *. cbn [snd fst flat_map] in *.
  unfold Multi.moffer at 2, own_instance. rewrite N.mod_mod by discriminate.
  assert (Hc0 : c0 mod NCH < NCH) by (apply N.mod_lt; discriminate).
  destruct (c0 mod NCH =? c) eqn:E.
  - apply N.eqb_eq in E. rewrite E in *. cbn [app fold_left]. destruct Hs as [Hs|Hs]; [|discriminate Hs].
    destruct (on_same (fun e s => offer current e (txs c) (mts c) s (m, len)) M S (Par_offer (txs c) (mts c) (m, len)) HR Hs) as [HR' Hs'].
    apply IH; [exact HR'|left; exact Hs'].
  - apply N.eqb_neq in E. cbn [app].
    destruct (on_other (c0 mod NCH) (fun e s => offer current e (txs (c0 mod NCH)) (mts (c0 mod NCH)) s (m, len)) M S Hc0 E
                (Par_offer (txs (c0 mod NCH)) (mts (c0 mod NCH)) (m, len)) HR) as [HR' Ht'].
    apply IH; [exact HR'|]. destruct Hs as [Hs|Hs]; [left; rewrite Ht'; exact Hs|right; exact Hs].
Qed.

Lemma rank_nth bs : forall k b,
  nth_error bs k = Some b -> nonempty (projb b) = true ->
  nth_error (pbursts_of bs) (length (pbursts_of (firstn k bs))) = Some (projb b).
Proof.
  induction bs as [|b0 bs IH]; intros k b Hn Hb; [destruct k; discriminate|].
  destruct k as [|k]; cbn [nth_error firstn] in *.
  - injection Hn as ->. unfold pbursts_of. cbn [map filter length]. rewrite Hb. reflexivity.
  - unfold pbursts_of in *. cbn [map filter]. destruct (nonempty (projb b0)); cbn [length nth_error]; apply IH; assumption.
Qed.

Definition set_mq (M : mst) (Q : sp) : mst := {| chs := chs M; mq := Q; orcs := orcs M; mlog := mlog M |}.

Lemma mstep_inv M :
  SI (mq M) ->
  match mstep M with
  | Some M' => exists x Q', fetched (mq M) x Q' /\ M' = mdispatch own_instance txs mts mbursts (set_mq M Q') (dec_mev (epay x))
  | None => pend (mq M) = []
  end.
Proof.
  intros HS. unfold Multi.mstep. pose proof (fetch_spec _ HS) as H.
  destruct (pend (mq M)) as [|x r]; [rewrite H; reflexivity|]. destruct H as (Q' & -> & HF).
  exists x, Q'. split; [exact HF|reflexivity].
Qed.

(* one event of the multi run: one event of channel c's own run if the event concerns c, else nothing *)
Lemma Rp_step_head M S x Q' :
  Rp M S -> fetched (mq M) x Q' ->
  let M' := mdispatch own_instance txs mts mbursts (set_mq M Q') (dec_mev (epay x)) in
  match proj_ev (dec_mev (epay x)) with
  | Some _ => exists S', sstep S = Some S' /\ Rp M' S'
  | None => Rp M' S
  end.
Proof.
  intros HR HF. cbv zeta. pose proof HR as [H1 H2 H3 H4]. set (M1 := set_mq M Q').
  pose proof (dec_mev_chan (epay x)) as Hch.
  destruct (proj_ev (dec_mev (epay x))) as [e|] eqn:Ep.
  - (* an event of channel c *)
    destruct (Rproj_fetch_same _ _ _ _ _ _ H4 HF Ep) as (y & P' & EfP & HFP & Hdy & Hty & HR').
    unfold Model.step. rewrite EfP, Hdy. set (S1 := set_q S P').
    assert (HR1 : Rp M1 S1) by (constructor; cbn [M1 S1 set_mq set_q chs orcs mlog mq ch orc log q]; assumption).
    assert (Hs1 : s_tcur (q S1) = s_tcur (mq M1)) by (cbn [M1 S1 set_mq set_q q mq]; rewrite (f_tcur _ _ _ HFP), (f_tcur _ _ _ HF); exact Hty).
    eexists. split; [reflexivity|].
    destruct (dec_mev (epay x)) as [c'|c' m|k]; cbn [proj_ev] in Ep; cbn [Multi.mdispatch].
    + destruct (c' =? c) eqn:Ec; [|discriminate]. apply N.eqb_eq in Ec. subst c'. injection Ep as <-. cbn [dispatch].
      apply (on_same (fun e s => unbusy current e (txs c) (mts c) s) M1 S1 (Par_unbusy (txs c) (mts c)) HR1 Hs1).
    + destruct (c' =? c) eqn:Ec; [|discriminate]. apply N.eqb_eq in Ec. subst c'. injection Ep as <-. cbn [dispatch].
      apply (on_same (fun _ s => handle_exit s m) M1 S1 (Par_exit m) HR1 Hs1).
    + destruct (nth_error mbursts (N.to_nat k)) as [[t offs]|] eqn:En; [|discriminate].
      destruct (nonempty (projb (t, offs))) eqn:Eb; [|discriminate]. injection Ep as <-. cbn [dispatch].
      unfold Multi.mwake, Model.handle_wake, rank. rewrite En, Nat2N.id.
      unfold pbursts. rewrite (rank_nth mbursts _ _ En Eb). unfold projb at 1.
      apply (fold_offers offs M1 S1 HR1 (or_introl Hs1)).
  - (* an event of another channel *)
    pose proof (Rproj_fetch_other _ _ _ _ _ H4 HF Ep) as HR'.
    assert (HR1 : Rp M1 S) by (constructor; cbn [M1 set_mq chs orcs mlog mq]; assumption).
    destruct (dec_mev (epay x)) as [c'|c' m|k]; cbn [proj_ev] in Ep; cbn [Multi.mdispatch].
    + destruct (c' =? c) eqn:Ec; [discriminate|]. apply N.eqb_neq in Ec.
      apply (on_other c' (fun e s => unbusy current e (txs c') (mts c') s) M1 S Hch Ec (Par_unbusy (txs c') (mts c')) HR1).
    + destruct (c' =? c) eqn:Ec; [discriminate|]. apply N.eqb_neq in Ec.
      apply (on_other c' (fun _ s => handle_exit s m) M1 S Hch Ec (Par_exit m) HR1).
    + unfold Multi.mwake. destruct (nth_error mbursts (N.to_nat k)) as [[t offs]|] eqn:En; [|exact HR1].
      destruct (nonempty (projb (t, offs))) eqn:Eb; [discriminate|].
      assert (Eo : offs_c offs = []) by (unfold offs_c, nonempty, projb in *; cbn [snd fst] in *; destruct (flat_map _ offs); [reflexivity|discriminate]).
      pose proof (fold_offers offs M1 S HR1 (or_intror Eo)) as HF'. rewrite Eo in HF'. exact HF'.
Qed.

Lemma Rp_step M M' S :
  Rp M S -> mstep M = Some M' -> Rp M' S \/ exists S', sstep S = Some S' /\ Rp M' S'.
Proof.
  intros HR Hm. pose proof (mstep_inv M (pj_SIQ _ _ _ (rp_q _ _ HR))) as H. rewrite Hm in H. destruct H as (x & Q' & HF & ->).
  pose proof (Rp_step_head M S x Q' HR HF) as H. cbv zeta in H. destruct (proj_ev (dec_mev (epay x))); [right|left]; exact H.
Qed.

(* ---- the initial states ---- *)
Lemma pbursts_app a b : pbursts_of (a ++ b) = pbursts_of a ++ pbursts_of b.
Proof. unfold pbursts_of. rewrite map_app, filter_app. reflexivity. Qed.

Lemma Rproj_sched suf : forall pre Q P,
  mbursts = pre ++ suf -> Rproj Q P -> s_tcur Q = 0 -> s_tcur P = 0 ->
  Rproj (sched_wakes (enc_at 0) Q (N.of_nat (length pre)) (map (fun b => (fst b, @nil (N * N))) suf))
     (sched_wakes enc_ev P (N.of_nat (length (pbursts_of pre))) (pbursts_of suf)).
Proof.
  induction suf as [|[t offs] suf IH]; intros pre Q P Eb HR HQ0 HP0; cbn [map sched_wakes fst]; [exact HR|].
  assert (En : nth_error mbursts (length pre) = Some (t, offs)).
  { rewrite Eb, nth_error_app2 by lia. rewrite Nat.sub_diag. reflexivity. }
  assert (Ek : rank (N.of_nat (length pre)) = N.of_nat (length (pbursts_of pre))).
  { unfold rank. rewrite Nat2N.id, Eb, firstn_app, Nat.sub_diag, firstn_all. cbn [firstn]. rewrite app_nil_r. reflexivity. }
  assert (Epre : mbursts = (pre ++ [(t, offs)]) ++ suf) by (rewrite <- app_assoc; exact Eb).
  assert (El : N.of_nat (length pre) + 1 = N.of_nat (length (pre ++ [(t, offs)]))) by (rewrite app_length; cbn [length]; lia).
  rewrite El. change (pbursts_of ((t, offs) :: suf)) with (filter nonempty (projb (t, offs) :: map projb suf)). cbn [filter].
  destruct (nonempty (projb (t, offs))) eqn:Ene; cbn [sched_wakes].
  - unfold projb at 1. cbn [fst].
    replace (N.of_nat (length (pbursts_of pre)) + 1) with (N.of_nat (length (pbursts_of (pre ++ [(t, offs)])))).
    2:{ rewrite pbursts_app, app_length. unfold pbursts_of at 2. cbn [map filter]. rewrite Ene. cbn [length]. lia. }
    apply IH; [exact Epre| |rewrite qaddf_tcur; exact HQ0|rewrite qaddf_tcur; exact HP0].
    eapply Rproj_add_same; [exact HR|rewrite HQ0, HP0; reflexivity|lia| |apply dec_enc].
    rewrite dec_enc_mev by (unfold NCH; lia). cbn [lift proj_ev]. rewrite Nat2N.id, En, Ene, Ek. reflexivity.
  - replace (N.of_nat (length (pbursts_of pre))) with (N.of_nat (length (pbursts_of (pre ++ [(t, offs)])))).
    2:{ rewrite pbursts_app, app_length. unfold pbursts_of at 2. cbn [map filter]. rewrite Ene. cbn [length]. lia. }
    apply IH; [exact Epre| |rewrite qaddf_tcur; exact HQ0|exact HP0].
    apply Rproj_add_other; [exact HR|lia|].
    rewrite dec_enc_mev by (unfold NCH; lia). cbn [lift proj_ev]. rewrite Nat2N.id, En, Ene. reflexivity.
Qed.

Lemma Rp_init oracles :
  Rp (minit mbursts oracles) (init enc_ev pbursts (oracles c)).
Proof.
  constructor; cbn [minit init chs orcs mlog mq ch orc log q]; try reflexivity.
  apply (Rproj_sched mbursts [] sp_new sp_new eq_refl); [|reflexivity|reflexivity].
  constructor; cbn; try reflexivity; try apply SI_new.
Qed.

Lemma Rp_steps n : forall M S, Rp M S -> exists k, Rp (msteps n M) (ssteps k S).
Proof.
  induction n as [|n IH]; intros M S HR; [exists 0%nat; exact HR|]. cbn [Multi.msteps].
  destruct (mstep M) as [M'|] eqn:E; [|exists 0%nat; exact HR].
  destruct (Rp_step M M' S HR E) as [HR'|[S' [ES HR']]].
  - exact (IH M' S HR').
  - destruct (IH M' S' HR') as [k Hk]. exists (Datatypes.S k). cbn [Model.steps]. rewrite ES. exact Hk.
Qed.

(* channel c of a multi-channel run is a single-channel run on c's part of the script *)
Theorem multi_projects oracles n :
  exists k, Rp (msteps n (minit mbursts oracles)) (ssteps k (init enc_ev pbursts (oracles c))).
Proof. apply Rp_steps, Rp_init. Qed.

End Project.
