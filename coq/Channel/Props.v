(* Readable consequences of the invariants: what a well-formed log says about
   one item, FIFO start, the queue limit, and the reachable states
   [reach n] Properties/C07.v speaks about. *)
From Coq Require Import List NArith Lia ZifyBool.
From DesVerif Require Import CQueue.Spec
  Channel.Model Channel.Queue Channel.Trace Channel.Core Channel.Account Channel.Timing.
Import ListNotations.
Open Scope N_scope.

Lemma wf_log_split tx mt l2 i r : wf_log tx mt (l2 ++ i :: r) -> item_ok tx mt i r /\ wf_log tx mt r.
Proof. induction l2 as [|x l2 IH]; cbn [app wf_log]; [tauto|]. intros [_ H]. exact (IH H). Qed.

Lemma over_false lim x : over lim x = false <-> match lim with None => True | Some l => x <= l end.
Proof. destruct lim as [l|]; cbn [over]; [lia|tauto]. Qed.

Lemma over_true lim x : over lim x = true <-> match lim with None => False | Some l => l < x end.
Proof. destruct lim as [l|]; cbn [over]; [lia|split; [discriminate|tauto]]. Qed.

(* accepted offers, in offer order = transmissions, in start order, then the queue *)
Lemma accepted_started tx mt l :
  wf_log tx mt l -> accepted l = rev (map fst (queue_of l)) ++ started l.
Proof.
  induction l as [|i r IH]; cbn [wf_log]; [reflexivity|]. intros [Hi Hw]. specialize (IH Hw).
  destruct i as [m len t j [|]|m len t|m len t|m len t|t|m t|t b f pk bts];
    unfold accepted, started in *; cbn [flat_map queue_of app]; fold (accepted r) (started r) in *; try exact IH.
  - destruct Hi as [_ [Hh _]]. rewrite IH. destruct (queue_of r) as [|[m' len'] rest]; [discriminate|].
    injection Hh as -> ->. cbn [tl map fst rev]. rewrite <- app_assoc. reflexivity.
  - destruct Hi as [_ Hq]. rewrite IH, Hq. reflexivity.
  - rewrite IH, map_app, rev_app_distr. reflexivity.
Qed.

Section Reach.
Variable tx : N -> N.
Variable mt : metrics.
Variable bursts : list (N * list (N * N)).
Variable oracle : list N.

Definition reach (n : nat) : st := steps current enc_ev tx mt bursts n (init enc_ev bursts oracle).

Lemma reach_core n : Core tx mt (reach n).
Proof. apply Good_reachable. Qed.

Lemma reach_item_ok n l2 i r : log (reach n) = l2 ++ i :: r -> item_ok tx mt i r.
Proof. intros E. pose proof (C_wf _ _ _ (reach_core n)) as Hw. rewrite E in Hw. apply wf_log_split in Hw. apply Hw. Qed.

Theorem idle_implies_queue_empty n :
  let s := reach n in
  (busy (ch s) = false -> buffer (ch s) = []) /\
  unbusies (pend (q s)) = (if busy (ch s) then [finish (ch s)] else []).
Proof. split; [apply Good_reachable|apply (C_unb _ _ _ (reach_core n))]. Qed.

Theorem delivery_time n m t' :
  let s := reach n in
  In (IDeliver m t') (log s) ->
  exists len t j fq, In (IStart m len t j fq) (log s) /\ t' = t + (m_lat mt + tx len + j) /\
    (m_jit mt = 0 -> j = 0) /\ (Forall (fun j => j < m_jit mt) oracle -> m_jit mt <> 0 -> j < m_jit mt).
Proof.
  cbv zeta. intros H. pose proof (Tim_reachable tx mt bursts oracle n) as HT.
  destruct (T_back _ _ _ _ HT m t' H) as (len & t & j & fq & Hi & He). exists len, t, j, fq.
  split; [exact Hi|]. split; [exact He|]. apply (T_jit _ _ _ _ HT _ _ _ _ _ Hi).
Qed.

Theorem busy_span n :
  let s := reach n in
  wf_log tx mt (log s) /\
  cur_of tx (log s) = (if busy (ch s) then Some (finish (ch s)) else None) /\
  unbusies (pend (q s)) = (if busy (ch s) then [finish (ch s)] else []).
Proof. destruct (reach_core n) as [_ Hw Hc _ _ _ Hu]. exact (conj Hw (conj Hc Hu)). Qed.

Theorem fifo_start n l2 m len t j r :
  log (reach n) = l2 ++ IStart m len t j true :: r ->
  hd_error (queue_of r) = Some (m, len) /\ deq_ctx tx r = Some t /\ cur_of tx r = None.
Proof. intros E. destruct (reach_item_ok n l2 _ r E) as [H1 [H2 H3]]. auto. Qed.

Theorem queue_limit n :
  let s := reach n in
  acc (ch s) = qsum (buffer (ch s)) /\ queue_of (log s) = buffer (ch s) /\
  (forall l2 m len t r, log s = l2 ++ IEnq m len t :: r ->
     cur_of tx r <> None /\ exists lim, m_pol mt = PQueue lim /\
     match lim with None => True | Some l => qsum (queue_of r) + len <= l end) /\
  (forall l2 m len t r, log s = l2 ++ IDropFull m len t :: r ->
     cur_of tx r <> None /\ exists l, m_pol mt = PQueue (Some l) /\ l < qsum (queue_of r) + len) /\
  (forall l2 m len t r, log s = l2 ++ IDropBusy m len t :: r -> cur_of tx r <> None /\ m_pol mt = PDrop).
Proof.
  cbv zeta. split; [apply (C_acc _ _ _ (reach_core n))|]. split; [apply (C_queue _ _ _ (reach_core n))|].
  split; [|split]; intros l2 m len t r E; pose proof (reach_item_ok n l2 _ r E) as Hi; cbn [item_ok] in Hi.
  - destruct Hi as [H1 [lim [H2 H3]]]. split; [exact H1|]. exists lim. split; [exact H2|]. apply over_false. exact H3.
  - destruct Hi as [H1 [lim [H2 H3]]]. split; [exact H1|]. apply over_true in H3. destruct lim as [l|]; [|destruct H3].
    exists l. split; assumption.
  - exact Hi.
Qed.

End Reach.
