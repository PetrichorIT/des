(* Accounting: at every event boundary every message of the script is in
   exactly one of: delivered, dropped (busy), dropped (queue full), queued,
   in flight (Exit pending), not yet offered (wake-up pending). Kept as a
   permutation of the script's ids. *)
From Coq Require Import List Arith NArith Lia Permutation ZifyBool.
From DesVerif Require Import CQueue.Model CQueue.Spec
  Channel.Model Channel.Queue Channel.Trace Channel.Core.
Import ListNotations.
Open Scope N_scope.

Lemma delivered_cons i l : delivered (i :: l) = match i with IDeliver m _ => [m] | _ => [] end ++ delivered l.
Proof. reflexivity. Qed.

Lemma perm_skip {A} (L X R R' : list A) : Permutation (L ++ R) R' -> Permutation (L ++ X ++ R) (X ++ R').
Proof. intros H. rewrite <- H. apply Permutation_app_swap_app. Qed.

Section Account.
Variable tx : N -> N.
Variable mt : metrics.
Variable bursts : list (N * list (N * N)).

Notation send := (send_message current enc_ev tx mt).
Notation drain := (Model.drain current enc_ev tx mt).
Notation unbusy := (Model.unbusy current enc_ev tx mt).
Notation offer := (Model.offer current enc_ev tx mt).
Notation dispatch := (Model.dispatch current enc_ev tx mt bursts).
Notation steps := (Model.steps current enc_ev tx mt bursts).

Definition pending_ids (p : list ev) : list N := flat_map (burst_ids bursts) (wakes p).

(* [extra]: messages the running handler holds in its hands.  Every transition moves ids
   from the head of one bucket to another bucket: [perm_skip] once per bucket passed. *)
Definition Acct (extra : list N) (s : st) : Prop :=
  Permutation (all_ids bursts)
    (extra ++ delivered (log s) ++ dropped_busy (log s) ++ dropped_full (log s) ++ map fst (buffer (ch s))
     ++ exits (pend (q s)) ++ pending_ids (pend (q s))).

Lemma Acct_sample extra s : Acct extra s -> Acct extra (sample s).
Proof. intros H. exact H. Qed.

Lemma Acct_send extra s m len fq : Acct (m :: extra) s -> Acct extra (send s m len fq).
Proof.
  unfold Acct. intros H. rewrite H. destruct (busy (ch s)) eqn:Hb.
  - rewrite send_busy by exact Hb. destruct (m_pol mt) as [|lim]; [|destruct (over lim (acc (ch s) + len))];
      cbn [emit set_ch enqueue log ch q buffer].
    + do 2 apply (perm_skip [m]). reflexivity.
    + do 3 apply (perm_skip [m]). reflexivity.
    + rewrite map_app, <- app_assoc. do 5 apply (perm_skip [m]). reflexivity.
  - rewrite send_idle by exact Hb. cbn [log ch q]. unfold exits, pending_ids, wakes.
    rewrite !(sel_addall _ _ _ (send_evs_timely tx mt s m len)). unfold send_evs.
    destruct (tx len =? 0); cbn [selv flat_map fst snd app set_busy_until buffer]; do 5 apply (perm_skip [m]); reflexivity.
Qed.

Lemma Acct_drain extra k : forall s, Acct extra s -> Acct extra (drain k s).
Proof.
  induction k as [|k IH]; intros s H; cbn [Model.drain]; [exact H|].
  destruct (busy (ch s)); [exact H|]. destruct (buffer (ch s)) as [|[m len] r] eqn:Eb; [exact H|].
  apply IH, Acct_send. unfold Acct in *. cbn [set_ch ch q log buffer]. rewrite H, Eb. cbn [map fst].
  symmetry. do 4 apply (perm_skip [m]). reflexivity.
Qed.

Lemma Acct_unbusy extra s : Acct extra s -> Acct extra (unbusy s).
Proof. intros H. unfold Model.unbusy. apply Acct_drain. exact H. Qed.

Lemma Acct_fold offs : forall extra s, Acct (map fst offs ++ extra) s -> Acct extra (fold_left offer offs s).
Proof.
  induction offs as [|o offs IH]; intros extra s H; cbn [fold_left]; [exact H|].
  apply IH. unfold Model.offer. apply Acct_sample, Acct_send, Acct_sample. exact H.
Qed.

Lemma Acct_step s x q' : Acct [] s -> fetched (q s) x q' -> Acct [] (dispatch (set_q s q') (dec_ev (epay x))).
Proof.
  intros H HF. set (s1 := set_q s q').
  assert (H1 : Acct (match dec_ev (epay x) with EExit m => [m] | EWake k => burst_ids bursts k | EUnbusy => [] end) s1).
  { unfold Acct in *. cbn [s1 set_q ch q log]. rewrite H, (f_pend _ _ _ HF). unfold pending_ids, exits, wakes. rewrite !sel_cons.
    destruct (dec_ev (epay x)) as [|m|k]; cbn [app flat_map]; [reflexivity|symmetry..].
    - do 4 apply (perm_skip [m]). reflexivity.
    - do 5 apply (perm_skip (burst_ids bursts k)). reflexivity. }
  destruct (dec_ev (epay x)) as [|m|k]; cbn [Model.dispatch].
  - apply Acct_unbusy. exact H1.
  - unfold handle_exit. apply Acct_sample. exact H1.
  - unfold Model.handle_wake. unfold burst_ids in H1.
    destruct (nth_error bursts (N.to_nat k)) as [[t offs]|]; [|exact H1].
    apply Acct_fold. rewrite app_nil_r. exact H1.
Qed.

Lemma wake_ids bs : forall pre,
  bursts = pre ++ bs ->
  flat_map (burst_ids bursts) (selv (fun _ e => match e with EWake k => Some k | _ => None end) (wake_evs (N.of_nat (length pre)) bs))
  = all_ids bs.
Proof.
  induction bs as [|[t offs] bs IH]; intros pre Eb; [reflexivity|]. unfold selv in *. cbn [wake_evs flat_map fst snd app].
  replace (N.of_nat (length pre) + 1) with (N.of_nat (length (pre ++ [(t, offs)]))) by (rewrite app_length; cbn [length]; lia).
  rewrite IH by (rewrite <- app_assoc; exact Eb). unfold all_ids. cbn [flat_map snd]. f_equal.
  unfold burst_ids. rewrite Eb, Nat2N.id, nth_error_app2, Nat.sub_diag by lia. reflexivity.
Qed.

Lemma pending_init oracle : Permutation (pending_ids (pend (q (init enc_ev bursts oracle)))) (all_ids bursts).
Proof.
  unfold pending_ids, wakes. cbn [init q]. rewrite sched_wakes_addall, (sel_addall _ _ _ (timely_0 sp_new _ eq_refl)).
  change (sel _ (pend sp_new)) with (@nil N). rewrite app_nil_r.
  replace (flat_map _ _) with (all_ids bursts) by (symmetry; exact (wake_ids bursts [] eq_refl)). reflexivity.
Qed.

Lemma Acct_init oracle : Acct [] (init enc_ev bursts oracle).
Proof.
  unfold Acct, exits. rewrite init_pend by reflexivity. symmetry. apply pending_init.
Qed.

(* the multiset equation *)
Theorem account oracle n :
  let s := steps n (init enc_ev bursts oracle) in
  Permutation (all_ids bursts)
    (delivered (log s) ++ dropped_busy (log s) ++ dropped_full (log s) ++ map fst (buffer (ch s))
     ++ exits (pend (q s)) ++ pending_ids (pend (q s))).
Proof. exact (reach_ind tx mt bursts (Acct []) oracle (Acct_init oracle) (fun s y q' _ => Acct_step s y q') n). Qed.

End Account.
