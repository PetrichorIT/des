(* The multi-channel loop runs dry within the fuel of Multi.run. Every event of
   the shared set concerns some channel (a burst is never empty), so by
   Project.Rp_step_head every step of the multi-channel run is a step of at
   least one channel's own run, and never undoes progress of another; the sum
   over the channels of the single-channel termination measure (Term.mu)
   therefore decreases with every event. *)
From Coq Require Import List NArith Lia Bool ZifyBool.
From DesVerif Require Import CQueue.Model CQueue.Spec
  Channel.Model Channel.Queue Channel.Trace Channel.Core Channel.Account Channel.Term
  Channel.Multi Channel.Project.
Import ListNotations.
Open Scope N_scope.

Definition nch : nat := N.to_nat NCH.

Fixpoint sumn (n : nat) (f : N -> nat) : nat :=
  match n with O => 0%nat | S k => (f (N.of_nat k) + sumn k f)%nat end.

Lemma sumn_le n f g : (forall c, c < N.of_nat n -> (f c <= g c)%nat) -> (sumn n f <= sumn n g)%nat.
Proof.
  induction n as [|n IH]; intros H; cbn [sumn]; [lia|].
  pose proof (H (N.of_nat n) ltac:(lia)). assert (sumn n f <= sumn n g)%nat by (apply IH; intros c Hc; apply H; lia). lia.
Qed.

Lemma sumn_lt n f g c0 :
  (forall c, c < N.of_nat n -> (f c <= g c)%nat) -> c0 < N.of_nat n -> (f c0 < g c0)%nat -> (sumn n f < sumn n g)%nat.
Proof.
  induction n as [|n IH]; intros H Hc Hlt; [lia|]. cbn [sumn].
  pose proof (H (N.of_nat n) ltac:(lia)).
  assert (Hl : (sumn n f <= sumn n g)%nat) by (apply sumn_le; intros c Hc'; apply H; lia).
  destruct (N.eq_dec c0 (N.of_nat n)) as [->|Hn]; [lia|].
  assert (sumn n f < sumn n g)%nat by (apply IH; [intros c Hc'; apply H; lia|lia|exact Hlt]). lia.
Qed.

Lemma sumn_add n f g : sumn n (fun c => (f c + g c)%nat) = (sumn n f + sumn n g)%nat.
Proof. induction n as [|n IH]; cbn [sumn]; [reflexivity|]. rewrite IH. lia. Qed.

Lemma sumn_ext n f g : (forall c, f c = g c) -> sumn n f = sumn n g.
Proof. intros H. induction n as [|n IH]; cbn [sumn]; [reflexivity|]. rewrite IH, H. reflexivity. Qed.

Lemma sumn_one x n : sumn n (fun c => if x =? c then 1%nat else 0%nat) = if x <? N.of_nat n then 1%nat else 0%nat.
Proof.
  induction n as [|n IH]; cbn [sumn]; [destruct (x <? N.of_nat 0) eqn:E; [lia|reflexivity]|]. rewrite IH.
  destruct (N.eqb_spec x (N.of_nat n)) as [->|Hn].
  - replace (N.of_nat n <? N.of_nat n) with false by lia. replace (N.of_nat n <? N.of_nat (S n)) with true by lia. reflexivity.
  - replace (x <? N.of_nat (S n)) with (x <? N.of_nat n) by lia. reflexivity.
Qed.

Section MTerm.
Variable txs : N -> N -> N.
Variable mts : N -> metrics.
Variable mbursts : list (N * list (N * N * N)).
Hypothesis Hne : Forall (fun b => snd b <> []) mbursts.

Notation mstep := (Multi.mstep own_instance txs mts mbursts).
Notation msteps := (Multi.msteps own_instance txs mts mbursts).
Notation moffer := (Multi.moffer own_instance txs mts).
Notation proj := (proj_ev mbursts).
Notation Rp := (Project.Rp mbursts).

(* the event concerns some channel *)
Definition nonjunk (x : ev) : Prop := exists c, c < NCH /\ proj c (dec_mev (epay x)) <> None.
Definition NJ (Q : sp) : Prop := forall x, In x (pend Q) -> nonjunk x.
Definition grows (Q Q' : sp) : Prop := forall y, In y (pend Q') -> In y (pend Q) \/ nonjunk y.

Lemma grows_refl Q : grows Q Q.
Proof. intros y H. left; exact H. Qed.

Lemma grows_trans Q1 Q2 Q3 : grows Q1 Q2 -> grows Q2 Q3 -> grows Q1 Q3.
Proof. intros H1 H2 y Hy. destruct (H2 y Hy) as [H|H]; [exact (H1 y H)|right; exact H]. Qed.

Lemma grows_addall c evs Q :
  c < NCH -> Forall (fun te => s_tcur Q <= fst te /\ notwake (snd te)) evs -> grows Q (addall (enc_at c) evs Q).
Proof.
  intros Hc HF y Hy. rewrite Forall_forall in HF.
  apply addall_In in Hy; [|apply Forall_forall; intros te Hte; apply (HF te Hte)].
  destruct Hy as [Hy|(te & Hi & _ & Hp)]; [left; exact Hy|right]. exists c. split; [exact Hc|].
  rewrite Hp, (proj_same mbursts c Hc _ (proj2 (HF te Hi))). discriminate.
Qed.

Lemma grows_on c h M : c < NCH -> Par h -> grows (mq M) (mq (on c (h (enc_at c)) M)).
Proof.
  intros Hc HP. assert (HS : Sim [] (view c M) (view c M)) by (unfold Sim; rewrite app_nil_r; repeat split).
  destruct (HP (enc_at c) (enc_at c) [] _ _ HS) as [_ [evs [HF [B1 _]]]]. cbn [on back mq]. rewrite B1.
  apply grows_addall; assumption.
Qed.

Lemma grows_fold offs : forall M, grows (mq M) (mq (fold_left moffer offs M)).
Proof.
  induction offs as [|[[c0 m] len] offs IH]; intros M; cbn [fold_left]; [apply grows_refl|].
  eapply grows_trans; [|apply IH]. unfold Multi.moffer, own_instance. rewrite N.mod_mod by discriminate.
  apply (grows_on (c0 mod NCH) (fun e s => offer current e (txs (c0 mod NCH)) (mts (c0 mod NCH)) s (m, len)));
    [apply N.mod_lt; discriminate|apply Par_offer].
Qed.

Lemma grows_dispatch M p : grows (mq M) (mq (mdispatch own_instance txs mts mbursts M (dec_mev p))).
Proof.
  pose proof (dec_mev_chan p) as Hch. destruct (dec_mev p) as [c|c m|k]; cbn [mdispatch].
  - apply (grows_on c (fun e s => unbusy current e (txs c) (mts c) s) M Hch), Par_unbusy.
  - apply (grows_on c (fun _ s => handle_exit s m) M Hch), Par_exit.
  - unfold mwake. destruct (nth_error mbursts (N.to_nat k)) as [[t offs]|]; [apply grows_fold|apply grows_refl].
Qed.

Definition sstep_c (c : N) := Model.step current enc_ev (txs c) (mts c) (pbursts mbursts c).
Definition pot (F : N -> st) : nat := sumn nch (fun c => mu (pbursts mbursts c) (F c)).
Definition Joint (M : mst) (F : N -> st) : Prop := (forall c, c < NCH -> Rp c M (F c)) /\ NJ (mq M).

Lemma joint_step M M' F :
  Joint M F -> mstep M = Some M' -> exists F', Joint M' F' /\ (pot F' < pot F)%nat.
Proof.
  intros [HR HN] Hm.
  pose proof (mstep_inv txs mts mbursts M (pj_SIQ _ _ _ (rp_q _ _ _ _ (HR 0 ltac:(unfold NCH; lia))))) as H.
  rewrite Hm in H. destruct H as (x & Q' & HF & ->).
  set (F' := fun c => match proj c (dec_mev (epay x)) with
                      | Some _ => match sstep_c c (F c) with Some S' => S' | None => F c end
                      | None => F c end).
  assert (HF' : forall c, c < NCH ->
            Rp c (mdispatch own_instance txs mts mbursts (set_mq M Q') (dec_mev (epay x))) (F' c) /\
            (mu (pbursts mbursts c) (F' c) <= mu (pbursts mbursts c) (F c))%nat /\
            (proj c (dec_mev (epay x)) <> None -> (mu (pbursts mbursts c) (F' c) < mu (pbursts mbursts c) (F c))%nat)).
  { intros c Hc. pose proof (Rp_step_head txs mts mbursts c Hc M (F c) x Q' (HR c Hc) HF) as H. cbv zeta in H. unfold F'.
    destruct (proj c (dec_mev (epay x))) as [e|].
    - destruct H as [S' [ES HR']]. unfold sstep_c. rewrite ES.
      pose proof (mu_step (txs c) (mts c) (pbursts mbursts c) (F c) S' (pj_SIP _ _ _ (rp_q _ _ _ _ (HR c Hc))) ES) as Hlt.
      split; [exact HR'|]. split; [lia|intros _; exact Hlt].
    - split; [exact H|]. split; [lia|intros Hc'; destruct (Hc' eq_refl)]. }
  exists F'. split; [split|].
  - intros c Hc. apply (HF' c Hc).
  - intros y Hy. apply grows_dispatch in Hy. cbn [set_mq mq] in Hy. destruct Hy as [Hy|Hy]; [|exact Hy].
    apply HN. rewrite (f_pend _ _ _ HF). right. exact Hy.
  - destruct (HN x) as [c0 [Hc0 Hp0]]; [rewrite (f_pend _ _ _ HF); left; reflexivity|]. unfold pot.
    apply (sumn_lt nch _ _ c0); [intros c Hc; apply (HF' c Hc)|exact Hc0|apply (HF' c0 Hc0), Hp0].
Qed.

Lemma msteps_done n : forall M F, Joint M F -> (pot F < n)%nat -> mstep (msteps n M) = None.
Proof.
  induction n as [|n IH]; intros M F HJ Hp; [lia|]. cbn [Multi.msteps].
  destruct (mstep M) as [M'|] eqn:E; [|exact E].
  destruct (joint_step M M' F HJ E) as [F' [HJ' Hlt]]. apply (IH M' F' HJ'). lia.
Qed.

Lemma NJ_init oracles : NJ (mq (minit mbursts oracles)).
Proof.
  intros x Hx. cbn [minit mq] in Hx. rewrite sched_wakes_addall in Hx. apply addall_In in Hx; [|apply timely_0; reflexivity].
  destruct Hx as [[]|(te & Hi & _ & Ej)]. apply wake_evs_In in Hi. destruct Hi as (j & Hj & Ek). rewrite Ek in Ej.
  rewrite map_length in Hj. rewrite N.add_0_l in Ej.
  destruct (nth_error mbursts j) as [[t offs]|] eqn:En; [|apply nth_error_None in En; lia].
  assert (Ho : offs <> []) by (rewrite Forall_forall in Hne; exact (Hne _ (nth_error_In _ _ En))).
  destruct offs as [|[[c0 m] len] offs]; [destruct (Ho eq_refl)|].
  exists (c0 mod NCH). split; [apply N.mod_lt; discriminate|].
  rewrite Ej, dec_enc_mev by (unfold NCH; lia). cbn [lift proj_ev]. rewrite Nat2N.id, En.
  unfold nonempty, projb. cbn [snd fst flat_map]. rewrite N.eqb_refl. cbn [app]. discriminate.
Qed.

Definition F0 (oracles : N -> list N) (c : N) : st := init enc_ev (pbursts mbursts c) (oracles c).

Lemma Joint_init oracles : Joint (minit mbursts oracles) (F0 oracles).
Proof. split; [intros c Hc; apply Rp_init; exact Hc|apply NJ_init]. Qed.

(* how many offers go to channel c *)
Definition share (c : N) (bs : list (N * list (N * N * N))) : nat :=
  length (flat_map (fun b => snd (projb c b)) bs).

Lemma pbursts_share c bs :
  length (all_ids (pbursts_of c bs)) = share c bs /\ (length (pbursts_of c bs) <= share c bs)%nat.
Proof.
  unfold share, pbursts_of, all_ids. induction bs as [|b bs [IH1 IH2]]; cbn [map filter flat_map length]; [split; lia|].
  rewrite app_length. destruct (nonempty (projb c b)) eqn:En; cbn [flat_map length]; rewrite ?app_length, ?map_length.
  - unfold nonempty in En. destruct (snd (projb c b)); [discriminate|]. cbn [length] in *. split; lia.
  - unfold nonempty in En. destruct (snd (projb c b)); [|discriminate]. cbn [length]. split; lia.
Qed.

Lemma share_burst offs : sumn nch (fun c => length (snd (projb c (0, offs)))) = length offs.
Proof.
  unfold projb. cbn [snd fst]. induction offs as [|[[c0 m] len] offs IH]; [reflexivity|]. cbn [flat_map length fst snd].
  rewrite <- IH, (sumn_ext nch _ (fun c => ((if (c0 mod NCH =? c)%N then 1 else 0) + length (flat_map _ offs))%nat))
    by (intros c; rewrite app_length; destruct (c0 mod NCH =? c); reflexivity).
  rewrite sumn_add, sumn_one. replace (c0 mod NCH <? _) with true; [reflexivity|].
  symmetry. apply N.ltb_lt, (N.mod_lt c0 NCH). discriminate.
Qed.

Lemma share_total bs : sumn nch (fun c => share c bs) = length (flat_map snd bs).
Proof.
  unfold share. induction bs as [|[t offs] bs IH]; [reflexivity|]. cbn [flat_map snd].
  rewrite (sumn_ext nch _ _ (fun c => app_length _ _)), sumn_add, IH, app_length. f_equal. apply (share_burst offs).
Qed.

Lemma pot_init oracles : (pot (F0 oracles) <= 3 * length (flat_map snd mbursts))%nat.
Proof.
  unfold pot, F0. rewrite <- share_total.
  assert (H : (sumn nch (fun c => mu (pbursts mbursts c) (init enc_ev (pbursts mbursts c) (oracles c))) <=
               sumn nch (fun c => (share c mbursts + (share c mbursts + share c mbursts))%nat))%nat).
  { apply sumn_le. intros c _. rewrite mu_init. unfold pbursts.
    destruct (pbursts_share c mbursts) as [E L]. rewrite E. lia. }
  rewrite !sumn_add in H. lia.
Qed.

Theorem multi_completes oracles n :
  (3 * length (flat_map snd mbursts) < n)%nat ->
  let s := msteps n (minit mbursts oracles) in mstep s = None /\ pend (mq s) = [].
Proof.
  intros Hn. cbv zeta.
  assert (Hs : mstep (msteps n (minit mbursts oracles)) = None).
  { apply (msteps_done n _ (F0 oracles) (Joint_init oracles)). pose proof (pot_init oracles). lia. }
  split; [exact Hs|].
  destruct (multi_projects txs mts mbursts 0 ltac:(unfold NCH; lia) oracles n) as [k [_ _ _ HQ]].
  pose proof (mstep_inv txs mts mbursts _ (pj_SIQ _ _ _ HQ)) as H. rewrite Hs in H. exact H.
Qed.

End MTerm.

Lemma mgroup_spec offs : forall m,
  Forall (fun b => snd b <> []) (mgroup offs m) /\ length (flat_map snd (mgroup offs m)) = length offs.
Proof.
  induction offs as [|[[t c] len] r IH]; intros m; cbn [mgroup]; [split; [constructor|reflexivity]|].
  destruct (IH (m + 1)) as [F L]. destruct (mgroup r (m + 1)) as [|[[t' side'] b] g].
  - split; [repeat constructor; discriminate|cbn [flat_map snd app length] in *; lia].
  - inversion F; subst. destruct ((t =? t') && Bool.eqb (N.odd c) side'); cbn [flat_map snd app length] in *.
    + split; [constructor; [discriminate|assumption]|lia].
    + split; [constructor; [discriminate|constructor; assumption]|lia].
Qed.

Lemma flat_filter_split {A B} (f : A -> list B) (p : A -> bool) l :
  (length (flat_map f (filter (fun x => negb (p x)) l)) + length (flat_map f (filter p l)) = length (flat_map f l))%nat.
Proof.
  induction l as [|x l IH]; cbn [filter flat_map length]; [reflexivity|].
  destruct (p x); cbn [negb flat_map]; rewrite !app_length; lia.
Qed.

Lemma sched_order_spec g :
  Forall (fun b => snd b <> []) g ->
  Forall (fun b => snd b <> []) (sched_order g) /\ length (flat_map snd (sched_order g)) = length (flat_map snd g).
Proof.
  intros F. unfold sched_order. split.
  - apply Forall_forall. intros b Hb. apply in_map_iff in Hb. destruct Hb as [x [<- Hx]]. cbn [snd].
    rewrite Forall_forall in F. apply F. apply in_app_or in Hx. destruct Hx as [Hx|Hx]; apply filter_In in Hx; apply Hx.
  - rewrite flat_map_concat_map, map_map, <- flat_map_concat_map. cbn [snd].
    rewrite flat_map_app, app_length. apply (flat_filter_split snd (fun b => snd (fst b)) g).
Qed.

(* the run of a script ends within the fuel of Multi.run with no event pending:
   the trailing 9 of the model's output never appears *)
Theorem multi_run_completes txs mts oracles offs :
  let bs := sched_order (mgroup offs 0) in
  let s := msteps own_instance txs mts bs (mfuel offs) (minit bs oracles) in
  mstep own_instance txs mts bs s = None /\ pend (mq s) = [].
Proof.
  cbv zeta. destruct (mgroup_spec offs 0) as [F L]. destruct (sched_order_spec _ F) as [F' L'].
  apply multi_completes; [exact F'|]. rewrite L', L. unfold mfuel. lia.
Qed.

Lemma final_samples_keep_queue cs : forall s, mq (fold_left (fun s c => on c sample s) cs s) = mq s.
Proof. induction cs as [|c cs IH]; intros s; cbn [fold_left]; [reflexivity|]. rewrite IH. reflexivity. Qed.
