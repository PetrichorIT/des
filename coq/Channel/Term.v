(* The event loop runs dry: every step consumes one unit of
   |pending events| + 2 |messages not yet offered| + 2 |queued messages|,
   so the fuel of Model.run_model is enough and the final state has no
   pending event, an idle channel and an empty queue. *)
From Coq Require Import List NArith Lia Permutation ZifyBool.
From DesVerif Require Import CQueue.Model CQueue.Spec CQueue.SpecProps
  Channel.Model Channel.Queue Channel.Trace Channel.Core Channel.Account.
Import ListNotations.
Open Scope N_scope.

Section Term.
Variable tx : N -> N.
Variable mt : metrics.
Variable bursts : list (N * list (N * N)).

Notation send := (send_message current enc_ev tx mt).
Notation drain := (Model.drain current enc_ev tx mt).
Notation offer := (Model.offer current enc_ev tx mt).
Notation step := (Model.step current enc_ev tx mt bursts).
Notation steps := (Model.steps current enc_ev tx mt bursts).
Notation pids := (pending_ids bursts).

Definition mu (s : st) : nat :=
  (length (pend (q s)) + 2 * length (pids (pend (q s))) + 2 * length (buffer (ch s)))%nat.

Lemma mu_send s m len fq : (mu (send s m len fq) <= mu s + 2)%nat.
Proof.
  unfold mu. destruct (busy (ch s)) eqn:Hb.
  - rewrite send_busy by exact Hb. destruct (m_pol mt) as [|lim]; [cbn [emit ch q]; lia|].
    destruct (over lim (acc (ch s) + len)); cbn [emit set_ch enqueue ch q buffer]; [lia|]. rewrite app_length. cbn [length]. lia.
  - rewrite send_idle by exact Hb. cbn [ch q]. pose proof (send_evs_timely tx mt s m len) as HT.
    rewrite (addall_length _ _ _ HT). unfold pending_ids, wakes. rewrite (sel_addall _ _ _ HT). unfold send_evs.
    destruct (tx len =? 0); cbn [selv flat_map fst snd app length set_busy_until buffer]; lia.
Qed.

Lemma mu_drain k : forall s, (mu (drain k s) <= mu s)%nat.
Proof.
  induction k as [|k IH]; intros s; cbn [Model.drain]; [lia|].
  destruct (busy (ch s)); [lia|]. destruct (buffer (ch s)) as [|[m len] r] eqn:Eb; [lia|].
  etransitivity; [apply IH|]. etransitivity; [apply mu_send|]. unfold mu. cbn [set_ch ch q buffer]. rewrite Eb. cbn [length]. lia.
Qed.

Lemma mu_fold offs : forall s, (mu (fold_left offer offs s) <= mu s + 2 * length offs)%nat.
Proof.
  induction offs as [|o offs IH]; intros s; cbn [fold_left length]; [lia|].
  etransitivity; [apply IH|]. unfold Model.offer.
  assert (H : (mu (sample (send (sample s) (fst o) (snd o) false)) <= mu (sample s) + 2)%nat) by apply mu_send.
  change (mu (sample s)) with (mu s) in H. lia.
Qed.

Lemma mu_step s s' : SI (q s) -> step s = Some s' -> (mu s' < mu s)%nat.
Proof.
  intros HS Hs. pose proof (step_inv tx mt bursts current enc_ev s HS) as H. rewrite Hs in H.
  destruct H as (x & q' & HF & ->). set (s1 := set_q s q').
  assert (H1 : (mu s1 + 1 + 2 * length (match dec_ev (epay x) with EWake k => burst_ids bursts k | _ => [] end) = mu s)%nat).
  { unfold mu, s1. cbn [set_q ch q]. rewrite (f_pend _ _ _ HF). unfold pending_ids, wakes. rewrite sel_cons.
    destruct (dec_ev (epay x)); cbn [app flat_map length]; rewrite ?app_length; lia. }
  destruct (dec_ev (epay x)) as [|m|k]; cbn [Model.dispatch length] in *.
  - rewrite unbusy_eq. pose proof (mu_drain (length (buffer (ch s1))) (unbusied s1)) as H2.
    change (mu (unbusied s1)) with (mu s1) in H2. lia.
  - unfold handle_exit. change (mu (sample (emit s1 (IDeliver m (now s1))))) with (mu s1). lia.
  - unfold Model.handle_wake, burst_ids in *. destruct (nth_error bursts (N.to_nat k)) as [[t offs]|]; [|lia].
    rewrite map_length in H1. pose proof (mu_fold offs s1) as H2. lia.
Qed.

Lemma steps_stuck n s : step s = None -> steps n s = s.
Proof. intros H. destruct n; cbn [Model.steps]; [reflexivity|]. rewrite H. reflexivity. Qed.

Lemma steps_done n : forall s, Good tx mt s -> (mu s < n)%nat -> step (steps n s) = None.
Proof.
  induction n as [|n IH]; intros s HG Hm; [lia|]. cbn [Model.steps].
  pose proof (step_inv tx mt bursts current enc_ev s (C_SI _ _ _ (proj1 HG))) as Hs.
  destruct (step s) as [s'|] eqn:E; [|exact E]. destruct Hs as (x & q' & HF & ->).
  apply IH; [apply Good_step; assumption|]. pose proof (mu_step s _ (C_SI _ _ _ (proj1 HG)) E). lia.
Qed.

Lemma wake_evs_length bs : forall k, length (wake_evs k bs) = length bs.
Proof. induction bs as [|[t o] bs IH]; intros k; cbn [wake_evs length]; [reflexivity|]. rewrite IH. reflexivity. Qed.

Lemma mu_init oracle : mu (init enc_ev bursts oracle) = (length bursts + 2 * length (all_ids bursts))%nat.
Proof.
  unfold mu. rewrite (Permutation_length (pending_init bursts oracle)). cbn [init ch q idle_chan buffer length].
  rewrite sched_wakes_addall, addall_length, wake_evs_length by (apply timely_0; reflexivity). cbn [sp_new sp_new_at pend s_zero s_rest app length]. lia.
Qed.

(* with more fuel than the measure of the initial state the loop runs dry:
   nothing pending, the channel idle with an empty queue, everything delivered or dropped *)
Theorem runs_dry oracle n :
  (length bursts + 2 * length (all_ids bursts) < n)%nat ->
  let s := steps n (init enc_ev bursts oracle) in
  step s = None /\ pend (q s) = [] /\ busy (ch s) = false /\ buffer (ch s) = [] /\
  Permutation (all_ids bursts) (delivered (log s) ++ dropped_busy (log s) ++ dropped_full (log s)).
Proof.
  intros Hn. cbv zeta. destruct (Good_reachable tx mt bursts oracle n) as [HC Hi].
  assert (Hs : step (steps n (init enc_ev bursts oracle)) = None) by (apply steps_done; [apply Good_init|rewrite mu_init; exact Hn]).
  pose proof (step_inv tx mt bursts current enc_ev _ (C_SI _ _ _ HC)) as Hp. rewrite Hs in Hp.
  pose proof (account tx mt bursts oracle n) as H. cbv zeta in H. pose proof (C_unb _ _ _ HC) as Hu. rewrite Hp in H, Hu.
  destruct (busy (ch (steps n (init enc_ev bursts oracle)))); [discriminate Hu|].
  rewrite (Hi eq_refl) in *. cbn [map exits wakes sel flat_map pending_ids app] in H. rewrite !app_nil_r in H.
  exact (conj Hs (conj Hp (conj eq_refl (conj eq_refl H)))).
Qed.

End Term.

(* ---- the bursts built from a script ---- *)
Fixpoint ids_from (m : N) (k : nat) : list N :=
  match k with O => [] | S k' => m :: ids_from (m + 1) k' end.

Lemma ids_from_ge m k x : In x (ids_from m k) -> m <= x.
Proof.
  revert m; induction k as [|k IH]; intros m; cbn [ids_from]; [intros []|].
  intros [<-|H]; [lia|]. apply IH in H. lia.
Qed.

Lemma ids_from_nodup m k : NoDup (ids_from m k).
Proof.
  revert m; induction k as [|k IH]; intros m; cbn [ids_from]; constructor; [|apply IH].
  intros H. apply ids_from_ge in H. lia.
Qed.

Lemma ids_from_length k : forall m, length (ids_from m k) = k.
Proof. induction k as [|k IH]; intros m; cbn [ids_from length]; [reflexivity|]. rewrite IH. reflexivity. Qed.

Lemma group_spec offs : forall m,
  all_ids (group offs m) = ids_from m (length offs) /\ (length (group offs m) <= length offs)%nat.
Proof.
  induction offs as [|[t len] r IH]; intros m; cbn [group length ids_from]; [split; [reflexivity|lia]|].
  destruct (IH (m + 1)) as [E L]. destruct (group r (m + 1)) as [|[t' b] g].
  - split; [|cbn [length]; lia]. unfold all_ids in *. cbn [flat_map snd map fst app] in *. rewrite <- E. reflexivity.
  - destruct (t =? t'); unfold all_ids in *; cbn [flat_map snd map fst app length] in *; rewrite <- E; split; (reflexivity || lia).
Qed.
