(* Consequences of Project.multi_projects in the form Properties/C07.v states
   them: independence of channel instances, transfer of every single-channel
   invariant to every channel of a multi-channel run. *)
From Coq Require Import List NArith Bool.
From DesVerif Require Import CQueue.Spec
  Channel.Model Channel.Queue Channel.Trace Channel.Core Channel.Props Channel.Order Channel.Multi Channel.Project.
Import ListNotations.
Open Scope N_scope.

Section Links.
Variable txs : N -> N -> N.
Variable mts : N -> metrics.
Variable mbursts : list (N * list (N * N * N)).
Variable oracles : N -> list N.

Definition mreach (n : nat) : mst := msteps own_instance txs mts mbursts n (minit mbursts oracles).

(* the single-channel run of channel c: only c's metrics, c's part of the script and c's samples occur in it *)
Definition own_run (c : N) (k : nat) : st :=
  steps current enc_ev (txs c) (mts c) (pbursts mbursts c) k (init enc_ev (pbursts mbursts c) (oracles c)).

Theorem links_independent c n :
  c < NCH ->
  exists k, inst_of (mreach n) c = ch (own_run c k) /\ orcs (mreach n) c = orc (own_run c k) /\
            plog c (mlog (mreach n)) = log (own_run c k).
Proof.
  intros Hc. destruct (multi_projects txs mts mbursts c Hc oracles n) as [k [H1 H2 H3 _]].
  exists k. refine (conj H1 (conj H2 H3)).
Qed.

(* whatever holds of the channel record and the log in every state of every single-channel run
   holds of every channel of every multi-channel run *)
Theorem multi_transfer (P : chan -> list item -> Prop) c n :
  c < NCH ->
  (forall k, P (ch (own_run c k)) (log (own_run c k))) ->
  P (inst_of (mreach n) c) (plog c (mlog (mreach n))).
Proof.
  intros Hc HP. destruct (links_independent c n Hc) as [k [H1 [_ H3]]]. rewrite H1, H3. apply HP.
Qed.

Corollary multi_zero_jitter_order c n :
  c < NCH -> m_jit (mts c) = 0 ->
  let l := plog c (mlog (mreach n)) in
  exists later, rev (accepted l) = rev (delivered l) ++ later.
Proof.
  intros Hc Hj. cbv zeta.
  apply (multi_transfer (fun _ l => exists later, rev (accepted l) = rev (delivered l) ++ later) c n Hc).
  intros k. eexists. apply (zero_jitter_preserves_order (txs c) (mts c) (pbursts mbursts c) Hj (oracles c) k).
Qed.

End Links.
