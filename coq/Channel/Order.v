(* Zero jitter: messages are handed to the receiver in the order their
   transmissions started, hence (FIFO start) in the order they were offered.
   The proof follows the Exit events through the event set: a new Exit event is
   always placed behind every pending one. This needs the order in which
   send_message schedules its two events (exit first, fix f99a7c7): with zero
   latency the Exit of the transmission that is ending is then fetched before
   the Unbusy event that starts the next one in the same instant. *)
From Coq Require Import List NArith Lia ZifyBool.
From DesVerif Require Import CQueue.Model CQueue.Spec CQueue.ListX CQueue.SpecProps
  Channel.Model Channel.Queue Channel.Trace Channel.Core Channel.Account Channel.Timing Channel.Props.
Import ListNotations.
Open Scope N_scope.

Lemma started_cons i l : started (i :: l) = match i with IStart m _ _ _ _ => [m] | _ => [] end ++ started l.
Proof. reflexivity. Qed.

Definition is_exit (x : ev) : Prop := exists m, dec_ev (epay x) = EExit m.
Definition is_unb (x : ev) : Prop := dec_ev (epay x) = EUnbusy.

Lemma exits_none l : (forall y, In y l -> ~ is_exit y) -> exits l = [].
Proof.
  induction l as [|y l IH]; intros H; [reflexivity|]. unfold exits in *. rewrite sel_cons.
  rewrite IH by (intros z Hz; apply H; right; exact Hz).
  destruct (dec_ev (epay y)) as [|m|k] eqn:E; try reflexivity. exfalso. apply (H y (or_introl eq_refl)). exists m. exact E.
Qed.

Lemma unbusies_none l u : unbusies l = [] -> In u l -> ~ is_unb u.
Proof. intros H Hu Hd. unfold unbusies in H. pose proof (sel_nil_In _ _ _ H Hu) as E. unfold is_unb in Hd. rewrite Hd in E. discriminate. Qed.

Lemma exits_nil_none l x : exits l = [] -> In x l -> ~ is_exit x.
Proof. intros H Hx [m Hd]. unfold exits in H. pose proof (sel_nil_In _ _ _ H Hx) as E. rewrite Hd in E. discriminate. Qed.

Section Order.
Variable tx : N -> N.
Variable mt : metrics.
Variable bursts : list (N * list (N * N)).
Hypothesis Hjit : m_jit mt = 0.

Notation send := (send_message current enc_ev tx mt).
Notation drain := (Model.drain current enc_ev tx mt).
Notation unbusy := (Model.unbusy current enc_ev tx mt).
Notation offer := (Model.offer current enc_ev tx mt).
Notation dispatch := (Model.dispatch current enc_ev tx mt bursts).
Notation steps := (Model.steps current enc_ev tx mt bursts).

(* the latest time a pending Exit event can have: the transmission in progress ends at [finish] *)
Definition bound (s : st) : N := (if busy (ch s) then finish (ch s) else now s) + m_lat mt.

Record Ord (s : st) : Prop := {
  (* the pending Exit events, in fetch order, are the transmissions not yet delivered, in start order *)
  O_seq : started (log s) = rev (exits (pend (q s))) ++ delivered (log s);
  (* so a transmission that starts on the idle channel gets an Exit time not before any pending one *)
  O_bound : forall x, In x (pend (q s)) -> is_exit x -> etime x <= bound s;
  (* zero latency: an Exit event waiting in the sorted part belongs to the transmission in progress and is
     due when it ends; on an idle channel the sorted part holds none, so a new Exit for the current instant,
     which goes to the end of the current-instant list, overtakes nothing *)
  O_rest : m_lat mt = 0 -> forall x, In x (s_rest (q s)) -> is_exit x ->
             busy (ch s) = true /\ etime x = finish (ch s);
  (* the Exit of a transmission is added before its Unbusy (exit_first): at equal times it is fetched
     first, so when the Unbusy event is handled no Exit event of that instant is left in the sorted part *)
  O_ids : forall u x, In u (pend (q s)) -> In x (pend (q s)) -> is_unb u -> is_exit x -> eid x < eid u;
  (* an Unbusy event is always in the future when added (tx len <> 0), hence fetched from the sorted part *)
  O_zero : forall u, In u (s_zero (q s)) -> ~ is_unb u
}.

Lemma Ord_same s s' :
  q s' = q s -> busy (ch s') = busy (ch s) -> finish (ch s') = finish (ch s) ->
  started (log s') = started (log s) -> delivered (log s') = delivered (log s) -> Ord s -> Ord s'.
Proof.
  intros Eq Eb Ef Es Ed [H1 H2 H3 H4 H5]. constructor; unfold bound, now in *; rewrite ?Eq, ?Eb, ?Ef, ?Es, ?Ed; assumption.
Qed.

Lemma Ord_sample s : Ord s -> Ord (sample s).
Proof. apply Ord_same; reflexivity. Qed.

Lemma Ord_send_busy s m len fq : busy (ch s) = true -> Ord s -> Ord (send s m len fq).
Proof.
  intros Hb. rewrite send_busy by exact Hb. destruct (m_pol mt) as [|lim]; [apply Ord_same; reflexivity|].
  destruct (over lim (acc (ch s) + len)); apply Ord_same; reflexivity.
Qed.

Lemma jit0 s : jit_of mt s = 0.
Proof. unfold jit_of, take_jitter. rewrite Hjit. reflexivity. Qed.

Lemma rest_qadd q0 t e x :
  s_tcur q0 <= t -> In x (s_rest (qadd q0 t e)) -> (x = new_ev q0 t e /\ t <> s_tcur q0) \/ In x (s_rest q0).
Proof.
  intros H Hx. destruct (qaddf_shape enc_ev q0 t e H) as [_ [[_ [_ E]]|[Hn [_ E]]]]; rewrite E in Hx; [right; exact Hx|].
  apply In_sins in Hx. destruct Hx as [->|Hx]; [left; split; [reflexivity|exact Hn]|right; exact Hx].
Qed.

Lemma zero_qadd q0 t e x :
  s_tcur q0 <= t -> In x (s_zero (qadd q0 t e)) -> (x = new_ev q0 t e /\ t = s_tcur q0) \/ In x (s_zero q0).
Proof.
  intros H Hx. destruct (qaddf_shape enc_ev q0 t e H) as [_ [[Hn [E _]]|[_ [E _]]]]; rewrite E in Hx; [|right; exact Hx].
  apply in_app_or in Hx. destruct Hx as [Hx|[<-|[]]]; [right; exact Hx|left; split; [reflexivity|exact Hn]].
Qed.

Lemma new_exit q0 t m : is_exit (new_ev q0 t (EExit m)).
Proof. exists m. cbn [new_ev epay]. apply dec_enc. Qed.
Lemma new_exit_not_unb q0 t m : ~ is_unb (new_ev q0 t (EExit m)).
Proof. unfold is_unb. cbn [new_ev epay]. rewrite dec_enc. discriminate. Qed.
Lemma new_unb_not_exit q0 t : ~ is_exit (new_ev q0 t EUnbusy).
Proof. intros [m H]. cbn [new_ev epay] in H. rewrite dec_enc in H. discriminate. Qed.

(* the new Exit event lands behind every pending Exit event *)
Lemma exits_qadd_last s m te :
  SI (q s) -> busy (ch s) = false -> Ord s -> now s + m_lat mt <= te ->
  exits (pend (qadd (q s) te (EExit m))) = exits (pend (q s)) ++ [m].
Proof.
  intros HS Hb HO Hte. assert (Ht : s_tcur (q s) <= te) by (unfold now in Hte; lia).
  destruct (qaddf_shape enc_ev (q s) te (EExit m) Ht) as [_ [[E0 [Ez Er]]|[Hn [Ez Er]]]]; unfold pend; rewrite Ez, Er.
  - assert (Hl : m_lat mt = 0) by (unfold now in Hte; lia).
    assert (Hr : exits (s_rest (q s)) = []).
    { apply exits_none. intros y Hy He. destruct (O_rest s HO Hl y Hy He) as [Hc _]. congruence. }
    unfold exits in *. rewrite !sel_app, sel_cons, Hr. cbn [sel flat_map newp epay etime]. rewrite dec_enc, !app_nil_r. reflexivity.
  - destruct (sins_cut (newp (q s) te (enc_ev (EExit m))) (s_rest (q s))) as (l1 & l2 & E1 & E2 & _ & Hk).
    specialize (Hk (SI_sorted _ HS)). rewrite Forall_forall in Hk.
    assert (Hr : exits l2 = []).
    { apply exits_none. intros y Hy He. specialize (Hk y Hy).
      assert (Hin : In y (pend (q s))) by (unfold pend; rewrite E1; apply in_or_app; right; apply in_or_app; right; exact Hy).
      pose proof (O_bound s HO y Hin He) as Hbd. unfold bound in Hbd. rewrite Hb in Hbd.
      pose proof (SI_ids _ HS y Hin) as Hid. unfold key_lt in Hk. cbn [newp etime eid] in Hk. lia. }
    rewrite E2, E1. unfold exits in *. rewrite !sel_app, sel_cons, Hr. cbn [newp epay etime]. rewrite dec_enc, !app_nil_r, !app_assoc. reflexivity.
Qed.

Lemma exits_qadd_unb q0 t : s_tcur q0 <= t -> exits (pend (qadd q0 t EUnbusy)) = exits (pend q0).
Proof. intros H. apply sel_qadd_none; [exact H|reflexivity]. Qed.

(* a transmission starts on an idle channel *)
Lemma Ord_start s m len fq :
  SI (q s) -> busy (ch s) = false -> unbusies (pend (q s)) = [] -> Ord s -> Ord (send s m len fq).
Proof.
  intros HS Hb Hu HO. rewrite send_idle by exact Hb. unfold send_evs. rewrite jit0, addall_cons. cbn [fst snd].
  set (te := now s + (m_lat mt + tx len + 0)). set (tu := now s + tx len).
  assert (Hte : s_tcur (q s) <= te) by (unfold te, now; lia).
  set (q1 := qadd (q s) te (EExit m)). set (q2 := addall enc_ev _ q1).
  assert (Hex : exits (pend q1) = exits (pend (q s)) ++ [m]) by (apply exits_qadd_last; try assumption; unfold te; lia).
  assert (Hnext : s_next q1 = s_next (q s) + 1) by apply (qaddf_shape enc_ev _ _ _ Hte).
  pose proof HO as [H1 H2 H3 H4 H5].
  assert (Hold_unb : forall u, In u (pend (q s)) -> ~ is_unb u) by (intros u; apply unbusies_none; exact Hu).
  assert (Hold_rest : m_lat mt = 0 -> forall y, In y (s_rest (q s)) -> ~ is_exit y).
  { intros Hl y Hy He. destruct (H3 Hl y Hy He) as [Hc _]. congruence. }
  (* the Unbusy event, if there is one, goes into the sorted part and leaves the Exit events as they are *)
  assert (Hq2 : exits (pend q2) = exits (pend q1) /\ s_tcur q2 = s_tcur (q s) /\
                (forall x, In x (s_zero q2) -> In x (s_zero q1)) /\
                (forall x, In x (s_rest q2) -> (tx len <> 0 /\ x = new_ev q1 tu EUnbusy) \/ In x (s_rest q1))).
  { unfold q2. destruct (tx len =? 0) eqn:Et; cbn [addall fold_left fst snd]; [unfold q1; rewrite qaddf_tcur; auto|].
    assert (Htu : s_tcur q1 <= tu) by (unfold q1; rewrite qaddf_tcur; unfold tu, now; lia).
    split; [apply exits_qadd_unb, Htu|]. split; [unfold q1; rewrite !qaddf_tcur; reflexivity|]. split; intros x Hx.
    - apply zero_qadd in Hx; [|exact Htu]. destruct Hx as [[_ Hc]|Hx]; [|exact Hx].
      unfold q1 in Hc. rewrite qaddf_tcur in Hc. unfold tu, now in Hc. lia.
    - apply rest_qadd in Hx; [|exact Htu]. destruct Hx as [[-> _]|Hx]; [left; split; [lia|reflexivity]|right; exact Hx]. }
  destruct Hq2 as (Hex2 & Htc2 & Hz2 & Hr2).
  assert (Hin2 : forall x, In x (pend q2) ->
            (tx len <> 0 /\ x = new_ev q1 tu EUnbusy) \/ x = new_ev (q s) te (EExit m) \/ In x (pend (q s))).
  { intros x Hx. apply in_app_or in Hx.
    assert (Hx1 : (tx len <> 0 /\ x = new_ev q1 tu EUnbusy) \/ In x (pend q1))
      by (destruct Hx as [Hx|Hx]; [right; apply in_or_app; left; apply Hz2, Hx|
          destruct (Hr2 x Hx) as [H|H]; [left; exact H|right; apply in_or_app; right; exact H]]).
    destruct Hx1 as [H|H]; [left; exact H|right]. apply qaddf_In in H; [exact H|exact Hte]. }
  constructor; cbn [ch q log]; unfold bound, now; cbn [ch q]; rewrite ?Htc2.
  - rewrite started_cons, delivered_cons. cbn [app]. rewrite Hex2, Hex, rev_app_distr, H1. reflexivity.
  - intros x Hx He.
    assert (Hbd : etime x <= now s + m_lat mt + tx len).
    { destruct (Hin2 x Hx) as [[_ ->]|[->|Hx']]; [destruct (new_unb_not_exit _ _ He)|cbn [new_ev etime]; unfold te; lia|].
      pose proof (H2 x Hx' He) as Hbd. unfold bound in Hbd. rewrite Hb in Hbd. lia. }
    unfold tu, now in *. destruct (tx len =? 0) eqn:Et; cbn [set_busy_until busy finish]; rewrite ?Hb; lia.
  - intros Hl x Hx He. destruct (Hr2 x Hx) as [[_ ->]|Hx']; [destruct (new_unb_not_exit _ _ He)|].
    apply rest_qadd in Hx'; [|exact Hte]. destruct Hx' as [[-> Hn]|Hx']; [|destruct (Hold_rest Hl x Hx' He)].
    cbn [new_ev etime]. unfold te, tu, now in *. destruct (tx len =? 0) eqn:Et; cbn [set_busy_until busy finish]; [lia|split; [reflexivity|lia]].
  - intros u x Hu' Hx Hun Hex'. destruct (Hin2 u Hu') as [[_ ->]|[->|Hu'']];
      [|destruct (new_exit_not_unb _ _ _ Hun)|destruct (Hold_unb u Hu'' Hun)].
    cbn [new_ev eid]. destruct (Hin2 x Hx) as [[_ ->]|[->|Hx']]; [destruct (new_unb_not_exit _ _ Hex')|cbn [new_ev eid]; lia|].
    pose proof (SI_ids _ HS x Hx'). lia.
  - intros u Hu' Hun. apply Hz2, zero_qadd in Hu'; [|exact Hte]. destruct Hu' as [[-> _]|Hu'].
    + exact (new_exit_not_unb _ _ _ Hun).
    + exact (H5 u Hu' Hun).
Qed.

Lemma Ord_drain k : forall s, Draining tx mt s -> Ord s -> Ord (drain k s).
Proof.
  induction k as [|k IH]; intros s HD HO; cbn [Model.drain]; [exact HO|].
  destruct (busy (ch s)) eqn:Hb; [exact HO|]. destruct (buffer (ch s)) as [|[m len] r] eqn:Eb; [exact HO|].
  apply IH; [exact (Draining_step tx mt s m len r HD Hb Eb)|].
  destruct HD as [HC _]. pose proof (C_unb _ _ _ HC) as Hu. rewrite Hb in Hu.
  apply Ord_start; cbn [set_ch ch q]; try assumption; [apply (C_SI _ _ _ HC)|reflexivity|].
  revert HO. apply Ord_same; cbn [set_ch ch q log busy finish]; try reflexivity. symmetry; exact Hb.
Qed.

Lemma exits_fetched q0 x q' :
  fetched q0 x q' -> exits (pend q0) = match dec_ev (epay x) with EExit m => [m] | _ => [] end ++ exits (pend q').
Proof. intros HF. rewrite (f_pend _ _ _ HF). unfold exits. rewrite sel_cons. destruct (dec_ev (epay x)); reflexivity. Qed.

(* of [Ord], only [O_seq] depends on the log *)
Lemma Ord_fetch s x q' l' :
  fetched (q s) x q' -> Ord s -> started l' = rev (exits (pend q')) ++ delivered l' ->
  Ord {| ch := ch s; q := q'; orc := orc s; log := l' |}.
Proof.
  intros HF [H1 H2 H3 H4 H5] Hseq. pose proof (f_pend _ _ _ HF) as E.
  assert (Hsub : forall y, In y (pend q') -> In y (pend (q s))) by (intros y Hy; rewrite E; right; exact Hy).
  constructor; cbn [ch q log].
  - exact Hseq.
  - intros y Hy He. pose proof (H2 y (Hsub y Hy) He) as Hb. pose proof (f_le _ _ _ HF). pose proof (f_tcur _ _ _ HF).
    unfold bound, now in *. cbn [ch q]. destruct (busy (ch s)); lia.
  - intros Hl y Hy He. apply (H3 Hl); [|exact He].
    destruct (f_shape _ _ _ HF) as [[_ Er]|[_ [Er _]]]; [rewrite <- Er; exact Hy|rewrite Er; right; exact Hy].
  - intros u y Hu Hy. apply H4; apply Hsub; assumption.
  - intros u Hu. apply H5. destruct (f_shape _ _ _ HF) as [[Ez _]|[_ [_ Ez]]]; [rewrite Ez; right; exact Hu|rewrite Ez in Hu; destruct Hu].
Qed.

Lemma Ord_fetch_other s x q' : fetched (q s) x q' -> ~ is_exit x -> Ord s -> Ord (set_q s q').
Proof.
  intros HF Hn HO. apply (Ord_fetch s x q' (log s) HF HO). rewrite (O_seq _ HO), (exits_fetched _ _ _ HF).
  destruct (dec_ev (epay x)) as [|m|k] eqn:Ed; try reflexivity. exfalso. apply Hn. exists m. exact Ed.
Qed.

Lemma Ord_unbusy s x q' :
  Good tx mt s -> fetched (q s) x q' -> is_unb x -> Ord s -> Ord (unbusy (set_q s q')).
Proof.
  intros HG HF Hx HO. destruct (Draining_unbusied tx mt s x q' HG HF Hx) as (Hb & Hfin & _ & HD).
  assert (Hne : ~ is_exit x) by (intros [m Hm]; unfold is_unb in Hx; rewrite Hx in Hm; discriminate).
  pose proof (Ord_fetch_other s x q' HF Hne HO) as [G1 G2 G3 G4 G5].
  (* it was fetched from the sorted part, and no Exit event is left there for this instant *)
  pose proof HO as [_ _ H3 H4 H5]. pose proof (C_SI _ _ _ (proj1 HG)) as HS. pose proof (f_pend _ _ _ HF) as E.
  destruct (f_shape _ _ _ HF) as [[Ez _]|[Ez [Er Ez']]]; [exfalso; apply (H5 x); [rewrite Ez; left; reflexivity|exact Hx]|].
  assert (Hrest : m_lat mt = 0 -> forall y, In y (s_rest q') -> ~ is_exit y).
  { intros Hl y Hy He.
    assert (Hy' : In y (s_rest (q s))) by (rewrite Er; right; exact Hy).
    destruct (H3 Hl y Hy' He) as [_ Hty].
    pose proof (SI_sorted _ HS) as Hs. rewrite Er in Hs. inversion Hs as [|? ? _ Hall]; subst. rewrite Forall_forall in Hall.
    specialize (Hall y Hy). assert (Hid : eid y < eid x).
    { apply H4; [rewrite E; left; reflexivity|unfold pend; apply in_or_app; right; exact Hy'|exact Hx|exact He]. }
    unfold key_lt in Hall. lia. }
  rewrite unbusy_eq. apply (Ord_drain _ _ HD).
  constructor; cbn [unbusied emit set_ch set_q ch q log busy finish] in *; try assumption.
  - intros y Hy He. pose proof (G2 y Hy He) as Hbd. unfold bound, now in *. cbn [unbusied set_q set_ch emit ch q busy finish] in *.
    rewrite Hb in Hbd. pose proof (f_tcur _ _ _ HF). lia.
  - intros Hl y Hy He. destruct (Hrest Hl y Hy He).
Qed.

Lemma Ord_offer s o : Good tx mt s -> Ord s -> Ord (offer s o).
Proof.
  intros HG0 HO0. unfold Model.offer. apply Ord_sample. apply Good_sample in HG0. apply Ord_sample in HO0.
  revert HG0 HO0. generalize (sample s). clear s. intros s [HC _] HO. destruct (busy (ch s)) eqn:Hb.
  - apply Ord_send_busy; assumption.
  - pose proof (C_unb _ _ _ HC) as Hu. rewrite Hb in Hu. apply Ord_start; try assumption. apply (C_SI _ _ _ HC).
Qed.

Lemma Ord_fold offs : forall s, Good tx mt s -> Ord s -> Ord (fold_left offer offs s).
Proof.
  induction offs as [|o offs IH]; intros s HG HO; cbn [fold_left]; [exact HO|].
  apply IH; [apply Good_offer; exact HG|apply Ord_offer; assumption].
Qed.

Lemma Ord_step s x q' : Good tx mt s -> Ord s -> fetched (q s) x q' -> Ord (dispatch (set_q s q') (dec_ev (epay x))).
Proof.
  intros HG HO HF. destruct (dec_ev (epay x)) as [|m|k] eqn:Ed; cbn [Model.dispatch].
  - apply (Ord_unbusy s x q' HG HF Ed HO).
  - (* Exit m: the first pending Exit event *)
    unfold handle_exit. apply Ord_sample, (Ord_fetch s x q' (IDeliver m _ :: log s) HF HO).
    rewrite started_cons, delivered_cons. cbn [app]. rewrite (O_seq _ HO), (exits_fetched _ _ _ HF), Ed.
    cbn [app rev]. rewrite <- app_assoc. reflexivity.
  - assert (Hne : ~ is_exit x) by (intros [m Hm]; rewrite Ed in Hm; discriminate).
    assert (Hnu : dec_ev (epay x) <> EUnbusy) by (rewrite Ed; discriminate).
    pose proof (Ord_fetch_other s x q' HF Hne HO) as HO1. pose proof (Good_fetch_other tx mt s x q' HG HF Hnu) as HG1.
    unfold Model.handle_wake. destruct (nth_error bursts (N.to_nat k)) as [[t offs]|]; [|exact HO1].
    apply Ord_fold; [exact HG1|exact HO1].
Qed.

Lemma Ord_init oracle : Ord (init enc_ev bursts oracle).
Proof.
  assert (Hne : forall x, In x (pend (q (init enc_ev bursts oracle))) -> ~ is_exit x)
    by (intros x; apply exits_nil_none, init_pend; reflexivity).
  assert (Hnu : forall x, In x (pend (q (init enc_ev bursts oracle))) -> ~ is_unb x)
    by (intros x; apply unbusies_none, init_pend; reflexivity).
  constructor.
  - unfold exits. rewrite init_pend by reflexivity. reflexivity.
  - intros x Hx He. destruct (Hne x Hx He).
  - intros _ x Hx He. destruct (Hne x); [apply in_or_app; right; exact Hx|exact He].
  - intros u x Hu _ Hun. destruct (Hnu u Hu Hun).
  - intros u Hu Hun. destruct (Hnu u); [apply in_or_app; left; exact Hu|exact Hun].
Qed.

(* deliveries, in order, are an initial piece of the accepted offers, in order:
   then come the messages in flight, then the queued ones *)
Theorem zero_jitter_preserves_order oracle n :
  let s := steps n (init enc_ev bursts oracle) in
  rev (accepted (log s)) = rev (delivered (log s)) ++ exits (pend (q s)) ++ map fst (buffer (ch s)).
Proof.
  cbv zeta. destruct (Good_reachable tx mt bursts oracle n) as [HC _].
  pose proof (reach_ind tx mt bursts Ord oracle (Ord_init oracle) Ord_step n) as HO.
  rewrite (accepted_started tx mt _ (C_wf _ _ _ HC)), (C_queue _ _ _ HC), rev_app_distr, rev_involutive.
  rewrite (O_seq _ HO), rev_app_distr, rev_involutive, <- app_assoc. reflexivity.
Qed.

End Order.
