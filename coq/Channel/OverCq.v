(* Composition with C01: the channel loop over the calendar queue
   (Channel/ModelCq.v) computes exactly what the loop over the two-list
   specification (Channel/Model.v, Channel/Multi.v) computes, for every bucket
   count n >= 1 and bucket width t >= 1. Forward simulation with C01's
   relation (CQueue/Client.v: Rq_new, Rq_add, Rq_fetch): the two loops make the
   same calls with the same arguments, it relates the two event sets after every
   call and makes fetch return the same event on both sides. *)
From Coq Require Import List NArith Lia ZifyBool.
From DesVerif Require Import Common.Codec CQueue.Model CQueue.Spec CQueue.Client
  Channel.Model Channel.Queue Channel.Multi Channel.ModelCq.
Import ListNotations.
Open Scope N_scope.

Lemma Rq_addf encf q0 s0 t e : Rq q0 s0 -> Rq (cqaddf encf q0 t e) (qaddf encf s0 t e).
Proof. intros H. apply (Rq_add q0 s0 t (encf e) H). Qed.

(* Client.Rq_empty in the boolean form the statements below use *)
Lemma Rq_empty_b q0 s0 : Rq q0 s0 -> (qlen q0 =? 0) = match s_zero s0 ++ s_rest s0 with [] => true | _ => false end.
Proof.
  intros H. rewrite (Rq_len _ _ H). unfold sp_len. rewrite <- app_length.
  destruct (s_zero s0 ++ s_rest s0); cbn [length]; lia.
Qed.

Definition Rs (s : cst) (s' : st) : Prop :=
  cch s = ch s' /\ corc s = orc s' /\ clog s = log s' /\ Rq (cqs s) (q s').

Lemma Rs_now s s' : Rs s s' -> cnow s = now s'.
Proof. intros (_ & _ & _ & Hq). apply Rq_tcur, Hq. Qed.

Lemma Rs_emit s s' i : Rs s s' -> Rs (cemit s i) (emit s' i).
Proof. intros (Hc & Ho & Hl & Hq). unfold Rs. cbn [cemit emit cch ch corc orc clog log cqs q]. rewrite Hl. auto. Qed.

Lemma Rs_ch s s' c c' : Rs s s' -> c = c' -> Rs (cset_ch s c) (set_ch s' c').
Proof. intros (Hc & Ho & Hl & Hq) <-. unfold Rs. auto. Qed.

Lemma Rs_q s s' q1 q2 : Rs s s' -> Rq q1 q2 -> Rs (cset_q s q1) (set_q s' q2).
Proof. intros (Hc & Ho & Hl & _) Hq. unfold Rs. auto. Qed.

Lemma Rs_intro c o l q1 q2 : Rq q1 q2 -> Rs {| cch := c; cqs := q1; corc := o; clog := l |} {| ch := c; q := q2; orc := o; log := l |}.
Proof. intros H. repeat split. exact H. Qed.

Section One.
Variable vr : variant.
Variable encf : cev -> N.
Variable tx : N -> N.
Variable mt : metrics.
Variable bursts : list (N * list (N * N)).

Lemma Rs_sample s s' : Rs s s' -> Rs (csample s) (sample s').
Proof. intros HR. unfold csample, sample. rewrite (Rs_now _ _ HR), (proj1 HR). apply Rs_emit, HR. Qed.

Lemma Rs_send s s' m len fq : Rs s s' -> Rs (csend_message vr encf tx mt s m len fq) (send_message vr encf tx mt s' m len fq).
Proof.
  intros HR. pose proof HR as (Hc & Ho & Hl & Hq). unfold csend_message, send_message, ctake_jitter, take_jitter.
  rewrite (Rs_now _ _ HR), Hc, Ho. destruct (busy (ch s')).
  - destruct (m_pol mt) as [|lim]; [|destruct (over lim (acc (ch s') + len))]; repeat (apply Rs_emit || (apply Rs_ch; [|reflexivity])); exact HR.
  - set (jo := if m_jit mt =? 0 then (0, orc s') else match orc s' with [] => (0, []) | j :: r => (j, r) end).
    destruct jo as [j o']. unfold cset_orc, cset_q, cset_ch, cemit, set_orc, set_q, set_ch, emit, now.
    cbn [cch ch corc orc clog log cqs q]. rewrite Hc, Hl.
    destruct (exit_first vr); destruct (tx len =? 0); cbn [cch ch corc orc clog log cqs q]; apply Rs_intro;
      repeat apply Rq_addf; exact Hq.
Qed.

Lemma Rs_drain k : forall s s', Rs s s' -> Rs (cdrain vr encf tx mt k s) (drain vr encf tx mt k s').
Proof.
  induction k as [|k IH]; intros s s' HR; cbn [cdrain drain]; [exact HR|].
  rewrite (proj1 HR). destruct (busy (ch s')); [exact HR|].
  destruct (buffer (ch s')) as [|[m len] r]; [exact HR|]. apply IH, Rs_send, Rs_ch; [exact HR|reflexivity].
Qed.

Lemma Rs_unbusy s s' : Rs s s' -> Rs (cunbusy vr encf tx mt s) (unbusy vr encf tx mt s').
Proof.
  intros HR. unfold cunbusy, unbusy. cbn [buffer]. rewrite (proj1 HR), (Rs_now _ _ HR). apply Rs_drain, Rs_emit, Rs_ch; [exact HR|reflexivity].
Qed.

Lemma Rs_offer s s' o : Rs s s' -> Rs (coffer vr encf tx mt s o) (offer vr encf tx mt s' o).
Proof. intros HR. unfold coffer, offer. apply Rs_sample, Rs_send, Rs_sample, HR. Qed.

Lemma Rs_fold offs : forall s s', Rs s s' ->
  Rs (fold_left (coffer vr encf tx mt) offs s) (fold_left (offer vr encf tx mt) offs s').
Proof. induction offs as [|o offs IH]; intros s s' HR; cbn [fold_left]; [exact HR|]. apply IH, Rs_offer, HR. Qed.

Lemma Rs_exit s s' m : Rs s s' -> Rs (chandle_exit s m) (handle_exit s' m).
Proof. intros HR. unfold chandle_exit, handle_exit. rewrite (Rs_now _ _ HR). apply Rs_sample, Rs_emit, HR. Qed.

Lemma Rs_step s s' :
  Rs s s' ->
  match cstep vr encf tx mt bursts s, step vr encf tx mt bursts s' with
  | Some a, Some b => Rs a b
  | None, None => True
  | _, _ => False
  end.
Proof.
  intros HR. pose proof HR as [Hc [Ho [Hl Hq]]]. unfold cstep, step. destruct (Rq_fetch _ _ Hq) as [Eo Hq'].
  destruct (fetch_next (cqs s)) as [q1 o1]. destruct (sp_fetch (q s')) as [q2 o2]. cbn [fst snd] in Eo, Hq'. subst o2.
  destruct o1 as [| pay time | | | | | | |]; try exact I.
  pose proof (Rs_q _ _ _ _ HR Hq') as HR1.
  destruct (dec_ev pay) as [|m|k]; cbn [cdispatch dispatch].
  - apply Rs_unbusy, HR1.
  - apply Rs_exit, HR1.
  - unfold chandle_wake, handle_wake. destruct (nth_error bursts (N.to_nat k)) as [[t offs]|]; [apply Rs_fold|]; exact HR1.
Qed.

Lemma Rs_steps k : forall s s', Rs s s' -> Rs (csteps vr encf tx mt bursts k s) (steps vr encf tx mt bursts k s').
Proof.
  induction k as [|k IH]; intros s s' HR; cbn [csteps steps]; [exact HR|].
  pose proof (Rs_step s s' HR) as H.
  destruct (cstep vr encf tx mt bursts s) as [a|]; destruct (step vr encf tx mt bursts s') as [b|]; [apply IH; exact H|destruct H|destruct H|exact HR].
Qed.

Lemma Rq_sched bs : forall q0 s0 k, Rq q0 s0 -> Rq (csched_wakes encf q0 k bs) (sched_wakes encf s0 k bs).
Proof.
  induction bs as [|[t offs] bs IH]; intros q0 s0 k HR; cbn [csched_wakes sched_wakes]; [exact HR|].
  apply IH, Rq_addf, HR.
Qed.

Lemma Rs_init n t oracle : n <> 0 -> t <> 0 -> Rs (cinit encf bursts n t oracle) (init encf bursts oracle).
Proof.
  intros Hn Ht. unfold Rs. cbn [cinit init cch ch corc orc clog log cqs q]. repeat split.
  apply Rq_sched, Rq_new; assumption.
Qed.

End One.

(* the single-channel run over the calendar queue: same channel record, same samples left, same log *)
Theorem run_over_cqueue_eq_run_over_spec n t tx mt bursts oracle k :
  n <> 0 -> t <> 0 ->
  let a := csteps current enc_ev tx mt bursts k (cinit enc_ev bursts n t oracle) in
  let b := steps current enc_ev tx mt bursts k (init enc_ev bursts oracle) in
  cch a = ch b /\ corc a = orc b /\ clog a = log b /\ (qlen (cqs a) =? 0) = match s_zero (q b) ++ s_rest (q b) with [] => true | _ => false end.
Proof.
  intros Hn Ht. cbv zeta. destruct (Rs_steps current enc_ev tx mt bursts k _ _ (Rs_init enc_ev bursts n t oracle Hn Ht)) as [H1 [H2 [H3 H4]]].
  refine (conj H1 (conj H2 (conj H3 _))). apply Rq_empty_b, H4.
Qed.

(* ---- several channels ---- *)
Definition Rm (s : cmst) (s' : mst) : Prop :=
  (forall c, cchs s c = chs s' c) /\ (forall c, corcs s c = orcs s' c) /\ cmlog s = mlog s' /\ Rq (cmq s) (mq s').

Lemma Rm_on c (f : cst -> cst) (g : st -> st) s s' :
  (forall a b, Rs a b -> Rs (f a) (g b)) -> Rm s s' -> Rm (con c f s) (on c g s').
Proof.
  intros Hfg [Hc [Ho [Hl Hq]]].
  assert (HV : Rs (cview c s) (view c s')).
  { unfold Rs, cview, view, cinst_of, inst_of. cbn [cch ch corc orc clog log cqs q]. rewrite !Hc, Ho. repeat split. exact Hq. }
  destruct (Hfg _ _ HV) as [A1 [A2 [A3 A4]]]. unfold con, on, Rm. cbn [cback back cchs chs corcs orcs cmlog mlog cmq mq].
  refine (conj _ (conj _ (conj _ A4))).
  - intros x. unfold upd. rewrite A1, Hc. reflexivity.
  - intros x. unfold upd. rewrite A2, Ho. reflexivity.
  - rewrite A3, Hl. reflexivity.
Qed.

Section Many.
Variable inst : N -> N.
Variable txs : N -> N -> N.
Variable mts : N -> metrics.
Variable mbursts : list (N * list (N * N * N)).

Lemma Rm_offer s s' o : Rm s s' -> Rm (cmoffer inst txs mts s o) (moffer inst txs mts s' o).
Proof.
  intros HR. destruct o as [[c0 m] len]. unfold cmoffer, moffer. apply Rm_on; [|exact HR]. intros a b Hab. apply Rs_offer, Hab.
Qed.

Lemma Rm_fold offs : forall s s', Rm s s' ->
  Rm (fold_left (cmoffer inst txs mts) offs s) (fold_left (moffer inst txs mts) offs s').
Proof. induction offs as [|o offs IH]; intros s s' HR; cbn [fold_left]; [exact HR|]. apply IH, Rm_offer, HR. Qed.

Lemma Rm_step s s' :
  Rm s s' ->
  match cmstep inst txs mts mbursts s, mstep inst txs mts mbursts s' with
  | Some a, Some b => Rm a b
  | None, None => True
  | _, _ => False
  end.
Proof.
  intros HR. pose proof HR as [Hc [Ho [Hl Hq]]]. unfold cmstep, mstep. destruct (Rq_fetch _ _ Hq) as [Eo Hq'].
  destruct (fetch_next (cmq s)) as [q1 o1]. destruct (sp_fetch (mq s')) as [q2 o2]. cbn [fst snd] in Eo, Hq'. subst o2.
  destruct o1 as [| pay time | | | | | | |]; try exact I.
  set (s1 := {| cchs := cchs s; cmq := q1; corcs := corcs s; cmlog := cmlog s |}).
  set (s1' := {| chs := chs s'; mq := q2; orcs := orcs s'; mlog := mlog s' |}).
  assert (HR1 : Rm s1 s1') by (unfold Rm; cbn [s1 s1' cchs chs corcs orcs cmlog mlog cmq mq]; repeat split; assumption).
  destruct (dec_mev pay) as [c|c m|k]; cbn [cmdispatch mdispatch].
  - unfold cmunbusy, munbusy. apply Rm_on; [|exact HR1]. intros a b Hab. apply Rs_unbusy, Hab.
  - unfold cmexit, mexit. apply Rm_on; [|exact HR1]. intros a b Hab. apply Rs_exit, Hab.
  - unfold cmwake, mwake. destruct (nth_error mbursts (N.to_nat k)) as [[t offs]|]; [apply Rm_fold|]; exact HR1.
Qed.

Lemma Rm_steps k : forall s s', Rm s s' -> Rm (cmsteps inst txs mts mbursts k s) (msteps inst txs mts mbursts k s').
Proof.
  induction k as [|k IH]; intros s s' HR; cbn [cmsteps msteps]; [exact HR|].
  pose proof (Rm_step s s' HR) as H.
  destruct (cmstep inst txs mts mbursts s) as [a|]; destruct (mstep inst txs mts mbursts s') as [b|]; [apply IH; exact H|destruct H|destruct H|exact HR].
Qed.

Lemma Rm_init n t oracles : n <> 0 -> t <> 0 -> Rm (cminit mbursts n t oracles) (minit mbursts oracles).
Proof.
  intros Hn Ht. unfold Rm. cbn [cminit minit cchs chs corcs orcs cmlog mlog cmq mq]. repeat split.
  apply Rq_sched, Rq_new; assumption.
Qed.

End Many.

Lemma Rm_samples cs : forall s s', Rm s s' ->
  Rm (fold_left (fun s c => con c csample s) cs s) (fold_left (fun s c => on c sample s) cs s').
Proof.
  induction cs as [|c cs IH]; intros s s' HR; cbn [fold_left]; [exact HR|]. apply IH, Rm_on; [|exact HR].
  intros a b Hab. apply Rs_sample, Hab.
Qed.

(* the multi-channel run over the calendar queue *)
Theorem multi_over_cqueue_eq_over_spec n t txs mts mbursts oracles k :
  n <> 0 -> t <> 0 ->
  let a := cmsteps own_instance txs mts mbursts k (cminit mbursts n t oracles) in
  let b := msteps own_instance txs mts mbursts k (minit mbursts oracles) in
  (forall c, cinst_of a c = inst_of b c) /\ (forall c, corcs a c = orcs b c) /\ cmlog a = mlog b /\
  (qlen (cmq a) =? 0) = match s_zero (mq b) ++ s_rest (mq b) with [] => true | _ => false end.
Proof.
  intros Hn Ht. cbv zeta.
  destruct (Rm_steps own_instance txs mts mbursts k _ _ (Rm_init mbursts n t oracles Hn Ht)) as [H1 [H2 [H3 H4]]].
  refine (conj _ (conj H2 (conj H3 _))); [|apply Rq_empty_b, H4].
  intros c. unfold cinst_of, inst_of. rewrite !H1. reflexivity.
Qed.

(* the wire-level runners print the same line for every script *)
Theorem run_cq_eq_run n t input : n <> 0 -> t <> 0 -> run_cq n t input = Multi.run input.
Proof.
  intros Hn Ht. unfold run_cq, Multi.run. destruct input as [|seed [|nl r]]; try reflexivity.
  destruct (nl =? 0); [reflexivity|].
  destruct (take_lp (skipn (7 * N.to_nat (N.max 1 (N.min nl 3))) r)) as [tb r1]. destruct (take_lp r1) as [ob r2].
  cbv zeta.
  match goal with |- context [cmsteps ?i ?tx ?mt ?bs ?k (cminit ?bs n t ?o)] =>
    pose proof (Rm_steps i tx mt bs k _ _ (Rm_init bs n t o Hn Ht)) as HR end.
  match type of HR with Rm ?a ?b =>
    pose proof (Rm_samples (map N.of_nat (seq 0 (N.to_nat (2 * N.max 1 (N.min nl 3))))) a b HR) as [_ [_ [Hl Hq]]] end.
  rewrite Hl, (Rq_empty_b _ _ Hq).
  match goal with |- context [match ?l with [] => [] | _ :: _ => [9] end] => destruct l end; reflexivity.
Qed.
