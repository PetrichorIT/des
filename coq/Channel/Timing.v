(* Delivery times: a message is handed to the receiver exactly at
   start + tx len + latency + j, with j the jitter sample drawn at the start of
   its transmission; every transmission that started is either delivered at
   that time or has its Exit event pending for that time. At the end of the
   file: the jitter draw of DrawModel.v stays below the jitter. *)
From Coq Require Import List NArith Lia Bool ZifyBool.
From DesVerif Require Import CQueue.Model CQueue.Spec
  Channel.Model Channel.Queue Channel.Trace Channel.Core Channel.DrawModel.
Import ListNotations.
Open Scope N_scope.

Section Timing.
Variable tx : N -> N.
Variable mt : metrics.
Variable bursts : list (N * list (N * N)).
Variable oracle0 : list N.

Notation send := (send_message current enc_ev tx mt).
Notation drain := (Model.drain current enc_ev tx mt).
Notation unbusy := (Model.unbusy current enc_ev tx mt).
Notation offer := (Model.offer current enc_ev tx mt).
Notation dispatch := (Model.dispatch current enc_ev tx mt bursts).
Notation steps := (Model.steps current enc_ev tx mt bursts).
Notation due := (Trace.due tx mt).

Definition in_range (o : list N) : Prop := Forall (fun j => j < m_jit mt) o.

Definition exit_at (p : list ev) (m t : N) : Prop :=
  exists x, In x p /\ dec_ev (epay x) = EExit m /\ etime x = t.

(* the pending Exit events: message and time *)
Definition xs : list ev -> list (N * N) := sel (fun t e => match e with EExit m => Some (m, t) | _ => None end).

Lemma exit_at_xs p m t : exit_at p m t <-> In (m, t) (xs p).
Proof.
  unfold xs, exit_at. rewrite sel_In. split; intros [x [Hx H]]; exists x; (split; [exact Hx|]).
  - destruct H as [-> ->]. reflexivity.
  - destruct (dec_ev (epay x)); try discriminate. injection H as -> ->. split; reflexivity.
Qed.

Definition started_at (l : list item) (m t' : N) : Prop :=
  exists len t j fq, In (IStart m len t j fq) l /\ t' = due len t j.

Lemma started_at_app l l' m t' : started_at l m t' -> started_at (l' ++ l) m t'.
Proof. intros (len & t & j & fq & Hi & He). exists len, t, j, fq. split; [apply in_or_app; right; exact Hi|exact He]. Qed.

Record Tim (s : st) : Prop := {
  T_fwd : forall m len t j fq, In (IStart m len t j fq) (log s) ->
            In (IDeliver m (due len t j)) (log s) \/ In (m, due len t j) (xs (pend (q s)));
  T_pend : forall m t', In (m, t') (xs (pend (q s))) -> started_at (log s) m t';
  T_back : forall m t', In (IDeliver m t') (log s) -> started_at (log s) m t';
  T_jit : forall m len t j fq, In (IStart m len t j fq) (log s) ->
            (m_jit mt = 0 -> j = 0) /\ (in_range oracle0 -> m_jit mt <> 0 -> j < m_jit mt);
  T_orc : in_range oracle0 -> in_range (orc s)
}.

Definition quiet (i : item) : Prop :=
  match i with IStart _ _ _ _ _ => False | IDeliver _ _ => False | _ => True end.

Lemma Tim_quiet l s s' :
  Tim s -> xs (pend (q s')) = xs (pend (q s)) -> orc s' = orc s -> log s' = l ++ log s -> Forall quiet l -> Tim s'.
Proof.
  intros [H1 H2 H3 H4 H5] Eq Eo El Hq.
  assert (Hold : forall i, ~ quiet i -> In i (l ++ log s) -> In i (log s)).
  { intros i Hi Hl. apply in_app_or in Hl. destruct Hl as [Hl|Hl]; [|exact Hl]. rewrite Forall_forall in Hq. destruct (Hi (Hq i Hl)). }
  constructor; rewrite ?Eq, ?Eo, ?El.
  - intros m len t j fq Hi. apply Hold in Hi; [|exact (fun H => H)].
    destruct (H1 _ _ _ _ _ Hi) as [H|H]; [left; apply in_or_app; right; exact H|right; exact H].
  - intros m t' Hx. apply started_at_app, H2, Hx.
  - intros m t' Hi. apply Hold in Hi; [|exact (fun H => H)]. apply started_at_app, H3, Hi.
  - intros m len t j fq Hi. apply Hold in Hi; [|exact (fun H => H)]. exact (H4 _ _ _ _ _ Hi).
  - exact H5.
Qed.

Lemma Tim_sample s : Tim s -> Tim (sample s).
Proof. intros H. eapply (Tim_quiet [_] s); [exact H|reflexivity..|repeat constructor]. Qed.

Lemma take_jitter_spec s :
  (m_jit mt = 0 -> jit_of mt s = 0) /\
  (in_range (orc s) -> m_jit mt <> 0 -> jit_of mt s < m_jit mt) /\
  (in_range (orc s) -> in_range (snd (take_jitter mt s))).
Proof.
  unfold jit_of, take_jitter. destruct (m_jit mt =? 0) eqn:E; cbn [fst snd].
  - repeat split; [lia|auto].
  - destruct (orc s) as [|j r]; cbn [fst snd].
    + repeat split; [lia|constructor].
    + repeat split; [lia|intros H _; inversion H; assumption|intros H; inversion H; assumption].
Qed.

Lemma Tim_send s m len fq : Tim s -> Tim (send s m len fq).
Proof.
  intros HT. destruct (busy (ch s)) eqn:Hb.
  - rewrite send_busy by exact Hb.
    destruct (m_pol mt) as [|lim]; [|destruct (over lim (acc (ch s) + len))];
      (eapply (Tim_quiet [_]); [exact HT|reflexivity..|repeat constructor]).
  - destruct HT as [H1 H2 H3 H4 H5]. destruct (take_jitter_spec s) as [J1 [J2 J3]].
    rewrite send_idle by exact Hb.
    assert (Hin : forall a, In a (xs (pend (addall enc_ev (send_evs tx mt s m len) (q s)))) <->
                            a = (m, due len (now s) (jit_of mt s)) \/ In a (xs (pend (q s)))).
    { intros a. unfold xs. rewrite (sel_addall _ _ _ (send_evs_timely tx mt s m len)). unfold send_evs.
      destruct (tx len =? 0); cbn [selv flat_map fst snd app In]; intuition. }
    constructor; cbn [q log orc].
    + intros m' len' t' j' fq' [Hi|Hi].
      * injection Hi as <- <- <- <- <-. right. apply Hin. left; reflexivity.
      * destruct (H1 _ _ _ _ _ Hi) as [H|H]; [left; right; exact H|right; apply Hin; right; exact H].
    + intros m' t' Hx. apply Hin in Hx. destruct Hx as [Hx|Hx]; [|apply (started_at_app _ [_]), H2, Hx].
      injection Hx as -> ->. exists len, (now s), (jit_of mt s), fq. split; [left; reflexivity|reflexivity].
    + intros m' t' [Hi|Hi]; [discriminate|]. apply (started_at_app _ [_]), H3, Hi.
    + intros m' len' t' j' fq' [Hi|Hi]; [|exact (H4 _ _ _ _ _ Hi)].
      injection Hi as <- <- <- <- <-. split; [exact J1|]. intros Hr Hn. apply J2; [apply H5; exact Hr|exact Hn].
    + intros Hr. apply J3, H5, Hr.
Qed.

Lemma Tim_drain k : forall s, Tim s -> Tim (drain k s).
Proof.
  induction k as [|k IH]; intros s H; cbn [Model.drain]; [exact H|].
  destruct (busy (ch s)); [exact H|]. destruct (buffer (ch s)) as [|[m len] r]; [exact H|].
  apply IH, Tim_send. apply (Tim_quiet [] s); [exact H|reflexivity..|constructor].
Qed.

Lemma Tim_unbusy s : Tim s -> Tim (unbusy s).
Proof. intros H. unfold Model.unbusy. apply Tim_drain. eapply (Tim_quiet [_] s); [exact H|reflexivity..|repeat constructor]. Qed.

Lemma Tim_fold offs : forall s, Tim s -> Tim (fold_left offer offs s).
Proof.
  induction offs as [|o offs IH]; intros s H; cbn [fold_left]; [exact H|].
  apply IH. unfold Model.offer. apply Tim_sample, Tim_send, Tim_sample, H.
Qed.

Lemma Tim_step s x q' : Tim s -> fetched (q s) x q' -> Tim (dispatch (set_q s q') (dec_ev (epay x))).
Proof.
  intros HT HF.
  assert (Ex : xs (pend (q s)) = match dec_ev (epay x) with EExit m => [(m, etime x)] | _ => [] end ++ xs (pend q')).
  { rewrite (f_pend _ _ _ HF). unfold xs. rewrite sel_cons. destruct (dec_ev (epay x)); reflexivity. }
  destruct (dec_ev (epay x)) as [|m|k]; cbn [Model.dispatch].
  - apply Tim_unbusy, (Tim_quiet [] s); [exact HT|symmetry; exact Ex|reflexivity..|constructor].
  - unfold handle_exit. apply Tim_sample. destruct HT as [H1 H2 H3 H4 H5]. rewrite Ex in H1, H2.
    constructor; cbn [emit set_q q log orc]; try assumption; unfold now; cbn [set_q q]; rewrite ?(f_tcur _ _ _ HF).
    + intros m' len t j fq [Hi|Hi]; [discriminate|]. destruct (H1 _ _ _ _ _ Hi) as [H|[H|H]].
      * left; right; exact H.
      * injection H as <- <-. left; left; reflexivity.
      * right; exact H.
    + intros m' t' Hx. apply (started_at_app _ [_]), H2. right; exact Hx.
    + intros m' t' [Hi|Hi]; apply (started_at_app _ [_]); [|exact (H3 _ _ Hi)].
      injection Hi as <- <-. apply H2. left; reflexivity.
    + intros m' len t j fq [Hi|Hi]; [discriminate|]. exact (H4 _ _ _ _ _ Hi).
  - unfold Model.handle_wake.
    assert (HT1 : Tim (set_q s q')) by (apply (Tim_quiet [] s); [exact HT|symmetry; exact Ex|reflexivity..|constructor]).
    destruct (nth_error bursts (N.to_nat k)) as [[t offs]|]; [|exact HT1]. apply Tim_fold, HT1.
Qed.

Lemma Tim_init : Tim (init enc_ev bursts oracle0).
Proof.
  constructor; unfold xs; rewrite ?init_pend by reflexivity; cbn [init log orc]; try (intros; contradiction). auto.
Qed.

Theorem Tim_reachable n : Tim (steps n (init enc_ev bursts oracle0)).
Proof. apply (reach_ind tx mt bursts Tim oracle0 Tim_init). intros s x q' _. apply Tim_step. Qed.

End Timing.

(* The arithmetic of the jitter draw (Channel/DrawModel.v: the top 53 bits of the generator's
   word times the jitter, rounded to 53 significant bits, truncated): whatever word the generator
   returns, the result is below the jitter, the half-open range [0, jitter) that [in_range]
   asks of the oracle.  Independent of the section above. *)
Lemma draw53_lt w : draw53 w < 2 ^ 53.
Proof.
  unfold draw53. apply N.div_lt_upper_bound; [discriminate|].
  change (2 ^ 11 * 2 ^ 53) with (2 ^ 64). apply N.mod_lt. discriminate.
Qed.

Lemma round_trunc_lt k J : k < 2 ^ 53 -> 0 < J -> round_trunc (k * J) < J.
Proof.
  intros Hk HJ. unfold round_trunc. set (P := k * J). set (B := 2 ^ 53) in *.
  assert (HB : 0 < B) by (unfold B; apply N.neq_0_lt_0; apply N.pow_nonzero; discriminate).
  assert (HP : P + J <= B * J).
  { replace (P + J) with ((k + 1) * J) by (unfold P; lia). apply N.mul_le_mono_r. lia. }
  destruct (P <? B) eqn:E; [exact HJ|]. apply N.ltb_ge in E.
  assert (HP0 : 0 < P) by lia.
  destruct (N.log2_spec P HP0) as [Hlo Hhi]. set (l := N.log2 P) in *.
  assert (Hl : 53 <= l).
  { destruct (N.le_gt_cases 53 l) as [H|H]; [exact H|]. exfalso.
    assert (2 ^ N.succ l <= B) by (unfold B; apply N.pow_le_mono_r; lia). lia. }
  set (s := l - 52). set (A := 2 ^ (s - 1)).
  assert (HA : 0 < A) by (unfold A; apply N.neq_0_lt_0; apply N.pow_nonzero; discriminate).
  assert (Es : 2 ^ s = 2 * A).
  { unfold A. replace s with (N.succ (s - 1)) at 1 by (unfold s; lia). rewrite N.pow_succ_r'. reflexivity. }
  assert (El : 2 ^ l = A * B).
  { unfold A, B. rewrite <- N.pow_add_r. f_equal. unfold s. lia. }
  (* B * A = 2 ^ l <= P < P + J <= B * J *)
  assert (HAJ : A < J) by (apply (N.mul_lt_mono_pos_l B); [exact HB|rewrite (N.mul_comm B A), <- El; lia]).
  rewrite Es. set (q := P / (2 * A)). set (r := P mod (2 * A)).
  assert (Hdiv : P = 2 * A * q + r) by (unfold q, r; apply N.div_mod; lia).
  assert (Hr : r < 2 * A) by (unfold r; apply N.mod_lt; lia).
  apply N.div_lt_upper_bound; [lia|].
  (* the rounded quotient times 2 A is at most P + A, since rounding up needs A <= r;
     and P + A < P + J <= B * J.  With P = 2 A q + r the products 2 A q and B J are atoms. *)
  apply N.le_lt_trans with (P + A); [|lia].
  destruct ((A <? r) || ((r =? A) && N.odd q)) eqn:Eu.
  - assert (A <= r) by lia. rewrite N.mul_add_distr_r, N.mul_1_l, (N.mul_comm q). lia.
  - rewrite (N.mul_comm q). lia.
Qed.

Theorem jit_of_word_lt J w : 0 < J -> jit_of_word J w < J.
Proof.
  intros HJ. unfold jit_of_word. replace (J =? 0) with false by lia. apply round_trunc_lt; [apply draw53_lt|exact HJ].
Qed.

Theorem jit_of_word_zero w : jit_of_word 0 w = 0.
Proof. reflexivity. Qed.
