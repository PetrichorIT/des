(* The core invariant of the channel loop: the log is well formed (Trace.wf_log:
   busy span in event order, FIFO start, queue limit, samples), the channel
   record is what the log says, a busy channel has exactly one Unbusy event
   pending, stamped with its finish time, and -- at event boundaries -- an
   idle channel has an empty queue. The invariant is that of the variant
   [current]; the other variants of Model.variant describe the code before its
   repairs (Refuted/C07.v shows what fails for them), so only the equations that
   do not depend on the variant ([send_busy], [step_inv]) are stated for any. *)
From Coq Require Import List NArith Lia Permutation ZifyBool.
From DesVerif Require Import CQueue.Model CQueue.Spec CQueue.SpecProps
  Channel.Model Channel.Queue Channel.Trace.
Import ListNotations.
Open Scope N_scope.

Lemma qsum_app a b : qsum (a ++ b) = qsum a + qsum b.
Proof. induction a as [|x a IH]; cbn [qsum app fold_right] in *; [reflexivity|]. fold (qsum (a ++ b)) (qsum a). lia. Qed.

Lemma qsum_cons x a : qsum (x :: a) = snd x + qsum a.
Proof. reflexivity. Qed.

Section Core.
Variable tx : N -> N.
Variable mt : metrics.
Variable bursts : list (N * list (N * N)).

Notation send := (send_message current enc_ev tx mt).
Notation drain := (Model.drain current enc_ev tx mt).
Notation unbusy := (Model.unbusy current enc_ev tx mt).
Notation offer := (Model.offer current enc_ev tx mt).
Notation handle_wake := (Model.handle_wake current enc_ev tx mt bursts).
Notation dispatch := (Model.dispatch current enc_ev tx mt bursts).
Notation step := (Model.step current enc_ev tx mt bursts).
Notation steps := (Model.steps current enc_ev tx mt bursts).

(* ---- the functions of the model, as equations ---- *)
Lemma send_busy vr encf s m len fq :
  busy (ch s) = true ->
  send_message vr encf tx mt s m len fq =
    match m_pol mt with
    | PDrop => emit s (IDropBusy m len (now s))
    | PQueue lim =>
        if over lim (acc (ch s) + len) then emit s (IDropFull m len (now s))
        else emit (set_ch s (enqueue (ch s) m len)) (IEnq m len (now s))
    end.
Proof. unfold send_message. intros ->. reflexivity. Qed.

Definition jit_of (s : st) : N := fst (take_jitter mt s).

Definition send_evs (s : st) (m len : N) : list (N * cev) :=
  (now s + (m_lat mt + tx len + jit_of s), EExit m) :: if tx len =? 0 then [] else [(now s + tx len, EUnbusy)].

Lemma send_idle encf s m len fq :
  busy (ch s) = false ->
  send_message current encf tx mt s m len fq =
    {| ch := if tx len =? 0 then ch s else set_busy_until (ch s) (now s + tx len);
       q := addall encf (send_evs s m len) (q s);
       orc := snd (take_jitter mt s);
       log := IStart m len (now s) (jit_of s) fq :: log s |}.
Proof.
  unfold send_message, send_evs, jit_of. intros ->. destruct (take_jitter mt s) as [j o'].
  cbn [exit_first current fst snd]. destruct (tx len =? 0); reflexivity.
Qed.

Lemma send_evs_timely s m len : timely (q s) (send_evs s m len).
Proof. unfold send_evs, timely, now. destruct (tx len =? 0); repeat constructor; cbn [fst]; lia. Qed.

Lemma step_inv vr encf s :
  SI (q s) ->
  match Model.step vr encf tx mt bursts s with
  | Some s' => exists x q', fetched (q s) x q' /\ s' = Model.dispatch vr encf tx mt bursts (set_q s q') (dec_ev (epay x))
  | None => pend (q s) = []
  end.
Proof.
  intros HS. unfold Model.step. pose proof (fetch_spec _ HS) as H.
  destruct (pend (q s)) as [|x r]; [rewrite H; reflexivity|]. destruct H as (q' & -> & HF).
  exists x, q'. split; [exact HF|reflexivity].
Qed.

(* ---- the invariant ---- *)
Record Core (s : st) : Prop := {
  C_SI : SI (q s);
  C_wf : wf_log tx mt (log s);
  C_cur : cur_of tx (log s) = if busy (ch s) then Some (finish (ch s)) else None;
  C_queue : queue_of (log s) = buffer (ch s);
  C_acc : acc (ch s) = qsum (buffer (ch s));
  C_fin : busy (ch s) = false -> finish (ch s) = 0;
  C_unb : unbusies (pend (q s)) = if busy (ch s) then [finish (ch s)] else []
}.

(* at event boundaries: no message is stuck *)
Definition Good (s : st) : Prop := Core s /\ (busy (ch s) = false -> buffer (ch s) = []).

Lemma Core_sample s : Core s -> Core (sample s).
Proof.
  intros [HS Hw Hc Hq Ha Hf Hu]. unfold sample. constructor; cbn [emit ch q log cur_of queue_of]; try assumption.
  cbn [wf_log]. split; [|exact Hw]. cbn [item_ok]. rewrite Hc, Hq.
  destruct (busy (ch s)); [repeat split; exact Ha|].
  repeat split. apply Hf; reflexivity.
Qed.

Lemma Good_sample s : Good s -> Good (sample s).
Proof. intros [H1 H2]. split; [apply Core_sample; exact H1|exact H2]. Qed.

Lemma Core_send_busy s m len fq : Core s -> busy (ch s) = true -> Core (send s m len fq) /\ busy (ch (send s m len fq)) = true.
Proof.
  intros [HS Hw Hc Hq Ha Hf Hu] Hb. rewrite send_busy by exact Hb. rewrite Hb in *.
  assert (Hne : cur_of tx (log s) <> None) by (rewrite Hc; discriminate).
  destruct (m_pol mt) as [|lim] eqn:Ep.
  - split; [|exact Hb]. constructor; cbn [emit ch q log cur_of queue_of]; try assumption; [|rewrite Hb; assumption..].
    cbn [wf_log item_ok]. repeat split; assumption.
  - destruct (over lim (acc (ch s) + len)) eqn:Eo.
    + split; [|exact Hb]. constructor; cbn [emit ch q log cur_of queue_of]; try assumption; [|rewrite Hb; assumption..].
      cbn [wf_log item_ok]. split; [|exact Hw]. split; [exact Hne|]. exists lim. rewrite Hq, <- Ha. split; [exact Ep|exact Eo].
    + split; [|exact Hb]. constructor; cbn [emit set_ch enqueue ch q log cur_of queue_of busy finish buffer acc]; try assumption.
      * cbn [wf_log item_ok]. split; [|exact Hw]. split; [exact Hne|]. exists lim. rewrite Hq, <- Ha. split; [exact Ep|exact Eo].
      * rewrite Hb. exact Hc.
      * rewrite Hq. reflexivity.
      * rewrite qsum_app, Ha. cbn [qsum fold_right snd]. lia.
      * rewrite Hb. discriminate.
      * rewrite Hb. exact Hu.
Qed.

(* a transmission starts on an idle channel: directly (nothing queued) or from the head of the queue *)
Lemma Core_start s m len (fq : bool) :
  SI (q s) -> wf_log tx mt (log s) -> busy (ch s) = false -> finish (ch s) = 0 ->
  cur_of tx (log s) = None -> unbusies (pend (q s)) = [] -> acc (ch s) = qsum (buffer (ch s)) ->
  (if fq return Prop then hd_error (queue_of (log s)) = Some (m, len) /\ deq_ctx tx (log s) = Some (now s) /\
               tl (queue_of (log s)) = buffer (ch s)
   else queue_of (log s) = [] /\ buffer (ch s) = []) ->
  Core (send s m len fq).
Proof.
  intros HS Hw Hb Hf Hc Hu Ha Hfq. rewrite send_idle by exact Hb.
  (* the pending Unbusy events: none before, so at most the new one, wherever it went *)
  pose proof (sel_addall (fun t e => match e with EUnbusy => Some t | _ => None end) _ _ (send_evs_timely s m len)) as HP.
  fold (unbusies (pend (q s))) in HP. rewrite Hu in HP. unfold send_evs in HP. symmetry in HP.
  constructor; cbn [ch q log wf_log cur_of queue_of].
  - apply addall_SI, HS.
  - split; [|exact Hw]. cbn [item_ok]. destruct fq; [destruct Hfq as [H1 [H2 H3]]; repeat split; assumption|].
    destruct Hfq as [H1 H2]. split; assumption.
  - destruct (tx len =? 0); [rewrite Hb; exact Hc|reflexivity].
  - assert (Hq' : (if fq then tl (queue_of (log s)) else queue_of (log s)) = buffer (ch s))
      by (destruct fq; [apply Hfq|destruct Hfq as [-> ->]; reflexivity]).
    destruct (tx len =? 0); exact Hq'.
  - destruct (tx len =? 0); exact Ha.
  - destruct (tx len =? 0); [intros _; exact Hf|discriminate].
  - unfold unbusies, send_evs. destruct (tx len =? 0); cbn [selv flat_map fst snd app] in HP.
    + rewrite Hb. apply Permutation_nil, HP.
    + apply Permutation_length_1_inv, HP.
Qed.

Lemma start_busy_iff s m len fq :
  busy (ch s) = false -> busy (ch (send s m len fq)) = negb (tx len =? 0).
Proof. intros Hb. rewrite send_idle by exact Hb. cbn [ch]. destruct (tx len =? 0); [exact Hb|reflexivity]. Qed.

Lemma start_buffer s m len fq :
  busy (ch s) = false -> buffer (ch (send s m len fq)) = buffer (ch s).
Proof. intros Hb. rewrite send_idle by exact Hb. cbn [ch]. destruct (tx len =? 0); reflexivity. Qed.

Lemma start_now s m len fq : busy (ch s) = false -> now (send s m len fq) = now s.
Proof. intros Hb. rewrite send_idle by exact Hb. apply addall_tcur. Qed.

Lemma start_log s m len fq :
  busy (ch s) = false -> log (send s m len fq) = IStart m len (now s) (jit_of s) fq :: log s.
Proof. intros Hb. rewrite send_idle by exact Hb. reflexivity. Qed.

(* the dequeue loop of unbusy *)
Definition Draining (s : st) : Prop :=
  Core s /\ (busy (ch s) = false -> deq_ctx tx (log s) = Some (now s)).

(* Buffer::dequeue of the model *)
Definition dequeued (s : st) (r : list (N * N)) (len : N) : st :=
  set_ch s {| busy := false; finish := finish (ch s); buffer := r; acc := acc (ch s) - len |}.

Lemma Draining_step s m len r :
  Draining s -> busy (ch s) = false -> buffer (ch s) = (m, len) :: r ->
  Draining (send (dequeued s r len) m len true).
Proof.
  intros [HC Hd] Hb Eb. pose proof HC as [HS Hw Hc Hq Ha Hf Hu]. rewrite Hb in *.
  set (s1 := dequeued s r len).
  assert (Hb1 : busy (ch s1) = false) by reflexivity.
  assert (HC1 : Core (send s1 m len true)).
  { apply Core_start; cbn [s1 dequeued set_ch ch q log busy finish buffer acc]; try assumption.
    - apply Hf; reflexivity.
    - rewrite Ha, Eb, qsum_cons. cbn [snd]. lia.
    - rewrite Hq, Eb. cbn [hd_error tl]. repeat split. apply Hd; reflexivity. }
  split; [exact HC1|]. intros Hb2. rewrite start_busy_iff in Hb2 by exact Hb1.
  rewrite start_log, start_now by exact Hb1. cbn [deq_ctx].
  destruct (tx len =? 0); [|discriminate]. apply Hd; reflexivity.
Qed.

Lemma drain_inv k : forall s,
  Draining s ->
  Draining (drain k s) /\
  ((length (buffer (ch s)) <= k)%nat -> busy (ch (drain k s)) = false -> buffer (ch (drain k s)) = []).
Proof.
  induction k as [|k IH]; intros s HDr; cbn [Model.drain].
  - split; [exact HDr|]. intros Hl _. destruct (buffer (ch s)); [reflexivity|cbn in Hl; lia].
  - destruct (busy (ch s)) eqn:Hb.
    + split; [exact HDr|]. intros _ Hb'. congruence.
    + destruct (buffer (ch s)) as [|[m len] r] eqn:Eb.
      * split; [exact HDr|]. intros _ _. congruence.
      * destruct (IH _ (Draining_step s m len r HDr Hb Eb)) as [H1 H2]. split; [exact H1|].
        intros Hl. apply H2. rewrite start_buffer by reflexivity. cbn [dequeued set_ch ch buffer]. cbn [length] in Hl. lia.
Qed.

(* Channel::unbusy up to its loop *)
Definition unbusied (s : st) : st :=
  emit (set_ch s {| busy := false; finish := 0; buffer := buffer (ch s); acc := acc (ch s) |}) (IUnbusy (now s)).

Lemma unbusy_eq s : unbusy s = drain (length (buffer (ch s))) (unbusied s).
Proof. reflexivity. Qed.

Lemma Draining_unbusied s x q' :
  Good s -> fetched (q s) x q' -> dec_ev (epay x) = EUnbusy ->
  busy (ch s) = true /\ finish (ch s) = etime x /\ unbusies (pend q') = [] /\ Draining (unbusied (set_q s q')).
Proof.
  intros [[HS Hw Hc Hq Ha Hf Hu] _] HF Ed. rewrite (f_pend _ _ _ HF) in Hu. unfold unbusies in Hu.
  rewrite sel_cons, Ed in Hu. cbn [app] in Hu. destruct (busy (ch s)) eqn:Hb; [|discriminate]. injection Hu as Hu1 Hu2.
  refine (conj eq_refl (conj (eq_sym Hu1) (conj Hu2 (conj _ (fun _ => eq_refl))))).
  constructor; cbn [unbusied emit set_ch set_q ch q log busy finish buffer acc cur_of queue_of wf_log item_ok];
    try assumption; try reflexivity; [exact (f_SI _ _ _ HF)|].
  split; [|exact Hw]. unfold now. cbn [set_q q]. rewrite Hc, (f_tcur _ _ _ HF), Hu1. reflexivity.
Qed.

Lemma Good_offer s o : Good s -> Good (offer s o).
Proof.
  intros HG0. unfold Model.offer. apply Good_sample. apply Good_sample in HG0. revert HG0. generalize (sample s). clear s. intros s [HC Hi].
  destruct (busy (ch s)) eqn:Hb.
  - destruct (Core_send_busy s (fst o) (snd o) false HC Hb) as [H1 H2]. split; [exact H1|].
    rewrite H2. discriminate.
  - pose proof HC as [HS Hw Hc Hq Ha Hf Hu]. rewrite Hb in *. specialize (Hi eq_refl).
    split.
    + apply Core_start; try assumption; [apply Hf; reflexivity|]. rewrite Hq. split; assumption.
    + intros _. rewrite start_buffer by exact Hb. exact Hi.
Qed.

Lemma Good_fold offs : forall s, Good s -> Good (fold_left offer offs s).
Proof. induction offs as [|o offs IH]; intros s H; cbn [fold_left]; [exact H|]. apply IH, Good_offer, H. Qed.

Lemma Good_handle_wake s k : Good s -> Good (handle_wake s k).
Proof.
  intros H. unfold Model.handle_wake. destruct (nth_error bursts (N.to_nat k)) as [[t offs]|]; [|exact H].
  apply Good_fold, H.
Qed.

Lemma Good_handle_exit s m : Good s -> Good (handle_exit s m).
Proof.
  intros [[HS Hw Hc Hq Ha Hf Hu] Hi]. unfold handle_exit. apply Good_sample. split; [|exact Hi].
  constructor; cbn [emit ch q log cur_of queue_of]; try assumption. cbn [wf_log item_ok]. split; [exact I|exact Hw].
Qed.

Lemma Good_fetch_other s x q' :
  Good s -> fetched (q s) x q' -> dec_ev (epay x) <> EUnbusy -> Good (set_q s q').
Proof.
  intros [[HS Hw Hc Hq Ha Hf Hu] Hi] HF Hn. split; [|exact Hi].
  constructor; cbn [set_q ch q log]; try assumption; [exact (f_SI _ _ _ HF)|].
  rewrite (f_pend _ _ _ HF) in Hu. unfold unbusies in *. rewrite sel_cons in Hu.
  destruct (dec_ev (epay x)); [destruct (Hn eq_refl)|exact Hu..].
Qed.

Lemma Good_step s x q' : Good s -> fetched (q s) x q' -> Good (dispatch (set_q s q') (dec_ev (epay x))).
Proof.
  intros HG HF. destruct (dec_ev (epay x)) as [|m|k] eqn:Ed; cbn [Model.dispatch].
  - destruct (Draining_unbusied s x q' HG HF Ed) as (_ & _ & _ & HD).
    rewrite unbusy_eq. destruct (drain_inv (length (buffer (ch s))) _ HD) as [[H1 _] H2]. split; [exact H1|]. apply H2. reflexivity.
  - apply Good_handle_exit, (Good_fetch_other s x q' HG HF). rewrite Ed. discriminate.
  - apply Good_handle_wake, (Good_fetch_other s x q' HG HF). rewrite Ed. discriminate.
Qed.

Lemma steps_ind (I : st -> Prop) :
  (forall s, I s -> SI (q s)) ->
  (forall s x q', I s -> fetched (q s) x q' -> I (dispatch (set_q s q') (dec_ev (epay x)))) ->
  forall n s, I s -> I (steps n s).
Proof.
  intros HSI Hstep. induction n as [|n IH]; intros s H; cbn [Model.steps]; [exact H|].
  pose proof (step_inv current enc_ev s (HSI s H)) as Hs. destruct (step s) as [s'|]; [|exact H].
  destruct Hs as (x & q' & HF & ->). apply IH, Hstep; assumption.
Qed.

Lemma init_pend {A} (f : N -> cev -> option A) oracle :
  (forall t k, f t (EWake k) = None) -> sel f (pend (q (init enc_ev bursts oracle))) = [].
Proof.
  intros H. cbn [init q]. rewrite sched_wakes_addall. apply Permutation_nil. symmetry.
  rewrite sel_addall by (apply timely_0; reflexivity). rewrite selv_wakes by exact H. reflexivity.
Qed.

Lemma Good_init oracle : Good (init enc_ev bursts oracle).
Proof.
  split; [|reflexivity]. constructor; try reflexivity.
  - cbn [init q]. rewrite sched_wakes_addall. apply addall_SI, SI_new.
  - apply init_pend. reflexivity.
Qed.

Theorem Good_reachable oracle n : Good (steps n (init enc_ev bursts oracle)).
Proof. apply (steps_ind Good (fun s H => C_SI s (proj1 H)) Good_step), Good_init. Qed.

Lemma reach_ind (I : st -> Prop) oracle :
  I (init enc_ev bursts oracle) ->
  (forall s x q', Good s -> I s -> fetched (q s) x q' -> I (dispatch (set_q s q') (dec_ev (epay x)))) ->
  forall n, I (steps n (init enc_ev bursts oracle)).
Proof.
  intros H0 Hstep n. apply (steps_ind (fun s => Good s /\ I s)); [intros s H; apply H| |split; [apply Good_init|exact H0]].
  intros s x q' [HG HI] HF. split; [apply Good_step|apply Hstep]; assumption.
Qed.

End Core.
