(* The future event set (CQueue.Spec) as the channel loop uses it: pending
   events in fetch order, what an add and a fetch do to them, the event
   encoding, and selections of pending events by kind. *)
From Coq Require Import List NArith Lia Permutation ZifyBool.
From DesVerif Require Import CQueue.Model CQueue.Spec CQueue.ListX CQueue.SpecProps Channel.Model.
Import ListNotations.
Open Scope N_scope.

(* ---- event encoding ---- *)
Lemma dec_enc e : dec_ev (enc_ev e) = e.
Proof.
  destruct e as [|m|k]; unfold dec_ev, enc_ev.
  - reflexivity.
  - replace (2 * m + 1 =? 0) with false by lia.
    replace (2 * m + 1) with (1 + 2 * m) by lia. rewrite N.odd_add_mul_2.
    change (N.odd 1) with true. cbv iota.
    f_equal. symmetry. apply N.div_unique with (r := 1); lia.
  - replace (2 * k + 2 =? 0) with false by lia.
    replace (2 * k + 2) with (0 + 2 * (k + 1)) by lia. rewrite N.odd_add_mul_2.
    change (N.odd 0) with false. cbv iota.
    f_equal. rewrite <- (N.div_unique (0 + 2 * (k + 1)) 2 (k + 1) 0); lia.
Qed.

(* the same list as SpecProps.spend, under the name the statements of C07 use *)
Definition pend (q0 : sp) : list ev := s_zero q0 ++ s_rest q0.

Definition newp (q0 : sp) (t p : N) : ev := {| etime := t; eid := s_next q0; epay := p |}.

Definition new_ev (q0 : sp) (t : N) (e : cev) : ev := {| etime := t; eid := s_next q0; epay := enc_ev e |}.

Lemma qaddf_tcur encf q0 t e : s_tcur (qaddf encf q0 t e) = s_tcur q0.
Proof.
  unfold qaddf, sp_add. destruct (t <? s_tcur q0); [reflexivity|]. destruct (t =? s_tcur q0); reflexivity.
Qed.

Lemma qaddf_SI encf q0 t e : SI q0 -> SI (qaddf encf q0 t e).
Proof. apply SI_add. Qed.

Lemma qaddf_shape encf q0 t e :
  s_tcur q0 <= t ->
  let x := newp q0 t (encf e) in
  let q' := qaddf encf q0 t e in
  s_next q' = s_next q0 + 1 /\
  ((t = s_tcur q0 /\ s_zero q' = s_zero q0 ++ [x] /\ s_rest q' = s_rest q0) \/
   (t <> s_tcur q0 /\ s_zero q' = s_zero q0 /\ s_rest q' = sins x (s_rest q0))).
Proof.
  intros H. cbv zeta. unfold qaddf, sp_add. replace (t <? s_tcur q0) with false by lia.
  destruct (t =? s_tcur q0) eqn:E; (split; [reflexivity|]); [left|right]; (split; [lia|split; reflexivity]).
Qed.

Lemma sins_cut e l :
  exists l1 l2, l = l1 ++ l2 /\ sins e l = l1 ++ e :: l2 /\
    Forall (fun y => key_lt e y = false) l1 /\ (key_sorted l -> Forall (fun y => key_lt e y = true) l2).
Proof.
  induction l as [|y l (l1 & l2 & E1 & E2 & H1 & H2)]; cbn [sins].
  - exists [], []. repeat split; constructor.
  - destruct (key_lt e y) eqn:Hk.
    + exists [], (y :: l). repeat split; [constructor|]. intros Hs. inversion Hs as [|? ? _ Hall]; subst.
      constructor; [exact Hk|]. eapply Forall_impl; [|exact Hall]. intros z. apply key_lt_trans, Hk.
    + exists (y :: l1), l2. cbn [app]. rewrite E2, <- E1. repeat split; [constructor; assumption|].
      intros Hs. inversion Hs; subst. auto.
Qed.

(* an add puts the new event somewhere into the pending list and moves nothing else *)
Lemma qaddf_pend encf q0 t e :
  s_tcur q0 <= t ->
  exists l1 l2, pend q0 = l1 ++ l2 /\ pend (qaddf encf q0 t e) = l1 ++ newp q0 t (encf e) :: l2.
Proof.
  intros H. unfold pend. destruct (qaddf_shape encf q0 t e H) as [_ [[_ [-> ->]]|[_ [-> ->]]]].
  - exists (s_zero q0), (s_rest q0). split; [reflexivity|]. rewrite <- app_assoc. reflexivity.
  - destruct (sins_cut (newp q0 t (encf e)) (s_rest q0)) as (l1 & l2 & E1 & E2 & _).
    exists (s_zero q0 ++ l1), l2. rewrite E2, <- !app_assoc, E1 at 1. split; reflexivity.
Qed.

Lemma qaddf_In encf q0 t e x :
  s_tcur q0 <= t -> (In x (pend (qaddf encf q0 t e)) <-> x = newp q0 t (encf e) \/ In x (pend q0)).
Proof.
  intros H. destruct (qaddf_pend encf q0 t e H) as (l1 & l2 & E1 & E2). rewrite E2, E1, !in_app_iff. cbn [In].
  intuition congruence.
Qed.

Record fetched (q0 : sp) (x : ev) (q' : sp) : Prop := {
  f_shape : (s_zero q0 = x :: s_zero q' /\ s_rest q' = s_rest q0) \/
            (s_zero q0 = [] /\ s_rest q0 = x :: s_rest q' /\ s_zero q' = []);
  f_tcur : s_tcur q' = etime x;
  f_le : s_tcur q0 <= etime x;
  f_SI : SI q'
}.

Lemma f_pend q0 x q' : fetched q0 x q' -> pend q0 = x :: pend q'.
Proof. unfold pend. intros [[[-> ->]|[-> [-> ->]]] _ _ _]; reflexivity. Qed.

Lemma fetch_spec q0 :
  SI q0 ->
  match pend q0 with
  | [] => sp_fetch q0 = (q0, OPanic 2)
  | x :: _ => exists q', sp_fetch q0 = (q', OFetched (epay x) (etime x)) /\ fetched q0 x q'
  end.
Proof.
  intros HS. pose proof (SI_fetch q0 HS) as HS'. unfold pend, sp_fetch in *.
  destruct (s_zero q0) as [|z zs] eqn:Ez; cbn [app].
  - destruct (s_rest q0) as [|x r] eqn:Er; [reflexivity|]. eexists. split; [reflexivity|].
    constructor; cbn [s_zero s_rest s_tcur]; [right; rewrite Ez, Er; repeat split|reflexivity| |exact HS'].
    apply (SI_rtime q0 HS). rewrite Er. left; reflexivity.
  - eexists. split; [reflexivity|].
    assert (Et : etime z = s_tcur q0) by (apply (SI_ztime q0 HS); rewrite Ez; left; reflexivity).
    constructor; cbn [s_zero s_rest s_tcur]; [left; rewrite Ez; split; reflexivity|symmetry; exact Et|lia|exact HS'].
Qed.

(* ---- selections of pending events by kind ---- *)
Definition sel {A} (f : N -> cev -> option A) (l : list ev) : list A :=
  flat_map (fun x => match f (etime x) (dec_ev (epay x)) with Some a => [a] | None => [] end) l.

Lemma sel_app {A} (f : N -> cev -> option A) l1 l2 : sel f (l1 ++ l2) = sel f l1 ++ sel f l2.
Proof. apply flat_map_app. Qed.

Lemma sel_cons {A} (f : N -> cev -> option A) x l :
  sel f (x :: l) = match f (etime x) (dec_ev (epay x)) with Some a => [a] | None => [] end ++ sel f l.
Proof. reflexivity. Qed.

Lemma sel_In {A} (f : N -> cev -> option A) l a :
  In a (sel f l) <-> exists x, In x l /\ f (etime x) (dec_ev (epay x)) = Some a.
Proof.
  unfold sel. rewrite in_flat_map. split; intros [x [Hx H]]; exists x; (split; [exact Hx|]).
  - destruct (f (etime x) (dec_ev (epay x))) as [b|]; [destruct H as [->|[]]; reflexivity|destruct H].
  - rewrite H. left; reflexivity.
Qed.

Lemma sel_nil_In {A} (f : N -> cev -> option A) l x : sel f l = [] -> In x l -> f (etime x) (dec_ev (epay x)) = None.
Proof.
  intros H Hx. destruct (f (etime x) (dec_ev (epay x))) as [a|] eqn:E; [|reflexivity].
  assert (Hi : In a (sel f l)) by (apply sel_In; exists x; split; assumption). rewrite H in Hi. destruct Hi.
Qed.

Lemma sel_perm {A} (f : N -> cev -> option A) l l' : Permutation l l' -> Permutation (sel f l) (sel f l').
Proof. apply Permutation_flat_map. Qed.

Definition unbusies : list ev -> list N :=
  sel (fun t e => match e with EUnbusy => Some t | _ => None end).
Definition exits : list ev -> list N :=
  sel (fun _ e => match e with EExit m => Some m | _ => None end).
Definition wakes : list ev -> list N :=
  sel (fun _ e => match e with EWake k => Some k | _ => None end).

(* the same selection on events yet to be added *)
Definition selv {A} (f : N -> cev -> option A) (evs : list (N * cev)) : list A :=
  flat_map (fun te => match f (fst te) (snd te) with Some a => [a] | None => [] end) evs.

Lemma selv_app {A} (f : N -> cev -> option A) a b : selv f (a ++ b) = selv f a ++ selv f b.
Proof. apply flat_map_app. Qed.

Lemma sel_qadd {A} (f : N -> cev -> option A) q0 t e :
  s_tcur q0 <= t -> Permutation (sel f (pend (qadd q0 t e))) (selv f [(t, e)] ++ sel f (pend q0)).
Proof.
  intros H. destruct (qaddf_pend enc_ev q0 t e H) as (l1 & l2 & E1 & E2).
  rewrite E2, E1, !sel_app, sel_cons. cbn [newp etime epay selv flat_map fst snd]. rewrite dec_enc, app_nil_r.
  apply Permutation_app_swap_app.
Qed.

Lemma sel_qadd_none {A} (f : N -> cev -> option A) q0 t e :
  s_tcur q0 <= t -> f t e = None -> sel f (pend (qadd q0 t e)) = sel f (pend q0).
Proof.
  intros H Hn. destruct (qaddf_pend enc_ev q0 t e H) as (l1 & l2 & E1 & E2).
  rewrite E2, E1, !sel_app, sel_cons. cbn [newp etime epay]. rewrite dec_enc, Hn. reflexivity.
Qed.

Definition addall (encf : cev -> N) (evs : list (N * cev)) (q0 : sp) : sp :=
  fold_left (fun q1 te => qaddf encf q1 (fst te) (snd te)) evs q0.

Definition timely (q0 : sp) (evs : list (N * cev)) : Prop := Forall (fun te => s_tcur q0 <= fst te) evs.

Lemma addall_cons encf te evs q0 : addall encf (te :: evs) q0 = addall encf evs (qaddf encf q0 (fst te) (snd te)).
Proof. reflexivity. Qed.

Lemma addall_app encf a b q0 : addall encf (a ++ b) q0 = addall encf b (addall encf a q0).
Proof. apply fold_left_app. Qed.

Lemma addall_tcur encf evs : forall q0, s_tcur (addall encf evs q0) = s_tcur q0.
Proof.
  induction evs as [|te evs IH]; intros q0; cbn [addall fold_left]; [reflexivity|].
  fold (addall encf evs (qaddf encf q0 (fst te) (snd te))). rewrite IH. apply qaddf_tcur.
Qed.

Lemma addall_SI encf evs : forall q0, SI q0 -> SI (addall encf evs q0).
Proof.
  induction evs as [|te evs IH]; intros q0 H; cbn [addall fold_left]; [exact H|]. apply IH, qaddf_SI, H.
Qed.

Lemma timely_cons encf q0 te evs :
  timely q0 (te :: evs) -> s_tcur q0 <= fst te /\ timely (qaddf encf q0 (fst te) (snd te)) evs.
Proof. unfold timely. rewrite qaddf_tcur. intros H. inversion H; subst. split; assumption. Qed.

Lemma addall_In encf evs : forall q0 x,
  timely q0 evs -> In x (pend (addall encf evs q0)) ->
  In x (pend q0) \/ exists te, In te evs /\ etime x = fst te /\ epay x = encf (snd te).
Proof.
  induction evs as [|te evs IH]; intros q0 x HF Hx; cbn [addall fold_left] in Hx; [left; exact Hx|].
  destruct (timely_cons encf _ _ _ HF) as [Ht HF']. destruct (IH _ _ HF' Hx) as [H|(te' & Hi & H)].
  - apply qaddf_In in H; [|exact Ht]. destruct H as [->|H]; [right|left; exact H].
    exists te. split; [left; reflexivity|split; reflexivity].
  - right. exists te'. split; [right; exact Hi|exact H].
Qed.

Lemma addall_length encf evs : forall q0,
  timely q0 evs -> length (pend (addall encf evs q0)) = (length evs + length (pend q0))%nat.
Proof.
  induction evs as [|te evs IH]; intros q0 HF; cbn [addall fold_left length]; [reflexivity|].
  destruct (timely_cons encf _ _ _ HF) as [Ht HF']. fold (addall encf evs (qaddf encf q0 (fst te) (snd te))).
  rewrite (IH _ HF'). destruct (qaddf_pend encf q0 _ (snd te) Ht) as (l1 & l2 & -> & ->). rewrite !app_length. cbn [length]. lia.
Qed.

Lemma sel_addall {A} (f : N -> cev -> option A) evs : forall q0,
  timely q0 evs -> Permutation (sel f (pend (addall enc_ev evs q0))) (selv f evs ++ sel f (pend q0)).
Proof.
  induction evs as [|[t e] evs IH]; intros q0 HF; cbn [addall fold_left]; [reflexivity|].
  destruct (timely_cons enc_ev _ _ _ HF) as [Ht HF']. fold (addall enc_ev evs (qadd q0 t e)).
  rewrite (IH _ HF'), (sel_qadd f q0 t e Ht). change ((t, e) :: evs) with ([(t, e)] ++ evs). rewrite selv_app.
  rewrite !app_assoc. apply Permutation_app_tail, Permutation_app_comm.
Qed.

(* at_sim_start (Model.sched_wakes) as such a list of adds *)
Fixpoint wake_evs (k : N) (bs : list (N * list (N * N))) : list (N * cev) :=
  match bs with
  | [] => []
  | (t, _) :: r => (t, EWake k) :: wake_evs (k + 1) r
  end.

Lemma sched_wakes_addall encf bs : forall q0 k, sched_wakes encf q0 k bs = addall encf (wake_evs k bs) q0.
Proof.
  induction bs as [|[t o] bs IH]; intros q0 k; cbn [sched_wakes wake_evs addall fold_left fst snd]; [reflexivity|]. apply IH.
Qed.

Lemma selv_wakes {A} (f : N -> cev -> option A) bs : forall k,
  (forall t k', f t (EWake k') = None) -> selv f (wake_evs k bs) = [].
Proof.
  induction bs as [|[t o] bs IH]; intros k H; cbn [wake_evs selv flat_map fst snd]; [reflexivity|].
  rewrite H. apply IH, H.
Qed.

Lemma timely_0 q0 evs : s_tcur q0 = 0 -> timely q0 evs.
Proof. intros H. apply Forall_forall. intros te _. lia. Qed.

Lemma wake_evs_In bs : forall k te,
  In te (wake_evs k bs) -> exists j, (j < length bs)%nat /\ snd te = EWake (k + N.of_nat j).
Proof.
  induction bs as [|[t o] bs IH]; intros k te; cbn [wake_evs In length]; [intros []|]. intros [<-|H].
  - exists 0%nat. split; [lia|]. cbn [snd]. f_equal. lia.
  - destruct (IH _ _ H) as (j & Hj & E). exists (S j). split; [lia|]. rewrite E. f_equal. lia.
Qed.
