(* The runs over the calendar queue that Properties/C07.v speaks about ([reach_cq], [mreach_cq],
   [own_run_cq]) and the lemmas by which a theorem about the run over the specification event set
   carries over to them: the simulations [reach_cq_sim], [own_run_cq_sim] (OverCq: forward
   simulation with C01's relation, CQueue.Client.Rq) and what Rq says about the pending events.
   The pending events of a calendar queue are its current-instant list followed by its buckets
   (CQueue.Refine.pend); they are a permutation of the specification's pending events, in general
   not in fetch order. The six C07_*_cq statements are proved with these in Properties/C07.v. *)
From Coq Require Import List NArith Permutation.
From DesVerif Require Import CQueue.Spec CQueue.Refine CQueue.Client
  Channel.Model Channel.Queue Channel.Trace Channel.Core Channel.Account Channel.Timing Channel.Props
  Channel.Multi Channel.ModelCq Channel.Project Channel.Links Channel.MTerm Channel.OverCq.
Import ListNotations.
Open Scope N_scope.

Lemma Rq_pend q0 s0 : Rq q0 s0 -> Permutation (Refine.pend q0) (Queue.pend s0).
Proof.
  intros [hs HR]. unfold Refine.pend, Queue.pend. rewrite (R_zero _ _ _ HR). apply Permutation_app_head, (R_perm _ _ _ HR).
Qed.

Lemma Rq_sel {A} (f : N -> cev -> option A) q0 s0 : Rq q0 s0 -> Permutation (sel f (Refine.pend q0)) (sel f (Queue.pend s0)).
Proof. intros H. apply sel_perm, Rq_pend, H. Qed.

(* at most one Unbusy event is pending, so the order in which the calendar queue holds it does not matter *)
Lemma Rq_unbusies q0 s0 (b : bool) f : Rq q0 s0 -> unbusies (Queue.pend s0) = (if b then [f] else []) -> unbusies (Refine.pend q0) = (if b then [f] else []).
Proof.
  intros H E. pose proof (Rq_sel (fun t0 e => match e with EUnbusy => Some t0 | _ => None end) _ _ H) as HP.
  fold (unbusies (Queue.pend s0)) in HP. rewrite E in HP. symmetry in HP.
  destruct b; [apply Permutation_length_1_inv, HP|apply Permutation_nil, HP].
Qed.

Section OneCq.
Variable n t : N.
Hypothesis Hn : n <> 0.
Hypothesis Ht : t <> 0.
Variable tx : N -> N.
Variable mt : metrics.
Variable bursts : list (N * list (N * N)).
Variable oracle : list N.

Definition reach_cq (k : nat) : cst := csteps current enc_ev tx mt bursts k (cinit enc_ev bursts n t oracle).

Lemma reach_cq_sim k : Rs (reach_cq k) (reach tx mt bursts oracle k).
Proof. apply Rs_steps, Rs_init; assumption. Qed.

End OneCq.

Section ManyCq.
Variable n t : N.
Hypothesis Hn : n <> 0.
Hypothesis Ht : t <> 0.
Variable txs : N -> N -> N.
Variable mts : N -> metrics.
Variable mbursts : list (N * list (N * N * N)).
Variable oracles : N -> list N.

Definition mreach_cq (k : nat) : cmst := cmsteps own_instance txs mts mbursts k (cminit mbursts n t oracles).

(* channel c's own run, over a calendar queue of its own with n' buckets of width t' *)
Definition own_run_cq (n' t' c : N) (k : nat) : cst :=
  csteps current enc_ev (txs c) (mts c) (pbursts mbursts c) k (cinit enc_ev (pbursts mbursts c) n' t' (oracles c)).

Lemma own_run_cq_sim n' t' c k : n' <> 0 -> t' <> 0 -> Rs (own_run_cq n' t' c k) (own_run txs mts mbursts oracles c k).
Proof. intros Hn' Ht'. apply Rs_steps, Rs_init; assumption. Qed.

End ManyCq.
