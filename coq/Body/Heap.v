(* List and ghost-heap lemmas for the message-body model: functional update,
   destructor counters, reference counting of box pointers. *)
From Coq Require Import List NArith Bool Arith Lia.
From DesVerif Require Import Common.Lists Body.Derive Body.Model.
Import ListNotations.
Open Scope N_scope.

Arguments N.add : simpl never.
Arguments N.mul : simpl never.
Arguments N.modulo : simpl never.
Arguments N.sub : simpl never.

(* ---- upd / nth_error ---- *)
Lemma upd_length {A} i f (l : list A) : length (upd i f l) = length l.
Proof. revert i; induction l as [|x r IH]; intros [|i]; cbn [upd length]; auto. Qed.

Lemma nth_error_upd {A} i f (l : list A) k :
  nth_error (upd i f l) k = if Nat.eqb k i then option_map f (nth_error l k) else nth_error l k.
Proof.
  revert i k; induction l as [|x r IH]; intros i k.
  - destruct i, k; cbn; try reflexivity; destruct (Nat.eqb k i); reflexivity.
  - destruct i as [|i], k as [|k]; cbn [upd nth_error Nat.eqb option_map]; try reflexivity. apply IH.
Qed.

Lemma upd_same {A} i (x : A) l : nth_error l i = Some x -> upd i (fun _ => x) l = l.
Proof.
  revert i; induction l as [|y r IH]; intros [|i] H; cbn in *; try discriminate; auto.
  - injection H as ->; reflexivity.
  - f_equal; auto.
Qed.

Lemma nth_error_app_last {A} (l : list A) x k :
  nth_error (l ++ [x]) k = if Nat.eqb k (length l) then Some x else nth_error l k.
Proof.
  revert k; induction l as [|y r IH]; intros [|k]; cbn [app nth_error length Nat.eqb]; auto.
  destruct k; reflexivity.
Qed.

(* ---- reference counting ---- *)
Fixpoint cnt (j : nat) (l : list nat) : N :=
  match l with
  | [] => 0
  | x :: r => (if Nat.eqb x j then 1 else 0) + cnt j r
  end.

Lemma cnt_app j a b : cnt j (a ++ b) = cnt j a + cnt j b.
Proof. induction a as [|x r IH]; cbn [app cnt]; lia. Qed.

Lemma cnt_pos_In j l : 0 < cnt j l -> In j l.
Proof.
  induction l as [|x r IH]; cbn [cnt In]; [lia|].
  destruct (Nat.eqb_spec x j); [auto|]. intros H. right. apply IH. lia.
Qed.

Lemma In_cnt_pos j l : In j l -> 0 < cnt j l.
Proof.
  induction l as [|x r IH]; cbn [cnt In]; [tauto|].
  intros [->|H]; [rewrite Nat.eqb_refl; lia|]. specialize (IH H). lia.
Qed.

Lemma cnt_le1_NoDup l : (forall j, cnt j l <= 1) -> NoDup l.
Proof.
  induction l as [|x r IH]; intros H; constructor.
  - intros Hin. apply In_cnt_pos in Hin. specialize (H x). cbn [cnt] in H. rewrite Nat.eqb_refl in H. lia.
  - apply IH. intros j. specialize (H j). cbn [cnt] in H. lia.
Qed.

Lemma cnt_remove_nth j l i p :
  nth_error l i = Some p -> cnt j l = cnt j (remove_nth i l) + (if Nat.eqb p j then 1 else 0).
Proof.
  revert i; induction l as [|x r IH]; intros [|i] H; cbn in H; try discriminate.
  - injection H as ->. cbn [remove_nth cnt]. lia.
  - cbn [remove_nth cnt]. rewrite (IH _ H). lia.
Qed.

Lemma cnt_flat_upd {A} (f : A -> list nat) j i x d (l : list A) :
  (i < length l)%nat ->
  cnt j (flat_map f (upd i (fun _ => x) l)) + cnt j (f (nth i l d)) = cnt j (flat_map f l) + cnt j (f x).
Proof.
  revert i; induction l as [|y r IH]; intros [|i] H; cbn [length] in H; try lia.
  - cbn [upd flat_map nth]. rewrite !cnt_app. lia.
  - cbn [upd flat_map nth]. rewrite !cnt_app. specialize (IH i ltac:(lia)). lia.
Qed.

(* ---- destructor counters ---- *)
Definition drops (m : mem) (j : nat) : N :=
  match nth_error (heap m) j with Some c => cdrops c | None => 0 end.

Definition hlen (m : mem) : nat := length (heap m).

Lemma hlen_drop_cell i m : hlen (drop_cell i m) = hlen m.
Proof. unfold hlen, drop_cell; cbn [heap]. apply upd_length. Qed.

Lemma drops_drop_cell m i j :
  (i < hlen m)%nat -> drops (drop_cell i m) j = drops m j + (if Nat.eqb i j then 1 else 0).
Proof.
  unfold hlen, drops, drop_cell; cbn [heap]. intros H. rewrite nth_error_upd.
  rewrite (Nat.eqb_sym i j). destruct (Nat.eqb_spec j i) as [->|].
  - destruct (nth_error (heap m) i) eqn:E; [cbn; lia|]. apply nth_error_None in E. lia.
  - lia.
Qed.

Lemma nth_error_drop_cell m i k :
  nth_error (heap (drop_cell i m)) k =
  if Nat.eqb k i then option_map bump (nth_error (heap m) k) else nth_error (heap m) k.
Proof. unfold drop_cell; cbn [heap]. apply nth_error_upd. Qed.

Lemma drops_app_fresh m m' c j :
  heap m' = heap m ++ [c] -> cdrops c = 0 -> drops m' j = drops m j.
Proof.
  unfold drops; intros -> H0. rewrite nth_error_app_last.
  destruct (Nat.eqb_spec j (length (heap m))) as [->|]; [|reflexivity].
  rewrite (proj2 (nth_error_None _ _)); [auto|lia].
Qed.

(* ---- a heap extension keeps every existing value (tag, value, serial) ---- *)
Definition mem_le (m m' : mem) : Prop :=
  forall i c, nth_error (heap m) i = Some c ->
    exists c', nth_error (heap m') i = Some c' /\ ctag c' = ctag c /\ cval c' = cval c /\ cser c' = cser c /\ cdrops c <= cdrops c'.

Lemma mem_le_refl m : mem_le m m.
Proof. intros i c H; exists c; repeat split; auto; lia. Qed.

Lemma mem_le_trans a b c : mem_le a b -> mem_le b c -> mem_le a c.
Proof.
  intros H1 H2 i x Hx. destruct (H1 _ _ Hx) as (y & Hy & E1 & E2 & E3 & E4).
  destruct (H2 _ _ Hy) as (z & Hz & F1 & F2 & F3 & F4). exists z. repeat split; try congruence. lia.
Qed.

Lemma mem_le_drop_cell i m : mem_le m (drop_cell i m).
Proof.
  intros k c H. rewrite nth_error_drop_cell, H. destruct (Nat.eqb k i); cbn [option_map].
  - exists (bump c). repeat split; cbn; auto; lia.
  - exists c. repeat split; auto; lia.
Qed.

Lemma mem_le_app m m' c : heap m' = heap m ++ [c] -> mem_le m m'.
Proof.
  intros E i x H. exists x. rewrite E, nth_error_app_last.
  assert (i < length (heap m))%nat by (apply nth_error_Some; congruence).
  destruct (Nat.eqb_spec i (length (heap m))); [lia|]. repeat split; auto; lia.
Qed.

Lemma mem_le_vdrop m p : mem_le m (vdrop m p).
Proof. destruct p; cbn [vdrop]; [apply mem_le_drop_cell|apply mem_le_refl]. Qed.

Lemma alloc_spec m tag v m' p ser : alloc m tag v = (m', p, ser) ->
  p = hlen m /\ hlen m' = S (hlen m) /\ (forall j, drops m' j = drops m j) /\ mem_le m m' /\
  nth_error (heap m') (hlen m) = Some {| ctag := tag; cval := v; cser := ser; cdrops := 0 |} /\
  ser = (if ti_ser (info tag) then next_ser m else 0).
Proof.
  unfold alloc, hlen. intros H. injection H as <- <- <-. cbn [heap]. rewrite app_length. cbn [length].
  repeat split; try lia.
  - intros j. eapply drops_app_fresh; reflexivity.
  - eapply mem_le_app; reflexivity.
  - rewrite nth_error_app_last, Nat.eqb_refl. reflexivity.
Qed.

Lemma cell_read_some m p tag c : cell_read m p tag = Some c ->
  exists i, p = Some i /\ nth_error (heap m) i = Some c /\ ctag c = tag /\ cdrops c = 0.
Proof.
  unfold cell_read. destruct p as [i|]; [|discriminate]. destruct (nth_error (heap m) i) as [c0|] eqn:E; [|discriminate].
  destruct (N.eqb_spec (ctag c0) tag), (N.eqb_spec (cdrops c0) 0); cbn [andb]; try discriminate.
  intros H. injection H as <-. exists i. repeat split; auto.
Qed.
