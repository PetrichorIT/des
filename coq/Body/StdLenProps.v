(* The structural byte length of std values is the sum over the elements
   (collections, arrays, maps, tuples) resp. the payload of the active variant
   (Option, Result, Box), independent of element order; and it is what a
   message built from such a value measures. *)
From Coq Require Import List NArith Bool Arith Lia Permutation.
From DesVerif Require Import Body.Derive Body.StdLen Body.Model Body.Heap Body.Inv Body.Props Body.Frame Body.DeriveProps Body.Main.
Import ListNotations.
Open Scope N_scope.

Lemma fold_left_add {A} (f : A -> N) xs : forall a, fold_left (fun acc x => acc + f x) xs a = a + sum (map f xs).
Proof.
  induction xs as [|x r IH]; intros a; cbn [fold_left map]; unfold sum in *; cbn [fold_right]; [lia|].
  rewrite IH. lia.
Qed.

(* arrays, Vec, VecDeque, LinkedList, slices, sets, heaps: the sum of ALL elements' byte lengths *)
Theorem seq_len_is_sum k xs : std_byte_len (VSeq k xs) = sum (map std_byte_len xs).
Proof. cbn [std_byte_len]. rewrite fold_left_add. lia. Qed.

Theorem map_len_is_sum k kvs :
  std_byte_len (VMap k kvs) = sum (map (fun kv => std_byte_len (fst kv) + std_byte_len (snd kv)) kvs).
Proof. cbn [std_byte_len]. rewrite (fold_left_add (fun kv => std_byte_len (fst kv) + std_byte_len (snd kv))). lia. Qed.

Theorem tuple_len xs : std_byte_len (VTuple xs) = sum (map std_byte_len xs).
Proof. cbn [std_byte_len]. unfold sum. induction xs as [|x r IH]; cbn [fold_right map]; [reflexivity|]. rewrite IH. reflexivity. Qed.

Theorem option_len x : std_byte_len VNone = 0 /\ std_byte_len (VSome x) = std_byte_len x.
Proof. split; reflexivity. Qed.

Theorem result_len x : std_byte_len (VOk x) = std_byte_len x /\ std_byte_len (VErr x) = std_byte_len x.
Proof. split; reflexivity. Qed.

Theorem box_len x : std_byte_len (VBox x) = std_byte_len x.
Proof. reflexivity. Qed.

Theorem seq_len_app k xs ys : std_byte_len (VSeq k (xs ++ ys)) = std_byte_len (VSeq k xs) + std_byte_len (VSeq k ys).
Proof. rewrite !seq_len_is_sum, map_app, sum_app. reflexivity. Qed.

Lemma sum_perm a b : Permutation a b -> sum a = sum b.
Proof. unfold sum. induction 1; cbn [fold_right]; lia. Qed.

(* iteration order (hash sets / maps) and the collection kind do not matter *)
Theorem seq_len_perm k k' xs ys : Permutation xs ys -> std_byte_len (VSeq k xs) = std_byte_len (VSeq k' ys).
Proof. intros H. rewrite !seq_len_is_sum. apply sum_perm, Permutation_map, H. Qed.

Theorem map_len_perm k k' xs ys : Permutation xs ys -> std_byte_len (VMap k xs) = std_byte_len (VMap k' ys).
Proof. intros H. rewrite !map_len_is_sum. apply sum_perm, Permutation_map, H. Qed.

(* "length of the first element times the number of elements" is right exactly for uniform element lengths .. *)
Theorem seq_len_uniform k xs c :
  Forall (fun x => std_byte_len x = c) xs -> std_byte_len (VSeq k xs) = N.of_nat (length xs) * c.
Proof.
  intros H. rewrite seq_len_is_sum. unfold sum. induction H as [|x r Hx Hr IH]; cbn [map fold_right length]; [lia|].
  rewrite IH, Hx, Nat2N.inj_succ, N.mul_succ_l. lia.
Qed.

(* .. and wrong otherwise: ["a", "bcd", ""] measures 4, not 3 * 1 *)
Example first_element_is_not_representative :
  let xs := [VStr 1; VStr 3; VStr 0] in
  std_byte_len (VSeq CArray xs) = 4 /\ N.of_nat (length xs) * std_byte_len (hd VNone xs) = 3 /\
  std_byte_len (VSeq CArray [VNone; VSome (VPrim PU32); VSome (VPrim PU32); VNone]) = 8.
Proof. vm_compute. repeat split; reflexivity. Qed.

(* ---- packing of script numbers ---- *)
Lemma pack_cons_pos x r : 0 < pack (x :: r).
Proof. cbn [pack]. generalize (x mod B62) (B62 * pack r). intros a b. lia. Qed.

Lemma log2_pack_bound l : (length l <= S (N.to_nat (N.log2 (pack l))))%nat.
Proof.
  induction l as [|x r IH]; [cbn; lia|].
  destruct r as [|y r'].
  - cbn [length]. lia.
  - assert (Hp : 0 < pack (y :: r')) by apply pack_cons_pos.
    assert (E : pack (x :: y :: r') = 1 + x mod B62 + B62 * pack (y :: r')) by reflexivity.
    cbn [length] in *. rewrite E. set (p := pack (y :: r')) in *.
    assert (H : N.log2 (2 * p) <= N.log2 (1 + x mod B62 + B62 * p)).
    { apply N.log2_le_mono. generalize (x mod B62). intros a. unfold B62. lia. }
    rewrite N.log2_double in H by exact Hp. lia.
Qed.

Lemma unpack_fuel_pack l : forall fuel, (length l <= fuel)%nat -> Forall (fun x => x < B62) l -> unpack_fuel fuel (pack l) = l.
Proof.
  induction l as [|x r IH]; intros fuel Hf Hb.
  - destruct fuel; reflexivity.
  - destruct fuel as [|fuel]; [cbn [length] in Hf; lia|]. inversion Hb as [|? ? Hx Hr]; subst.
    cbn [unpack_fuel]. pose proof (pack_cons_pos x r) as Hp.
    destruct (N.eqb_spec (pack (x :: r)) 0); [lia|].
    assert (E : pack (x :: r) - 1 = x + B62 * pack r) by (cbn [pack]; rewrite (N.mod_small x B62) by exact Hx; generalize (B62 * pack r); intros q; lia).
    rewrite E. assert (HB : B62 <> 0) by (unfold B62; lia).
    rewrite N.mul_comm, N.mod_add, N.div_add by exact HB.
    rewrite (N.mod_small x B62), (N.div_small x B62) by exact Hx. cbn [N.add].
    rewrite IH; [reflexivity|cbn [length] in Hf; lia|exact Hr].
Qed.

Theorem unpack_pack l : Forall (fun x => x < B62) l -> unpack (pack l) = l.
Proof. intros H. unfold unpack. apply unpack_fuel_pack; [apply log2_pack_bound|exact H]. Qed.

(* ---- composition with the body model ---- *)
Lemma info_std fam : info (STD_BASE + fam) = std_info fam.
Proof.
  unfold info. replace (STD_BASE <=? STD_BASE + fam) with true by (symmetry; apply N.leb_le; lia).
  f_equal. lia.
Qed.

Lemma declared_len_std mode fam v L :
  mode mod 4 < 2 -> declared_len mode (STD_BASE + fam) v L = std_byte_len (fam_value fam (unpack v)).
Proof.
  intros Hm. unfold declared_len, eff_mode. rewrite info_std. cbn [std_info mk ti_clone ti_len ti_norm ti_size].
  revert Hm. generalize (mode mod 4). intros m Hm.
  assert (E : m = 0 \/ m = 1) by lia. destruct E as [-> | ->]; reflexivity.
Qed.

(* A message whose body was created (Body::new / new_non_clonable) from a value of the std family measures
   64 + the structural byte length of that value, after any operations that leave the value in place. *)
Theorem std_message_length ops s mode fam v L ops' :
  mode mod 4 < 2 ->
  Forall (fun o => ~ touches (STD_BASE + fam) s o) ops' ->
  let st := final (ops ++ ONew s mode (STD_BASE + fam) v L :: ops') in
  step st (OLength s) = (st, RLen (std_byte_len (fam_value fam (unpack v)) + HEADER_LEN)).
Proof.
  intros Hm HF st. destruct (length_is_header_plus_declared ops s mode (STD_BASE + fam) v L ops' HF) as [H _].
  fold st in H. rewrite H, declared_len_std by exact Hm. reflexivity.
Qed.

(* in particular for an array body: 64 + the sum over ALL its elements *)
Corollary array_message_length ops s mode ns L ops' :
  mode mod 4 < 2 -> Forall (fun x => x < B62) ns ->
  Forall (fun o => ~ touches (STD_BASE + 0) s o) ops' ->
  let st := final (ops ++ ONew s mode (STD_BASE + 0) (pack ns) L :: ops') in
  step st (OLength s) =
  (st, RLen (sum (map std_byte_len [str (at_ ns 0); str (at_ ns 1); str (at_ ns 2)]) + HEADER_LEN)).
Proof.
  intros Hm Hb HF st. unfold st. rewrite (std_message_length ops s mode 0 (pack ns) L ops' Hm HF).
  rewrite unpack_pack by exact Hb. change (fam_value 0 ns) with (VSeq CArray [str (at_ ns 0); str (at_ ns 1); str (at_ ns 2)]).
  rewrite seq_len_is_sum. reflexivity.
Qed.
