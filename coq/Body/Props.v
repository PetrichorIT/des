(* C16 on the model, for every operation sequence: what a slot shows ([view]),
   how each operation answers in terms of that view, which operations can
   change it, and the destructor accounting. *)
From Coq Require Import List NArith Bool Arith Lia.
From DesVerif Require Import Common.Lists Body.Derive Body.Model Body.Heap Body.Inv.
Import ListNotations.
Open Scope N_scope.

(* ---- what a user can see of a slot ---- *)
Record bview := { bv_tag : N; bv_val : N; bv_ser : N; bv_len : N; bv_clon : bool }.

Definition body_view (m : mem) (b : body) : option bview :=
  match cell_read m (data b) (vt_tag (vt b)) with
  | Some c => Some {| bv_tag := vt_tag (vt b); bv_val := cval c; bv_ser := cser c;
                      bv_len := blen b; bv_clon := vt_clone (vt b) |}
  | None => None
  end.

Inductive sview :=
| VEmpty                               (* no message in the slot *)
| VMsg (h : N) (b : option bview)      (* a message with header id h, without / with a body *)
| VBroken.                             (* the body's pointer cannot be read as its vtable's type *)

Definition msg_view (m : mem) (x : msg) : sview :=
  match content x with
  | None => VMsg (hid x) None
  | Some b => match body_view m b with Some v => VMsg (hid x) (Some v) | None => VBroken end
  end.

Definition view (st : state) (s : N) : sview :=
  match get_slot st s with None => VEmpty | Some x => msg_view (smem st) x end.

Definition obs_of (h : N) (b : option bview) : obs :=
  match b with
  | Some v => {| otag := bv_tag v; oval := bv_val v; oser := bv_ser v; oblen := bv_len v;
                 omlen := bv_len v + HEADER_LEN; ohid := h |}
  | None => {| otag := 0; oval := 0; oser := 0; oblen := 0; omlen := 0 + HEADER_LEN; ohid := h |}
  end.

(* the slot an operation may rewrite *)
Definition target (o : op) : option N :=
  match o with
  | ONew s _ _ _ _ | ONewEmpty s | OSet s _ _ _ _ | OTryCast s _ | ODrop s => Some s
  | OTryClone _ d | OClone _ d => Some d
  | _ => None
  end.

(* ---- slots other than the target ---- *)
Lemma nth_upd_other {A} i k (x d : A) l : i <> k -> nth k (upd i (fun _ => x) l) d = nth k l d.
Proof.
  intros H. rewrite !nth_nth_error, nth_error_upd. destruct (Nat.eqb_spec k i); [congruence|reflexivity].
Qed.

Lemma nth_upd_same {A} i (x d : A) l : (i < length l)%nat -> nth i (upd i (fun _ => x) l) d = x.
Proof.
  intros H. rewrite nth_nth_error, nth_error_upd, Nat.eqb_refl.
  destruct (nth_error l i) eqn:E; [reflexivity|]. apply nth_error_None in E. lia.
Qed.

Inductive shape (st : state) (o : op) : state -> Prop :=
| ShSame : shape st o st
| ShPut t m new h : target o = Some t -> mem_le (smem st) m -> shape st o (put_slot st m t new h)
| ShTake t hl : target o = Some t -> shape st o (set_slot st (smem st) t None hl)
| ShHeld i : shape st o {| smem := vdrop (smem st) (nth_error (held st) i); slots := slots st;
                           held := remove_nth i (held st); next_hid := next_hid st |}.

Lemma try_clone_shape st s d o : Inv st -> target o = Some d -> shape st o (fst (step st (OTryClone s d))).
Proof.
  intros HI Ht. cbn [step]. destruct (get_slot st s) as [x|] eqn:Hg; [|constructor].
  destruct (try_clone_outcome _ _ _ HI Hg) as [Hb|b Hb Hcl|b c m1 p ser Hb Hcl Hr EA]; cbn [fst]; try constructor; auto.
  - apply mem_le_refl.
  - apply (alloc_spec _ _ _ _ _ _ EA).
Qed.

Lemma step_shape st o : Inv st -> shape st o (fst (step st o)).
Proof.
  intros HI. destruct o; try (rewrite ?clone_state; apply try_clone_shape; auto; fail); cbn [step].
  - destruct (msg_set_content _ _ _ _ _ _) as [[m2 x'] ser] eqn:E.
    destruct (msg_set_content_spec _ _ _ _ _ _ _ _ _ E) as (m1 & p & b & EA & -> & _).
    apply ShPut; [reflexivity|]. apply (alloc_spec _ _ _ _ _ _ EA).
  - apply ShPut; [reflexivity|apply mem_le_refl].
  - destruct (get_slot st s) as [x|] eqn:Hg; [|constructor].
    destruct (msg_set_content _ _ _ _ _ _) as [[m2 x'] ser] eqn:E.
    destruct (msg_set_content_spec _ _ _ _ _ _ _ _ _ E) as (m1 & p & b & EA & -> & _).
    cbn [fst]. rewrite (set_slot_drop _ _ _ _ _ Hg). apply ShPut; [reflexivity|]. apply (alloc_spec _ _ _ _ _ _ EA).
  - destruct (get_slot st s); constructor.
  - destruct (get_slot st s) as [x|] eqn:Hg; [|constructor]. destruct (msg_can_cast x tag) eqn:Hcc.
    + destruct (try_cast_ok _ _ _ _ HI Hg Hcc) as (b & i & c & _ & _ & _ & _ & E). cbn [step] in E. rewrite Hg in E.
      rewrite E. apply ShTake. reflexivity.
    + destruct (try_cast_fail _ _ _ _ HI Hg Hcc) as (ob & _ & E). cbn [step] in E. rewrite Hg in E. rewrite E. constructor.
  - destruct (get_slot st s) as [x|]; [|constructor]. destruct (content x); [|constructor].
    destruct (body_try_content _ _ _) as [[?|]|]; constructor.
  - destruct (get_slot st s); [|constructor]. apply ShPut; [reflexivity|apply mem_le_refl].
  - destruct (get_slot st s); constructor.
  - destruct (held st) eqn:Hh; [constructor|]. rewrite <- Hh. apply ShHeld.
  - destruct (get_slot st s); constructor.
Qed.

Lemma step_other_slot st o s : Inv st ->
  (forall t, target o = Some t -> slot_ix t <> slot_ix s) -> get_slot (fst (step st o)) s = get_slot st s.
Proof.
  intros HI H. destruct (step_shape st o HI) as [|t m new h Ht _|t hl Ht|i]; try reflexivity;
    unfold get_slot, put_slot, set_slot; cbn [slots]; apply nth_upd_other, H, Ht.
Qed.

(* ---- the ghost heap only grows ---- *)
Lemma step_mem_le st o : Inv st -> mem_le (smem st) (smem (fst (step st o))).
Proof.
  intros HI. destruct (step_shape st o HI) as [|t m new h _ Hle|t hl _|i]; cbn [put_slot set_slot smem].
  - apply mem_le_refl.
  - eapply mem_le_trans; [exact Hle|apply mem_le_slot_drop].
  - apply mem_le_refl.
  - apply mem_le_vdrop.
Qed.

(* ---- a slot's view is determined by its message and the cell it points to ---- *)
Lemma view_of_slot st s x b p m1 c0 :
  Inv st -> get_slot st s = Some x -> content x = Some b -> data b = Some p ->
  mem_le m1 (smem st) -> nth_error (heap m1) p = Some c0 ->
  view st s = VMsg (hid x) (Some {| bv_tag := vt_tag (vt b); bv_val := cval c0; bv_ser := cser c0;
                                    bv_len := blen b; bv_clon := vt_clone (vt b) |}).
Proof.
  intros HI Hg Hb Hd Hle Hn. unfold view, msg_view, body_view. rewrite Hg, Hb.
  destruct (slot_cell_read _ _ _ _ HI Hg Hb) as (c & Hr). rewrite Hr.
  destruct (cell_read_some _ _ _ _ Hr) as (i & Hd' & Hn' & _). assert (i = p) by congruence. subst i.
  destruct (Hle _ _ Hn) as (c' & Hc' & _ & E2 & E3 & _). assert (c' = c) by congruence. subst c'.
  rewrite E2, E3. reflexivity.
Qed.

Lemma view_stable st st' s :
  Inv st -> Inv st' -> get_slot st' s = get_slot st s -> mem_le (smem st) (smem st') -> view st' s = view st s.
Proof.
  intros HI HI' Hg Hle. unfold view at 2. destruct (get_slot st s) as [x|] eqn:Hx.
  - unfold msg_view. destruct (content x) as [b|] eqn:Hb.
    + destruct (slot_cell_read _ _ _ _ HI Hx Hb) as (c & Hr). destruct (cell_read_some _ _ _ _ Hr) as (i & Hd & Hn & _).
      unfold body_view. rewrite Hr. eapply view_of_slot; eauto.
    + unfold view, msg_view. rewrite Hg, Hb. reflexivity.
  - unfold view. rewrite Hg. reflexivity.
Qed.

Lemma view_msg st s h bv :
  view st s = VMsg h bv ->
  exists x, get_slot st s = Some x /\ hid x = h /\
            match bv with
            | Some v => exists b c, content x = Some b /\ cell_read (smem st) (data b) (vt_tag (vt b)) = Some c /\
                          v = {| bv_tag := vt_tag (vt b); bv_val := cval c; bv_ser := cser c;
                                 bv_len := blen b; bv_clon := vt_clone (vt b) |}
            | None => content x = None
            end.
Proof.
  unfold view, msg_view, body_view. destruct (get_slot st s) as [x|]; [|discriminate]. exists x. split; [reflexivity|].
  destruct (content x) as [b|].
  - destruct (cell_read (smem st) (data b) (vt_tag (vt b))) as [c|] eqn:Ec; [|discriminate]. injection H as <- <-. split; [reflexivity|]. exists b, c. auto.
  - injection H as <- <-. auto.
Qed.

(* ---- creation ---- *)
Definition declared_len (mode tag v L : N) : N :=
  match eff_mode tag mode with
  | 2 => ti_size (info tag)
  | 3 => L
  | _ => ti_len (info tag) (ti_norm (info tag) v)
  end.

Definition created (st : state) (mode tag v L : N) : bview :=
  {| bv_tag := tag; bv_val := ti_norm (info tag) v;
     bv_ser := if ti_ser (info tag) then next_ser (smem st) else 0;
     bv_len := declared_len mode tag v L; bv_clon := negb (eff_mode tag mode =? 1) |}.

Lemma get_put_slot st m s new h :
  length (slots st) = N.to_nat NSLOTS -> get_slot (put_slot st m s new h) s = new.
Proof.
  intros Hlen. unfold get_slot, put_slot; cbn [slots]. apply nth_upd_same. rewrite Hlen. apply slot_ix_lt.
Qed.

Lemma get_set_slot st m s new h :
  length (slots st) = N.to_nat NSLOTS -> get_slot (set_slot st m s new h) s = new.
Proof.
  intros Hlen. unfold get_slot, set_slot; cbn [slots]. apply nth_upd_same. rewrite Hlen. apply slot_ix_lt.
Qed.

Lemma put_fresh_view st tag v m1 p ser s h b hid' :
  Inv st -> alloc (smem st) tag v = (m1, p, ser) -> data b = Some p -> vt_tag (vt b) = tag ->
  view (put_slot st m1 s (Some {| hid := h; content := Some b |}) hid') s =
  VMsg h (Some {| bv_tag := tag; bv_val := v; bv_ser := ser; bv_len := blen b; bv_clon := vt_clone (vt b) |}).
Proof.
  intros HI EA Hd Ht. pose proof (put_fresh_inv _ _ _ _ _ _ s h b hid' HI EA Hd Ht) as HI'.
  destruct (alloc_spec _ _ _ _ _ _ EA) as (-> & _ & _ & _ & Hn & _). pose proof HI as [_ _ Hlen].
  rewrite (view_of_slot _ s _ b _ m1 _ HI' (get_put_slot _ _ _ _ _ Hlen) eq_refl Hd (mem_le_slot_drop _ _) Hn).
  rewrite Ht. reflexivity.
Qed.

Lemma set_content_view st x s mode tag v L m2 x' ser hid' :
  Inv st -> msg_set_content (smem st) x mode tag v L = (m2, x', ser) ->
  exists m1, m2 = msg_drop m1 x /\
    view (put_slot st m1 s (Some x') hid') s = VMsg (hid x) (Some (created st mode tag v L)) /\
    RNew ser (msg_body_len x') = RNew (bv_ser (created st mode tag v L)) (declared_len mode tag v L).
Proof.
  intros HI E. destruct (msg_set_content_spec _ _ _ _ _ _ _ _ _ E) as (m1 & p & b & EA & -> & -> & Hd & Hv & Hbl).
  exists m1. split; [reflexivity|]. destruct (alloc_spec _ _ _ _ _ _ EA) as (_ & _ & _ & _ & _ & Hser).
  rewrite (put_fresh_view _ _ _ _ _ _ s _ b _ HI EA Hd) by (rewrite Hv; reflexivity).
  unfold msg_body_len, created, declared_len; cbn [content bv_ser]. rewrite Hv, Hbl, Hser. split; reflexivity.
Qed.

Lemma new_view st s mode tag v L :
  Inv st ->
  view (fst (step st (ONew s mode tag v L))) s = VMsg (next_hid st) (Some (created st mode tag v L)) /\
  snd (step st (ONew s mode tag v L)) = RNew (bv_ser (created st mode tag v L)) (declared_len mode tag v L).
Proof.
  intros HI. cbn [step]. destruct (msg_set_content _ _ _ _ _ _) as [[m2 x'] ser] eqn:E.
  destruct (set_content_view _ _ s _ _ _ _ _ _ _ (next_hid st + 1) HI E) as (m1 & -> & Hv & Hr). split; assumption.
Qed.

Lemma set_view st s mode tag v L h bv :
  Inv st -> view st s = VMsg h bv ->
  view (fst (step st (OSet s mode tag v L))) s = VMsg h (Some (created st mode tag v L)) /\
  snd (step st (OSet s mode tag v L)) = RNew (bv_ser (created st mode tag v L)) (declared_len mode tag v L).
Proof.
  intros HI Hv0. destruct (view_msg _ _ _ _ Hv0) as (x & Hg & <- & _). cbn [step]. rewrite Hg.
  destruct (msg_set_content _ _ _ _ _ _) as [[m2 x'] ser] eqn:E.
  destruct (set_content_view _ _ s _ _ _ _ _ _ _ (next_hid st) HI E) as (m1 & -> & Hv & Hr).
  cbn [fst snd]. rewrite (set_slot_drop _ _ _ _ _ Hg). split; assumption.
Qed.

(* ---- reads and casts, in terms of the view ---- *)
Lemma can_cast_of_view st s x tag h bv :
  get_slot st s = Some x -> view st s = VMsg h bv ->
  msg_can_cast x tag = match bv with Some v => bv_tag v =? tag | None => false end.
Proof.
  intros Hg Hv. destruct (view_msg _ _ _ _ Hv) as (x' & Hg' & _ & Hc). assert (x' = x) by congruence. subst x'.
  unfold msg_can_cast. destruct bv as [v|]; [destruct Hc as (b & c & -> & _ & ->)|rewrite Hc]; reflexivity.
Qed.

Lemma can_cast_view st s tag h bv :
  view st s = VMsg h bv ->
  step st (OCanCast s tag) = (st, RBool match bv with Some v => bv_tag v =? tag | None => false end).
Proof.
  intros Hv. destruct (view_msg _ _ _ _ Hv) as (x & Hg & _). cbn [step].
  rewrite Hg, (can_cast_of_view _ _ _ tag _ _ Hg Hv). reflexivity.
Qed.

Lemma try_content_view st s tag h bv :
  view st s = VMsg h bv ->
  step st (OTryContent s tag) =
  (st, match bv with
       | Some v => if bv_tag v =? tag then RSome (bv_val v) (bv_ser v) else RNoContent
       | None => RNoContent
       end).
Proof.
  intros Hv. destruct (view_msg _ _ _ _ Hv) as (x & Hg & _ & Hc). cbn [step]. rewrite Hg.
  destruct bv as [v|]; [|rewrite Hc; reflexivity]. destruct Hc as (b & c & -> & Hr & ->).
  unfold body_try_content, body_is. cbn [bv_tag bv_val bv_ser].
  destruct (N.eqb_spec (vt_tag (vt b)) tag) as [<-|]; [rewrite Hr|]; reflexivity.
Qed.

Lemma observe_of_view st s x h bv :
  get_slot st s = Some x -> view st s = VMsg h bv -> observe (smem st) x = Some (obs_of h bv).
Proof.
  intros Hg Hv. destruct (view_msg _ _ _ _ Hv) as (x' & Hg' & <- & Hc). assert (x' = x) by congruence. subst x'.
  unfold observe, obs_of, msg_length, msg_body_len.
  destruct bv as [v|]; [destruct Hc as (b & c & -> & -> & ->)|rewrite Hc]; reflexivity.
Qed.

(* a cast to any other type returns the message intact: the state is unchanged *)
Lemma try_cast_other_view st s tag h bv :
  Inv st -> view st s = VMsg h bv ->
  match bv with Some v => bv_tag v <> tag | None => True end ->
  step st (OTryCast s tag) = (st, RCastErr (obs_of h bv)).
Proof.
  intros HI Hv Hne. destruct (view_msg _ _ _ _ Hv) as (x & Hg & _ & _).
  assert (Hcc : msg_can_cast x tag = false).
  { rewrite (can_cast_of_view _ _ _ tag _ _ Hg Hv). destruct bv as [v|]; [apply N.eqb_neq; exact Hne|reflexivity]. }
  destruct (try_cast_fail _ _ _ _ HI Hg Hcc) as (ob & Ho & ->).
  rewrite (observe_of_view _ _ _ _ _ Hg Hv) in Ho. congruence.
Qed.

(* a cast to the stored type moves exactly the stored value out *)
Lemma try_cast_same_view st s h v :
  Inv st -> view st s = VMsg h (Some v) ->
  exists i c,
    step st (OTryCast s (bv_tag v)) = (set_slot st (smem st) s None (held st ++ [i]), RCast (bv_val v) (bv_ser v) h) /\
    nth_error (heap (smem st)) i = Some c /\ ctag c = bv_tag v /\ cval c = bv_val v /\ cser c = bv_ser v /\ cdrops c = 0.
Proof.
  intros HI Hv. destruct (view_msg _ _ _ _ Hv) as (x & Hg & <- & b & c & Hb & Hr & Ev).
  assert (Hcc : msg_can_cast x (bv_tag v) = true).
  { rewrite (can_cast_of_view _ _ _ (bv_tag v) _ _ Hg Hv). apply N.eqb_refl. }
  destruct (try_cast_ok _ _ _ _ HI Hg Hcc) as (b' & i & c' & Hb' & Hd & _ & Hr' & ->).
  assert (b' = b) by congruence. subst b' v. cbn [bv_tag bv_val bv_ser] in *.
  rewrite Hd in Hr. assert (c' = c) by congruence. subst c'.
  exists i, c. split; [reflexivity|].
  destruct (cell_read_some _ _ _ _ Hr) as (i' & Ei & Hn & Htg & Hz). injection Ei as <-. repeat split; auto.
Qed.

Lemma length_view st s h bv :
  view st s = VMsg h bv ->
  step st (OLength s) = (st, RLen (match bv with Some v => bv_len v | None => 0 end + HEADER_LEN)).
Proof.
  intros Hv. destruct (view_msg _ _ _ _ Hv) as (x & Hg & _ & Hc). cbn [step]. rewrite Hg.
  unfold msg_length, msg_body_len.
  destruct bv as [v|]; [destruct Hc as (b & c & -> & _ & ->)|rewrite Hc]; reflexivity.
Qed.

Lemma observe_view st s h bv : view st s = VMsg h bv -> step st (OObserve s) = (st, RObs (obs_of h bv)).
Proof.
  intros Hv. destruct (view_msg _ _ _ _ Hv) as (x & Hg & _ & _). cbn [step]. rewrite Hg.
  rewrite (observe_of_view _ _ _ _ _ Hg Hv). reflexivity.
Qed.

Lemma view_not_broken st s : Inv st -> view st s <> VBroken.
Proof.
  intros HI. unfold view, msg_view. destruct (get_slot st s) as [x|] eqn:Hg; [|discriminate].
  destruct (content x) as [b|] eqn:Hb; [|discriminate].
  destruct (slot_cell_read _ _ _ _ HI Hg Hb) as (c & Hr).
  unfold body_view. rewrite Hr. discriminate.
Qed.
