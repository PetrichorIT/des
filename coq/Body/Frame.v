(* Value preservation over operation sequences: nothing but an overwrite, a
   drop or a cast to the stored type changes what a slot shows; clones show
   the same value; destructor accounting at tear-down. *)
From Coq Require Import List NArith Bool Arith Lia.
From DesVerif Require Import Body.Derive Body.Model Body.Heap Body.Inv Body.Props.
Import ListNotations.
Open Scope N_scope.

(* [o] may change what slot [s] shows while it holds a body of type [tag0]:
   it rewrites the slot, or casts it to exactly [tag0] *)
Definition touches (tag0 : N) (s : N) (o : op) : Prop :=
  match o with
  | OTryCast t tag => slot_ix t = slot_ix s /\ tag = tag0
  | _ => exists t, target o = Some t /\ slot_ix t = slot_ix s
  end.

Lemma view_same_ix st t s : slot_ix t = slot_ix s -> view st t = view st s.
Proof. intros H. unfold view, get_slot. rewrite H. reflexivity. Qed.

Lemma view_step_other st o s :
  Inv st -> (forall t, target o = Some t -> slot_ix t <> slot_ix s) -> view (fst (step st o)) s = view st s.
Proof.
  intros HI H. apply view_stable; auto using step_inv, step_other_slot, step_mem_le.
Qed.

Lemma view_step_frame st o s h v :
  Inv st -> view st s = VMsg h (Some v) -> ~ touches (bv_tag v) s o -> view (fst (step st o)) s = view st s.
Proof.
  intros HI Hv Hnt.
  assert (G : (forall t, target o = Some t -> slot_ix t <> slot_ix s) -> view (fst (step st o)) s = view st s)
    by (apply view_step_other; exact HI).
  destruct o as [| | | |s0 tag| | | | | | |];
    try (apply G; cbn [target]; intros t E Heq; apply Hnt; cbn [touches target]; eauto; fail).
  (* what is left is OTryCast s0 tag: a cast to another type returns the message intact *)
  destruct (Nat.eq_dec (slot_ix s0) (slot_ix s)) as [Heq|Hne].
  - assert (Hne : bv_tag v <> tag) by (intros E; apply Hnt; cbn [touches]; auto).
    rewrite <- (view_same_ix st _ _ Heq) in Hv.
    rewrite (try_cast_other_view st s0 tag h (Some v) HI Hv Hne). reflexivity.
  - apply G. cbn [target]. intros t E. injection E as <-. exact Hne.
Qed.

Lemma run_from_app_fst a : forall st b, fst (run_from st (a ++ b)) = fst (run_from (fst (run_from st a)) b).
Proof.
  induction a as [|o r IH]; intros st b; [reflexivity|].
  rewrite <- app_comm_cons, !run_from_cons_fst. apply IH.
Qed.

Lemma final_app a b : final (a ++ b) = fst (run_from (final a) b).
Proof. apply run_from_app_fst. Qed.

Lemma view_run_frame s h v ops : forall st,
  Inv st -> view st s = VMsg h (Some v) -> Forall (fun o => ~ touches (bv_tag v) s o) ops ->
  view (fst (run_from st ops)) s = VMsg h (Some v).
Proof.
  induction ops as [|o r IH]; intros st HI Hv HF; [exact Hv|].
  rewrite run_from_cons_fst. inversion HF as [|? ? Ho Hr]; subst.
  apply IH; [apply step_inv; exact HI| |exact Hr].
  rewrite (view_step_frame st o s h v HI Hv Ho). exact Hv.
Qed.

Lemma view_after ops o ops' s h v :
  view (fst (step (final ops) o)) s = VMsg h (Some v) -> Forall (fun o => ~ touches (bv_tag v) s o) ops' ->
  view (final (ops ++ o :: ops')) s = VMsg h (Some v).
Proof.
  intros Hv HF. rewrite final_app, run_from_cons_fst.
  apply view_run_frame; [apply step_inv, inv_reachable|exact Hv|exact HF].
Qed.

(* What was put in is what the slot shows, after ANY sequence of operations
   that neither overwrite/drop the slot nor cast it to the stored type: failed
   casts and borrows with other types, reads, clones of it, anything on other
   slots or on cast-out values. *)
Theorem value_preserved ops s mode tag v L ops' :
  Forall (fun o => ~ touches tag s o) ops' ->
  view (final (ops ++ ONew s mode tag v L :: ops')) s =
  VMsg (next_hid (final ops)) (Some (created (final ops) mode tag v L)).
Proof. intros HF. apply view_after; [apply new_view, inv_reachable|exact HF]. Qed.

(* ---- clones ---- *)
Definition clone_of (st : state) (v : bview) : bview :=
  {| bv_tag := bv_tag v; bv_val := bv_val v;
     bv_ser := if ti_ser (info (bv_tag v)) then next_ser (smem st) else 0;
     bv_len := bv_len v; bv_clon := bv_clon v |}.

Lemma clone_view st s d h bv :
  Inv st -> view st s = VMsg h bv ->
  match bv with
  | Some v =>
      if bv_clon v then
        step st (OClone s d) = step st (OTryClone s d) /\
        snd (step st (OTryClone s d)) = RCloned (bv_ser (clone_of st v)) /\
        view (fst (step st (OTryClone s d))) d = VMsg h (Some (clone_of st v))
      else step st (OTryClone s d) = (st, RNotClonable) /\ step st (OClone s d) = (st, RPanic 1)
  | None =>
      step st (OClone s d) = step st (OTryClone s d) /\
      snd (step st (OTryClone s d)) = RCloned 0 /\
      view (fst (step st (OTryClone s d))) d = VMsg h None
  end.
Proof.
  intros HI Hv. pose proof HI as [_ _ Hlen].
  destruct (view_msg _ _ _ _ Hv) as (x & Hg & Hh & Hc).
  pose proof (try_clone_outcome _ _ _ HI Hg) as Ho. cbn [step]. rewrite Hg.
  remember (msg_try_clone (smem st) x) as r eqn:Er.
  destruct Ho as [Hb|b Hb Hcl|b c m1 p ser Hb Hcl Hr EA]; cbn [fst snd].
  - destruct bv as [v|]; [destruct Hc as (b & c & Hb' & _); congruence|].
    repeat split. unfold view. rewrite get_put_slot by exact Hlen. unfold msg_view; cbn [content hid]. congruence.
  - destruct bv as [v|]; [|congruence]. destruct Hc as (b' & c & Hb' & _ & ->). assert (b' = b) by congruence. subst b'.
    cbn [bv_clon]. rewrite Hcl. auto.
  - destruct bv as [v|]; [|congruence]. destruct Hc as (b' & c' & Hb' & Hr' & ->). assert (b' = b) by congruence. subst b'.
    assert (c' = c) by congruence. subst c'. cbn [bv_clon]. rewrite Hcl.
    destruct (cell_read_some _ _ _ _ Hr) as (i & _ & _ & Htag & _).
    destruct (alloc_spec _ _ _ _ _ _ EA) as (_ & _ & _ & _ & _ & Hser').
    rewrite (put_fresh_view _ _ _ _ _ _ d (hid x) {| data := Some p; blen := blen b; vt := vt b |} _ HI EA eq_refl (eq_sym Htag)).
    cbn [blen vt]. unfold clone_of; cbn [bv_tag bv_val bv_len bv_clon bv_ser]. rewrite Hser', Htag, Hh, ?Hcl. auto.
Qed.

(* the source of a clone is not affected by it (unless it is the target) *)
Lemma clone_source_unchanged st s d :
  Inv st -> slot_ix d <> slot_ix s ->
  view (fst (step st (OTryClone s d))) s = view st s /\ view (fst (step st (OClone s d))) s = view st s.
Proof.
  intros HI Hne. split; apply view_step_other; auto; cbn [target]; intros t E; injection E as <-; exact Hne.
Qed.

(* ---- destructor accounting ---- *)
Lemma fold_drop_cell j l : forall m,
  (forall i, In i l -> (i < hlen m)%nat) ->
  hlen (fold_left (fun m i => drop_cell i m) l m) = hlen m /\
  mem_le m (fold_left (fun m i => drop_cell i m) l m) /\
  drops (fold_left (fun m i => drop_cell i m) l m) j = drops m j + cnt j l.
Proof.
  induction l as [|p r IH]; intros m Hb; cbn [fold_left cnt].
  - repeat split; [apply mem_le_refl|lia].
  - destruct (IH (drop_cell p m)) as (H1 & H2 & H3).
    { intros i Hi. rewrite hlen_drop_cell. apply Hb. right. exact Hi. }
    rewrite H1, H3, hlen_drop_cell, drops_drop_cell by (apply Hb; left; reflexivity).
    repeat split; [|lia]. eapply mem_le_trans; [apply mem_le_drop_cell|exact H2].
Qed.

Lemma slot_drop_fold m o : slot_drop m o = fold_left (fun m i => drop_cell i m) (slot_refs o) m.
Proof. destruct (slot_drop_cases m o) as [(i & -> & ->)|(-> & ->)]; reflexivity. Qed.

Lemma finish_mem st : smem (finish st) = fold_left (fun m i => drop_cell i m) (refs st) (smem st).
Proof.
  unfold finish, refs; cbn [smem]. rewrite fold_left_app. f_equal.
  generalize (smem st). induction (slots st) as [|o r IH]; intros m; cbn [fold_left flat_map]; [reflexivity|].
  rewrite fold_left_app, <- slot_drop_fold. apply IH.
Qed.

Lemma refs_bound st i : Inv st -> In i (refs st) -> (i < hlen (smem st))%nat.
Proof. intros HI Hin. destruct (ref_live st i HI Hin) as (c & _ & _ & H). exact H. Qed.

(* At every point of every operation sequence each stored value (ghost cell j)
   is either referenced exactly once and not destroyed, or unreferenced and
   destroyed exactly once; no pointer is dangling.  After the tear-down every
   value has been destroyed exactly once, and none has vanished. *)
Theorem drop_exactly_once ops :
  let st := final ops in
  (forall j, (j < hlen (smem st))%nat ->
     (cnt j (refs st) = 1 /\ drops (smem st) j = 0) \/ (cnt j (refs st) = 0 /\ drops (smem st) j = 1)) /\
  (forall j, In j (refs st) -> (j < hlen (smem st))%nat) /\
  NoDup (refs st) /\
  hlen (smem (finish st)) = hlen (smem st) /\ mem_le (smem st) (smem (finish st)) /\
  (forall j, (j < hlen (smem (finish st)))%nat -> drops (smem (finish st)) j = 1).
Proof.
  intros st. pose proof (inv_reachable ops) as HI. fold st in HI. pose proof HI as [Hc _ _].
  assert (Hcases : forall j, (j < hlen (smem st))%nat ->
     (cnt j (refs st) = 1 /\ drops (smem st) j = 0) \/ (cnt j (refs st) = 0 /\ drops (smem st) j = 1)).
  { intros j Hj. specialize (Hc j). unfold one_if in Hc. destruct (Nat.ltb_spec j (hlen (smem st))); lia. }
  split; [exact Hcases|]. split; [intros j; apply refs_bound; exact HI|]. split.
  { apply cnt_le1_NoDup. intros j. specialize (Hc j). unfold one_if in Hc. destruct (j <? hlen (smem st))%nat; lia. }
  rewrite finish_mem.
  pose proof (fun j => fold_drop_cell j (refs st) (smem st) (fun i => refs_bound st i HI)) as F.
  destruct (F 0%nat) as (L & M & _). split; [exact L|]. split; [exact M|].
  intros j Hj. destruct (F j) as (_ & _ & ->). rewrite L in Hj. specialize (Hc j). unfold one_if in Hc.
  destruct (Nat.ltb_spec j (hlen (smem st))); lia.
Qed.

(* a value's ghost cell persists, with its tag, value and serial, through everything that follows *)
Lemma run_from_mem_le ops : forall st, Inv st -> mem_le (smem st) (smem (fst (run_from st ops))).
Proof.
  induction ops as [|o r IH]; intros st HI; [apply mem_le_refl|].
  rewrite run_from_cons_fst. eapply mem_le_trans; [apply step_mem_le; exact HI|]. apply IH, step_inv, HI.
Qed.

Theorem heap_persists ops ops' : mem_le (smem (final ops)) (smem (final (ops ++ ops'))).
Proof. rewrite final_app. apply run_from_mem_le, inv_reachable. Qed.
