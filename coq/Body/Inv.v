(* The ownership invariant of the message-body model: every boxed value is
   either referenced exactly once (by a body in a slot or by a cast-out value)
   and not yet destroyed, or unreferenced and destroyed exactly once; a body's
   vtable names the type its box really holds.  Every operation of the script
   language preserves it and never reaches undefined behaviour. *)
From Coq Require Import List NArith Bool Arith Lia.
From DesVerif Require Import Common.Lists Body.Derive Body.Model Body.Heap.
Import ListNotations.
Open Scope N_scope.

Definition body_refs (b : body) : list nat := match data b with Some i => [i] | None => [] end.
Definition msg_refs (x : msg) : list nat := match content x with Some b => body_refs b | None => [] end.
Definition slot_refs (o : option msg) : list nat := match o with Some x => msg_refs x | None => [] end.
Definition refs (st : state) : list nat := flat_map slot_refs (slots st) ++ held st.

Definition body_ok (m : mem) (b : body) : Prop :=
  exists i c, data b = Some i /\ nth_error (heap m) i = Some c /\ ctag c = vt_tag (vt b).
Definition slot_ok (m : mem) (o : option msg) : Prop :=
  match o with
  | Some x => match content x with Some b => body_ok m b | None => True end
  | None => True
  end.

Definition one_if (b : bool) : N := if b then 1 else 0.

Record Inv (st : state) : Prop := {
  inv_count : forall j, cnt j (refs st) + drops (smem st) j = one_if (j <? hlen (smem st))%nat;
  inv_ok : Forall (slot_ok (smem st)) (slots st);
  inv_nslots : length (slots st) = N.to_nat NSLOTS }.

(* ---- slots ---- *)
Lemma slot_ix_lt s : (slot_ix s < N.to_nat NSLOTS)%nat.
Proof. unfold slot_ix, NSLOTS. assert (s mod 4 < 4) by (apply N.mod_lt; lia). lia. Qed.

Lemma get_slot_nth_error st s :
  length (slots st) = N.to_nat NSLOTS -> nth_error (slots st) (slot_ix s) = Some (get_slot st s).
Proof.
  intros H. unfold get_slot. rewrite nth_nth_error.
  destruct (nth_error (slots st) (slot_ix s)) eqn:E; [reflexivity|].
  apply nth_error_None in E. pose proof (slot_ix_lt s). lia.
Qed.

Lemma slot_refs_in_refs st s i :
  length (slots st) = N.to_nat NSLOTS -> In i (slot_refs (get_slot st s)) -> In i (refs st).
Proof.
  intros H Hin. unfold refs. apply in_or_app. left. apply in_flat_map.
  exists (get_slot st s). split; [|exact Hin]. eapply nth_error_In. apply get_slot_nth_error; exact H.
Qed.

Lemma Forall_upd {A} (P : A -> Prop) i x l : Forall P l -> P x -> Forall P (upd i (fun _ => x) l).
Proof.
  intros H Hx. revert i; induction H as [|y r Hy Hr IH]; intros [|i]; cbn [upd]; constructor; auto.
Qed.

Lemma slot_ok_le m m' o : mem_le m m' -> slot_ok m o -> slot_ok m' o.
Proof.
  intros Hle. destruct o as [x|]; cbn [slot_ok]; [|auto]. destruct (content x) as [b|]; [|auto].
  intros (i & c & Hd & Hn & Ht). destruct (Hle _ _ Hn) as (c' & Hn' & E1 & _).
  exists i, c'. repeat split; congruence.
Qed.

Lemma Forall_slot_ok_le m m' l : mem_le m m' -> Forall (slot_ok m) l -> Forall (slot_ok m') l.
Proof. intros Hle H. eapply Forall_impl; [|exact H]. intros o. apply slot_ok_le; exact Hle. Qed.

(* ---- dropping the occupant of a slot ---- *)
Lemma slot_drop_cases m o :
  (exists i, slot_refs o = [i] /\ slot_drop m o = drop_cell i m) \/ (slot_refs o = [] /\ slot_drop m o = m).
Proof.
  destruct o as [x|]; cbn [slot_drop slot_refs]; [|right; auto].
  unfold msg_drop, msg_refs. destruct (content x) as [b|]; [|right; auto].
  unfold body_drop, body_refs. destruct (data b) as [i|]; cbn [vdrop]; [left; exists i; auto|right; auto].
Qed.

Lemma hlen_slot_drop m o : hlen (slot_drop m o) = hlen m.
Proof. destruct (slot_drop_cases m o) as [(i & _ & ->)|(_ & ->)]; [apply hlen_drop_cell|reflexivity]. Qed.

Lemma mem_le_slot_drop m o : mem_le m (slot_drop m o).
Proof. destruct (slot_drop_cases m o) as [(i & _ & ->)|(_ & ->)]; [apply mem_le_drop_cell|apply mem_le_refl]. Qed.

Lemma drops_slot_drop m o j :
  (forall i, In i (slot_refs o) -> (i < hlen m)%nat) ->
  drops (slot_drop m o) j = drops m j + cnt j (slot_refs o).
Proof.
  intros Hb. destruct (slot_drop_cases m o) as [(i & E & ->)|(E & ->)]; rewrite E in *; cbn [cnt].
  - rewrite drops_drop_cell; [lia|]. apply Hb. left; reflexivity.
  - lia.
Qed.

Lemma count_bound st m1 extra i :
  (forall j, cnt j (refs st) + extra j + drops m1 j = one_if (j <? hlen m1)%nat) ->
  In i (refs st) -> (i < hlen m1)%nat.
Proof.
  intros H Hin. apply In_cnt_pos in Hin. specialize (H i). unfold one_if in H.
  destruct (Nat.ltb_spec i (hlen m1)); [assumption|lia].
Qed.

(* ---- the two ways a step rewrites a slot ---- *)
Lemma put_slot_inv st m1 s new hid' :
  length (slots st) = N.to_nat NSLOTS ->
  (forall j, cnt j (refs st) + cnt j (slot_refs new) + drops m1 j = one_if (j <? hlen m1)%nat) ->
  Forall (slot_ok m1) (slots st) -> slot_ok m1 new ->
  Inv (put_slot st m1 s new hid').
Proof.
  intros Hlen Hcnt Hok Hnew. unfold put_slot. constructor; unfold refs; cbn [smem slots held].
  - intros j. rewrite hlen_slot_drop, drops_slot_drop.
    2:{ intros i Hi. eapply count_bound; [exact Hcnt|]. eapply slot_refs_in_refs; eauto. }
    rewrite cnt_app.
    pose proof (cnt_flat_upd slot_refs j (slot_ix s) new None (slots st)) as E.
    rewrite Hlen in E. specialize (E (slot_ix_lt s)). fold (get_slot st s) in E.
    specialize (Hcnt j). unfold refs in Hcnt. rewrite cnt_app in Hcnt. lia.
  - apply Forall_upd.
    + eapply Forall_slot_ok_le; [apply mem_le_slot_drop|exact Hok].
    + eapply slot_ok_le; [apply mem_le_slot_drop|exact Hnew].
  - rewrite upd_length. exact Hlen.
Qed.

Lemma set_slot_inv st m1 s new hl :
  length (slots st) = N.to_nat NSLOTS ->
  (forall j, cnt j (refs st) + cnt j (slot_refs new) + cnt j hl + drops m1 j =
             one_if (j <? hlen m1)%nat + cnt j (slot_refs (get_slot st s)) + cnt j (held st)) ->
  Forall (slot_ok m1) (slots st) -> slot_ok m1 new ->
  Inv (set_slot st m1 s new hl).
Proof.
  intros Hlen Hcnt Hok Hnew. unfold set_slot. constructor; unfold refs; cbn [smem slots held].
  - intros j. rewrite cnt_app.
    pose proof (cnt_flat_upd slot_refs j (slot_ix s) new None (slots st)) as E.
    rewrite Hlen in E. specialize (E (slot_ix_lt s)). fold (get_slot st s) in E.
    specialize (Hcnt j). unfold refs in Hcnt. rewrite cnt_app in Hcnt. lia.
  - apply Forall_upd; assumption.
  - rewrite upd_length. exact Hlen.
Qed.

Lemma set_slot_id st s x :
  length (slots st) = N.to_nat NSLOTS -> get_slot st s = Some x ->
  set_slot st (smem st) s (Some x) (held st) = st.
Proof.
  intros Hlen Hg. unfold set_slot. rewrite upd_same.
  - destruct st; reflexivity.
  - rewrite get_slot_nth_error by exact Hlen. congruence.
Qed.

Lemma ref_live st i : Inv st -> In i (refs st) ->
  exists c, nth_error (heap (smem st)) i = Some c /\ cdrops c = 0 /\ (i < hlen (smem st))%nat.
Proof.
  intros [Hc _ _] Hin. apply In_cnt_pos in Hin. specialize (Hc i). unfold one_if in Hc.
  destruct (Nat.ltb_spec i (hlen (smem st))) as [Hlt|]; [|lia].
  unfold drops in Hc. destruct (nth_error (heap (smem st)) i) as [c|] eqn:E.
  - exists c. repeat split; auto. lia.
  - apply nth_error_None in E. unfold hlen in Hlt. lia.
Qed.

Lemma slot_cell_read st s x b :
  Inv st -> get_slot st s = Some x -> content x = Some b ->
  exists c, cell_read (smem st) (data b) (vt_tag (vt b)) = Some c.
Proof.
  intros HI Hg Hb. pose proof HI as [_ Hok Hlen].
  assert (Hs : slot_ok (smem st) (Some x)).
  { rewrite Forall_forall in Hok. apply Hok. rewrite <- Hg. eapply nth_error_In. apply get_slot_nth_error; exact Hlen. }
  cbn [slot_ok] in Hs. rewrite Hb in Hs. destruct Hs as (i & c & Hd & Hn & Ht).
  destruct (ref_live st i HI) as (c' & Hn' & Hz & _).
  { eapply slot_refs_in_refs; [exact Hlen|]. rewrite Hg. cbn [slot_refs]. unfold msg_refs, body_refs. rewrite Hb, Hd. left; reflexivity. }
  assert (c' = c) by congruence. subst c'. exists c. unfold cell_read. rewrite Hd, Hn, Ht, Hz, !N.eqb_refl. reflexivity.
Qed.

Lemma ltb_S_if j n :
  one_if (j <? S n)%nat = one_if (j <? n)%nat + one_if (Nat.eqb n j).
Proof.
  unfold one_if. destruct (Nat.ltb_spec j (S n)), (Nat.ltb_spec j n), (Nat.eqb_spec n j); lia.
Qed.

Lemma cnt_one j p : cnt j [p] = one_if (Nat.eqb p j).
Proof. cbn [cnt]. unfold one_if. lia. Qed.

Lemma init_inv : Inv init.
Proof.
  constructor.
  - intros j. cbn. destruct j; reflexivity.
  - cbn. repeat constructor.
  - reflexivity.
Qed.

Lemma put_fresh_inv st tag v m1 p ser s h b hid' :
  Inv st -> alloc (smem st) tag v = (m1, p, ser) -> data b = Some p -> vt_tag (vt b) = tag ->
  Inv (put_slot st m1 s (Some {| hid := h; content := Some b |}) hid').
Proof.
  intros [Hc Hok Hlen] EA Hd Ht. destruct (alloc_spec _ _ _ _ _ _ EA) as (-> & Hl & Hdr & Hle & Hn & _).
  apply put_slot_inv; auto.
  - intros j. cbn [slot_refs]. unfold msg_refs, body_refs; cbn [content]. rewrite Hd, cnt_one, Hdr, Hl, ltb_S_if.
    specialize (Hc j). lia.
  - eapply Forall_slot_ok_le; eauto.
  - cbn [slot_ok content]. eexists _, _. split; [exact Hd|]. split; [exact Hn|]. symmetry. exact Ht.
Qed.

Lemma msg_set_content_spec m x mode tag v L m2 x' ser :
  msg_set_content m x mode tag v L = (m2, x', ser) ->
  exists m1 p b, alloc m tag (ti_norm (info tag) v) = (m1, p, ser) /\ m2 = msg_drop m1 x /\
    x' = {| hid := hid x; content := Some b |} /\ data b = Some p /\
    vt b = {| vt_tag := tag; vt_clone := negb (eff_mode tag mode =? 1) |} /\
    blen b = match eff_mode tag mode with 2 => ti_size (info tag) | 3 => L | _ => ti_len (info tag) (ti_norm (info tag) v) end.
Proof.
  unfold msg_set_content, body_new. destruct (alloc m tag (ti_norm (info tag) v)) as [[m1 p] ser'].
  intros H. injection H as <- <- <-. eexists _, _, _. repeat split.
Qed.

Lemma new_inv st s mode tag v L : Inv st -> Inv (fst (step st (ONew s mode tag v L))).
Proof.
  intros HI. cbn [step].
  destruct (msg_set_content (smem st) {| hid := next_hid st; content := None |} mode tag v L) as [[m2 x'] ser] eqn:E.
  destruct (msg_set_content_spec _ _ _ _ _ _ _ _ _ E) as (m1 & p & b & EA & -> & -> & Hd & Hv & _).
  cbn [fst msg_drop content]. apply (put_fresh_inv _ _ _ _ _ _ _ _ _ _ HI EA Hd). rewrite Hv. reflexivity.
Qed.

Lemma put_plain_inv st s new hid' :
  Inv st -> slot_refs new = [] -> slot_ok (smem st) new -> Inv (put_slot st (smem st) s new hid').
Proof.
  intros [Hc Hok Hlen] Hr Hn. apply put_slot_inv; auto. intros j. rewrite Hr. cbn [cnt]. specialize (Hc j). lia.
Qed.

Lemma new_empty_inv st s : Inv st -> Inv (fst (step st (ONewEmpty s))).
Proof. intros HI. apply put_plain_inv; [exact HI|reflexivity|exact I]. Qed.

Lemma set_slot_drop st m s x new :
  get_slot st s = Some x -> set_slot st (msg_drop m x) s new (held st) = put_slot st m s new (next_hid st).
Proof. intros Hg. unfold set_slot, put_slot. rewrite Hg. reflexivity. Qed.

Lemma set_inv st s mode tag v L : Inv st -> Inv (fst (step st (OSet s mode tag v L))).
Proof.
  intros HI. cbn [step]. destruct (get_slot st s) as [x|] eqn:Hg; [|exact HI].
  destruct (msg_set_content (smem st) x mode tag v L) as [[m2 x'] ser] eqn:E.
  destruct (msg_set_content_spec _ _ _ _ _ _ _ _ _ E) as (m1 & p & b & EA & -> & -> & Hd & Hv & _).
  cbn [fst]. rewrite (set_slot_drop _ _ _ _ _ Hg). apply (put_fresh_inv _ _ _ _ _ _ _ _ _ _ HI EA Hd). rewrite Hv. reflexivity.
Qed.

Lemma observe_some st s x : Inv st -> get_slot st s = Some x -> exists ob, observe (smem st) x = Some ob.
Proof.
  intros HI Hg. unfold observe. destruct (content x) as [b|] eqn:Hb; [|eauto].
  destruct (slot_cell_read _ _ _ _ HI Hg Hb) as (c & Hr). rewrite Hr. eauto.
Qed.

Lemma msg_try_cast_fail m x tag : msg_can_cast x tag = false -> msg_try_cast m x tag = (m, inr x).
Proof.
  destruct x as [h [b|]]; unfold msg_can_cast, msg_try_cast, body_try_cast; cbn [content hid]; [intros ->|]; reflexivity.
Qed.

Lemma try_cast_fail st s x tag :
  Inv st -> get_slot st s = Some x -> msg_can_cast x tag = false ->
  exists ob, observe (smem st) x = Some ob /\ step st (OTryCast s tag) = (st, RCastErr ob).
Proof.
  intros HI Hg Hcc. pose proof HI as [_ _ Hlen]. destruct (observe_some _ _ _ HI Hg) as (ob & Ho).
  exists ob. split; [exact Ho|]. cbn [step].
  rewrite Hg, (msg_try_cast_fail _ _ _ Hcc), set_slot_id, Ho by assumption. reflexivity.
Qed.

Lemma try_cast_ok st s x tag :
  Inv st -> get_slot st s = Some x -> msg_can_cast x tag = true ->
  exists b i c, content x = Some b /\ data b = Some i /\ vt_tag (vt b) = tag /\
    cell_read (smem st) (Some i) tag = Some c /\
    step st (OTryCast s tag) = (set_slot st (smem st) s None (held st ++ [i]), RCast (cval c) (cser c) (hid x)).
Proof.
  intros HI Hg Hcc. cbn [step]. rewrite Hg. unfold msg_try_cast, msg_can_cast in *.
  destruct (content x) as [b|] eqn:Hb; [|discriminate].
  destruct (slot_cell_read _ _ _ _ HI Hg Hb) as (c & Hr). destruct (cell_read_some _ _ _ _ Hr) as (i & Hd & _).
  unfold body_try_cast. rewrite Hcc. unfold body_is in Hcc. apply N.eqb_eq in Hcc.
  cbn [body_drop set_data data vdrop]. rewrite Hd in *. rewrite Hcc in Hr. rewrite Hr.
  exists b, i, c. repeat split; auto.
Qed.

Lemma try_cast_inv st s tag : Inv st -> Inv (fst (step st (OTryCast s tag))).
Proof.
  intros HI. pose proof HI as [Hc Hok Hlen].
  destruct (get_slot st s) as [x|] eqn:Hg; [|cbn [step]; rewrite Hg; exact HI].
  destruct (msg_can_cast x tag) eqn:Hcc.
  - destruct (try_cast_ok _ _ _ _ HI Hg Hcc) as (b & i & c & Hb & Hd & _ & _ & ->). cbn [fst].
    apply set_slot_inv; auto; [|exact I].
    intros j. rewrite Hg. cbn [slot_refs]. unfold msg_refs, body_refs. rewrite Hb, Hd, cnt_app. cbn [cnt].
    specialize (Hc j). lia.
  - destruct (try_cast_fail _ _ _ _ HI Hg Hcc) as (ob & _ & ->). exact HI.
Qed.

Inductive clone_outcome (st : state) (x : msg) : cres msg -> Prop :=
| CloneEmpty : content x = None -> clone_outcome st x (COk (smem st) {| hid := hid x; content := None |} 0)
| CloneNot b : content x = Some b -> vt_clone (vt b) = false -> clone_outcome st x CNot
| CloneOk b c m1 p ser :
    content x = Some b -> vt_clone (vt b) = true ->
    cell_read (smem st) (data b) (vt_tag (vt b)) = Some c ->
    alloc (smem st) (ctag c) (cval c) = (m1, p, ser) ->
    clone_outcome st x (COk m1 {| hid := hid x; content := Some {| data := Some p; blen := blen b; vt := vt b |} |} ser).

Lemma try_clone_outcome st s x :
  Inv st -> get_slot st s = Some x -> clone_outcome st x (msg_try_clone (smem st) x).
Proof.
  intros HI Hg. unfold msg_try_clone. destruct (content x) as [b|] eqn:Hb; [|constructor; assumption].
  unfold body_try_clone. destruct (vt_clone (vt b)) eqn:Hcl; [|econstructor; eauto].
  destruct (slot_cell_read _ _ _ _ HI Hg Hb) as (c & Hr). rewrite Hr.
  destruct (alloc (smem st) (ctag c) (cval c)) as [[m1 p] ser] eqn:EA.
  eapply CloneOk; eauto.
Qed.

Lemma clone_put_inv st d x r :
  Inv st -> clone_outcome st x r ->
  match r with COk m1 x' ser => Inv (put_slot st m1 d (Some x') (next_hid st)) | _ => True end.
Proof.
  intros HI Ho. destruct Ho as [Hb|b Hb Hcl|b c m1 p ser Hb Hcl Hr EA]; auto.
  - apply put_plain_inv; [exact HI|reflexivity|exact I].
  - destruct (cell_read_some _ _ _ _ Hr) as (i & _ & _ & Ht & _).
    eapply put_fresh_inv; [exact HI|exact EA|reflexivity|symmetry; exact Ht].
Qed.

Lemma clone_state st s d : fst (step st (OClone s d)) = fst (step st (OTryClone s d)).
Proof. cbn [step]. destruct (get_slot st s) as [x|]; [|reflexivity]. destruct (msg_try_clone (smem st) x); reflexivity. Qed.

Lemma try_clone_inv st s d : Inv st -> Inv (fst (step st (OTryClone s d))).
Proof.
  intros HI. cbn [step]. destruct (get_slot st s) as [x|] eqn:Hg; [|exact HI].
  pose proof (clone_put_inv st d x _ HI (try_clone_outcome _ _ _ HI Hg)) as H.
  destruct (msg_try_clone (smem st) x); cbn [fst]; auto.
Qed.

Lemma drop_inv st s : Inv st -> Inv (fst (step st (ODrop s))).
Proof.
  intros HI. cbn [step]. destruct (get_slot st s); [|exact HI]. apply put_plain_inv; [exact HI|reflexivity|exact I].
Qed.

Lemma held_index_lt (k : N) (l : list nat) : l <> [] -> (N.to_nat (k mod N.of_nat (length l)) < length l)%nat.
Proof.
  intros H. assert (N.of_nat (length l) <> 0) by (destruct l; [congruence|cbn [length]; lia]).
  pose proof (N.mod_lt k (N.of_nat (length l)) H0). lia.
Qed.

Lemma drop_held_inv st k : Inv st -> Inv (fst (step st (ODropHeld k))).
Proof.
  intros HI. pose proof HI as [Hc Hok Hlen]. cbn [step].
  destruct (held st) as [|h0 hr] eqn:Hh; [exact HI|]. rewrite <- Hh.
  set (i := N.to_nat (k mod N.of_nat (length (held st)))).
  assert (Hi : (i < length (held st))%nat) by (apply held_index_lt; rewrite Hh; discriminate).
  destruct (nth_error (held st) i) as [p|] eqn:Hn; [|apply nth_error_None in Hn; lia].
  destruct (ref_live st p HI) as (c & _ & _ & Hlt); [unfold refs; apply in_or_app; right; eapply nth_error_In; exact Hn|].
  cbn [fst vdrop]. constructor; cbn [smem slots].
  - intros j. unfold refs; cbn [slots held]. rewrite cnt_app, hlen_drop_cell, drops_drop_cell by exact Hlt.
    specialize (Hc j). unfold refs in Hc. rewrite cnt_app, (cnt_remove_nth j _ _ _ Hn) in Hc.
    unfold one_if in *. lia.
  - eapply Forall_slot_ok_le; [apply mem_le_drop_cell|exact Hok].
  - exact Hlen.
Qed.

Lemma step_inv st o : Inv st -> Inv (fst (step st o)).
Proof.
  intros HI. destruct o.
  - apply new_inv; exact HI.
  - apply new_empty_inv; exact HI.
  - apply set_inv; exact HI.
  - cbn [step]. destruct (get_slot st s); exact HI.
  - apply try_cast_inv; exact HI.
  - cbn [step]. destruct (get_slot st s) as [x|]; [|exact HI]. destruct (content x) as [b|]; [|exact HI].
    destruct (body_try_content (smem st) b tag) as [[c|]|]; exact HI.
  - apply try_clone_inv; exact HI.
  - rewrite clone_state. apply try_clone_inv; exact HI.
  - apply drop_inv; exact HI.
  - cbn [step]. destruct (get_slot st s); exact HI.
  - apply drop_held_inv; exact HI.
  - cbn [step]. destruct (get_slot st s); exact HI.
Qed.

Lemma run_from_cons_fst st o r : fst (run_from st (o :: r)) = fst (run_from (fst (step st o)) r).
Proof. cbn [run_from]. destruct (step st o) as [st1 x]. cbn [fst]. destruct (run_from st1 r). reflexivity. Qed.

Lemma run_from_inv ops : forall st, Inv st -> Inv (fst (run_from st ops)).
Proof.
  induction ops as [|o r IH]; intros st HI; [exact HI|]. rewrite run_from_cons_fst. apply IH, step_inv, HI.
Qed.

Theorem inv_reachable ops : Inv (final ops).
Proof. apply run_from_inv, init_inv. Qed.

Lemma try_cast_no_ub st s tag : Inv st -> snd (step st (OTryCast s tag)) <> RUB.
Proof.
  intros HI. destruct (get_slot st s) as [x|] eqn:Hg; [|cbn [step]; rewrite Hg; discriminate].
  destruct (msg_can_cast x tag) eqn:Hcc.
  - destruct (try_cast_ok _ _ _ _ HI Hg Hcc) as (b & i & c & _ & _ & _ & _ & ->). discriminate.
  - destruct (try_cast_fail _ _ _ _ HI Hg Hcc) as (ob & _ & ->). discriminate.
Qed.

Lemma step_no_ub st o : Inv st -> snd (step st o) <> RUB.
Proof.
  (* an empty source slot answers RNone; what is left are the operations that read a body *)
  intros HI. destruct o as [s ? ? ? ?|s|s ? ? ? ?|s ?|s ?|s tag|s ?|s ?|s|s|?|s];
    try (apply try_cast_no_ub; exact HI); cbn [step];
    try (destruct (get_slot st s) as [x|] eqn:Hg; [|discriminate]); try discriminate.
  - destruct (content x) as [b|] eqn:Hb; [|discriminate].
    unfold body_try_content. destruct (body_is b tag) eqn:Hi; [|discriminate].
    destruct (slot_cell_read _ _ _ _ HI Hg Hb) as (c & Hr).
    unfold body_is in Hi. apply N.eqb_eq in Hi. rewrite <- Hi, Hr. discriminate.
  - destruct (try_clone_outcome _ _ _ HI Hg); discriminate.
  - destruct (try_clone_outcome _ _ _ HI Hg); discriminate.
  - destruct (held st); discriminate.
  - destruct (observe_some _ _ _ HI Hg) as (ob & ->). discriminate.
Qed.

Lemma run_from_no_ub ops : forall st, Inv st -> ~ In RUB (map fst (snd (run_from st ops))).
Proof.
  induction ops as [|o r IH]; intros st HI; cbn [run_from]; [intros []|].
  pose proof (step_inv st o HI) as HI1. pose proof (step_no_ub st o HI) as Hn.
  destruct (step st o) as [st1 x]. cbn [fst snd] in *. specialize (IH st1 HI1).
  destruct (run_from st1 r) as [st2 xs]. cbn [snd map fst In] in *. intros [H|H]; [congruence|auto].
Qed.

Theorem no_undefined_behaviour ops : ~ In RUB (map fst (run_ops ops)).
Proof. apply run_from_no_ub, init_inv. Qed.
