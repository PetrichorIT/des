(* Casts answer by the stored type tag, and Message::length is the header plus
   the length declared at creation, for every operation sequence; the declared
   lengths of the two derived harness bodies as field sums. *)
From Coq Require Import List NArith Bool Arith Lia.
From DesVerif Require Import Body.Derive Body.Model Body.Heap Body.Inv Body.Props Body.Frame Body.DeriveProps.
Import ListNotations.
Open Scope N_scope.

Definition same_tag (bv : option bview) (tag : N) : bool :=
  match bv with Some v => bv_tag v =? tag | None => false end.

(* can_cast / try_content / try_cast answer "yes" iff the requested type is the
   stored one; a successful cast moves exactly the stored value out and consumes
   the message; any other cast returns the message intact (the state is equal). *)
Theorem cast_iff_same_tag ops s tag :
  let st := final ops in
  match view st s with
  | VEmpty => step st (OCanCast s tag) = (st, RNone) /\ step st (OTryContent s tag) = (st, RNone) /\
              step st (OTryCast s tag) = (st, RNone)
  | VBroken => False
  | VMsg h bv =>
      step st (OCanCast s tag) = (st, RBool (same_tag bv tag)) /\
      step st (OTryContent s tag) =
        (st, match bv with
             | Some v => if bv_tag v =? tag then RSome (bv_val v) (bv_ser v) else RNoContent
             | None => RNoContent
             end) /\
      (if same_tag bv tag then
         exists v i c, bv = Some v /\
           step st (OTryCast s tag) = (set_slot st (smem st) s None (held st ++ [i]), RCast (bv_val v) (bv_ser v) h) /\
           view (fst (step st (OTryCast s tag))) s = VEmpty /\
           nth_error (heap (smem st)) i = Some c /\ ctag c = tag /\ cval c = bv_val v /\ cser c = bv_ser v /\ cdrops c = 0
       else step st (OTryCast s tag) = (st, RCastErr (obs_of h bv)))
  end.
Proof.
  intros st. pose proof (inv_reachable ops) as HI. fold st in HI. pose proof HI as [_ _ Hlen].
  destruct (view st s) as [|h bv|] eqn:Hv.
  - unfold view in Hv. cbn [step]. destruct (get_slot st s) as [x|]; [|auto].
    unfold msg_view in Hv. destruct (content x) as [b|]; [destruct (body_view (smem st) b)|]; discriminate.
  - split; [eapply can_cast_view; exact Hv|]. split; [eapply try_content_view; exact Hv|].
    destruct (same_tag bv tag) eqn:Hs.
    + destruct bv as [v|]; [|discriminate]. cbn [same_tag] in Hs. apply N.eqb_eq in Hs. subst tag.
      destruct (try_cast_same_view st s h v HI Hv) as (i & c & E & Hn & Ht & Hval & Hser & Hd).
      exists v, i, c. rewrite E. cbn [fst]. repeat split; auto.
      unfold view. rewrite get_set_slot by exact Hlen. reflexivity.
    + apply try_cast_other_view; auto. destruct bv as [v|]; [|exact I]. cbn [same_tag] in Hs. apply N.eqb_neq. exact Hs.
  - exact (view_not_broken st s HI Hv).
Qed.

(* Message::length = 64 + the length declared at creation, after any sequence of
   operations that leaves the value in place (failed casts and clones included) *)
Theorem length_is_header_plus_declared ops s mode tag v L ops' :
  Forall (fun o => ~ touches tag s o) ops' ->
  let st := final (ops ++ ONew s mode tag v L :: ops') in
  step st (OLength s) = (st, RLen (declared_len mode tag v L + HEADER_LEN)) /\
  snd (step (final ops) (ONew s mode tag v L)) = RNew (bv_ser (created (final ops) mode tag v L)) (declared_len mode tag v L).
Proof.
  intros HF st. split.
  - pose proof (value_preserved ops s mode tag v L ops' HF) as Hv. fold st in Hv.
    rewrite (length_view st s _ _ Hv). reflexivity.
  - apply new_view, inv_reachable.
Qed.

(* declared lengths of the derived bodies of the harness are the field sums *)
Lemma ds_len_sum v : ds_len v = tok_len v + 8 + v mod 7.
Proof. unfold ds_len, byte_len. cbn. lia. Qed.

Lemma de_len_sum v : de_len v = if v mod 2 =? 0 then tok_len v else tok_len v + 2.
Proof. unfold de_len, byte_len. destruct (v mod 2 =? 0); cbn; lia. Qed.
