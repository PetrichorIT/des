(* C20 -- a scripted network simulation over the reference-count heap.

   script := stop arg order hold nmod mod* nlink link* ninj inj*
   mod    := parent npe nsend lp(selfd) lp(tasks) trig trign trigd ngates endsend
             parent: 0 = top level, j+1 = child of module j (j earlier)
             nsend: messages sent on gate 0 at every (re)start; selfd: delays of self messages
             tasks: d = 0 blocked on a receive for ever, d > 0 sleeps d ns and ends
             trig%4: 0 none 1 shutdown 2 shutdown+restart in trigd 3 panic -- when handling its trign-th message
             (trig/4)%6: 0 scripted Module, 1..5 a builder block of blocks.rs (see World.c_kind) for which trig%4 means
               AsyncFn: 1 the task returns 2 the task asks for shutdown+restart 3 the task fails (failable/io)
               ModuleFn::failable: 1 Continue 2 Restart 3 Panic; HandlerFn::failable: 3 Panic
             log kinds: 1 start 2 message 3 task finished 4 end 5 reset 6 task failed
             endsend: at_sim_end schedules one more self message (stays in the static event buffer)
   link   := ma ga mb gb chan       gate ga of module ma .connect( gate gb of module mb, channel? )
   inj    := kind m time            kind odd: add_message_onto(gate 0 of m), even: handle_message_on(m)
   stop%6 : 0 built, frozen, dropped  1 runtime built (+ injections), dropped  2 max_itr(arg)  3 max_time(arg)
            4 run to completion  5 start + dispatch_n_events(arg), dropped without finish
   order  : odd = the returned profiler (remaining events) is dropped before the Sim; bit 1 (order/2 odd): the runner
            drops everything BY UNWINDING (a panic while the Sim / runtime / result is alive).  The model does not
            read that bit: the same handles are released either way (Main.drop_path_irrelevant)
   hold   : odd = the caller keeps its GateRefs / ModuleRefs until everything else is dropped; bit 1 (hold/2 odd): the
            reference counts printed at the stopping point include the classes that need the hook
            fixes/hook_own_counts.diff (module context, processor, runtime, timer queue and slots, module tree)

   Output: the record
     ok res nrem time  created(proc elem task msg)  once(proc elem task msg)  notonce alive  nlog log*  ncnt cnt*
   cnt* = (strong, weak) reference counts at the stopping point, before anything is dropped (none when run()
   returned an error: everything is gone then): Globals; [hooked: module tree; per module: context, processor,
   runtime (twice: Arc<Runtime>, Rc<LocalSet>; one number each), timer queue, n, n pending slots]; every gate of
   every module; every channel in creation order
   twice (the second simulation in the same process must behave like the first), then one number:
   1 iff any object at all is still allocated after the drop
   No proofs in this file. *)
From Coq Require Import List NArith Arith Bool.
From DesVerif Require Import Common.Codec CQueue.Model CQueue.Spec Own.Heap Own.Shape Own.Safe Own.Ops Own.Check Own.World.
Import ListNotations.
Open Scope N_scope.

(* ---- building ---- *)
Definition tree_pos (order : list nat) (depths : list nat) (parent : nat) (pd : nat) : nat :=
  (* index after the last occurrence of [parent] and after everything deeper than it that follows *)
  let fix skip (l : list nat) (k : nat) : nat :=
    match l with
    | x :: r => if Nat.ltb pd (nth x depths 0%nat) then skip r (S k) else k
    | [] => k
    end in
  let fix go (l : list nat) (k : nat) (best : option nat) : option nat :=
    match l with
    | x :: r => go r (S k) (if Nat.eqb x parent then Some (skip r (S k)) else best)
    | [] => best
    end in
  match go order 0%nat None with Some p => p | None => length order end.

Definition insert_at {A} (l : list A) (p : nat) (x : A) : list A := firstn p l ++ x :: skipn p l.

Definition elem_ids (i : nat) (n : N) : list N := map (fun k => N.of_nat i * 8 + N.of_nat k) (seq 0 (N.to_nat n)).

Definition add_module (hold : bool) (w : world) (c : mcfg) : world :=
  let i := length (w_mods w) in
  let par := if c_parent c =? 0 then None
             else match nth_error (w_mods w) (N.to_nat (c_parent c) - 1) with
                  | Some p => Some (N.to_nat (c_parent c) - 1, p)%nat | None => None end in
  let depth := match par with Some (_, p) => S (m_depth p) | None => 1%nat end in
  let '(s1, ctx, proc, q) := new_module (w_st w) (w_tree w)
                               (match par with Some (_, p) => Some (m_ctx p, m_proc p) | None => None end)
                               depth (N.of_nat i) (elem_ids i (if c_kind c =? 0 then c_npe c else 0)) in
  (* the ModuleRef returned by `node` is kept by the caller, or dropped at once *)
  let s2 := if hold then s1 else p_release (p_release s1 ctx) proc in
  let r := {| m_cfg := c; m_ctx := ctx; m_proc := proc; m_queue := q; m_depth := depth; m_rt := None; m_gates := [];
              m_active := true; m_handled := 0; m_nw := None; m_slots := []; m_tasks := []; m_new := []; m_woken := [];
              m_shut := None |} in
  let depths := map m_depth (w_mods w) ++ [depth] in
  let order := match par with
               | Some (pi, p) => insert_at (w_order w) (tree_pos (w_order w) depths pi (m_depth p)) i
               | None => w_order w ++ [i]
               end in
  let w1 := wset_mods (wset_st w s2) (w_mods w ++ [r]) in
  wset_misc w1 order (w_chans w1) (w_gown w1) (w_eaux w1) (if hold then w_held w1 ++ [ctx; proc] else w_held w1).

Definition add_gates (hold : bool) (w : world) (i : nat) : world :=
  repeat_n (N.to_nat (c_ngates (m_cfg (getm w i))))
    (fun wa => let m := getm wa i in
               let '(s1, g) := new_gate (w_st wa) (m_ctx m) (m_proc m) in
               let s2 := if hold then s1 else p_release s1 g in
               let wb := updm (wset_st wa s2) i (fun r => mset_gates r (m_gates r ++ [g])) in
               wset_misc wb (w_order wb) (w_chans wb) ((g, i) :: w_gown wb) (w_eaux wb)
                         (if hold then w_held wb ++ [g] else w_held wb)) w.

Definition gate_ref (w : world) (m g : N) : option nat :=
  match nth_error (w_mods w) (N.to_nat m) with
  | Some r => nth_error (m_gates r) (N.to_nat g)
  | None => None
  end.

Definition add_link (w : world) (l : N * N * N * N * N) : world :=
  let '(ma, ga, mb, gb, ch) := l in
  match gate_ref w ma ga, gate_ref w mb gb with
  | Some a, Some b =>
      let '(s1, chs) := connect (w_st w) a b (negb (ch =? 0)) in
      let w1 := wset_st w s1 in
      match chs with
      | Some (c1, c2) => wset_chans w1 (w_chans w1 ++ [{| ch_id := c1; ch_busy := false; ch_q := [] |};
                                                      {| ch_id := c2; ch_busy := false; ch_q := [] |}])
      | None => w1
      end
  | _, _ => w
  end.

Definition add_inj (w : world) (j : N * N * N) : world :=
  let '(kind, m, t) := j in
  match nth_error (w_mods w) (N.to_nat m) with
  | Some r =>
      if N.odd kind then
        match m_gates r with
        | g :: _ =>
            if 2 <=? conn_count (whp w) g then w
            else let '(w1, msg) := fresh_msg w in
                 let '(s1, e) := ev_exit (w_st w1) g None msg in
                 fes_add (wset_eaux (wset_st w1 s1) ((e, 1) :: w_eaux w1)) e t
        | [] => w
        end
      else
        let '(w1, msg) := fresh_msg w in
        let '(s1, e) := ev_handle (w_st w1) (m_ctx r) (m_proc r) msg in
        fes_add (wset_st w1 s1) e t
  | None => w
  end.

(* ---- decoding ---- *)
Definition hd0 (l : list N) : N := match l with x :: _ => x | [] => 0 end.
Definition tl0 (l : list N) : list N := match l with _ :: r => r | [] => [] end.

Definition dec_mod (l : list N) : mcfg * list N :=
  let parent := hd0 l in let l := tl0 l in
  let npe := hd0 l in let l := tl0 l in
  let nsend := hd0 l in let l := tl0 l in
  let '(selfd, l) := take_lp l in
  let '(tasks, l) := take_lp l in
  let trig := hd0 l in let l := tl0 l in
  let trign := hd0 l in let l := tl0 l in
  let trigd := hd0 l in let l := tl0 l in
  let ngates := hd0 l in let l := tl0 l in
  let endsend := hd0 l in let l := tl0 l in
  ({| c_parent := parent; c_npe := N.min npe 2; c_nsend := N.min nsend 8; c_selfd := firstn 4 selfd; c_tasks := firstn 4 tasks;
      c_trig := trig; c_trign := trign; c_trigd := trigd; c_ngates := N.min ngates 3; c_endsend := N.odd endsend |}, l).

Fixpoint dec_n {A} (n : nat) (d : list N -> A * list N) (l : list N) : list A * list N :=
  match n with
  | O => ([], l)
  | S k => match l with
           | [] => ([], [])
           | _ => let '(a, r) := d l in let '(x, r') := dec_n k d r in (a :: x, r')
           end
  end.

Definition dec5 (l : list N) : (N * N * N * N * N) * list N :=
  ((hd0 l, hd0 (tl0 l), hd0 (tl0 (tl0 l)), hd0 (tl0 (tl0 (tl0 l))), hd0 (tl0 (tl0 (tl0 (tl0 l))))), tl0 (tl0 (tl0 (tl0 (tl0 l))))).
Definition dec3 (l : list N) : (N * N * N) * list N :=
  ((hd0 l, hd0 (tl0 l), hd0 (tl0 (tl0 l))), tl0 (tl0 (tl0 l))).

(* ---- running ---- *)
Definition world0 (pin : bool) : world :=
  let '(s, tree, glob) := new_sim (rs0 pin) in
  {| w_pin := pin; w_st := s; w_fes := sp_new; w_buf := []; w_clock := 0; w_itr := 0; w_mods := []; w_order := [];
     w_chans := []; w_gown := []; w_eaux := []; w_tree := tree; w_glob := glob; w_held := []; w_nmsg := 0; w_ntask := 0;
     w_log := []; w_err := false |}.

(* SimLifecycle::at_sim_start (runtime/mod.rs): every module, in tree order *)
Definition sim_start (w : world) : world :=
  fold_left (fun wa i => let w1 := activate wa i in
                         let w2 := at_sim_start w1 i in
                         buf_process (deactivate w2 i) i) (w_order w) w.

Definition peek_time (q : sp) : option N :=
  match s_zero q with x :: _ => Some (etime x) | [] => match s_rest q with x :: _ => Some (etime x) | [] => None end end.
Definition fetch (q : sp) : option (sp * nat * N) :=
  match sp_fetch q with
  | (q', OFetched p t) => Some (q', N.to_nat p, t)
  | _ => None
  end.

(* Runtime::dispatch_all under limit (max_itr, max_time) *)
Fixpoint dispatch_all (fuel : nat) (w : world) (max_itr max_time : option N) : world :=
  match fuel with
  | O => w
  | S f =>
      match peek_time (w_fes w) with
      | None => w
      | Some t =>
          if match max_itr with Some k => k <? w_itr w + 1 | None => false end
             || match max_time with Some mt => mt <? t | None => false end then w
          else match fetch (w_fes w) with
               | Some (q, e, t) => dispatch_all f (dispatch (wset_q w q (w_buf w) t (w_itr w + 1)) e) max_itr max_time
               | None => w
               end
      end
  end.

(* SimLifecycle::at_sim_end: every module, in tree order; no buf_process afterwards *)
Definition sim_end (w : world) : world :=
  fold_left (fun wa i =>
    let w1 := ensure_rt (activate wa i) i in
    let scripted := c_kind (m_cfg (getm w1 i)) =? 0 in
    let w2 := if scripted then wlog w1 i 4 0 else w1 in
    let w3 := if scripted && c_endsend (m_cfg (getm w2 i)) then do_schedule w2 i 1 else w2 in
    deactivate (poll_tasks w3 i) i) (w_order w) w.

Fixpoint drain (fuel : nat) (q : sp) : list nat :=
  match fuel with
  | O => []
  | S f => match fetch q with Some (q', e, _) => e :: drain f q' | None => [] end
  end.

Definition fes_events (w : world) : list nat := drain (S (N.to_nat (sp_len (w_fes w)))) (w_fes w).

Definition count_tag (p : tag -> bool) (h : heap) : N := N.of_nat (length (filter (fun ob => p (otag ob)) h)).
Definition count_once (p : tag -> bool) (s : st) : N :=
  N.of_nat (length (filter (fun o => match nth_error (hp s) o with
                                     | Some ob => p (otag ob) && Nat.eqb (count_occ Nat.eq_dec (freed s) o) 1
                                     | None => false end) (seq 0 (length (hp s))))).
Definition is_proc t := match t with TProc _ => true | _ => false end.
Definition is_elem t := match t with TElem _ => true | _ => false end.
Definition is_task t := match t with TTask _ => true | _ => false end.
Definition is_msg t := match t with TMsg _ => true | _ => false end.

Definition EVENT_FUEL : nat := 4000.

(* the simulation at its stopping point, and the handles that are then dropped, in drop order:
   the Sim (module tree, globals, the guard's event buffer), the events (with the runtime, or as
   the profiler's `remaining`), the caller's own references *)
Definition stop_world (pin : bool) (input : list N) : world * list nat * (N * N * N * bool) :=
  let stop := hd0 input mod 6 in let l := tl0 input in
  let arg := hd0 l in let l := tl0 l in
  let order := N.odd (hd0 l) in let l := tl0 l in
  let hooked := N.odd (hd0 l / 2) in
  let hold := N.odd (hd0 l) in let l := tl0 l in
  let nmod := N.min (hd0 l) 6 in let l := tl0 l in
  let '(cfgs, l) := dec_n (N.to_nat nmod) dec_mod l in
  let nlink := N.min (hd0 l) 12 in let l := tl0 l in
  let '(links, l) := dec_n (N.to_nat nlink) dec5 l in
  let ninj := N.min (hd0 l) 6 in let l := tl0 l in
  let '(injs, _) := dec_n (N.to_nat ninj) dec3 l in
  (* build *)
  let w := fold_left (add_module hold) cfgs (world0 pin) in
  let w := fold_left (fun wa i => add_gates hold wa i) (seq 0 (length (w_mods w))) w in
  let w := fold_left add_link links w in
  let w := if stop =? 0 then w else fold_left add_inj injs w in
  (* run *)
  let ran := (2 <=? stop) && (stop <=? 4) in
  let w := if (2 <=? stop) then sim_start w else w in
  let w := if stop =? 2 then dispatch_all EVENT_FUEL w (Some arg) None
           else if stop =? 3 then dispatch_all EVENT_FUEL w None (Some arg)
           else if stop =? 4 then dispatch_all EVENT_FUEL w None None
           else if stop =? 5 then dispatch_all EVENT_FUEL w (Some (w_itr w + arg)) None
           else w in
  let w := if ran then sim_end w else w in
  let res : N := if ran then (if w_err w then 2 else 1) else 0 in
  let pending := fes_events w in
  let nrem : N := if res =? 2 then 0 else N.of_nat (length pending) in
  let time : N := if (res =? 2) || (stop =? 0) then 0 else w_clock w in
  let sim_roots := [w_tree w; w_glob w] ++ map fst (w_buf w) in
  let want := (if (res =? 1) && order then pending ++ sim_roots else sim_roots ++ pending) ++ w_held w in
  (w, want, (res, nrem, time, hooked)).

Definition list_eqb (a b : list nat) : bool := if list_eq_dec Nat.eq_dec a b then true else false.

(* ---- reference counts at the stopping point ---- *)
(* Weak handles to [x]: weak fields of live objects, plus [ext] held from outside the heap *)
Definition weak_in (h : heap) (x : nat) : N :=
  N.of_nat (length (filter (Nat.eqb x) (flat_map (fun ob => if live ob then map snd (weak ob) else []) h))).
Definition strong_of (h : heap) (x : nat) : N := match nth_error h x with Some ob => N.of_nat (rc ob) | None => 0 end.
Definition sw (h : heap) (x : nat) (ext : N) : list N :=
  if is_live h x then [strong_of h x; weak_in h x + ext] else [0; 0].

Definition counts (w : world) (hooked : bool) : list N :=
  let h := whp w in
  sw h (w_glob w) 1                                     (* BufferContext.globals: Weak<Globals> (runtime/ctx.rs:20) *)
  ++ (if hooked then
        sw h (w_tree w) 0
        ++ flat_map (fun m =>
             sw h (m_ctx m) 0 ++ sw h (m_proc m) 0
             ++ match m_rt m with Some r => [strong_of h r; strong_of h r] | None => [0; 0] end
             ++ sw h (m_queue m) 0 ++ [N.of_nat (length (m_slots m))]
             ++ flat_map (fun p => sw h (snd (fst p)) 0) (m_slots m)) (w_mods w)
      else [])
  ++ flat_map (fun m => flat_map (fun g => sw h g 0) (m_gates m)) (w_mods w)
  ++ flat_map (fun c => sw h (ch_id c) 0) (w_chans w).

(* the heap at the stopping point and the handles held then -- every handle the primitives have
   handed out and not taken back -- in the order in which the real program drops them;
   the last components: do the handles handed out by the primitives coincide with what the
   simulation's own containers (Sim, event buffer, event set, caller) say is held -- i.e. no
   primitive ever refused a move; the reference counts *)
Definition stop_state (pin : bool) (input : list N) : st * list nat * (N * N * N * list N * bool * list N) :=
  let '(w, want, (res, nrem, time, hooked)) := stop_world pin input in
  (r_st (w_st w), reorder (r_roots (w_st w)) want,
   (res, nrem, time, w_log w, list_eqb (reorder (r_roots (w_st w)) want) want, if res =? 2 then [] else counts w hooked)).

Definition alive_users (h : heap) : N := N.of_nat (length (filter (fun ob => user_tag (otag ob) && live ob) h)).

(* what the model prints about the drop: created and dropped-exactly-once per class, instances
   dropped otherwise, user values still alive, anything at all still allocated *)
Definition verdict (s' : st) : list N * list N * N * N * N :=
  let h' := hp s' in
  let created := [count_tag is_proc h'; count_tag is_elem h'; count_tag is_task h'; count_tag is_msg h'] in
  let once := [count_once is_proc s'; count_once is_elem s'; count_once is_task s'; count_once is_msg s'] in
  let notonce := count_tag user_tag h' - (nth 0 once 0 + nth 1 once 0 + nth 2 once 0 + nth 3 once 0) in
  (created, once, notonce, alive_users h', b2n (existsb live h')).

Definition run_gen (pin : bool) (input : list N) : list N :=
  let '(s, roots, (res, nrem, time, lg, agree, cnts)) := stop_state pin input in
  let ok := goodb pin s roots && agree in
  let '(created, once, notonce, alive, grew) := verdict (release_all s roots) in
  let rec := [b2n ok; res; nrem; time] ++ created ++ once ++ [notonce; alive; N.of_nat (length lg / 4)] ++ lg
             ++ [N.of_nat (length cnts)] ++ cnts in
  (* the last number: is anything at all still allocated (the implementation: did the live heap
     grow between two further executions of the same simulation) *)
  rec ++ rec ++ [grew].

Definition run (input : list N) : list N := run_gen false input.
