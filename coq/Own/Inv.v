(* C20 -- the counting invariant of the release machine.

   [inv s todo]: every strong count equals the number of strong edges into the
   object plus the number of handles to it that are still waiting to be
   dropped; a freed object has count zero and no edges, a live one has a
   positive count; the destructor log lists exactly the freed objects, once
   each; no handle was ever released after the free.  It is preserved by every
   step, whatever the heap looks like otherwise (cycles included). *)
From Coq Require Import List NArith Arith Bool Lia.
From DesVerif Require Import Common.Lists Own.Heap Own.Frame.
Import ListNotations.

Definition rc_of (h : heap) (o : nat) : nat :=
  match nth_error h o with Some ob => rc ob | None => 0 end.

Definition dead_in (h : heap) (o : nat) : Prop :=
  exists ob, nth_error h o = Some ob /\ live ob = false.

Record inv (s : st) (todo : list nat) : Prop := {
  i_cnt : forall o, o < length (hp s) -> rc_of (hp s) o = cnt o (targets (hp s)) + cnt o todo;
  i_rng : forall o, In o (targets (hp s)) \/ In o todo -> o < length (hp s);
  i_dead : forall o ob, nth_error (hp s) o = Some ob -> live ob = false -> rc ob = 0 /\ strong ob = [];
  i_live : forall o ob, nth_error (hp s) o = Some ob -> live ob = true -> 1 <= rc ob;
  i_nodup : NoDup (freed s);
  i_freed : forall o, In o (freed s) <-> dead_in (hp s) o;
  i_bad : bad s = [] }.

(* ---- the free step, analysed once ---- *)
Definition pre_free (s : st) (ob : obj) : heap * list nat :=
  if is_ctx (otag ob) then dissolve_all (hp s) (map et (strong ob)) else (hp s, []).

Lemma pre_free_shr s ob : shr (hp s) (fst (pre_free s ob)).
Proof. unfold pre_free. destruct (is_ctx (otag ob)); [apply shr_dissolve_all|apply shr_refl]. Qed.

Lemma pre_free_cnt s ob o :
  cnt o (targets (hp s)) = cnt o (targets (fst (pre_free s ob))) + cnt o (snd (pre_free s ob)).
Proof. unfold pre_free. destruct (is_ctx (otag ob)); [apply cnt_dissolve_all|cbn [fst snd]; rewrite cnt_nil; lia]. Qed.

Lemma pre_free_len s ob :
  length (targets (hp s)) = length (targets (fst (pre_free s ob))) + length (snd (pre_free s ob)).
Proof. unfold pre_free. destruct (is_ctx (otag ob)); [apply len_dissolve_all|cbn [fst snd length]; lia]. Qed.

(* the three ways a step can go *)
Inductive step_kind (s : st) (o : nat) : st * list nat -> Prop :=
| SBad : (forall ob, nth_error (hp s) o = Some ob -> live ob = false \/ rc ob = 0) ->
         step_kind s o ({| hp := hp s; freed := freed s; bad := bad s ++ [o] |}, [])
| SFree ob ob1 : nth_error (hp s) o = Some ob -> live ob = true -> rc ob = 1 ->
         nth_error (fst (pre_free s ob)) o = Some ob1 -> shrunk ob ob1 ->
         step_kind s o ({| hp := upd (fst (pre_free s ob)) o (dead_of ob1); freed := freed s ++ [o]; bad := bad s |},
                        snd (pre_free s ob) ++ tg ob1)
| SDec ob : nth_error (hp s) o = Some ob -> live ob = true -> 2 <= rc ob ->
         step_kind s o ({| hp := upd (hp s) o (set_rc ob (rc ob - 1)); freed := freed s; bad := bad s |}, []).

Lemma step_cases s o : step_kind s o (step s o).
Proof.
  unfold step. destruct (nth_error (hp s) o) as [ob|] eqn:E.
  - destruct (negb (live ob) || (rc ob =? 0)) eqn:B.
    + apply SBad. intros ob' H. assert (ob' = ob) by congruence. subst ob'.
      apply orb_true_iff in B. destruct B as [B|B]; [left; destruct (live ob); [discriminate|reflexivity]|right; apply Nat.eqb_eq; assumption].
    + apply orb_false_iff in B. destruct B as [B1 B2]. apply negb_false_iff in B1. apply Nat.eqb_neq in B2.
      destruct (rc ob =? 1) eqn:B3.
      * apply Nat.eqb_eq in B3. fold (pre_free s ob).
        destruct (pre_free_shr s ob) as [_ Hs]. destruct (Hs _ _ E) as (ob1 & E1 & Sh). rewrite E1.
        eapply SFree; eassumption.
      * apply Nat.eqb_neq in B3. apply SDec; [assumption|assumption|lia].
  - apply SBad. intros ob H. congruence.
Qed.

Lemma in_le_cnt (a b : list nat) : (forall x, cnt x a <= cnt x b) -> forall x, In x a -> In x b.
Proof. intros H x Hx. apply cnt_pos_in. apply cnt_pos_in in Hx. specialize (H x). lia. Qed.

Lemma tg_dead ob : tg (dead_of ob) = [].
Proof. reflexivity. Qed.
Lemma tg_set_rc ob n : tg (set_rc ob n) = tg ob.
Proof. reflexivity. Qed.

Lemma rc_of_shr h h' x : shr h h' -> rc_of h' x = rc_of h x.
Proof.
  intros S. pose proof (shr_nth rc h h' x (fun a b Sab => proj1 (proj2 Sab)) S) as E. unfold rc_of.
  destruct (nth_error h' x), (nth_error h x); cbn in E; congruence.
Qed.

Lemma plain_nil ob : strong ob = [] -> plain_edges ob = [].
Proof. unfold plain_edges. intros ->. reflexivity. Qed.

Lemma inv_cnt_ext s R R' : inv s R -> (forall o, cnt o R = cnt o R') -> inv s R'.
Proof.
  intros [A B C D E F G] H. constructor; try assumption.
  - intros o Ho. rewrite <- H. apply A. assumption.
  - intros o [Ho|Ho]; apply B; [left; assumption|right]. apply cnt_pos_in. rewrite H. apply cnt_pos_in. assumption.
Qed.

Lemma rc_of_at h i a o : nth_error h i = Some a -> (if Nat.eqb o i then rc a else rc_of h o) = rc_of h o.
Proof. intros E. destruct (Nat.eqb o i) eqn:Eo; [|reflexivity]. apply Nat.eqb_eq in Eo. subst o. unfold rc_of. rewrite E. reflexivity. Qed.

(* ---- the three ways in which a state is changed: one object is rewritten in place ... ----
   The hypothesis on the counts is what every primitive has to show: for each [o], its count
   (the new one at [i]) plus its occurrences among the edges of [a] and the pending handles [R]
   is its old count plus its occurrences among the edges of [b] and in [R'] -- handles only
   move between the object's fields and the pending list, or appear together with a count. *)
Lemma inv_upd s R R' i a b :
  inv s R -> nth_error (hp s) i = Some a -> live b = live a ->
  (if live a then 1 <= rc b else rc b = 0 /\ strong b = []) ->
  (forall o, (if Nat.eqb o i then rc b else rc_of (hp s) o) + cnt o (tg a) + cnt o R
             = rc_of (hp s) o + cnt o (tg b) + cnt o R') ->
  (forall o, In o (tg b) -> o < length (hp s)) -> (forall o, In o R' -> o < length (hp s)) ->
  inv {| hp := upd (hp s) i b; freed := freed s; bad := bad s |} R'.
Proof.
  intros [Icnt Irng Idead Ilive Ind Ifr Ibad] E Lb Ok Bal Tb Rr.
  assert (Hi : i < length (hp s)) by (eapply nth_some_lt; eassumption).
  constructor; cbn [hp freed bad]; try assumption.
  - intros o Ho. rewrite upd_length in Ho. pose proof (cnt_targets_upd o _ _ _ b E) as H1. specialize (Bal o).
    specialize (Icnt o Ho). unfold rc_of at 1. rewrite nth_upd_case by assumption.
    destruct (Nat.eqb o i) eqn:Eo; [|fold (rc_of (hp s) o)]; lia.
  - intros o Ho. rewrite upd_length. destruct Ho as [Ho|Ho]; [|auto].
    destruct (in_dec Nat.eq_dec o (tg b)) as [Hb|Hb]; [auto|]. apply Irng. left.
    apply cnt_pos_in. apply cnt_pos_in in Ho. pose proof (cnt_targets_upd o _ _ _ b E) as H1.
    assert (cnt o (tg b) = 0) by (destruct (cnt o (tg b)) eqn:Z; [reflexivity|exfalso; apply Hb; apply cnt_pos_in; lia]). lia.
  - intros o ob Eo Lo. rewrite nth_upd_case in Eo by assumption. destruct (Nat.eqb o i); [injection Eo as <-|eauto].
    rewrite Lb in Lo. rewrite Lo in Ok. exact Ok.
  - intros o ob Eo Lo. rewrite nth_upd_case in Eo by assumption. destruct (Nat.eqb o i); [injection Eo as <-|eauto].
    rewrite Lb in Lo. rewrite Lo in Ok. exact Ok.
  - intros o. rewrite Ifr. unfold dead_in. rewrite nth_upd_case by assumption. destruct (Nat.eqb o i) eqn:Eo; [|reflexivity].
    apply Nat.eqb_eq in Eo. subst o. rewrite E.
    split; intros (x & Ex & Lx); injection Ex as <-; eexists; (split; [reflexivity|congruence]).
Qed.

(* ... Drop::drop of a module context takes connection edges out ([shr]) and hands them back ... *)
Lemma inv_shr s R h1 rel : inv s R -> shr (hp s) h1 ->
  (forall x, cnt x (targets (hp s)) = cnt x (targets h1) + cnt x rel) ->
  inv {| hp := h1; freed := freed s; bad := bad s |} (rel ++ R).
Proof.
  intros [Icnt Irng Idead Ilive Ind Ifr Ibad] Shr C. pose proof (proj1 Shr) as L1.
  constructor; cbn [hp freed bad]; try assumption.
  - intros x Hx. rewrite (rc_of_shr _ _ x Shr), Icnt, C, cnt_app by lia. lia.
  - intros x Hx. rewrite L1. apply Irng. rewrite in_app_iff in Hx.
    destruct Hx as [Hx|[Hx|Hx]]; [left|left|right; assumption]; revert x Hx; apply in_le_cnt; intros x; specialize (C x); lia.
  - intros x b Eb Lb. destruct (shr_back _ _ _ _ Shr Eb) as (a & Ea & (_ & Rr & Ll & _ & St)).
    destruct (Idead _ _ Ea) as [Ra Sa]; [congruence|]. split; [congruence|].
    destruct St as [St|St]; rewrite St; [assumption|apply plain_nil; assumption].
  - intros x b Eb Lb. destruct (shr_back _ _ _ _ Shr Eb) as (a & Ea & (_ & Rr & Ll & _)).
    rewrite Rr. apply (Ilive _ _ Ea). congruence.
  - intros x. rewrite Ifr. unfold dead_in. split.
    + intros (a & Ea & La). destruct (proj2 Shr _ _ Ea) as (b & Eb & (_ & _ & Ll & _)). exists b. split; [assumption|congruence].
    + intros (b & Eb & Lb). destruct (shr_back _ _ _ _ Shr Eb) as (a & Ea & (_ & _ & Ll & _)). exists a. split; [assumption|congruence].
Qed.

(* ... and an object whose last handle goes is freed: its fields join the pending handles. *)
Lemma inv_kill s R o ob : inv s (o :: R) -> nth_error (hp s) o = Some ob -> live ob = true -> rc ob = 1 ->
  inv {| hp := upd (hp s) o (dead_of ob); freed := freed s ++ [o]; bad := bad s |} (tg ob ++ R).
Proof.
  intros [Icnt Irng Idead Ilive Ind Ifr Ibad] E L R1.
  assert (Ho : o < length (hp s)) by (eapply nth_some_lt; eassumption).
  assert (C : forall x, cnt x (targets (upd (hp s) o (dead_of ob))) + cnt x (tg ob) = cnt x (targets (hp s))).
  { intros x. pose proof (cnt_targets_upd x _ _ _ (dead_of ob) E) as H. rewrite tg_dead, cnt_nil in H. lia. }
  constructor; cbn [hp freed bad]; try assumption.
  - intros x Hx. rewrite upd_length in Hx. specialize (C x). specialize (Icnt x Hx). rewrite cnt_cons in Icnt. rewrite cnt_app.
    unfold rc_of at 1. rewrite nth_upd_case by assumption. destruct (Nat.eqb x o) eqn:Ex.
    + apply Nat.eqb_eq in Ex. subst x. unfold rc_of in Icnt. rewrite E in Icnt. cbn [dead_of rc]. lia.
    + fold (rc_of (hp s) x). lia.
  - intros x Hx. rewrite upd_length. apply Irng. rewrite in_app_iff in Hx.
    destruct Hx as [Hx|[Hx|Hx]]; [left|left|right; right; assumption]; revert x Hx; apply in_le_cnt; intros x; specialize (C x); lia.
  - intros x b Eb Lb. rewrite nth_upd_case in Eb by assumption. destruct (Nat.eqb x o); [injection Eb as <-; split; reflexivity|eauto].
  - intros x b Eb Lb. rewrite nth_upd_case in Eb by assumption. destruct (Nat.eqb x o); [injection Eb as <-; discriminate|eauto].
  - apply NoDup_app_snoc; [assumption|]. intros Hx. apply Ifr in Hx. destruct Hx as (a & Ea & La). congruence.
  - intros x. rewrite in_app_iff, Ifr. unfold dead_in. rewrite nth_upd_case by assumption. destruct (Nat.eqb x o) eqn:Ex.
    + apply Nat.eqb_eq in Ex. subst x. split; [intros _; exists (dead_of ob); auto|intros _; right; left; reflexivity].
    + apply Nat.eqb_neq in Ex. split; [intros [H|[H|[]]]; [assumption|congruence]|auto].
Qed.

Theorem inv_step s o r : inv s (o :: r) -> inv (fst (step s o)) (snd (step s o) ++ r).
Proof.
  intros I. assert (Ho : o < length (hp s)) by (apply (i_rng _ _ I); right; left; reflexivity).
  destruct (nth_lt_some _ _ Ho) as (ob & E).
  assert (Hrc : rc ob = cnt o (targets (hp s)) + S (cnt o r)).
  { pose proof (i_cnt _ _ I o Ho) as H. unfold rc_of in H. rewrite E, cnt_cons_eq in H. lia. }
  destruct (step_cases s o) as [Hb|ob' ob1 E' L' R1 E1 Sh|ob' E' L' R2]; cbn [fst snd].
  - exfalso. destruct (Hb _ E) as [H|H]; [|lia]. destruct (i_dead _ _ I _ _ E H). lia.
  - destruct Sh as (_ & Rr & Ll & _).
    apply (inv_cnt_ext _ (tg ob1 ++ snd (pre_free s ob') ++ r)); [|intros x; rewrite !cnt_app; lia].
    apply (inv_kill {| hp := fst (pre_free s ob'); freed := freed s; bad := bad s |} (snd (pre_free s ob') ++ r) o ob1);
      [|assumption|congruence|congruence].
    apply (inv_cnt_ext _ (snd (pre_free s ob') ++ o :: r)); [|intros x; rewrite !cnt_app, !cnt_cons, cnt_app; lia].
    apply inv_shr; [assumption|apply pre_free_shr|intros x; apply pre_free_cnt].
  - assert (ob' = ob) by congruence. subst ob'. rewrite app_nil_l.
    apply (inv_upd _ (o :: r) _ o ob); try assumption; try reflexivity.
    + rewrite L'. cbn [set_rc rc]. lia.
    + intros x. rewrite cnt_cons, tg_set_rc. cbn [set_rc rc]. destruct (Nat.eqb x o) eqn:Ex; [|lia].
      apply Nat.eqb_eq in Ex. subst x. unfold rc_of. rewrite E. lia.
    + intros x Hx. apply (i_rng _ _ I). left. eapply tg_in_targets; eassumption.
    + intros x Hx. apply (i_rng _ _ I). right. right. assumption.
Qed.

Lemma run_release_ind (P : st -> list nat -> Prop) :
  (forall s o r, P s (o :: r) -> P (fst (step s o)) (snd (step s o) ++ r)) ->
  forall fuel s todo, P s todo -> P (fst (run_release fuel s todo)) (snd (run_release fuel s todo)).
Proof. intros H. induction fuel as [|f IH]; intros s [|o r] Hs; cbn [run_release fst snd]; auto. Qed.

(* ---- the machine stops: the measure decreases with every step ---- *)
Lemma live_total_upd h i ob ob' : nth_error h i = Some ob ->
  live_total (upd h i ob') + (if live ob then 1 else 0) = live_total h + (if live ob' then 1 else 0).
Proof.
  revert i; induction h as [|y h IH]; intros [|i] H; cbn [nth_error upd live_total fold_right] in H |- *; try discriminate.
  - injection H as ->. lia.
  - specialize (IH _ H). unfold live_total in IH. lia.
Qed.

Lemma live_total_shr h h' : shr h h' -> live_total h' = live_total h.
Proof.
  intros S. assert (M : forall l, live_total l = fold_right (fun (b : bool) n => (if b then 1 else 0) + n) 0 (map live l)).
  { unfold live_total. induction l as [|a l IH]; cbn [map fold_right]; congruence. }
  rewrite !M, (shr_map live (fun a b Sab => proj1 (proj2 (proj2 Sab))) h h' S). reflexivity.
Qed.

Lemma step_measure s o r :
  measure (hp (fst (step s o))) (snd (step s o) ++ r) < measure (hp s) (o :: r).
Proof.
  unfold measure. destruct (step_cases s o) as [Hb|ob ob1 E L R1 E1 Sh|ob E L R2]; cbn [fst snd hp app length].
  - lia.
  - pose proof (pre_free_len s ob) as H1. pose proof (pre_free_shr s ob) as Shr.
    pose proof (live_total_shr _ _ Shr) as H2.
    pose proof (len_targets_upd _ _ _ (dead_of ob1) E1) as H3. rewrite tg_dead in H3. cbn [length] in H3.
    pose proof (live_total_upd _ _ _ (dead_of ob1) E1) as H4. cbn [dead_of live] in H4.
    destruct Sh as (_ & _ & Ll & _). rewrite Ll, L in H4. rewrite !app_length. lia.
  - pose proof (len_targets_upd _ _ _ (set_rc ob (rc ob - 1)) E) as H3. rewrite tg_set_rc in H3.
    pose proof (live_total_upd _ _ _ (set_rc ob (rc ob - 1)) E) as H4. cbn [set_rc live] in H4. lia.
Qed.

Lemma run_release_done fuel : forall s todo, measure (hp s) todo < fuel -> snd (run_release fuel s todo) = [].
Proof.
  induction fuel as [|f IH]; intros s todo H; [lia|].
  destruct todo as [|o r]; cbn [run_release snd]; [reflexivity|].
  apply IH. pose proof (step_measure s o r). lia.
Qed.

Lemma release_all_ind (P : st -> list nat -> Prop) :
  (forall s o r, P s (o :: r) -> P (fst (step s o)) (snd (step s o) ++ r)) ->
  forall s roots, P s roots -> P (release_all s roots) [].
Proof.
  intros H s roots Hs. unfold release_all. rewrite <- (run_release_done (S (measure (hp s) roots)) s roots) by lia.
  apply run_release_ind; assumption.
Qed.

Theorem release_all_inv s roots : inv s roots -> inv (release_all s roots) [].
Proof. apply (release_all_ind inv). exact inv_step. Qed.

(* ---- at most once, for every heap and every release sequence ----
   Whatever the counts and edges are (consistent or not), a log that starts
   out listing only freed objects, each once, stays that way. *)
Definition log_ok (s : st) : Prop :=
  NoDup (freed s) /\ forall o, In o (freed s) -> is_live (hp s) o = false.

Lemma is_live_shr h h' x : shr h h' -> is_live h' x = is_live h x.
Proof.
  intros S. pose proof (shr_nth live h h' x (fun a b Sab => proj1 (proj2 (proj2 Sab))) S) as E. unfold is_live.
  destruct (nth_error h' x), (nth_error h x); cbn in E; congruence.
Qed.

Lemma log_ok_step s o : log_ok s -> log_ok (fst (step s o)).
Proof.
  intros [Nd Hd]. destruct (step_cases s o) as [Hb|ob ob1 E L R1 E1 Sh|ob E L R2]; cbn [fst]; split; cbn [hp freed]; try assumption.
  - apply NoDup_app_snoc; [assumption|].
    intros Hx. apply Hd in Hx. unfold is_live in Hx. rewrite E in Hx. congruence.
  - pose proof (pre_free_shr s ob) as Shr. assert (Ho1 : o < length (fst (pre_free s ob))) by (eapply nth_some_lt; eassumption).
    intros x Hx. unfold is_live. destruct (Nat.eq_dec o x) as [<-|Hn].
    + rewrite nth_upd_eq by assumption. reflexivity.
    + rewrite nth_upd_neq by assumption. fold (is_live (fst (pre_free s ob)) x). rewrite (is_live_shr _ _ x Shr).
      apply in_app_or in Hx. destruct Hx as [Hx|[Hx|[]]]; [auto|congruence].
  - intros x Hx. unfold is_live. destruct (Nat.eq_dec o x) as [<-|Hn].
    + apply Hd in Hx. unfold is_live in Hx. rewrite E in Hx. congruence.
    + rewrite nth_upd_neq by assumption. apply Hd. assumption.
Qed.

Theorem freed_at_most_once_any fuel : forall s todo, log_ok s -> log_ok (fst (run_release fuel s todo)).
Proof. intros s todo. apply (run_release_ind (fun s _ => log_ok s)). intros s' o _. apply log_ok_step. Qed.

(* ---- releasing some handles while others are kept ---- *)
Lemma inv_step_frame extra s o r :
  inv s ((o :: r) ++ extra) -> inv (fst (step s o)) ((snd (step s o) ++ r) ++ extra).
Proof. intros I. rewrite <- app_assoc. apply inv_step. exact I. Qed.

Theorem inv_run_frame fuel : forall s todo extra, inv s (todo ++ extra) ->
  inv (fst (run_release fuel s todo)) (snd (run_release fuel s todo) ++ extra).
Proof. intros s todo extra. apply (run_release_ind (fun s t => inv s (t ++ extra))). apply inv_step_frame. Qed.

