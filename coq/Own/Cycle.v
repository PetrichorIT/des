(* C20 -- what is NOT freed: a set of objects each of which is the target of
   an ordinary (non-connection) strong edge from a member of the set stays
   allocated for ever, whatever handles are released.  This is why the schema
   has to be acyclic apart from gate connections.  The instance proved here
   ([timer_pair], pinned schema only): a TimerQueue with a pending TimerSlot
   that holds an Arc to it (before fix 012bc88).  A channel whose buffer holds
   a connection to itself (before fix 6ce5d8e) is a set of this kind too; that
   one is shown by evaluating one script (Refuted/C20.v), not through
   [supported]. *)
From Coq Require Import List NArith Arith Bool Lia.
From DesVerif Require Import Own.Heap Own.Frame Own.Inv Own.Shape Own.Rank.
Import ListNotations.

Definition supported (S : nat -> Prop) (h : heap) : Prop :=
  forall o, S o -> exists p pb e, S p /\ nth_error h p = Some pb /\ In e (strong pb) /\ et e = o /\ is_conn (ek e) = false.

Lemma supported_has_edge S h o : supported S h -> S o -> In o (targets h).
Proof.
  intros Sup So. destruct (Sup o So) as (p & pb & e & _ & Ep & Hin & Het & _).
  unfold targets. apply in_flat_map. exists pb. split; [eapply nth_error_In; eassumption|].
  apply in_map_iff. eauto.
Qed.

Lemma supported_step S s o r : inv s (o :: r) -> supported S (hp s) -> supported S (hp (fst (step s o))).
Proof.
  intros I Sup. destruct (step_cases s o) as [Hb|ob ob1 E L R1 E1 Sh|ob E L R2]; cbn [fst hp]; [assumption| |].
  - (* the freed object has no incoming edge at all, so it is not a member *)
    assert (Hno : ~ S o).
    { intros So. pose proof (supported_has_edge _ _ _ Sup So) as Hin. apply cnt_pos_in in Hin.
      pose proof (i_cnt _ _ I o (nth_some_lt _ _ _ E)) as Hc. unfold rc_of in Hc. rewrite E, cnt_cons_eq in Hc. lia. }
    pose proof (pre_free_shr s ob) as Shr. assert (Ho1 : o < length (fst (pre_free s ob))) by (eapply nth_some_lt; eassumption).
    intros x Sx. destruct (Sup x Sx) as (p & pb & e & Sp & Ep & Hin & Het & C).
    destruct Shr as [_ Hs]. destruct (Hs _ _ Ep) as (pb' & Ep' & Spb).
    exists p, pb', e. split; [assumption|]. split.
    + rewrite nth_upd_neq; [assumption|]. intros ->. contradiction.
    + split; [eapply shrunk_keeps_plain; eassumption|auto].
  - assert (Ho : o < length (hp s)) by (eapply nth_some_lt; eassumption).
    intros x Sx. destruct (Sup x Sx) as (p & pb & e & Sp & Ep & Hin & Het & C).
    destruct (Nat.eq_dec o p) as [<-|Hn].
    + exists o, (set_rc ob (rc ob - 1)), e. rewrite nth_upd_eq by assumption.
      assert (pb = ob) by congruence. subst pb. auto 10.
    + exists p, pb, e. rewrite nth_upd_neq by assumption. auto 10.
Qed.

(* members of a supported set are still allocated after any release sequence *)
Theorem supported_survives S s roots : inv s roots -> supported S (hp s) ->
  forall o, S o -> is_live (hp (release_all s roots)) o = true.
Proof.
  intros I Sup o So.
  destruct (release_all_ind (fun s t => inv s t /\ supported S (hp s))) with (s := s) (roots := roots) as [I' Sup']; [|auto|].
  { intros s' x r [I' Sup']. split; [apply inv_step; assumption|eapply supported_step; eassumption]. }
  pose proof (supported_has_edge _ _ _ Sup' So) as Hin.
  assert (Ho : o < length (hp (release_all s roots))) by (apply (i_rng _ _ I'); left; assumption).
  destruct (nth_lt_some _ _ Ho) as (ob & E). unfold is_live. rewrite E.
  destruct (live ob) eqn:L; [reflexivity|exfalso].
  destruct (i_dead _ _ I' _ _ E L) as [R0 _].
  pose proof (i_cnt _ _ I' o Ho) as Hc. unfold rc_of in Hc. rewrite E, cnt_nil in Hc. apply cnt_pos_in in Hin. lia.
Qed.

(* the timer instance (pinned schema): a queue [q] that lists slot [sl] as pending, which holds a strong handle back *)
Definition timer_pair (h : heap) (q sl : nat) : Prop :=
  (exists qb e, nth_error h q = Some qb /\ In e (strong qb) /\ et e = sl /\ is_conn (ek e) = false) /\
  (exists sb e, nth_error h sl = Some sb /\ In e (strong sb) /\ et e = q /\ is_conn (ek e) = false).

Theorem timer_pair_survives s roots q sl : inv s roots -> timer_pair (hp s) q sl ->
  is_live (hp (release_all s roots)) q = true /\ is_live (hp (release_all s roots)) sl = true.
Proof.
  intros I [(qb & e1 & Eq & H1 & T1 & C1) (sb & e2 & Es & H2 & T2 & C2)].
  assert (Sup : supported (fun x => x = q \/ x = sl) (hp s)).
  { intros o [Hq | Hs]; subst o; [exists sl, sb, e2|exists q, qb, e1]; auto 10. }
  split; (eapply supported_survives; [exact I|exact Sup|]); [left|right]; reflexivity.
Qed.

