(* C20 -- the ownership schema of a des network simulation, read off the struct
   definitions in /repo/des/src (one line per reference-carrying field), and the
   well-formedness predicates [typed] and [owned] (with Inv.inv: Rank.good) for which Own/Rank.v proves that releasing the
   roots frees everything.

   STRONG EDGES (source tag, label, target tag)
   Globals  KField 0  Tree      net/runtime/mod.rs:701  Globals.modules: Arc<Mutex<ModuleTree>> (same Arc as Sim.modules, :83)
   Tree     KField 0  Ctx       net/runtime/mod.rs:725  ModuleTree.modules: Vec<ModuleRef>; ModuleRef.ctx: Arc<ModuleContext> (module/refs.rs:47)
   Tree     KField 1  Proc      net/runtime/mod.rs:725  ... ModuleRef.processing: Arc<RefCell<Processor>> (module/refs.rs:48)
   Ctx      KField 0  Gate      net/module/ctx/mod.rs:55  gates: RwLock<Vec<GateRef>>
   Ctx      KField 1  Runtime   net/module/ctx/rt.rs:12,22  async_ext.rt = Rt::Runtime((Arc<Runtime>, Rc<LocalSet>))
   Ctx      KField 2  Queue     net/module/ctx/rt.rs:13 + time/driver.rs:14  async_ext.driver: Option<Driver>, Driver.queue: Arc<TimerQueue>
   Ctx      KField 3  Ctx       net/module/ctx/mod.rs:65  children: FxHashMap<String, ModuleRef> (.ctx); the child's path is one longer (:115,:132)
   Ctx      KField 4  Proc      net/module/ctx/mod.rs:65  children (.processing)
   Proc     KField 0  Elem      net/processing.rs:197,258  Processor.stack.items: Vec<Box<dyn ProcessingElement>>
                                (Processor.handler: Box<dyn Module>, :198, is the payload of the Proc tag)
   Gate     KConn s i Gate      net/gate.rs:46,53  connections[s] = Some(Connection { endpoint: GateRef, endpoint_id: i, .. })
   Gate     KConnCh s Channel   net/gate.rs:46,57  connections[s] = Some(Connection { channel: Some(ChannelRef), .. })
   Channel  KField 0  Msg       net/channel.rs:30,36  inner.buffer.packets: VecDeque<(Message, Connection)> (.0)
   Channel  KField 1  Gate      net/channel.rs:36 + net/gate.rs:53  buffered Connection.endpoint
   Channel  KField 2  Channel   net/channel.rs:36 + net/gate.rs:57  buffered Connection.channel -- ONLY BEFORE fix 6ce5d8e
                                (channel.rs:41-45 now stores None); allowed by [edge_ok true] only
   Msg      KField 0  Gate      net/message/header.rs:38  header.last_gate: Option<GateRef>
   Event 0  KField 0  Gate      net/runtime/events.rs:53  MessageExitingConnection.con.endpoint
   Event 0  KField 1  Channel   net/runtime/events.rs:53  MessageExitingConnection.con.channel
   Event 0  KField 2  Msg       net/runtime/events.rs:54  MessageExitingConnection.msg
   Event 1  KField 3  Ctx       net/runtime/events.rs:142 HandleMessageEvent.module (.ctx)
   Event 1  KField 4  Proc      net/runtime/events.rs:142 HandleMessageEvent.module (.processing)
   Event 1  KField 2  Msg       net/runtime/events.rs:143 HandleMessageEvent.message
   Event 2  KField 1  Channel   net/runtime/events.rs:221 ChannelUnbusyNotif.channel
   Event 3  KField 3/4 Ctx/Proc net/runtime/events.rs:171 ModuleRestartEvent.module
   Event 4  KField 3/4 Ctx/Proc net/runtime/events.rs:196 AsyncWakeupEvent.module
   Runtime  KField 0  Task      tokio: the runtime / LocalSet owns every spawned future (modelled, not read off des)
   Task     --        (none)    net/runtime/blocks.rs:345-360,399-415  the future AsyncFn spawns (new/failable/io) owns the
                                receiver and what the user's future captured; it calls current() only inside the error
                                path (:355) and keeps NO Arc<ModuleContext>: a Task -> Ctx edge would close the cycle
                                Ctx -> Runtime -> Task -> Ctx (nothing shuts the module's runtime down on drop);
                                [edge_ok] rejects every edge out of a Task, in both variants
   Queue    KField 0  Slot      time/driver.rs:20  TimerQueue.pending: VecDeque<Arc<TimerSlot>>
   Slot     KField 0  Queue     time/driver.rs:30  TimerSlot.queue -- ONLY BEFORE fix 012bc88, when it was an
                                Arc<TimerQueue> and closed a strong cycle with the line above (now a Weak, see
                                below); allowed by [edge_ok true] only

   WEAK EDGES (never counted): TimerSlot.queue: Weak<TimerQueue> (driver.rs:30,117), Ctx.me, Ctx.parent (ctx/mod.rs:52,64; refs.rs:18-19), Gate.owner (gate.rs:18),
   TimerSlotEntryHandle.handle: Weak<TimerSlot> held by a sleeping task (driver.rs:40), the Waker in
   TimerSlotEntry (driver.rs:32; tokio drops the future on runtime shutdown whatever wakers exist),
   BufferContext.globals: Weak<Globals> (runtime/ctx.rs:20).

   ROOT HANDLES (outside the heap): Sim.modules and Sim.globals (mod.rs:83-84), the static MOD_CTX
   (ctx/mod.rs:22, cleared by Sim::drop mod.rs:221-229 and SimStaticsGuard::drop guard.rs:34-39),
   BUF_CTX.events (runtime/ctx.rs:18, cleared by the guard), Runtime.future_event_set and
   Profiler.remaining (runtime/mod.rs:125,130), GateRef/ModuleRef values held by the caller. *)
From Coq Require Import List NArith Arith Bool Lia.
From DesVerif Require Import Own.Heap.
Import ListNotations.

Definition kf (k : ekind) (n : N) : bool := match k with KField f => N.eqb f n | _ => false end.
Definition kconn (k : ekind) : bool := match k with KConn _ _ => true | _ => false end.
Definition kconnch (k : ekind) : bool := match k with KConnCh _ => true | _ => false end.

(* [pin] = true: the schema of the pinned tree (before the fixes 6ce5d8e and 012bc88) *)
Definition edge_ok (pin : bool) (a : tag) (k : ekind) (b : tag) : bool :=
  match a, b with
  | TGlobals, TTree => kf k 0
  | TTree, TCtx _ => kf k 0
  | TTree, TProc _ => kf k 1
  | TCtx _, TGate => kf k 0
  | TCtx _, TRuntime => kf k 1
  | TCtx _, TQueue => kf k 2
  | TCtx d, TCtx d' => kf k 3 && (d <? d')
  | TCtx _, TProc _ => kf k 4
  | TProc _, TElem _ => kf k 0
  | TGate, TGate => kconn k
  | TGate, TChannel => kconnch k
  | TChannel, TMsg _ => kf k 0
  | TChannel, TGate => kf k 1
  | TChannel, TChannel => pin && kf k 2
  | TMsg _, TGate => kf k 0
  | TEvent e, TGate => kf k 0 && N.eqb e 0
  | TEvent e, TChannel => kf k 1 && (N.eqb e 0 || N.eqb e 2)
  | TEvent e, TMsg _ => kf k 2 && (N.eqb e 0 || N.eqb e 1)
  | TEvent e, TCtx _ => kf k 3 && (N.eqb e 1 || N.eqb e 3 || N.eqb e 4)
  | TEvent e, TProc _ => kf k 4 && (N.eqb e 1 || N.eqb e 3 || N.eqb e 4)
  | TRuntime, TTask _ => kf k 0
  | TQueue, TSlot => kf k 0
  | TSlot, TQueue => pin && kf k 0
  | _, _ => false
  end.

(* the rank on object types; module contexts are ranked among themselves by path length *)
Definition trank (t : tag) : nat :=
  match t with
  | TGlobals => 12 | TTree => 11 | TEvent _ => 10 | TCtx _ => 9 | TProc _ => 8 | TElem _ => 7
  | TRuntime => 6 | TTask _ => 5 | TChannel => 4 | TMsg _ => 3 | TGate => 2 | TQueue => 1 | TSlot => 0
  end.
Definition tdepth (t : tag) : nat := match t with TCtx d => d | _ => 0 end.

(* what a user can observe being dropped *)
Definition user_tag (t : tag) : bool :=
  match t with TProc _ | TElem _ | TMsg _ | TTask _ => true | _ => false end.

(* ---- well-formedness ---- *)
Definition typed (pin : bool) (h : heap) : Prop :=
  forall o ob e, nth_error h o = Some ob -> In e (strong ob) ->
    exists tb, nth_error h (et e) = Some tb /\ edge_ok pin (otag ob) (ek e) (otag tb) = true.

(* every gate that still has a connection is listed in the [gates] of a module context *)
Definition owned (h : heap) : Prop :=
  forall g ob e, nth_error h g = Some ob -> In e (strong ob) -> is_conn (ek e) = true ->
    exists c oc, nth_error h c = Some oc /\ is_ctx (otag oc) = true /\ In g (map et (strong oc)).

(* boolean versions, evaluated by the model on every graph it builds *)
Definition typedb (pin : bool) (h : heap) : bool :=
  forallb (fun ob => forallb (fun e =>
     match nth_error h (et e) with
     | Some tb => edge_ok pin (otag ob) (ek e) (otag tb)
     | None => false
     end) (strong ob)) h.

Definition ctx_targets (h : heap) : list nat :=
  flat_map (fun oc => if is_ctx (otag oc) then map et (strong oc) else []) h.

Fixpoint ownedb_from (own : list nat) (h : heap) (g : nat) : bool :=
  match h with
  | [] => true
  | ob :: r => (negb (existsb (fun e => is_conn (ek e)) (strong ob)) || existsb (Nat.eqb g) own)
               && ownedb_from own r (S g)
  end.
Definition ownedb (h : heap) : bool := ownedb_from (ctx_targets h) h 0.
