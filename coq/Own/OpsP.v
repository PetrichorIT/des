(* C20 -- every builder / runtime operation of Own/Ops.v keeps the state well formed:
   one preservation lemma per operation, each a composition of the primitive lemmas of
   Own/SafeP.v. *)
From Coq Require Import List NArith Arith Bool.
From DesVerif Require Import Own.Heap Own.Frame Own.Shape Own.Rank Own.Safe Own.SafeP Own.Ops Own.World.
Import ListNotations.

(* Every operation is a nest of let / if / match around the primitives.  These rules take the
   outermost of them off the operation in a goal [P (..)] without substituting a let: the bound
   value becomes a variable of which only an invariant [Q] is kept. *)
Lemma let_inv {A B} (Q : A -> Prop) (P : B -> Prop) (a : A) (k : A -> B) :
  Q a -> (forall x, Q x -> P (k x)) -> P (let x := a in k x).
Proof. intros Ha H. exact (H a Ha). Qed.

Lemma pair_inv {A B C} (Q : A -> Prop) (P : C -> Prop) (p : A * B) (k : A -> B -> C) :
  Q (fst p) -> (forall a b, Q a -> P (k a b)) -> P (let '(a, b) := p in k a b).
Proof. destruct p as [a b]. intros Ha H. exact (H a b Ha). Qed.

Lemma if_inv {C} (P : C -> Prop) (c : bool) (a b : C) : P a -> P b -> P (if c then a else b).
Proof. destruct c; auto. Qed.

Create HintDb gdb.
#[export] Hint Resolve p_alloc_good p_clone_good p_move_in_good p_edge_good p_detach_good p_release_good p_weak_good : gdb.

(* [peel pin], for a goal [R X] with [R] = [G pin] or [WI pin] and [X] an operation, possibly under
   the projections of the lemma's statement: as long as the head of the operation is a let, a
   pair-let, an if, a match on an option, list or number, or a [fold_left], apply the rule for
   it.  The invariant kept of a bound value is read off its type: [G pin] for a state, [R] for
   a world, preservation of [R] for a local function on worlds, nothing otherwise (of a tuple:
   that of its first component).  What is left are goals [R (op1 (op2 .. x))] about
   operations proved earlier: [auto with gdb] closes them.  So every operation lemma is added
   to [gdb] right after its [Qed] (here, in WorldP.v and in Main.v), or the next [peel] that
   meets the operation fails in this last step.  The depth of [auto] (5) bounds how deep
   operations, setters and ifs are nested in one expression; [World.buf_process] needs all of
   it ([poll_tasks (if .. then .. else if .. then drop_fn_state w i else w) i]).
   The rules are lemmas; their instances are spelt out because Coq substitutes the let when
   they are left to unification, and an operation is opened with [cbv beta delta [op]] because
   [unfold] substitutes the lets of what it unfolds. *)
Ltac peel pin :=
  let rec rule R P X :=
    lazymatch X with
    | fst ?Y => let T := type of Y in rule R (fun y : T => P (fst y)) Y
    | (_, _) => cbn [fst]
    | (let x := ?a in @?k x) =>
        lazymatch type of a with
        | rs => refine (let_inv (G pin) P a k _ _); [|intros ? ?]
        | world => refine (let_inv R P a k _ _); [|intros ? ?]
        | world -> world =>
            refine (let_inv (fun f : world -> world => forall w, R w -> R (f w)) P a k _ _); [|intros ? ?]
        | _ => refine (let_inv (fun _ => True) P a k I _); intros ? _
        end
    | (let '(a, b) := ?p in @?k a b) =>
        lazymatch type of p with
        | (rs * _)%type => refine (pair_inv (G pin) P p k _ _); [|intros ? ? ?]
        | (rs * ?A * _)%type => refine (pair_inv (fun y : rs * A => G pin (fst y)) P p k _ _); [|intros ? ? ?]
        | (rs * ?A * ?B * _)%type => refine (pair_inv (fun y : rs * A * B => G pin (fst (fst y))) P p k _ _); [|intros ? ? ?]
        | (world * _)%type => refine (pair_inv R P p k _ _); [|intros ? ? ?]
        | _ => destruct p
        end
    | (match ?x with Some _ => _ | None => _ end) => destruct x
    | (match ?x with nil => _ | cons _ _ => _ end) => destruct x
    | (match ?x with O => _ | S _ => _ end) => destruct x
    | (if ?c then ?a else ?b) => refine (if_inv P c a b _ _)      (* after the matches: this pattern fits them too *)
    | (fold_left ?f ?l ?a) => refine (fold_inv P f l _ a _); [intros ? ? ?|]
    end in
  repeat (lazymatch goal with |- ?R ?X => rule R R X end; cbv beta in *);
  auto with gdb.

Section Ops.
  Variable pin : bool.

  Lemma drop_edge_good r src t : G pin r -> G pin (drop_edge r src t).
  Proof. intros H. cbv beta delta [drop_edge]. peel pin. Qed.
  Hint Resolve drop_edge_good : gdb.

  Lemma new_sim_good r : G pin r -> G pin (fst (fst (new_sim r))).
  Proof. intros H. cbv beta delta [new_sim]. peel pin. Qed.

  Lemma new_module_good r tree parent depth state elems :
    G pin r -> G pin (fst (fst (fst (new_module r tree parent depth state elems)))).
  Proof. intros H. cbv beta delta [new_module]. peel pin. Qed.

  Lemma new_gate_good r ctx proc : G pin r -> G pin (fst (new_gate r ctx proc)).
  Proof. intros H. cbv beta delta [new_gate]. peel pin. Qed.

  Lemma connect_good r a b chan : G pin r -> G pin (fst (connect r a b chan)).
  Proof. intros H. cbv beta delta [connect]. peel pin. Qed.

  Lemma new_msg_good r pay : G pin r -> G pin (fst (new_msg r pay)).
  Proof. intros H. cbv beta delta [new_msg]. peel pin. Qed.

  Lemma set_last_gate_good r m g : G pin r -> G pin (set_last_gate r m g).
  Proof. intros H. cbv beta delta [set_last_gate]. peel pin. Qed.

  Lemma new_event_good r k : G pin r -> G pin (fst (new_event r k)).
  Proof. intros H. cbv beta delta [new_event]. peel pin. Qed.
  Hint Resolve new_event_good : gdb.

  Lemma ev_handle_good r ctx proc msg : G pin r -> G pin (fst (ev_handle r ctx proc msg)).
  Proof. intros H. cbv beta delta [ev_handle]. peel pin. Qed.

  Lemma ev_module_good r k ctx proc : G pin r -> G pin (fst (ev_module r k ctx proc)).
  Proof. intros H. cbv beta delta [ev_module]. peel pin. Qed.

  Lemma ev_unbusy_good r ch : G pin r -> G pin (fst (ev_unbusy r ch)).
  Proof. intros H. cbv beta delta [ev_unbusy]. peel pin. Qed.

  Lemma ev_exit_good r gate ch msg : G pin r -> G pin (fst (ev_exit r gate ch msg)).
  Proof. intros H. cbv beta delta [ev_exit]. peel pin. Qed.

  Lemma enqueue_good r ch msg gate : G pin r -> G pin (enqueue r ch msg gate).
  Proof. intros H. cbv beta delta [enqueue]. peel pin. Qed.

  Lemma dequeue_good r ch : G pin r -> G pin (fst (dequeue r ch)).
  Proof. intros H. cbv beta delta [dequeue]. peel pin. Qed.

  Lemma new_task_good r rt cap : G pin r -> G pin (fst (new_task r rt cap)).
  Proof. intros H. cbv beta delta [new_task]. peel pin. Qed.

  Lemma new_slot_good r q : G pin r -> G pin (fst (new_slot r q)).
  Proof. intros H. cbv beta delta [new_slot]. peel pin. Qed.

  Lemma new_runtime_good r ctx : G pin r -> G pin (fst (new_runtime r ctx)).
  Proof. intros H. cbv beta delta [new_runtime]. peel pin. Qed.
End Ops.

#[export] Hint Resolve drop_edge_good new_sim_good new_module_good new_gate_good connect_good new_msg_good set_last_gate_good
  new_event_good ev_handle_good ev_module_good ev_unbusy_good ev_exit_good enqueue_good dequeue_good new_task_good
  new_slot_good new_runtime_good : gdb.
