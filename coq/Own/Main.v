(* C20 -- every graph that a scripted simulation reaches is well formed: the builder
   operations, the start-up, the event loop under every limit, the tear-down.  From this and
   Inv.v, Rank.v, Check.v, Cycle.v: the statements of Properties/C20.v, and what they mean for
   the numbers the model prints. *)
From Coq Require Import List NArith Arith Bool Lia.
From DesVerif Require Import Common.Codec CQueue.Model CQueue.Spec Own.Heap Own.Frame Own.Inv Own.Shape Own.Rank Own.Check Own.Cycle
  Own.Safe Own.SafeP Own.Ops Own.OpsP Own.World Own.WorldP Own.Model.
Import ListNotations.

(* [float]: the run of lets that begins at the outermost let of the goal is moved in front of
   the goal ([C[let x := a in let y := b in t]] becomes [let x := a in let y := b in C[t]]; the
   goals below contain one such run), where [intros] makes the lets local definitions under the
   names given.  It is used on the script [Model.stop_world], a single chain of lets broken by
   three pair-lets (the decoded modules, links and injections): each call opens the lets up to
   the next of these, so the name lists after the calls follow the lets of [stop_world], in its
   order, and change with it.
   Why not a rule like [OpsP.let_inv], one let at a time: each world of the script is bound by
   a let and used several times by the next, so a conversion that looks through the lets
   compares some hundred copies of the first world, and a rule costs one such conversion per
   let.  [float] is one for the whole run; local definitions are compared by name. *)
Ltac float :=
  lazymatch goal with |- context C [let x := ?a in @?k x] =>
    let rec go X :=
      lazymatch X with
      | (let x := ?a in @?k x) =>
          let v := fresh "v" in
          constr:(let v := a in ltac:(let b := eval cbv beta in (k v) in let r := go b in exact r))
      | _ => context C [X]
      end in
    let g := go (let x := a in k x) in change g
  end.

Section R.
  Variable pin : bool.

  Lemma add_module_good hold w c : WI pin w -> WI pin (add_module hold w c).
  Proof. intros H. cbv beta delta [add_module]. peel pin. Qed.

  Lemma add_gates_good hold w i : WI pin w -> WI pin (add_gates hold w i).
  Proof. intros H. cbv beta delta [add_gates]. apply repeat_WI; [intros wa Ha; peel pin|assumption]. Qed.

  Lemma add_link_good w l : WI pin w -> WI pin (add_link w l).
  Proof. intros H. cbv beta delta [add_link]. peel pin. Qed.

  Lemma add_inj_good w j : WI pin w -> WI pin (add_inj w j).
  Proof. intros H. cbv beta delta [add_inj]. peel pin. Qed.

  Lemma world0_good : WI pin (world0 pin).
  Proof.
    unfold world0. pose proof (new_sim_good pin (rs0 pin) (rs0_good pin)) as H.
    destruct (new_sim (rs0 pin)) as [[s tree] glob]. exact H.
  Qed.

  Lemma sim_start_good w : WI pin w -> WI pin (sim_start w).
  Proof. intros H. cbv beta delta [sim_start]. peel pin. Qed.

  Lemma dispatch_all_good fuel : forall w mi mt, WI pin w -> WI pin (dispatch_all fuel w mi mt).
  Proof.
    induction fuel as [|f IH]; intros w mi mt H; cbn [dispatch_all]; [assumption|].
    destruct (peek_time (w_fes w)); [|assumption]. destruct (_ || _)%bool; [assumption|].
    destruct (fetch (w_fes w)) as [[[q e] t]|]; [|assumption].
    apply IH. apply dispatch_good. exact H.
  Qed.

  Lemma sim_end_good w : WI pin w -> WI pin (sim_end w).
  Proof. intros H. cbv beta delta [sim_end]. peel pin. Qed.

  Lemma stop_world_ind (P : world -> Prop) :
    P (world0 pin) -> (forall hold w c, P w -> P (add_module hold w c)) -> (forall hold w i, P w -> P (add_gates hold w i)) ->
    (forall w l, P w -> P (add_link w l)) -> (forall w j, P w -> P (add_inj w j)) -> (forall w, P w -> P (sim_start w)) ->
    (forall fuel w mi mt, P w -> P (dispatch_all fuel w mi mt)) -> (forall w, P w -> P (sim_end w)) ->
    forall input, P (fst (fst (stop_world pin input))).
  Proof.
    intros P0 Pm Pg Pl Pj Ps Pd Pe input. cbv beta delta [stop_world].
    (* the header, then the three lists with their lengths *)
    float. intros stop l arg l0 order l1 hooked hold l2 nmod l3. destruct (dec_n _ dec_mod l3) as [cfgs l4].
    float. intros nlink l5. destruct (dec_n _ dec5 l5) as [links l6].
    float. intros ninj l7. destruct (dec_n _ dec3 l7) as [injs l8].
    (* the worlds: with modules, gates, links, injections; started, run, ended; then what is printed *)
    float. intros wm wg wl wi ran ws wr we res pending nrem time sim_roots want. cbn [fst].
    assert (Hm : P wm) by (apply fold_inv; [intros; apply Pm; assumption|exact P0]).
    assert (Hg : P wg) by (apply fold_inv; [intros; apply Pg; assumption|exact Hm]).
    assert (Hl : P wl) by (apply fold_inv; [intros; apply Pl; assumption|exact Hg]).
    assert (Hi : P wi) by (apply (if_inv P); [exact Hl|apply fold_inv; [intros; apply Pj; assumption|exact Hl]]).
    assert (Hs : P ws) by (apply (if_inv P); [apply Ps|]; exact Hi).
    assert (Hr : P wr) by (unfold wr; repeat (apply (if_inv P); [apply Pd; exact Hs|]); exact Hs).
    apply (if_inv P); [apply Pe|]; exact Hr.
  Qed.

  Lemma stop_world_good input : WI pin (fst (fst (stop_world pin input))).
  Proof.
    apply stop_world_ind; auto using add_module_good, add_gates_good, add_link_good, add_inj_good, world0_good, sim_start_good,
      dispatch_all_good, sim_end_good.
  Qed.

  Theorem stop_state_good input : let '(s, roots, _) := stop_state pin input in good pin s roots.
  Proof.
    unfold stop_state. pose proof (stop_world_good input) as H.
    destruct (stop_world pin input) as [[w want] [[[res nrem] time] hooked]]. cbn [fst] in H.
    apply reorder_good. exact H.
  Qed.
End R.

Local Open Scope nat_scope.

Theorem no_release_after_free s roots : inv s roots ->
  bad (release_all s roots) = [] /\ NoDup (freed (release_all s roots)) /\ inv (release_all s roots) [].
Proof.
  intros I. pose proof (release_all_inv _ _ I) as I'. split; [apply (i_bad _ _ I')|]. split; [apply (i_nodup _ _ I')|assumption].
Qed.

Theorem user_objects_freed_exactly_once s roots : good false s roots ->
  forall o t, tag_of (hp s) o = Some t -> user_tag t = true ->
    cnt o (freed (release_all s roots)) = 1 /\ is_live (hp (release_all s roots)) o = false.
Proof.
  intros G o t Ht U.
  assert (Ho : o < length (hp s)).
  { unfold tag_of in Ht. destruct (nth_error (hp s) o) eqn:E; [|discriminate]. eapply nth_some_lt; eassumption. }
  split; [apply freed_exactly_once; assumption|].
  unfold is_live. destruct (nth_error (hp (release_all s roots)) o) as [ob|] eqn:E; [|reflexivity].
  exact (all_freed s roots G o ob E).
Qed.

(* ---- the printed verdict ---- *)
Lemma filter_seq_nth (q : obj -> bool) : forall h : heap,
  length (filter (fun o => match nth_error h o with Some ob => q ob | None => false end) (seq 0 (length h)))
  = length (filter q h).
Proof.
  induction h as [|x h IH] using rev_ind; [reflexivity|].
  rewrite app_length. cbn [length]. rewrite Nat.add_1_r, seq_S, !filter_app, !app_length. cbn [Nat.add filter].
  rewrite nth_error_app2 by lia. rewrite Nat.sub_diag. cbn [nth_error]. f_equal.
  - rewrite <- IH. f_equal. apply filter_ext_in. intros o Ho. apply in_seq in Ho. rewrite nth_error_app1 by lia. reflexivity.
  - destruct (q x); reflexivity.
Qed.

Lemma count_once_all (p : tag -> bool) s' :
  (forall o, o < length (hp s') -> cnt o (freed s') = 1) -> count_once p s' = count_tag p (hp s').
Proof.
  intros H. unfold count_once, count_tag. f_equal.
  rewrite <- (filter_seq_nth (fun ob => p (otag ob)) (hp s')). f_equal. apply filter_ext_in. intros o Ho. apply in_seq in Ho.
  destruct (nth_error (hp s') o); [|reflexivity]. unfold cnt in H. rewrite H by lia. cbn. apply andb_true_r.
Qed.

Lemma count_user_split h :
  (count_tag user_tag h = count_tag is_proc h + count_tag is_elem h + count_tag is_task h + count_tag is_msg h)%N.
Proof.
  unfold count_tag. rewrite <- !Nat2N.inj_add. f_equal. induction h as [|x h IH]; [reflexivity|]. cbn [filter].
  destruct (otag x); cbn [user_tag is_proc is_elem is_task is_msg length]; lia.
Qed.

Lemma all_dead_filter (q : obj -> bool) (h : heap) :
  (forall ob, In ob h -> live ob = false) -> filter (fun ob => q ob && live ob) h = [].
Proof.
  induction h as [|x h IH]; intros H; [reflexivity|]. cbn [filter].
  rewrite (H x (or_introl eq_refl)), andb_false_r. apply IH. intros ob Hin. apply H. right. assumption.
Qed.

Lemma all_dead_existsb (h : heap) : (forall ob, In ob h -> live ob = false) -> existsb live h = false.
Proof.
  intros H. destruct (existsb live h) eqn:E; [|reflexivity].
  apply existsb_exists in E. destruct E as (ob & Hin & L). rewrite (H ob Hin) in L. discriminate.
Qed.

(* if nothing is alive and everything is in the log once, the model prints: once = created,
   0 instances dropped otherwise, 0 alive, nothing allocated *)
Lemma verdict_all_freed s' :
  (forall o ob, nth_error (hp s') o = Some ob -> live ob = false) ->
  (forall o, o < length (hp s') -> cnt o (freed s') = 1) ->
  verdict s' = ([count_tag is_proc (hp s'); count_tag is_elem (hp s'); count_tag is_task (hp s'); count_tag is_msg (hp s')],
                [count_tag is_proc (hp s'); count_tag is_elem (hp s'); count_tag is_task (hp s'); count_tag is_msg (hp s')],
                0, 0, 0)%N.
Proof.
  intros Hd Ho. unfold verdict. rewrite !(count_once_all _ _ Ho). cbn [nth].
  assert (Hin : forall ob, In ob (hp s') -> live ob = false).
  { intros ob H. apply In_nth_error in H. destruct H as (o & E). eapply Hd; eassumption. }
  pose proof (all_dead_filter (fun ob => user_tag (otag ob)) _ Hin) as Hl. pose proof (all_dead_existsb _ Hin) as He.
  unfold alive_users. rewrite Hl, He, count_user_split. cbn [length b2n N.of_nat]. f_equal. f_equal. f_equal. lia.
Qed.

(* END TO END: every script, every stopping point.  The graph the simulation has reached is
   well formed (stop_state_good), hence (Rank.v) dropping the handles held then frees every object
   exactly once, and the model's verdict is forced. *)
Theorem every_simulation_releases_everything input :
  let '(s, roots, _) := stop_state false input in
  let s' := release_all s roots in
  good false s roots /\
  (forall o ob, nth_error (hp s') o = Some ob -> live ob = false) /\
  (forall o, o < length (hp s) -> cnt o (freed s') = 1) /\
  bad s' = [] /\
  exists created, verdict s' = (created, created, 0, 0, 0)%N.
Proof.
  pose proof (stop_state_good false input) as Gd. destruct (stop_state false input) as [[s roots] info]. cbv zeta.
  pose proof (all_freed s roots Gd) as Hd. pose proof (freed_exactly_once s roots Gd) as Ho.
  split; [assumption|]. split; [assumption|]. split; [assumption|]. split.
  - destruct Gd as [I _ _]. apply (no_release_after_free _ _ I).
  - eexists. apply verdict_all_freed; [assumption|]. intros o H. apply Ho. rewrite release_all_length in H. assumption.
Qed.

(* the same for the line the model prints *)
Theorem run_prints_all_freed input :
  exists ok res nrem time created lg cnts,
    run input = ([ok; res; nrem; time] ++ created ++ created ++ [0; 0; N.of_nat (length lg / 4)] ++ lg ++ cnts
                 ++ [ok; res; nrem; time] ++ created ++ created ++ [0; 0; N.of_nat (length lg / 4)] ++ lg ++ cnts ++ [0])%N.
Proof.
  unfold run, run_gen. pose proof (every_simulation_releases_everything input) as H.
  destruct (stop_state false input) as [[s roots] [[[[[res nrem] time] lg] agree] cnts]]. cbv zeta in H.
  destruct H as (_ & _ & _ & _ & created & Hv). rewrite Hv.
  exists (b2n (goodb false s roots && agree)), res, nrem, time, created, lg, ([N.of_nat (length cnts)] ++ cnts)%N.
  rewrite <- !app_assoc. cbn [app]. reflexivity.
Qed.

(* Of its third number a script reads the parity and nothing else. *)
Lemma stop_world_order pin stop arg o1 o2 rest : N.odd o1 = N.odd o2 ->
  stop_world pin (stop :: arg :: o1 :: rest)%N = stop_world pin (stop :: arg :: o2 :: rest)%N.
Proof.
  intros H. set (r := stop_world pin (stop :: arg :: o2 :: rest)%N). cbv beta delta [stop_world]. float.
  (* the first six lets; [l] and [l0] hold [o1], and are read by [order] and [l1] only *)
  intros s l a l0 order l1.
  assert (Eo : order = N.odd o2) by exact H. assert (El : l1 = rest) by reflexivity.
  clearbody order l1. subst order l1. reflexivity.
Qed.

(* Whether the simulation is dropped by leaving scopes or by a panic unwinding through their owner
   (bit 1 of the script's `order` field, read by the implementation runner only) is not an input of
   the release: the same graph, the same handles, the same verdict. *)
Theorem drop_path_irrelevant pin stop arg o rest :
  stop_state pin (stop :: arg :: (o + 2) :: rest)%N = stop_state pin (stop :: arg :: o :: rest)
  /\ run_gen pin (stop :: arg :: (o + 2) :: rest)%N = run_gen pin (stop :: arg :: o :: rest).
Proof.
  assert (H : stop_world pin (stop :: arg :: (o + 2) :: rest)%N = stop_world pin (stop :: arg :: o :: rest)).
  { apply stop_world_order. change 2%N with (2 * 1)%N. apply N.odd_add_mul_2. }
  unfold run_gen, stop_state. rewrite H. split; reflexivity.
Qed.

(* The strong count the model prints for an object at a stopping point ([Model.strong_of]) is, in
   every reachable graph, the number of strong edges into the object plus the number of handles
   to it held from outside the heap (Sim, statics, event set, caller) -- nothing else. *)
Theorem counts_are_in_degrees pin input :
  let '(s, roots, _) := stop_state pin input in
  forall o, o < length (hp s) ->
    strong_of (hp s) o = N.of_nat (cnt o (targets (hp s)) + cnt o roots).
Proof.
  pose proof (stop_state_good pin input) as Gd. destruct (stop_state pin input) as [[s roots] info].
  intros o Ho. destruct Gd as [I _ _]. pose proof (i_cnt _ _ I o Ho) as H. unfold rc_of in H. unfold strong_of.
  destruct (nth_error (hp s) o); [rewrite H; reflexivity|]. rewrite <- H. reflexivity.
Qed.
