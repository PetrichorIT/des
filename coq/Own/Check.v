(* C20 -- a boolean well-formedness checker and its soundness.  The model
   evaluates [goodb] on the graph it has built before it releases the roots
   and reports the verdict in its output, so every run is a run on a graph for
   which Own/Rank.v applies. *)
From Coq Require Import List NArith Arith Bool Lia.
From DesVerif Require Import Common.Lists Own.Heap Own.Frame Own.Inv Own.Shape Own.Rank.
Import ListNotations.

Fixpoint nodupb (l : list nat) : bool :=
  match l with
  | [] => true
  | x :: r => negb (existsb (Nat.eqb x) r) && nodupb r
  end.

Definition obj_okb (ob : obj) : bool :=
  if live ob then 1 <=? rc ob
  else (rc ob =? 0) && match strong ob with [] => true | _ => false end.

Definition invb (s : st) (todo : list nat) : bool :=
  let h := hp s in
  forallb (fun o => rc_of h o =? cnt o (targets h) + cnt o todo) (seq 0 (length h))
  && forallb (fun o => o <? length h) (targets h ++ todo)
  && forallb obj_okb h
  && nodupb (freed s)
  && forallb (fun o => (o <? length h) && negb (is_live h o)) (freed s)
  && forallb (fun o => is_live h o || existsb (Nat.eqb o) (freed s)) (seq 0 (length h))
  && match bad s with [] => true | _ => false end.

Definition goodb (pin : bool) (s : st) (todo : list nat) : bool :=
  invb s todo && typedb pin (hp s) && ownedb (hp s).

Lemma nodupb_sound l : nodupb l = true -> NoDup l.
Proof.
  induction l as [|x r IH]; cbn [nodupb]; intros H; constructor.
  - apply andb_true_iff in H. destruct H as [H _]. apply negb_true_iff in H.
    intros Hin. apply existsb_eqb in Hin. congruence.
  - apply IH. apply andb_true_iff in H. apply H.
Qed.

Lemma forallb_seq f n : forallb f (seq 0 n) = true -> forall o, o < n -> f o = true.
Proof. intros H o Ho. rewrite forallb_forall in H. apply H. apply in_seq. lia. Qed.

Theorem invb_sound s todo : invb s todo = true -> inv s todo.
Proof.
  unfold invb. intros H.
  repeat (apply andb_true_iff in H; let H' := fresh "H" in destruct H as [H H']).
  constructor.
  - intros o Ho. apply Nat.eqb_eq. eapply forallb_seq in H; eassumption.
  - intros o Ho. rewrite forallb_forall in H5. apply Nat.ltb_lt. apply H5. apply in_or_app. assumption.
  - intros o ob E L. rewrite forallb_forall in H4. specialize (H4 ob (nth_error_In _ _ E)).
    unfold obj_okb in H4. rewrite L in H4. apply andb_true_iff in H4. destruct H4 as [A B].
    apply Nat.eqb_eq in A. destruct (strong ob); [auto|discriminate].
  - intros o ob E L. rewrite forallb_forall in H4. specialize (H4 ob (nth_error_In _ _ E)).
    unfold obj_okb in H4. rewrite L in H4. apply Nat.leb_le. assumption.
  - apply nodupb_sound. assumption.
  - intros o. unfold dead_in. split.
    + intros Hin. rewrite forallb_forall in H2. specialize (H2 o Hin). apply andb_true_iff in H2.
      destruct H2 as [A B]. apply Nat.ltb_lt in A. apply negb_true_iff in B.
      destruct (nth_lt_some _ _ A) as (ob & E). exists ob. split; [assumption|].
      unfold is_live in B. rewrite E in B. assumption.
    + intros (ob & E & L). pose proof (forallb_seq _ _ H1 o (nth_some_lt _ _ _ E)) as A. cbn beta in A.
      unfold is_live in A. rewrite E, L in A. cbn [orb] in A. apply existsb_eqb. assumption.
  - destruct (bad s); [reflexivity|discriminate].
Qed.

Theorem typedb_sound pin h : typedb pin h = true -> typed pin h.
Proof.
  unfold typedb. intros H o ob e E Hin. rewrite forallb_forall in H.
  specialize (H ob (nth_error_In _ _ E)). rewrite forallb_forall in H. specialize (H e Hin).
  destruct (nth_error h (et e)) as [tb|]; [|discriminate]. eauto.
Qed.

Lemma ownedb_from_sound own : forall r g0, ownedb_from own r g0 = true ->
  forall i ob e, nth_error r i = Some ob -> In e (strong ob) -> is_conn (ek e) = true -> In (g0 + i) own.
Proof.
  induction r as [|x r IH]; intros g0 H i ob e E Hin C; [destruct i; discriminate|].
  cbn [ownedb_from] in H. apply andb_true_iff in H. destruct H as [A B].
  destruct i as [|i]; cbn [nth_error] in E.
  - injection E as ->. rewrite Nat.add_0_r. apply orb_true_iff in A. destruct A as [A|A].
    + apply negb_true_iff in A. assert (existsb (fun e0 => is_conn (ek e0)) (strong ob) = true); [|congruence].
      apply existsb_exists. eauto.
    + apply existsb_eqb. assumption.
  - replace (g0 + S i) with (S g0 + i) by lia. eapply IH; eassumption.
Qed.

Theorem ownedb_sound h : ownedb h = true -> owned h.
Proof.
  unfold ownedb. intros H g ob e E Hin C.
  pose proof (ownedb_from_sound _ _ _ H g ob e E Hin C) as Hg. cbn [Nat.add] in Hg.
  unfold ctx_targets in Hg. apply in_flat_map in Hg. destruct Hg as (oc & Hoc & Hg).
  destruct (is_ctx (otag oc)) eqn:Ic; [|destruct Hg].
  apply In_nth_error in Hoc. destruct Hoc as (c & Ec). eauto 10.
Qed.

Theorem goodb_sound pin s todo : goodb pin s todo = true -> good pin s todo.
Proof.
  unfold goodb. intros H. apply andb_true_iff in H. destruct H as [H C]. apply andb_true_iff in H. destruct H as [A B].
  split; [apply invb_sound|apply typedb_sound|apply ownedb_sound]; assumption.
Qed.
