(* C20 -- every primitive of Own/Safe.v keeps the state well formed. *)
From Coq Require Import List NArith Arith Bool Lia.
From DesVerif Require Import Common.Lists Own.Heap Own.Frame Own.Inv Own.Shape Own.Rank Own.Check Own.Safe.
Import ListNotations.

Definition G (pin : bool) (r : rs) : Prop := r_pin r = pin /\ good pin (r_st r) (r_roots r).

(* ---- small facts ---- *)
Lemma cnt_remove_one x l : In x l -> forall o, cnt o (remove_one x l) + (if Nat.eqb o x then 1 else 0) = cnt o l.
Proof.
  induction l as [|y l IH]; intros Hin o; [destruct Hin|]. cbn [remove_one].
  destruct (Nat.eqb x y) eqn:E.
  - apply Nat.eqb_eq in E. subst y. destruct (Nat.eqb o x) eqn:E2.
    + apply Nat.eqb_eq in E2. subst o. rewrite cnt_cons_eq. lia.
    + apply Nat.eqb_neq in E2. rewrite cnt_cons_neq by congruence. lia.
  - apply Nat.eqb_neq in E. destruct Hin as [Hin|Hin]; [congruence|]. specialize (IH Hin o).
    destruct (Nat.eq_dec y o) as [->|Hn]; [rewrite !cnt_cons_eq|rewrite !cnt_cons_neq by assumption]; lia.
Qed.

Lemma holds_in r x : holds r x = true -> In x (r_roots r).
Proof. apply existsb_eqb. Qed.

Lemma cnt_tg_snoc o ob k x : cnt o (tg (set_strong ob (strong ob ++ [{| ek := k; et := x |}]))) = cnt o (tg ob) + (if Nat.eqb o x then 1 else 0).
Proof. unfold tg. cbn [set_strong strong]. rewrite map_app, cnt_app. cbn [map et]. rewrite cnt_cons, cnt_nil. lia. Qed.

Lemma take_edge_split p es e rest : take_edge p es = Some (e, rest) ->
  exists l1 l2, es = l1 ++ e :: l2 /\ rest = l1 ++ l2.
Proof.
  revert e rest; induction es as [|y es IH]; intros e rest H; cbn [take_edge] in H; [discriminate|].
  destruct (p y).
  - injection H as <- <-. exists [], es. auto.
  - destruct (take_edge p es) as [[x r']|]; [|discriminate]. injection H as <- <-.
    destruct (IH _ _ eq_refl) as (l1 & l2 & -> & ->). exists (y :: l1), l2. auto.
Qed.

Lemma nth_snoc {A} (h : list A) n o x :
  nth_error (h ++ [n]) o = Some x -> nth_error h o = Some x \/ (o = length h /\ x = n).
Proof.
  intros E. destruct (Nat.lt_ge_cases o (length h)) as [Hlt|Hge]; [left; rewrite nth_error_app1 in E; assumption|right].
  rewrite nth_error_app2 in E by assumption.
  destruct (o - length h) as [|k] eqn:D; cbn [nth_error] in E; [injection E as <-; split; [lia|reflexivity]|destruct k; discriminate].
Qed.

Lemma nth_app_some {A} (h : list A) n o x : nth_error h o = Some x -> nth_error (h ++ [n]) o = Some x.
Proof. intros E. rewrite nth_error_app1; [assumption|eapply nth_some_lt; eassumption]. Qed.

Lemma targets_snoc_empty h n : strong n = [] -> targets (h ++ [n]) = targets h.
Proof. intros H. unfold targets. rewrite flat_map_app. cbn [flat_map]. rewrite H. cbn [map app]. rewrite !app_nil_r. reflexivity. Qed.

Theorem p_alloc_good pin r t : G pin r -> G pin (fst (p_alloc r t)).
Proof.
  unfold G, p_alloc, rset, rhp. cbn [fst r_st r_roots r_pin]. intros [Hp [I T O]]. split; [assumption|].
  destruct I as [Icnt Irng Idead Ilive Ind Ifr Ibad].
  remember (hp (r_st r)) as h eqn:Hh.
  set (n := {| otag := t; rc := 1; live := true; strong := []; weak := [] |}).
  assert (Hrng : forall o, In o (targets h) \/ In o (r_roots r) -> o < length h) by exact Irng.
  assert (Hnew0 : cnt (length h) (targets h) = 0 /\ cnt (length h) (r_roots r) = 0).
  { split; (destruct (cnt (length h) _) eqn:Z; [reflexivity|exfalso]).
    - assert (H : In (length h) (targets h)) by (apply cnt_pos_in; lia). specialize (Hrng _ (or_introl H)). lia.
    - assert (H : In (length h) (r_roots r)) by (apply cnt_pos_in; lia). specialize (Hrng _ (or_intror H)). lia. }
  destruct Hnew0 as [Z1 Z2].
  split.
  - constructor; cbn [hp freed bad]; try assumption.
    + intros o Ho. rewrite app_length in Ho. cbn [length] in Ho. rewrite (targets_snoc_empty h n eq_refl), cnt_cons.
      destruct (Nat.eq_dec o (length h)) as [->|Hn].
      * unfold rc_of. rewrite nth_error_app2 by lia. rewrite Nat.sub_diag. cbn [nth_error n rc]. rewrite Nat.eqb_refl. lia.
      * unfold rc_of. rewrite nth_error_app1 by lia. fold (rc_of h o). rewrite Icnt by lia.
        assert (E : Nat.eqb o (length h) = false) by (apply Nat.eqb_neq; assumption). rewrite E. lia.
    + intros o Ho. rewrite app_length. cbn [length]. rewrite (targets_snoc_empty h n eq_refl) in Ho.
      destruct Ho as [Ho|[Ho|Ho]]; [specialize (Irng o (or_introl Ho))|subst o|specialize (Irng o (or_intror Ho))]; lia.
    + intros o ob Eo Lo. destruct (nth_snoc _ _ _ _ Eo) as [Eo'|[_ ->]]; [eauto|discriminate].
    + intros o ob Eo Lo. destruct (nth_snoc _ _ _ _ Eo) as [Eo'|[_ ->]]; [eauto|cbn; lia].
    + intros o. rewrite Ifr. unfold dead_in. split; intros (x & Ex & Lx).
      * exists x. split; [apply nth_app_some|]; assumption.
      * destruct (nth_snoc _ _ _ _ Ex) as [Ex'|[_ ->]]; [eauto|discriminate].
  - intros o ob e Eo Hin. cbn [hp] in *. destruct (nth_snoc _ _ _ _ Eo) as [Eo'|[_ ->]]; [|destruct Hin].
    destruct (T _ _ _ Eo' Hin) as (tb & Et & Ok). exists tb. split; [apply nth_app_some|]; assumption.
  - intros g gb e Eg Hin C. cbn [hp] in *. destruct (nth_snoc _ _ _ _ Eg) as [Eg'|[_ ->]]; [|destruct Hin].
    destruct (O _ _ _ Eg' Hin C) as (c & oc & Ec & Ic & Hgc). exists c, oc. split; [apply nth_app_some|]; auto.
Qed.

Theorem p_clone_good pin r x : G pin r -> G pin (p_clone r x).
Proof.
  unfold G, p_clone, rhp. intros Gd. destruct (nth_error (hp (r_st r)) x) as [xo|] eqn:E; [|assumption].
  destruct (live xo) eqn:L; [|assumption]. destruct Gd as [Hp [I T O]]. unfold rset. cbn [r_st r_roots r_pin]. split; [assumption|].
  assert (Hx : x < length (hp (r_st r))) by (eapply nth_some_lt; eassumption).
  split.
  - apply (inv_upd _ (r_roots r) _ x xo); try assumption; try reflexivity.
    + rewrite L. cbn [set_rc rc]. lia.
    + intros o. rewrite tg_set_rc, cnt_cons. cbn [set_rc rc]. destruct (Nat.eqb o x) eqn:Eo; [|lia].
      apply Nat.eqb_eq in Eo. subst o. unfold rc_of. rewrite E. lia.
    + intros o Ho. apply (i_rng _ _ I). left. eapply tg_in_targets; eassumption.
    + intros o [<-|Ho]; [assumption|]. apply (i_rng _ _ I). auto.
  - cbn [hp]. apply (typed_upd2 pin _ x xo); auto.
  - cbn [hp]. apply (owned_upd pin _ x xo); auto.
    intros Ic. split; [exact (ctx_conn_free _ _ _ _ T E Ic)|auto].
Qed.

Lemma can_attach_spec pin h src k x : can_attach pin h src k x = true ->
  exists so xo, nth_error h src = Some so /\ nth_error h x = Some xo /\ live so = true /\
    edge_ok pin (otag so) k (otag xo) = true /\ (is_conn k = true -> listed h src = true).
Proof.
  unfold can_attach. destruct (nth_error h src) as [so|]; [|discriminate]. destruct (nth_error h x) as [xo|]; [|discriminate].
  intros H. apply andb_true_iff in H. destruct H as [H C]. apply andb_true_iff in H. destruct H as [L Ok].
  exists so, xo. repeat split; try assumption. intros Ck. rewrite Ck in C. cbn in C. assumption.
Qed.

Theorem p_move_in_good pin r src k x : G pin r -> G pin (p_move_in r src k x).
Proof.
  unfold G, p_move_in, rhp. intros Gd. destruct Gd as [Hp Gd]. rewrite Hp.
  destruct (holds r x && can_attach pin (hp (r_st r)) src k x) eqn:Ck; [|split; assumption].
  apply andb_true_iff in Ck. destruct Ck as [Hh Ca]. apply holds_in in Hh.
  destruct (can_attach_spec _ _ _ _ _ Ca) as (so & xo & Es & Ex & Ls & Ok & Hl). rewrite Es.
  destruct Gd as [I T O]. unfold rset. cbn [r_st r_roots r_pin]. split; [assumption|].
  set (b := set_strong so (strong so ++ [{| ek := k; et := x |}])).
  split.
  - apply (inv_upd _ (r_roots r) _ src so); try assumption; try reflexivity.
    + rewrite Ls. cbn [b set_strong rc]. apply (i_live _ _ I _ _ Es Ls).
    + intros o. unfold b. rewrite cnt_tg_snoc. cbn [set_strong rc]. pose proof (cnt_remove_one x _ Hh o) as H.
      rewrite (rc_of_at _ _ _ o Es). lia.
    + intros o Ho. unfold b, tg in Ho. cbn [set_strong strong] in Ho. rewrite map_app in Ho. apply in_app_or in Ho.
      destruct Ho as [Ho|[<-|[]]]; [|eapply nth_some_lt; eassumption].
      apply (i_rng _ _ I). left. exact (tg_in_targets _ _ _ _ Es Ho).
    + intros o Ho. apply (i_rng _ _ I). right.
      apply cnt_pos_in. apply cnt_pos_in in Ho. pose proof (cnt_remove_one x _ Hh o). lia.
  - cbn [hp]. apply (typed_upd2 pin _ src so); auto. intros e Hin. cbn [b set_strong strong] in Hin.
    apply in_app_or in Hin. destruct Hin as [Hin|[<-|[]]]; [auto|]. right. cbn [ek et]. eauto.
  - cbn [hp]. apply (owned_upd pin _ src so); auto.
    + intros e Hin C. cbn [b set_strong strong] in Hin. apply in_app_or in Hin. destruct Hin as [Hin|[<-|[]]]; [auto|].
      right. apply Hl. assumption.
    + intros Ic. split.
      * intros e Hin. cbn [b set_strong strong] in Hin. apply in_app_or in Hin. destruct Hin as [Hin|[<-|[]]].
        -- exact (ctx_conn_free _ _ _ _ T Es Ic e Hin).
        -- cbn [ek]. destruct (is_conn k) eqn:C; [|reflexivity]. pose proof (edge_ok_conn _ _ _ _ Ok C) as H.
           rewrite H in Ic. discriminate.
      * intros g Hg. left. cbn [b set_strong strong]. rewrite map_app. apply in_or_app. auto.
Qed.

Theorem p_edge_good pin r src k x : G pin r -> G pin (p_edge r src k x).
Proof.
  unfold p_edge. intros Gd. destruct (can_attach (r_pin r) (rhp r) src k x); [|assumption].
  apply p_move_in_good. apply p_clone_good. assumption.
Qed.

Theorem p_detach_good pin r src p : G pin r -> G pin (fst (p_detach r src p)).
Proof.
  unfold G, p_detach, rhp. intros Gd. destruct (nth_error (hp (r_st r)) src) as [so|] eqn:Es; [|assumption].
  destruct (take_edge p (strong so)) as [[e rest]|] eqn:Et; [|assumption].
  destruct (is_ctx (otag so) && has_conn (hp (r_st r)) (et e)) eqn:Ck; [assumption|]. cbn [fst].
  destruct (take_edge_split _ _ _ _ Et) as (l1 & l2 & Hs & Hr).
  destruct Gd as [Hp [I T O]]. unfold rset. cbn [r_st r_roots r_pin]. split; [assumption|].
  assert (Ls : live so = true).
  { destruct (live so) eqn:L; [reflexivity|]. destruct (i_dead _ _ I _ _ Es L) as [_ H]. rewrite H in Hs. destruct l1; discriminate. }
  assert (Hsub : forall e', In e' rest -> In e' (strong so)).
  { intros e' H. rewrite Hs, Hr in *. apply in_app_or in H. apply in_or_app. destruct H; [left|right; right]; assumption. }
  assert (Htg : forall o, cnt o (tg so) = cnt o (tg (set_strong so rest)) + (if Nat.eqb o (et e) then 1 else 0)).
  { intros o. unfold tg. cbn [set_strong strong]. rewrite Hs, Hr, !map_app, !cnt_app. cbn [map]. rewrite cnt_cons. lia. }
  split.
  - apply (inv_upd _ (r_roots r) _ src so); try assumption; try reflexivity.
    + rewrite Ls. cbn [set_strong rc]. apply (i_live _ _ I _ _ Es Ls).
    + intros o. rewrite cnt_cons, (Htg o). cbn [set_strong rc]. rewrite (rc_of_at _ _ _ o Es). lia.
    + intros o Ho. apply (i_rng _ _ I). left. apply (tg_in_targets _ _ _ _ Es).
      unfold tg in *. cbn [set_strong strong] in Ho. apply in_map_iff in Ho. destruct Ho as (e' & <- & He'). apply in_map. auto.
    + intros o [<-|Ho]; apply (i_rng _ _ I); [left|right; assumption]. apply (tg_in_targets _ _ _ _ Es).
      apply in_map. rewrite Hs. apply in_or_app. right. left. reflexivity.
  - cbn [hp]. apply (typed_upd2 pin _ src so); auto.
  - cbn [hp]. apply (owned_upd pin _ src so); auto. intros Ic. split.
    + intros e' H. exact (ctx_conn_free _ _ _ _ T Es Ic e' (Hsub e' H)).
    + intros g Hg. cbn [set_strong strong]. rewrite Ic in Ck. cbn [andb] in Ck.
      rewrite Hs, map_app in Hg. apply in_app_or in Hg. rewrite Hr, map_app.
      destruct Hg as [Hg|[Hg|Hg]]; [left; apply in_or_app; auto|right; cbn [et] in Hg; rewrite <- Hg; assumption|left; apply in_or_app; auto].
Qed.

Theorem p_release_good pin r x : G pin r -> G pin (p_release r x).
Proof.
  unfold G, p_release. intros Gd. destruct (holds r x) eqn:Hh; [|assumption]. apply holds_in in Hh. cbn [r_st r_roots r_pin].
  destruct Gd as [Hp Gd]. split; [assumption|]. apply good_release_frame. eapply good_cnt_ext; [eassumption|].
  intros o. cbn [app]. rewrite cnt_cons. pose proof (cnt_remove_one x _ Hh o). lia.
Qed.

(* weak edges are not part of anything that is counted or typed *)
Theorem p_weak_good pin r src l t : G pin r -> G pin (p_weak r src l t).
Proof.
  unfold G, p_weak, rset, rhp, add_weak. cbn [r_st r_roots r_pin]. intros [Hp [I T O]]. split; [assumption|].
  destruct (nth_error (hp (r_st r)) src) as [so|] eqn:Es; [|destruct (r_st r); split; assumption].
  split; cbn [hp].
  - apply (inv_upd _ (r_roots r) _ src so); try assumption; try reflexivity.
    + cbn [rc strong]. destruct (live so) eqn:L; [exact (i_live _ _ I _ _ Es L)|exact (i_dead _ _ I _ _ Es L)].
    + intros o. cbn [rc]. rewrite (rc_of_at _ _ _ o Es). reflexivity.
    + intros o Ho. apply (i_rng _ _ I). left. eapply tg_in_targets; eassumption.
    + intros o Ho. apply (i_rng _ _ I). auto.
  - apply (typed_upd2 pin _ src so); auto.
  - apply (owned_upd pin _ src so); auto. intros Ic. split; [exact (ctx_conn_free _ _ _ _ T Es Ic)|auto].
Qed.

Theorem rs0_good pin : G pin (rs0 pin).
Proof. split; [reflexivity|]. apply goodb_sound. reflexivity. Qed.

(* the final handle list is a rearrangement of the handles held *)
Lemma reorder_cnt want : forall held o, cnt o (reorder held want) = cnt o held.
Proof.
  induction want as [|x w IH]; intros held o; cbn [reorder]; [reflexivity|].
  destruct (existsb (Nat.eqb x) held) eqn:E; [|apply IH].
  rewrite cnt_cons, IH. assert (Hin : In x held).
  { apply existsb_eqb. assumption. }
  pose proof (cnt_remove_one x _ Hin o). lia.
Qed.

Theorem reorder_good pin r want : G pin r -> good pin (r_st r) (reorder (r_roots r) want).
Proof. intros [_ Gd]. eapply good_cnt_ext; [exact Gd|]. intros o. symmetry. apply reorder_cnt. Qed.
