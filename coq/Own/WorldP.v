(* C20 -- every runtime operation of Own/World.v keeps the heap of the world well formed. *)
From Coq Require Import List NArith Arith Bool.
From DesVerif Require Import CQueue.Model CQueue.Spec Own.Heap Own.Shape Own.Rank Own.Safe Own.SafeP Own.Ops Own.OpsP Own.World.
Import ListNotations.

Definition WI (pin : bool) (w : world) : Prop := G pin (w_st w).

Lemma WI_G pin w : WI pin w -> G pin (w_st w).
Proof. exact (fun H => H). Qed.
Lemma WI_wset_st pin w r : G pin r -> WI pin (wset_st w r).
Proof. exact (fun H => H). Qed.
Lemma WI_wset_q pin w a b c d : WI pin w -> WI pin (wset_q w a b c d).
Proof. exact (fun H => H). Qed.
Lemma WI_wset_mods pin w a : WI pin w -> WI pin (wset_mods w a).
Proof. exact (fun H => H). Qed.
Lemma WI_wset_misc pin w a b c d e : WI pin w -> WI pin (wset_misc w a b c d e).
Proof. exact (fun H => H). Qed.
Lemma WI_wset_cnt pin w a b c d : WI pin w -> WI pin (wset_cnt w a b c d).
Proof. exact (fun H => H). Qed.
Lemma WI_wlog pin w a b c : WI pin w -> WI pin (wlog w a b c).
Proof. exact (fun H => H). Qed.
Lemma WI_wset_buf pin w a : WI pin w -> WI pin (wset_buf w a).
Proof. exact (fun H => H). Qed.
Lemma WI_wset_fes pin w a : WI pin w -> WI pin (wset_fes w a).
Proof. exact (fun H => H). Qed.
Lemma WI_wset_chans pin w a : WI pin w -> WI pin (wset_chans w a).
Proof. exact (fun H => H). Qed.
Lemma WI_wset_eaux pin w a : WI pin w -> WI pin (wset_eaux w a).
Proof. exact (fun H => H). Qed.
Lemma WI_chan_set pin w a : WI pin w -> WI pin (chan_set w a).
Proof. exact (fun H => H). Qed.
Lemma WI_fes_add pin w a b : WI pin w -> WI pin (fes_add w a b).
Proof. exact (fun H => H). Qed.
Lemma WI_updm pin w i f : WI pin w -> WI pin (updm w i f).
Proof. intros H. unfold updm. destruct (nth_error (w_mods w) i); exact H. Qed.
Lemma WI_sink_add pin d w a b : WI pin w -> WI pin (sink_add d w a b).
Proof. intros H. unfold sink_add. destruct d; exact H. Qed.
Lemma WI_wst pin w f : WI pin w -> (forall r, G pin r -> G pin (f r)) -> WI pin (wst w f).
Proof. intros H Hf. apply Hf. exact H. Qed.
Lemma WI_wrel pin w o : WI pin w -> WI pin (wrel w o).
Proof. intros H. apply WI_wst; [exact H|]. intros r Hr. apply p_release_good. exact Hr. Qed.

Lemma repeat_WI pin (f : world -> world) n :
  (forall w, WI pin w -> WI pin (f w)) -> forall w, WI pin w -> WI pin (repeat_n n f w).
Proof. intros H. induction n as [|n IH]; intros w Hw; cbn [repeat_n]; auto. Qed.

#[export] Hint Resolve WI_G WI_wset_st WI_wset_q WI_wset_mods WI_wset_misc WI_wset_cnt WI_wlog WI_wset_buf WI_wset_fes
  WI_wset_chans WI_wset_eaux WI_chan_set WI_fes_add WI_updm WI_sink_add WI_wrel : gdb.

#[export] Hint Resolve WI_wst repeat_WI : gdb.
#[export] Hint Extern 1 (WI ?p (if ?c then ?a else ?b)) => refine (if_inv (WI p) c a b _ _) : gdb.

Section W.
  Variable pin : bool.

  Lemma chan_send_good d w c msg g eid : WI pin w -> WI pin (chan_send d w c msg g eid).
  Proof. intros H. cbv beta delta [chan_send]. peel pin. Qed.
  Hint Resolve chan_send_good : gdb.

  Lemma walk_good fuel : forall d w msg g eid, WI pin w -> WI pin (walk fuel d w msg g eid).
  Proof.
    induction fuel as [|f IH]; intros d w msg g eid H; cbn [walk]; [auto with gdb|].
    destruct (conn_at (whp w) g (if N.eqb eid 1 then 0%N else 1%N)) as [[[g2 eid2] ch]|].
    - assert (H1 : WI pin (wst w (fun s => set_last_gate s msg g2))) by (apply WI_wst; [assumption|intros; auto with gdb]).
      destruct (negb _); [auto with gdb|]. destruct ch; auto with gdb.
    - peel pin.
  Qed.
  Hint Resolve walk_good : gdb.

  Lemma exit_conn_good d w msg g eid : WI pin w -> WI pin (exit_conn d w msg g eid).
  Proof. intros H. unfold exit_conn. apply walk_good. apply WI_wst; [assumption|intros; auto with gdb]. Qed.
  Hint Resolve exit_conn_good : gdb.

  Lemma register_timer_good w i task dl : WI pin w -> WI pin (register_timer w i task dl).
  Proof. intros H. cbv beta delta [register_timer]. peel pin. Qed.
  Hint Resolve register_timer_good : gdb.

  Lemma poll_tasks_good w i : WI pin w -> WI pin (poll_tasks w i).
  Proof. intros H. cbv beta delta [poll_tasks]. peel pin. Qed.
  Hint Resolve poll_tasks_good : gdb.

  Lemma ensure_rt_good w i : WI pin w -> WI pin (ensure_rt w i).
  Proof. intros H. cbv beta delta [ensure_rt]. peel pin. Qed.
  Hint Resolve ensure_rt_good : gdb.

  Lemma activate_good w i : WI pin w -> WI pin (activate w i).
  Proof. intros H. cbv beta delta [activate]. peel pin. Qed.
  Hint Resolve activate_good : gdb.

  Lemma deactivate_good w i : WI pin w -> WI pin (deactivate w i).
  Proof. intros H. cbv beta delta [deactivate]. peel pin. Qed.
  Hint Resolve deactivate_good : gdb.

  Lemma fresh_msg_good w : WI pin w -> WI pin (fst (fresh_msg w)).
  Proof. intros H. cbv beta delta [fresh_msg]. peel pin. Qed.
  Hint Resolve fresh_msg_good : gdb.

  Lemma do_schedule_good w i d : WI pin w -> WI pin (do_schedule w i d).
  Proof. intros H. cbv beta delta [do_schedule]. peel pin. Qed.
  Hint Resolve do_schedule_good : gdb.

  Lemma do_send_good w i : WI pin w -> WI pin (do_send w i).
  Proof. intros H. cbv beta delta [do_send]. peel pin. Qed.
  Hint Resolve do_send_good : gdb.

  Lemma do_spawn_good w i d : WI pin w -> WI pin (do_spawn w i d).
  Proof. intros H. cbv beta delta [do_spawn]. peel pin. Qed.
  Hint Resolve do_spawn_good : gdb.

  Lemma drop_fn_state_good w i : WI pin w -> WI pin (drop_fn_state w i).
  Proof. intros H. cbv beta delta [drop_fn_state]. peel pin. Qed.
  Hint Resolve drop_fn_state_good : gdb.

  Lemma new_fn_state_good w i : WI pin w -> WI pin (new_fn_state w i).
  Proof. intros H. cbv beta delta [new_fn_state]. peel pin. Qed.
  Hint Resolve new_fn_state_good : gdb.

  Lemma end_block_task_good w i k : WI pin w -> WI pin (end_block_task w i k).
  Proof. intros H. cbv beta delta [end_block_task]. peel pin. Qed.
  Hint Resolve end_block_task_good : gdb.

  Lemma at_sim_start_good w i : WI pin w -> WI pin (at_sim_start w i).
  Proof. intros H. cbv beta delta [at_sim_start]. peel pin. Qed.
  Hint Resolve at_sim_start_good : gdb.

  Lemma buf_process_good w i : WI pin w -> WI pin (buf_process w i).
  Proof. intros H. cbv beta delta [buf_process]. peel pin. Qed.
  Hint Resolve buf_process_good : gdb.

  Lemma handle_message_good w i msg : WI pin w -> WI pin (handle_message w i msg).
  Proof. intros H. cbv beta delta [handle_message]. peel pin. Qed.
  Hint Resolve handle_message_good : gdb.

  Lemma take_field_good w e f : WI pin w -> WI pin (fst (take_field w e f)).
  Proof. intros H. cbv beta delta [take_field]. peel pin. Qed.
  Hint Resolve take_field_good : gdb.

  Lemma dispatch_good w e : WI pin w -> WI pin (dispatch w e).
  Proof. intros H. cbv beta delta [dispatch]. peel pin. Qed.
End W.

#[export] Hint Resolve chan_send_good walk_good exit_conn_good register_timer_good poll_tasks_good ensure_rt_good activate_good
  deactivate_good fresh_msg_good do_schedule_good do_send_good do_spawn_good at_sim_start_good buf_process_good
  handle_message_good take_field_good dispatch_good drop_fn_state_good new_fn_state_good end_block_task_good : gdb.
