(* C20 -- basic facts about the heap operations: updates, the multiset of edge
   targets, and what Gate::dissolve_paths does to a heap (it only removes
   connection edges, and hands back exactly the handles it removed). *)
From Coq Require Import List NArith Arith Bool Lia.
From DesVerif Require Import Common.Lists Own.Heap.
Import ListNotations.

Lemma upd_length {A} (l : list A) i x : length (upd l i x) = length l.
Proof. revert i; induction l as [|y l IH]; intros [|i]; cbn [upd length]; auto. Qed.

Lemma nth_upd_eq {A} (l : list A) i x : i < length l -> nth_error (upd l i x) i = Some x.
Proof.
  revert i; induction l as [|y l IH]; intros [|i] Hi; cbn [upd length nth_error] in *; try lia; auto.
  apply IH; lia.
Qed.

Lemma nth_upd_neq {A} (l : list A) i j x : i <> j -> nth_error (upd l i x) j = nth_error l j.
Proof.
  revert i j; induction l as [|y l IH]; intros [|i] [|j] Hn; cbn [upd nth_error]; auto; try congruence.
Qed.

Lemma nth_some_lt {A} (l : list A) i x : nth_error l i = Some x -> i < length l.
Proof. intros H. apply nth_error_Some. congruence. Qed.

Lemma nth_lt_some {A} (l : list A) i : i < length l -> exists x, nth_error l i = Some x.
Proof. intros H. destruct (nth_error l i) eqn:E; eauto. apply nth_error_None in E. lia. Qed.

Lemma nth_upd_case {A} (l : list A) i x o : i < length l ->
  nth_error (upd l i x) o = if Nat.eqb o i then Some x else nth_error l o.
Proof.
  intros Hi. destruct (Nat.eqb o i) eqn:E.
  - apply Nat.eqb_eq in E. subst. apply nth_upd_eq. assumption.
  - apply Nat.eqb_neq in E. apply nth_upd_neq. congruence.
Qed.

Lemma fold_inv {A B} (Q : A -> Prop) (f : A -> B -> A) (l : list B) :
  (forall a x, Q a -> Q (f a x)) -> forall a, Q a -> Q (fold_left f l a).
Proof. intros H. induction l as [|x l IH]; intros a Ha; cbn [fold_left]; auto. Qed.

(* what [dissolve] does with one connection of the gate it has locked *)
Definition dstep (f : nat) (lk : list nat) (acc : heap * list nat) (e : edge) : heap * list nat :=
  match ek e with
  | KConn _ _ => let r := dissolve f lk (et e) (fst acc) in (fst r, snd acc ++ snd r ++ [et e])
  | _ => (fst acc, snd acc ++ [et e])
  end.

Lemma dissolve_S f lk g h :
  dissolve (S f) lk g h =
  if existsb (Nat.eqb g) lk then (h, []) else
  match nth_error h g with
  | None => (h, [])
  | Some ob => fold_left (dstep f (g :: lk)) (conn_edges ob) (upd h g (set_strong ob (plain_edges ob)), [])
  end.
Proof. reflexivity. Qed.

Lemma dstep_inv f lk (Q : heap -> Prop) : (forall g h, Q h -> Q (fst (dissolve f lk g h))) ->
  forall cs acc, Q (fst acc) -> Q (fst (fold_left (dstep f lk) cs acc)).
Proof.
  intros H cs. apply (fold_inv (fun acc => Q (fst acc))). intros acc e Ha. unfold dstep. destruct (ek e); cbn [fst]; auto.
Qed.

(* ---- additive functionals on handle lists (instantiated with "occurrences
   of o" and with "length") ---- *)
Definition cnt (o : nat) (l : list nat) : nat := count_occ Nat.eq_dec l o.

Lemma cnt_app o a b : cnt o (a ++ b) = cnt o a + cnt o b.
Proof. apply count_occ_app. Qed.
Lemma cnt_nil o : cnt o [] = 0.
Proof. reflexivity. Qed.
Lemma cnt_cons_eq o l : cnt o (o :: l) = S (cnt o l).
Proof. unfold cnt. apply count_occ_cons_eq. reflexivity. Qed.
Lemma cnt_cons_neq o x l : x <> o -> cnt o (x :: l) = cnt o l.
Proof. intros. unfold cnt. apply count_occ_cons_neq. assumption. Qed.
Lemma cnt_pos_in o l : 0 < cnt o l <-> In o l.
Proof. unfold cnt. pose proof (count_occ_In Nat.eq_dec l o) as H. unfold gt in H. split; apply H. Qed.

Lemma cnt_cons o x l : cnt o (x :: l) = (if Nat.eqb o x then 1 else 0) + cnt o l.
Proof.
  destruct (Nat.eqb o x) eqn:E.
  - apply Nat.eqb_eq in E. subst. apply cnt_cons_eq.
  - apply Nat.eqb_neq in E. apply cnt_cons_neq. congruence.
Qed.

Section Additive.
  Variable m : list nat -> nat.
  Hypothesis m_app : forall a b, m (a ++ b) = m a + m b.
  Hypothesis m_nil : m [] = 0.

  Definition tg (ob : obj) : list nat := map et (strong ob).

  Lemma m_targets_cons ob h : m (targets (ob :: h)) = m (tg ob) + m (targets h).
  Proof. unfold targets. cbn [flat_map]. apply m_app. Qed.

  Lemma m_targets_app h1 h2 : m (targets (h1 ++ h2)) = m (targets h1) + m (targets h2).
  Proof. unfold targets. rewrite flat_map_app. apply m_app. Qed.

  Lemma m_targets_upd h i ob ob' :
    nth_error h i = Some ob ->
    m (targets (upd h i ob')) + m (tg ob) = m (targets h) + m (tg ob').
  Proof.
    revert i; induction h as [|y h IH]; intros [|i] H; cbn [nth_error upd] in H |- *; try discriminate.
    - injection H as ->. rewrite !m_targets_cons. lia.
    - rewrite !m_targets_cons. specialize (IH _ H). lia.
  Qed.

  Lemma m_filter_split (f : edge -> bool) (es : list edge) :
    m (map et es) = m (map et (filter f es)) + m (map et (filter (fun e => negb (f e)) es)).
  Proof.
    induction es as [|e es IH]; cbn [filter map]; [rewrite m_nil; reflexivity|].
    change (et e :: map et es) with ([et e] ++ map et es). rewrite m_app, IH.
    destruct (f e); cbn [negb map];
      [change (et e :: map et (filter f es)) with ([et e] ++ map et (filter f es))
      |change (et e :: map et (filter (fun e0 => negb (f e0)) es)) with ([et e] ++ map et (filter (fun e0 => negb (f e0)) es))];
      rewrite m_app; lia.
  Qed.

  (* dissolve returns exactly the handles it removed *)
  Lemma m_dissolve_fold f lk cs :
    (forall g h1, m (targets h1) = m (targets (fst (dissolve f lk g h1))) + m (snd (dissolve f lk g h1))) ->
    forall acc x,
      x = m (targets (fst acc)) + m (snd acc) + m (map et cs) ->
      x = m (targets (fst (fold_left (dstep f lk) cs acc))) + m (snd (fold_left (dstep f lk) cs acc)).
  Proof.
    intros IH. induction cs as [|e cs IHcs]; intros acc x Hx; cbn [fold_left map] in *.
    - rewrite m_nil in Hx. lia.
    - apply IHcs. change (et e :: map et cs) with ([et e] ++ map et cs) in Hx. rewrite m_app in Hx.
      unfold dstep. destruct (ek e); cbn [fst snd]; rewrite ?m_app; try lia.
      specialize (IH (et e) (fst acc)). lia.
  Qed.

  Lemma m_dissolve fuel : forall locked g h,
    m (targets h) = m (targets (fst (dissolve fuel locked g h))) + m (snd (dissolve fuel locked g h)).
  Proof.
    induction fuel as [|f IH]; intros locked g h; [cbn [dissolve fst snd]; rewrite m_nil; lia|]. rewrite dissolve_S.
    destruct (existsb (Nat.eqb g) locked); [cbn [fst snd]; rewrite m_nil; lia|].
    destruct (nth_error h g) as [ob|] eqn:E; [|cbn [fst snd]; rewrite m_nil; lia].
    apply m_dissolve_fold; [intros; apply IH|]. cbn [fst snd]. rewrite m_nil.
    pose proof (m_targets_upd h g ob (set_strong ob (plain_edges ob)) E) as H.
    unfold tg in H. cbn [set_strong strong] in H.
    pose proof (m_filter_split (fun e => is_conn (ek e)) (strong ob)) as H2.
    unfold conn_edges, plain_edges in *. lia.
  Qed.

  Lemma m_dissolve_all h gs :
    m (targets h) = m (targets (fst (dissolve_all h gs))) + m (snd (dissolve_all h gs)).
  Proof.
    unfold dissolve_all. apply (fold_inv (fun acc => m (targets h) = m (targets (fst acc)) + m (snd acc))).
    - intros acc g Ha. cbn [fst snd]. rewrite m_app. pose proof (m_dissolve (S (length h)) [] g (fst acc)). lia.
    - cbn [fst snd]. rewrite m_nil. lia.
  Qed.
End Additive.

Lemma cnt_dissolve_all o h gs :
  cnt o (targets h) = cnt o (targets (fst (dissolve_all h gs))) + cnt o (snd (dissolve_all h gs)).
Proof. apply (m_dissolve_all (cnt o) (cnt_app o) (cnt_nil o)). Qed.

Lemma len_dissolve_all h gs :
  length (targets h) = length (targets (fst (dissolve_all h gs))) + length (snd (dissolve_all h gs)).
Proof. apply (m_dissolve_all (@length nat) (@app_length nat) eq_refl). Qed.

Lemma cnt_targets_upd o h i ob ob' :
  nth_error h i = Some ob ->
  cnt o (targets (upd h i ob')) + cnt o (tg ob) = cnt o (targets h) + cnt o (tg ob').
Proof. intros H. eapply (m_targets_upd (cnt o)); eauto using cnt_app, cnt_nil. Qed.

Lemma len_targets_upd h i ob ob' :
  nth_error h i = Some ob ->
  length (targets (upd h i ob')) + length (tg ob) = length (targets h) + length (tg ob').
Proof. intros H. eapply (m_targets_upd (@length nat)); eauto using app_length. Qed.

Lemma tg_in_targets h i ob x : nth_error h i = Some ob -> In x (tg ob) -> In x (targets h).
Proof. intros E Hx. unfold targets. apply in_flat_map. exists ob. split; [eapply nth_error_In; eassumption|assumption]. Qed.

(* ---- dissolve changes nothing but the connection edges ---- *)
Definition shrunk (a b : obj) : Prop :=
  otag b = otag a /\ rc b = rc a /\ live b = live a /\ weak b = weak a /\
  (strong b = strong a \/ strong b = plain_edges a).

Definition shr (h h' : heap) : Prop :=
  length h' = length h /\
  forall i a, nth_error h i = Some a -> exists b, nth_error h' i = Some b /\ shrunk a b.

Lemma plain_idem ob : filter (fun e => negb (is_conn (ek e))) (plain_edges ob) = plain_edges ob.
Proof.
  unfold plain_edges. induction (strong ob) as [|e es IH]; cbn [filter]; [reflexivity|].
  destruct (negb (is_conn (ek e))) eqn:E; cbn [filter]; [rewrite E, IH; reflexivity|assumption].
Qed.

Lemma shrunk_refl a : shrunk a a.
Proof. unfold shrunk; auto 10. Qed.

Lemma shrunk_plain a b : shrunk a b -> plain_edges b = plain_edges a.
Proof.
  intros (_ & _ & _ & _ & [H|H]); unfold plain_edges at 1; rewrite H; [reflexivity|apply plain_idem].
Qed.

Lemma shrunk_trans a b c : shrunk a b -> shrunk b c -> shrunk a c.
Proof.
  intros Hab Hbc. pose proof (shrunk_plain _ _ Hab) as Hp.
  destruct Hab as (T1 & R1 & L1 & W1 & S1), Hbc as (T2 & R2 & L2 & W2 & S2).
  unfold shrunk. repeat split; try congruence.
  destruct S2 as [S2|S2]; [destruct S1; [left|right]; congruence|right; congruence].
Qed.

Lemma shr_refl h : shr h h.
Proof. split; [reflexivity|]. intros i a H. exists a. split; [assumption|apply shrunk_refl]. Qed.

Lemma shr_trans h1 h2 h3 : shr h1 h2 -> shr h2 h3 -> shr h1 h3.
Proof.
  intros [L1 H1] [L2 H2]. split; [congruence|]. intros i a Ha.
  destruct (H1 _ _ Ha) as (b & Hb & Sab). destruct (H2 _ _ Hb) as (c & Hc & Sbc).
  exists c. split; [assumption|eapply shrunk_trans; eassumption].
Qed.

Lemma shr_back h h' i b : shr h h' -> nth_error h' i = Some b -> exists a, nth_error h i = Some a /\ shrunk a b.
Proof.
  intros [L H] Hb. assert (Hi : i < length h) by (rewrite <- L; eapply nth_some_lt; eassumption).
  destruct (nth_lt_some _ _ Hi) as (a & Ea). destruct (H _ _ Ea) as (b' & Eb & S).
  exists a. split; [assumption|]. congruence.
Qed.

Lemma shr_map {A} (f : obj -> A) : (forall a b, shrunk a b -> f b = f a) ->
  forall h h', shr h h' -> map f h' = map f h.
Proof.
  intros Hf. induction h as [|a h IH]; intros [|b h'] [L H]; cbn [length] in L; try discriminate; [reflexivity|].
  destruct (H 0 a eq_refl) as (b' & Eb & Sab). cbn [nth_error] in Eb. injection Eb as <-.
  cbn [map]. rewrite (Hf _ _ Sab). f_equal. apply IH. split; [lia|]. intros i x Hx. apply (H (S i) x Hx).
Qed.

Lemma shr_nth {A} (f : obj -> A) h h' x : (forall a b, shrunk a b -> f b = f a) -> shr h h' ->
  option_map f (nth_error h' x) = option_map f (nth_error h x).
Proof. intros Hf S. rewrite <- !nth_error_map, (shr_map f Hf h h' S). reflexivity. Qed.

Lemma shr_upd_plain h g ob : nth_error h g = Some ob -> shr h (upd h g (set_strong ob (plain_edges ob))).
Proof.
  intros E. split; [apply upd_length|]. intros i a Ha. destruct (Nat.eq_dec g i) as [->|Hn].
  - rewrite nth_upd_eq by (eapply nth_some_lt; eassumption). eexists. split; [reflexivity|].
    assert (a = ob) by congruence. subst a. unfold shrunk; cbn [set_strong otag rc live weak strong]. auto 10.
  - rewrite nth_upd_neq by assumption. exists a. split; [assumption|apply shrunk_refl].
Qed.

Lemma shr_dissolve fuel : forall locked g h, shr h (fst (dissolve fuel locked g h)).
Proof.
  induction fuel as [|f IH]; intros locked g h; [apply shr_refl|]. rewrite dissolve_S.
  destruct (existsb (Nat.eqb g) locked); [apply shr_refl|].
  destruct (nth_error h g) as [ob|] eqn:E; [|apply shr_refl].
  apply (dstep_inv f (g :: locked) (shr h)); [|apply shr_upd_plain; assumption].
  intros g' h1 H1. eapply shr_trans; [exact H1|apply IH].
Qed.

Lemma shr_dissolve_all h gs : shr h (fst (dissolve_all h gs)).
Proof.
  unfold dissolve_all. apply (fold_inv (fun acc => shr h (fst acc))); [|apply shr_refl].
  intros acc g H0. cbn [fst]. eapply shr_trans; [exact H0|apply shr_dissolve].
Qed.

Lemma dissolve_frame_locked fuel : forall locked g x h ob,
  In x locked -> nth_error h x = Some ob -> nth_error (fst (dissolve fuel locked g h)) x = Some ob.
Proof.
  induction fuel as [|f IH]; intros locked g x h ob Hin Hx; [assumption|]. rewrite dissolve_S.
  destruct (existsb (Nat.eqb g) locked) eqn:Eg; [assumption|].
  destruct (nth_error h g) as [og|] eqn:E; [|assumption].
  assert (Hne : g <> x).
  { intros ->. apply existsb_eqb in Hin. congruence. }
  apply (dstep_inv f (g :: locked) (fun h' => nth_error h' x = Some ob)); [|cbn [fst]; rewrite nth_upd_neq; assumption].
  intros g' h1 H1. apply IH; [right; assumption|assumption].
Qed.

Lemma dissolve_clears fuel locked g h ob :
  existsb (Nat.eqb g) locked = false -> nth_error h g = Some ob ->
  nth_error (fst (dissolve (S fuel) locked g h)) g = Some (set_strong ob (plain_edges ob)).
Proof.
  intros Eg E. rewrite dissolve_S, Eg, E.
  apply (dstep_inv fuel (g :: locked) (fun h' => nth_error h' g = Some (set_strong ob (plain_edges ob)))).
  - intros g' h1 H1. apply dissolve_frame_locked; [left; reflexivity|assumption].
  - cbn [fst]. apply nth_upd_eq. eapply nth_some_lt; eassumption.
Qed.
