(* C20 -- releasing the roots frees everything.

   For every heap whose counts are consistent ([inv]), whose edges follow the
   schema of Own/Shape.v ([typed false], the schema after the fixes 6ce5d8e and 012bc88) and whose
   connected gates are listed by a module context ([owned]): after all root
   handles have been dropped, no object is allocated any more.  The argument is
   the one of DESIGN.md: every strong edge other than the connection edges of a
   gate descends in the order
   (type rank, then path length for module contexts); connection edges are cut by
   [dissolve_paths] when the module context that lists the gate is freed. *)
From Coq Require Import List NArith Arith Bool Lia.
From DesVerif Require Import Common.Lists Own.Heap Own.Frame Own.Inv Own.Shape Own.Safe.
Import ListNotations.

(* ---- facts about the schema table ---- *)
Lemma kf_plain k n : kf k n = true -> is_conn k = false.
Proof. destruct k; cbn; congruence. Qed.

Lemma edge_ok_conn pin a k b : edge_ok pin a k b = true -> is_conn k = true -> a = TGate.
Proof.
  intros H C. destruct a, b; cbn [edge_ok] in H; try discriminate; try reflexivity;
    repeat match goal with
           | H : _ && _ = true |- _ => apply andb_true_iff in H; destruct H
           | H : kf _ _ = true |- _ => apply kf_plain in H; congruence
           end.
Qed.

(* the descent: schema [edge_ok false], ordinary field.  The only edge that stays within a rank
   is context -> child context (KField 3), which goes one level down the module tree. *)
Lemma edge_ok_desc a k b :
  edge_ok false a k b = true -> is_conn k = false ->
  trank b < trank a \/ (trank b = trank a /\ tdepth a < tdepth b).
Proof.
  intros H C. destruct k; try discriminate.
  destruct a; destruct b; try discriminate; cbn [trank tdepth]; try (left; apply Nat.ltb_lt; reflexivity).
  right. apply andb_true_iff in H. destruct H as [_ H]. apply Nat.ltb_lt in H. lia.
Qed.

Lemma trank_le t : trank t <= 12.
Proof. destruct t; cbn; lia. Qed.

(* ---- the invariants that the release machine keeps ---- *)
Lemma shrunk_in a b e : shrunk a b -> In e (strong b) -> In e (strong a).
Proof.
  intros (_ & _ & _ & _ & [H|H]) Hin; rewrite H in Hin; [assumption|].
  unfold plain_edges in Hin. apply filter_In in Hin. apply Hin.
Qed.

Lemma shrunk_keeps_plain a b e : shrunk a b -> In e (strong a) -> is_conn (ek e) = false -> In e (strong b).
Proof.
  intros (_ & _ & _ & _ & [H|H]) Hin C; rewrite H; [assumption|].
  unfold plain_edges. apply filter_In. split; [assumption|]. rewrite C. reflexivity.
Qed.

Lemma typed_shr pin h h' : shr h h' -> typed pin h -> typed pin h'.
Proof.
  intros Shr T o ob e Eo Hin. destruct (shr_back _ _ _ _ Shr Eo) as (a & Ea & Sa).
  destruct (T _ _ _ Ea (shrunk_in _ _ _ Sa Hin)) as (tb & Et & Ok).
  destruct Shr as [_ Hs]. destruct (Hs _ _ Et) as (tb' & Et' & (Tg & _)).
  exists tb'. split; [assumption|]. destruct Sa as (Ta & _). rewrite Tg, Ta. assumption.
Qed.

Definition conn_free (ob : obj) : Prop := forall e, In e (strong ob) -> is_conn (ek e) = false.

Lemma conn_free_plain ob : conn_free (set_strong ob (plain_edges ob)).
Proof.
  intros e Hin. cbn [set_strong strong] in Hin. unfold plain_edges in Hin. apply filter_In in Hin.
  destruct Hin as [_ H]. apply negb_true_iff in H. assumption.
Qed.

Lemma conn_free_shrunk a b : shrunk a b -> conn_free a -> conn_free b.
Proof. intros S F e Hin. apply F. eapply shrunk_in; eassumption. Qed.

(* after ModuleContext::drop every gate it was called on is without connections: the call on
   [g] itself empties it, the calls after that only shrink *)
Lemma dissolve_all_clears h gs g ob :
  In g gs -> nth_error (fst (dissolve_all h gs)) g = Some ob -> conn_free ob.
Proof.
  intros Hin. apply in_split in Hin. destruct Hin as (l1 & l2 & ->). unfold dissolve_all. rewrite fold_left_app. cbn [fold_left].
  revert ob. apply (fold_inv (fun acc => forall ob, nth_error (fst acc) g = Some ob -> conn_free ob)); cbn [fst].
  - intros acc g0 Ha ob Hob. destruct (shr_back _ _ _ _ (shr_dissolve _ [] g0 (fst acc)) Hob) as (a & Ea & Sa).
    eapply conn_free_shrunk; eauto.
  - intros ob Hob. destruct (shr_back _ _ _ _ (shr_dissolve _ [] g _) Hob) as (a & Ea & _).
    rewrite (dissolve_clears _ [] g _ a eq_refl Ea) in Hob. injection Hob as <-. apply conn_free_plain.
Qed.

Lemma typed_upd2 pin h i a b :
  nth_error h i = Some a -> otag b = otag a -> typed pin h ->
  (forall e, In e (strong b) -> In e (strong a) \/
     exists tb, nth_error h (et e) = Some tb /\ edge_ok pin (otag a) (ek e) (otag tb) = true) ->
  typed pin (upd h i b).
Proof.
  intros Ea Tg T Hb x ob e Ex Hin. assert (Hi : i < length h) by (eapply nth_some_lt; eassumption).
  assert (Hsrc : exists tb, nth_error h (et e) = Some tb /\ edge_ok pin (otag ob) (ek e) (otag tb) = true).
  { rewrite nth_upd_case in Ex by assumption. destruct (Nat.eqb x i) eqn:Exi.
    - injection Ex as <-. rewrite Tg. destruct (Hb e Hin) as [H|H]; [eapply T; eassumption|assumption].
    - eapply T; eassumption. }
  destruct Hsrc as (tb & Et & Ok). rewrite nth_upd_case by assumption. destruct (Nat.eqb (et e) i) eqn:Ee.
  - apply Nat.eqb_eq in Ee. exists b. split; [reflexivity|]. rewrite Ee in Et. assert (tb = a) by congruence. subst tb.
    rewrite Tg. assumption.
  - exists tb. auto.
Qed.

Lemma owned_upd pin h i a b :
  nth_error h i = Some a -> otag b = otag a -> typed pin h -> owned h ->
  (forall e, In e (strong b) -> is_conn (ek e) = true -> In e (strong a) \/ listed h i = true) ->
  (is_ctx (otag a) = true -> conn_free b /\
     forall g, In g (map et (strong a)) -> In g (map et (strong b)) \/ has_conn h g = false) ->
  owned (upd h i b).
Proof.
  intros Ea Tg T O Hconn Hctx g gb e Eg Hin C. assert (Hi : i < length h) by (eapply nth_some_lt; eassumption).
  assert (Hl : exists c oc, nth_error h c = Some oc /\ is_ctx (otag oc) = true /\ In g (map et (strong oc))).
  { rewrite nth_upd_case in Eg by assumption. destruct (Nat.eqb g i) eqn:Egi.
    - apply Nat.eqb_eq in Egi. subst g. injection Eg as <-. destruct (Hconn e Hin C) as [H|H]; [eapply O; eassumption|].
      unfold listed in H. apply existsb_eqb in H. rename H into Hy.
      unfold ctx_targets in Hy. apply in_flat_map in Hy. destruct Hy as (oc & Hoc & Hy).
      destruct (is_ctx (otag oc)) eqn:Ic; [|destruct Hy]. apply In_nth_error in Hoc. destruct Hoc as (c & Ec). eauto 10.
    - eapply O; eassumption. }
  destruct Hl as (c & oc & Ec & Ic & Hgc).
  destruct (Nat.eq_dec c i) as [->|Hn].
  - assert (oc = a) by congruence. subst oc. destruct (Hctx Ic) as [Fb Hkeep].
    exists i, b. rewrite nth_upd_eq by assumption. split; [reflexivity|]. split; [rewrite Tg; assumption|].
    destruct (Hkeep g Hgc) as [H|H]; [assumption|exfalso].
    rewrite nth_upd_case in Eg by assumption. destruct (Nat.eqb g i) eqn:Egi.
    + injection Eg as <-. specialize (Fb e Hin). congruence.
    + unfold has_conn, edges_of in H. rewrite Eg in H.
      assert (existsb (fun e0 => is_conn (ek e0)) (strong gb) = true); [|congruence].
      apply existsb_exists. eauto.
  - exists c, oc. rewrite nth_upd_neq by congruence. auto.
Qed.

Lemma ctx_conn_free pin h c oc : typed pin h -> nth_error h c = Some oc -> is_ctx (otag oc) = true -> conn_free oc.
Proof.
  intros T Ec Ic e Hin. destruct (is_conn (ek e)) eqn:C; [|reflexivity].
  destruct (T _ _ _ Ec Hin) as (tb & _ & Ok). pose proof (edge_ok_conn _ _ _ _ Ok C) as H. rewrite H in Ic. discriminate.
Qed.

Record good (pin : bool) (s : st) (todo : list nat) : Prop := {
  g_inv : inv s todo;
  g_typed : typed pin (hp s);
  g_owned : owned (hp s) }.

Theorem good_step pin s o r : good pin s (o :: r) -> good pin (fst (step s o)) (snd (step s o) ++ r).
Proof.
  intros [I T O]. split; [apply inv_step; assumption| |];
    destruct (step_cases s o) as [Hb|ob ob1 E L R1 E1 Sh|ob E L R2]; cbn [fst hp]; try assumption.
  - (* typed, free *)
    apply (typed_upd2 pin _ o ob1); [assumption|reflexivity| |intros e []].
    eapply typed_shr; [apply pre_free_shr|assumption].
  - (* typed, decrement *)
    apply (typed_upd2 pin _ o ob); auto.
  - (* owned, free *)
    pose proof (pre_free_shr s ob) as Shr. set (h1 := fst (pre_free s ob)) in *.
    assert (Ho1 : o < length h1) by (eapply nth_some_lt; eassumption).
    intros g gb e Eg Hin C.
    destruct (Nat.eq_dec o g) as [<-|Hng].
    { rewrite nth_upd_eq in Eg by assumption. injection Eg as <-. destruct Hin. }
    rewrite nth_upd_neq in Eg by assumption.
    destruct (shr_back _ _ _ _ Shr Eg) as (ga & Ega & Sga).
    destruct (O g ga e Ega (shrunk_in _ _ _ Sga Hin) C) as (c & oc & Ec & Ic & Hgc).
    destruct (Nat.eq_dec o c) as [<-|Hnc].
    + (* the owner is the context being freed: its Drop emptied the gate *)
      exfalso. assert (oc = ob) by congruence. subst oc.
      assert (F : conn_free gb).
      { unfold h1, pre_free in Eg. rewrite Ic in Eg. eapply dissolve_all_clears; eassumption. }
      specialize (F e Hin). congruence.
    + destruct Shr as [_ Hs]. destruct (Hs _ _ Ec) as (oc' & Ec' & Soc).
      exists c, oc'. rewrite nth_upd_neq by assumption. split; [assumption|]. split.
      * destruct Soc as (Tg & _). rewrite Tg. assumption.
      * apply in_map_iff in Hgc. destruct Hgc as (e' & He' & Hin').
        apply in_map_iff. exists e'. split; [assumption|].
        eapply shrunk_keeps_plain; [eassumption|assumption|].
        destruct (T _ _ _ Ec Hin') as (tb & Et & Ok).
        destruct (is_conn (ek e')) eqn:C'; [|reflexivity].
        pose proof (edge_ok_conn _ _ _ _ Ok C') as Hgate. destruct (otag oc); discriminate.
  - (* owned, decrement *)
    apply (owned_upd pin _ o ob); auto. intros Ic. split; [exact (ctx_conn_free _ _ _ _ T E Ic)|auto].
Qed.

Theorem good_release_all pin s roots : good pin s roots -> good pin (release_all s roots) [].
Proof. apply (release_all_ind (good pin)). apply good_step. Qed.

(* ---- nothing survives once no handle is pending ---- *)
Lemma has_pred s o ob : inv s [] -> nth_error (hp s) o = Some ob -> live ob = true ->
  exists p pb e, nth_error (hp s) p = Some pb /\ In e (strong pb) /\ et e = o.
Proof.
  intros I E L. pose proof (i_live _ _ I _ _ E L) as H1.
  pose proof (i_cnt _ _ I o (nth_some_lt _ _ _ E)) as H2. unfold rc_of in H2. rewrite E, cnt_nil in H2.
  assert (Hin : In o (targets (hp s))) by (apply cnt_pos_in; lia).
  unfold targets in Hin. apply in_flat_map in Hin. destruct Hin as (pb & Hpb & Hin).
  apply in_map_iff in Hin. destruct Hin as (e & He & Hin).
  apply In_nth_error in Hpb. destruct Hpb as (p & Ep). eauto 10.
Qed.

Lemma has_edges_live s todo p pb e : inv s todo -> nth_error (hp s) p = Some pb -> In e (strong pb) -> live pb = true.
Proof.
  intros I E Hin. destruct (live pb) eqn:L; [reflexivity|].
  destruct (i_dead _ _ I _ _ E L) as [_ H]. rewrite H in Hin. destruct Hin.
Qed.

Lemma no_survivor s : good false s [] ->
  forall n d o ob, nth_error (hp s) o = Some ob -> live ob = true ->
    12 - trank (otag ob) = n -> tdepth (otag ob) = d -> False.
Proof.
  intros [I T O]. induction n as [n IHn] using lt_wf_ind. induction d as [d IHd] using lt_wf_ind.
  intros o ob E L Hn Hd.
  destruct (has_pred s o ob I E L) as (p & pb & e & Ep & Hin & Het).
  pose proof (has_edges_live _ _ _ _ _ I Ep Hin) as Lp.
  destruct (T _ _ _ Ep Hin) as (tb & Et & Ok). rewrite Het in Et. assert (tb = ob) by congruence. subst tb.
  destruct (is_conn (ek e)) eqn:C.
  - (* a connection edge: the gate [p] is listed by a live module context, which ranks above [o] *)
    pose proof (edge_ok_conn _ _ _ _ Ok C) as Hg.
    destruct (O _ _ _ Ep Hin C) as (c & oc & Ec & Ic & Hgc).
    apply in_map_iff in Hgc. destruct Hgc as (e' & He' & Hin').
    pose proof (has_edges_live _ _ _ _ _ I Ec Hin') as Lc.
    assert (Rc : trank (otag oc) = 9) by (destruct (otag oc); try discriminate; reflexivity).
    assert (Ro : trank (otag ob) <= 4).
    { rewrite Hg in Ok. destruct (otag ob); cbn [edge_ok] in Ok; try discriminate; cbn; lia. }
    eapply (IHn (12 - trank (otag oc))); [lia|exact Ec|exact Lc|reflexivity|reflexivity].
  - destruct (edge_ok_desc _ _ _ Ok C) as [Hr|[Hr Hdp]].
    + pose proof (trank_le (otag pb)).
      eapply (IHn (12 - trank (otag pb))); [lia|exact Ep|exact Lp|reflexivity|reflexivity].
    + eapply (IHd (tdepth (otag pb))); [lia|exact Ep|exact Lp|lia|reflexivity].
Qed.

Theorem all_freed s roots : good false s roots ->
  forall o ob, nth_error (hp (release_all s roots)) o = Some ob -> live ob = false.
Proof.
  intros G o ob E. pose proof (good_release_all _ _ _ G) as G'.
  destruct (live ob) eqn:L; [exfalso|reflexivity].
  eapply (no_survivor _ G'); try eassumption; reflexivity.
Qed.

(* tags never change, objects are never created or renumbered *)
Lemma map_upd_same {A B} (f : A -> B) (l : list A) i x a : nth_error l i = Some a -> f x = f a -> map f (upd l i x) = map f l.
Proof.
  revert i; induction l as [|y l IH]; intros [|i] E Hf; cbn [nth_error upd map] in *; try discriminate.
  - injection E as ->. rewrite Hf. reflexivity.
  - rewrite (IH _ E Hf). reflexivity.
Qed.

Lemma step_otags s o : map otag (hp (fst (step s o))) = map otag (hp s).
Proof.
  destruct (step_cases s o) as [Hb|ob ob1 E L R1 E1 Sh|ob E L R2]; cbn [fst hp]; [reflexivity| |].
  - rewrite (map_upd_same otag _ _ (dead_of ob1) _ E1 eq_refl). apply (shr_map otag (fun a b Sab => proj1 Sab)). apply pre_free_shr.
  - apply (map_upd_same otag _ _ (set_rc ob _) _ E eq_refl).
Qed.

Lemma release_all_otags s roots : map otag (hp (release_all s roots)) = map otag (hp s).
Proof.
  apply (release_all_ind (fun s' _ => map otag (hp s') = map otag (hp s))); [|reflexivity].
  intros s' o _ <-. apply step_otags.
Qed.

Lemma release_all_length s roots : length (hp (release_all s roots)) = length (hp s).
Proof. rewrite <- (map_length otag), release_all_otags. apply map_length. Qed.

(* every object is in the destructor log exactly once *)
Theorem freed_exactly_once s roots : good false s roots ->
  forall o, o < length (hp s) -> cnt o (freed (release_all s roots)) = 1.
Proof.
  intros G o Ho. pose proof (good_release_all _ _ _ G) as [I' _ _].
  rewrite <- (release_all_length s roots) in Ho. destruct (nth_lt_some _ _ Ho) as (ob & E).
  assert (Hin : In o (freed (release_all s roots))).
  { apply (i_freed _ _ I'). exists ob. split; [assumption|]. exact (all_freed s roots G o ob E). }
  unfold cnt. apply (NoDup_count_occ' Nat.eq_dec); [apply (i_nodup _ _ I')|assumption].
Qed.

(* ---- releasing some handles while others are kept ---- *)
Theorem good_release_frame pin s roots extra : good pin s (roots ++ extra) -> good pin (release_all s roots) extra.
Proof.
  apply (release_all_ind (fun s t => good pin s (t ++ extra))). intros s' o r G. rewrite <- app_assoc. apply good_step. exact G.
Qed.

Lemma good_cnt_ext pin s R R' : good pin s R -> (forall o, cnt o R = cnt o R') -> good pin s R'.
Proof. intros [I T O] H. split; [eapply inv_cnt_ext; eassumption|assumption|assumption]. Qed.
