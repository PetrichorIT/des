(* C06 — All runnable async work finishes within the simulated instant that enabled it.
   The statements, each proved in a few lines from the lemmas of the directories it imports.

   AS STATED ("however many tasks or wake-ups the instant involves") THE PROPERTY IS FALSE
   of the pinned code (finding F4, Refuted/C06.v): one module callback is one
   LocalSet::block_on(rt, async { f(); yield_now().await }), which gives the module's
   tasks ONE LocalSet tick (at most MAX_TASKS_PER_TICK = 61 polls) and ONE scheduler turn
   (at most event_interval = 61 polls), each poll under the cooperative budget of 128
   resource operations; what is still runnable afterwards runs at the module's next
   callback, at a later simulated time.

   What is proved here, for ALL values of the three budgets and ALL task systems of the
   model's language (Exec/Model.v: tasks are finite scripts over Log | Recv | Send t |
   Join t | Yield | End, spawned with spawn_local or tokio::spawn by the callback, one
   unbounded channel per task, JoinHandles, yield_now; callbacks = at_sim_start, messages
   handled by handle_message, messages CONSUMED by a processing element -- whose hooks run
   outside the runtime and may wake tasks through channels, tokio::spawn tasks then going
   through the scheduler's inject queue -- and the tear-down; every one of them drives the
   runtime with one Harness::exec, the consumed message with exec of an empty callback; a
   callback may request shutdown() / shutdow_and_restart_in(d): its exec runs as usual, then
   the runtime is dropped and replaced, messages are ignored until the restart replays
   at_sim_start):

   [KnownClass x] = the event x (budgets, instant, callback actions, state of the task
   system) is over budget: the first round of the executor WITHOUT budgets (one unbounded
   LocalSet tick, one unbounded scheduler turn) needs more than b_local / b_rt polls, or
   some poll attempts more than b_coop resource operations, or yields, or a LocalSet task
   is woken after the LocalSet's tick.  The main theorem has the form
   forall x, ~ KnownClass x -> P x. *)
From Coq Require Import List NArith.
From DesVerif Require Import Exec.Model Exec.Basics Exec.Measure Exec.Mode Exec.Budget Exec.Wake Exec.Segments Exec.Witness.
Import ListNotations.
Open Scope N_scope.

(* The executor without budgets -- rounds of (LocalSet tick, scheduler turn) without poll
   limit and without cooperative budget, a yield re-queueing at once, repeated until no
   task is runnable -- terminates on every task system (its fuel, the measure of the
   state, is never exhausted) and ends with every queue empty. *)
Theorem C06_ideal_executor_reaches_quiescence : forall now acts s,
  exists s', ideal_event now acts s = Some s' /\ quiescent s' = true.
Proof. exact ideal_event_quiescent. Qed.
Print Assumptions C06_ideal_executor_reaches_quiescence.

(* Outside the known class, the bounded executor (tokio's
   phases with budgets b_local, b_rt, b_coop and deferred wakes) returns with all queues
   empty and its result -- final state including the whole log, and what every poll did --
   is exactly that of the executor without budgets. *)
Theorem C06_quiescent_if_within_budget : forall x, ~ KnownClass x ->
  queue_after x = [] /\
  ideal_event (e_now x) (e_acts x) (e_st x) = Some (fst (fst (exec_bounded x))) /\
  exec_bounded x = ideal_first x.
Proof. exact quiescent_if_within_budget. Qed.
Print Assumptions C06_quiescent_if_within_budget.

(* the class is exactly "does not fit": [fits] spells out the five conditions *)
Theorem C06_known_class_is_over_budget : forall x,
  (KnownClass x -> ~ fits (e_b x) (snd (fst (ideal_first x))) (snd (ideal_first x))) /\
  (~ KnownClass x -> fits (e_b x) (snd (fst (ideal_first x))) (snd (ideal_first x))).
Proof.
  intros x. split; [intros Hk Hf; exact (proj2 (known_fits x) Hf Hk)|exact (proj1 (known_fits x))].
Qed.
Print Assumptions C06_known_class_is_over_budget.

(* whenever the bounded executor returns with a task still queued, the event is in the class *)
Theorem C06_leftover_only_in_known_class : forall x, queue_after x <> [] -> KnownClass x.
Proof. exact leftover_known. Qed.
Print Assumptions C06_leftover_only_in_known_class.

(* The class is tight: an event of the class ALWAYS leaves work behind (a task still queued
   or a deferred task re-queued at the park).  So, for every event, every state and every
   value of the budgets: the bounded executor returns quiescent iff the event fits. *)
Theorem C06_quiescent_iff_within_budget : forall x, queue_after x = [] <-> ~ KnownClass x.
Proof. exact quiescent_iff_within_budget. Qed.
Print Assumptions C06_quiescent_iff_within_budget.

(* Larger budgets never change an event that fits *)
Theorem C06_budget_monotone : forall x b', ~ KnownClass x -> ble (e_b x) b' ->
  ~ KnownClass (with_budgets b' x) /\ exec_bounded (with_budgets b' x) = exec_bounded x.
Proof. exact budget_monotone. Qed.
Print Assumptions C06_budget_monotone.

(* Every queue entry carries a wake record: the instant at
   which the task was made runnable (spawned; message sent to its channel while it awaited
   recv; awaited task finished; deferred wake).  A poll is logged as (task, woken, now).
   In a run of the bounded executor in which no event is in the known class, every poll
   has woken = now: the code that follows an await runs in, and observes, the instant
   that satisfied the await. *)
Theorem C06_await_observes_enabling_instant : forall b g ts start evs,
  run_within b g ts start evs -> polls_timely (run_model b g ts start evs).
Proof. exact await_observes_enabling_instant. Qed.
Print Assumptions C06_await_observes_enabling_instant.

(* ... and the time an operation (Log, completed Recv / Join / Yield, ...) records is the
   time of the poll it runs in: in the log read backwards, every operation record
   (task, t) directly follows the poll record of that task at t or another operation
   record of the same poll.  (Unconditional.) *)
Theorem C06_ops_within_their_poll : forall b g ts start evs, ops_ok (rev (run_model b g ts start evs)).
Proof. exact ops_within_their_poll. Qed.
Print Assumptions C06_ops_within_their_poll.

(* Independently of the budgets: one Harness::exec that STARTS with empty queues only
   polls tasks made runnable during that same exec.  Late polls can therefore only be of
   tasks left behind by an earlier, over-budget, event. *)
Theorem C06_exec_from_quiescence_is_timely : forall bl br c now now0 acts s,
  inv now0 s -> quiescent s = true -> polls_timely (trace (ee_st (exec_event bl br c now acts s))).
Proof. exact exec_from_quiescent_timely. Qed.
Print Assumptions C06_exec_from_quiescence_is_timely.

(* The consumed-message path (ModuleRef::handle_message when a processing element returns
   None): the element's hooks wake tasks outside the runtime, then exec(|| {}) drives it.
   Starting from empty queues, every task polled in that exec was made runnable by those
   hooks (or during the exec): nothing woken by a consuming element waits for a later event,
   as long as the exec itself fits the budgets (main theorem). *)
Theorem C06_consumed_message_is_driven : forall bl br c now now0 pre s,
  inv now0 s -> quiescent s = true ->
  polls_timely (trace (ee_st (exec_event bl br c now [] (pre_hooks now pre s)))).
Proof. exact consumed_event_timely. Qed.
Print Assumptions C06_consumed_message_is_driven.

(* A callback that requests a shutdown drives the runtime exactly as it would without the
   request (tasks it woke are polled in that event, before buf_process tears the runtime
   down): the exec of the callback's actions = the exec of the actions minus the request. *)
Theorem C06_shutdown_request_keeps_exec : forall bl br c now acts s,
  exec_event bl br c now acts s = exec_event bl br c now (no_shutdown acts) s.
Proof. exact shutdown_request_keeps_exec. Qed.
Print Assumptions C06_shutdown_request_keeps_exec.

(* Non-vacuity: tokio's budgets (global_queue_interval 31); a wake chain through both
   executors inside one instant.  Task 0 (tokio::spawn) sends to task 1 (spawn_local) --
   which was polled before, in the LocalSet tick, and awaits its channel -- so this event is
   in the known class ... *)
Definition tokio_budgets : budgets := {| b_local := 61; b_rt := 61; b_coop := 128 |}.

Example C06_cross_executor_chain_is_over_budget :
  let ts := [(false, [Log; Send 1]); (true, [Recv; Log])] in
  let evs := [(5, false, [], [Spawn 0; Spawn 1]); (7, false, [], [])] in
  run_model tokio_budgets 31 ts [] evs =
  [RStart 0; RClose 4 0 0 false; REvent 0 5; RPoll 1 5 5; RPoll 0 5 5; ROp 0 5; ROp 0 5; RClose 4 1 1 true;
   REvent 1 12; RPoll 1 5 12; ROp 1 12; ROp 1 12; RClose 4 1 0 false; RClose 5 0 0 false].
Proof. vm_compute. reflexivity. Qed.

(* ... whereas a chain  spawn_local 0 -> spawn_local 1 -> tokio::spawn 3 -> join by
   tokio::spawn 2  fits (LocalSet tick first, scheduler turn second): all of it runs at
   instant 12, the run is outside the class, and the theorems apply.  With a yield_now in
   task 3 the same chain is over budget and completes only at instant 15.  Tasks 1..3 are
   spawned by at_sim_start. *)
Definition chain_tasks (y : list op) : list (bool * list op) :=
  [(true, [Log; Send 1; Send 2]); (true, [Recv; Log; Send 3]); (false, [Recv; Log; Join 3; Log]); (false, [Recv] ++ y ++ [Log])].
Definition chain_start : list act := [Spawn 1; Spawn 2; Spawn 3].
Definition chain_events : list mevent := [(12, false, [], [Spawn 0]); (3, false, [], [])].

Example C06_nonvacuous :
  run_within tokio_budgets 31 (chain_tasks []) chain_start chain_events /\
  run_model tokio_budgets 31 (chain_tasks []) chain_start chain_events =
  [RStart 0; RPoll 1 0 0; RPoll 2 0 0; RPoll 3 0 0; RClose 4 1 2 false;
   REvent 0 12; RPoll 0 12 12; ROp 0 12; ROp 0 12; ROp 0 12; RPoll 1 12 12; ROp 1 12; ROp 1 12; ROp 1 12;
   RPoll 2 12 12; ROp 2 12; ROp 2 12; RPoll 3 12 12; ROp 3 12; ROp 3 12; RPoll 2 12 12; ROp 2 12; ROp 2 12;
   RClose 4 2 3 false; REvent 1 15; RClose 4 0 0 false; RClose 5 0 0 false].
Proof. split; [apply run_withinb_ok|]; vm_compute; reflexivity. Qed.

Example C06_yield_is_over_budget :
  run_model tokio_budgets 31 (chain_tasks [Yield]) chain_start chain_events =
  [RStart 0; RPoll 1 0 0; RPoll 2 0 0; RPoll 3 0 0; RClose 4 1 2 false;
   REvent 0 12; RPoll 0 12 12; ROp 0 12; ROp 0 12; ROp 0 12; RPoll 1 12 12; ROp 1 12; ROp 1 12; ROp 1 12;
   RPoll 2 12 12; ROp 2 12; ROp 2 12; RPoll 3 12 12; ROp 3 12; RClose 4 2 2 true;
   REvent 1 15; RPoll 3 12 15; ROp 3 15; ROp 3 15; RPoll 2 15 15; ROp 2 15; ROp 2 15; RClose 4 0 2 false;
   RClose 5 0 0 false].
Proof. vm_compute. reflexivity. Qed.

(* A message consumed by a processing element whose incoming hook sends to task 0
   (tokio::spawn: inject queue) and task 1 (spawn_local): handle_message is not called (its
   actions are ignored), the exec of the empty callback polls both at instant 5; the next
   message is passed on, its hook wakes task 0 again. *)
Example C06_consumed_message_nonvacuous :
  let ts := [(false, [Recv; Log; Recv; Log]); (true, [Recv; Log])] in
  let evs := [(5, true, [ASend 0; ASend 1], [ASend 0]); (7, false, [ASend 0], [])] in
  run_within tokio_budgets 31 ts [Spawn 0; Spawn 1] evs /\
  run_model tokio_budgets 31 ts [Spawn 0; Spawn 1] evs =
  [RStart 0; RPoll 1 0 0; RPoll 0 0 0; RClose 4 1 1 false;
   REvent 0 5; RPoll 1 5 5; ROp 1 5; ROp 1 5; RPoll 0 5 5; ROp 0 5; ROp 0 5; RClose 4 1 1 false;
   REvent 1 12; RPoll 0 12 12; ROp 0 12; ROp 0 12; RClose 4 0 1 false; RClose 5 0 0 false].
Proof. split; [apply run_withinb_ok|]; vm_compute; reflexivity. Qed.

(* handle_message at instant 2 sends to tasks 0 and 1 and calls shutdow_and_restart_in(5):
   both are polled at 2, then the runtime is replaced (RReset); the messages at 3 and 7 find
   the module inactive (the restart event at 7 is queued behind the message scheduled for 7);
   at_sim_start runs again at 7 and spawns fresh tasks; the message at 8 is handled. *)
Example C06_wake_and_shutdown_nonvacuous :
  let ts := [(false, [Recv; Log; Recv; Log]); (true, [Recv; Log])] in
  let evs := [(1, false, [], [ASend 0]); (1, false, [], [ASend 0; ASend 1; AShutdown (Some 5)]);
              (1, false, [], [ASend 0]); (4, false, [], [ASend 0]); (1, false, [], [ASend 1])] in
  run_within tokio_budgets 31 ts [Spawn 0; Spawn 1] evs /\
  run_model tokio_budgets 31 ts [Spawn 0; Spawn 1] evs =
  [RStart 0; RPoll 1 0 0; RPoll 0 0 0; RClose 4 1 1 false;
   REvent 0 1; RPoll 0 1 1; ROp 0 1; ROp 0 1; RClose 4 0 1 false;
   REvent 1 2; RPoll 1 2 2; ROp 1 2; ROp 1 2; RPoll 0 2 2; ROp 0 2; ROp 0 2; RClose 4 1 1 false;
   RReset 2; RStart 7; RPoll 1 7 7; RPoll 0 7 7; RClose 4 1 1 false;
   REvent 4 8; RPoll 1 8 8; ROp 1 8; ROp 1 8; RClose 4 1 0 false; RClose 5 0 0 false].
Proof. split; [apply run_withinb_ok|]; vm_compute; reflexivity. Qed.
