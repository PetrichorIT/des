(* C19 — Topology views mirror the gate graph and answer graph queries correctly.
   Each theorem with its last step: the lemmas are in coq/Topo/; the filter_nodes view, the filter_edges
   theorem and the history theorem are assembled here.  The model of des/src/net/topology.rs is coq/Topo/Model.v
   (from_modules, spanned, dijkstra, connected, bidirectional, filter_nodes,
   filter_edges, both work lists FIFO); the vocabulary
   (endpoints, far_end, exact_view, walk, treach, topo_ok) is coq/Topo/Graph.v.

   A world is the gate layer as topology.rs sees it: per module the ordered
   list of its gates; an endpoint gate carries the list of gates that path_iter
   visits, the last being the far end.  [short w]: every chain has at most the
   16 hops from_modules supports; [closed w]: every far end is a gate of a
   module of the world. *)
From Coq Require Import List Arith NArith.
From DesVerif Require Import Topo.Model Topo.Graph Topo.FromGates Topo.Spanned Topo.Conn Topo.Filter Topo.Bfs Topo.History.
Import ListNotations.

(* Global view: one node per module, in module order; node i carries, in gate
   order, exactly one edge per endpoint gate of module i, labelled with that
   gate and the gate at the other end of its chain, and leading to the node of
   the module that owns that other gate. *)
Theorem C19_global_view_exact : forall w,
  short w -> closed w ->
  nodes (global_topology w) = seq 0 (length w) /\ exact_view w (global_topology w).
Proof. exact global_view_exact. Qed.
Print Assumptions C19_global_view_exact.

(* from_modules on any duplicate-free list of modules: the same, restricted to
   the chains that end at one of the listed modules. *)
Theorem C19_from_modules_exact : forall w ms,
  short w -> NoDup ms -> exact_view_on (sel_in ms) w (from_modules w ms).
Proof. exact from_modules_exact. Qed.
Print Assumptions C19_from_modules_exact.

(* View spanned from any root (chains of any length): the loop terminates, the
   nodes are exactly the modules reachable from the root, each once, the root
   first; every edge's dst indexes the owner of its end gate (the index
   prediction of the work list is right). *)
Theorem C19_spanned_exact : forall w root,
  closed w -> root < length w ->
  exists t, spanned w root = Some t /\ exact_view w t /\ hd_error (nodes t) = Some root /\
            forall m, In m (nodes t) <-> mreach w root m.
Proof. exact spanned_exact. Qed.
Print Assumptions C19_spanned_exact.

(* exact views are well-formed topologies with distinct nodes: the hypotheses
   of the query theorems below hold for every view *)
Theorem C19_views_wellformed : forall sel w t, exact_view_on sel w t -> topo_ok t /\ NoDup (nodes t).
Proof. intros sel w t H. split; [exact (exact_view_on_ok sel w t H)|exact (proj1 H)]. Qed.
Print Assumptions C19_views_wellformed.

Theorem C19_connected_iff : forall t,
  topo_ok t ->
  (connected t = true <-> forall u v, u < length (nodes t) -> v < length (nodes t) -> treach t u v).
Proof. exact connected_iff. Qed.
Print Assumptions C19_connected_iff.

Theorem C19_bidirectional_iff : forall t,
  bidirectional t = true <->
  forall u e, In e (bundle t u) -> exists e', In e' (bundle t (e_dst e)) /\ e_dst e' = u.
Proof. exact bidirectional_iff. Qed.
Print Assumptions C19_bidirectional_iff.

(* filter_nodes: the nodes are the selected ones, in order; every node of the
   result is [rank i] for a selected old node i; its edges are the old edges of
   i whose target is selected, the target re-indexed by [rank], which is the
   position of the same module in the new node list. *)
Theorem C19_filter_exact : forall p t,
  topo_ok t ->
  let t' := filter_nodes p t in
  nodes t' = filter p (nodes t) /\ topo_ok t' /\
  (forall j m, nth_error (nodes t') j = Some m ->
               exists i, nth_error (nodes t) i = Some m /\ p m = true /\ rank p (nodes t) i = j) /\
  (forall i m, nth_error (nodes t) i = Some m -> p m = true ->
               nth_error (nodes t') (rank p (nodes t) i) = Some m /\
               bundle t' (rank p (nodes t) i)
               = map (redst p (nodes t)) (filter (dst_kept p (nodes t)) (bundle t i))).
Proof. exact filter_exact. Qed.
Print Assumptions C19_filter_exact.

(* ... so a node-filtered exact view is the exact view of the selected modules *)
Theorem C19_filter_nodes_view : forall sel p w t,
  exact_view_on sel w t ->
  exact_view_on (fun gc => sel gc && p (fst (far_end (fst gc) (snd gc))))%bool w (filter_nodes p t).
Proof.
  intros sel p w t Hv. pose proof (exact_view_on_ok _ _ _ Hv) as Hok.
  destruct (filter_exact p t Hok) as [Hn [[Hl _] [Hsurj Hkept]]]. destruct Hv as [ND [_ Hb]].
  split; [rewrite Hn; apply NoDup_filter; exact ND|]. split; [exact Hl|].
  intros j m Hm. destruct (Hsurj j m Hm) as [i [H1 [H2 H3]]]. subst j.
  destruct (Hkept i m H1 H2) as [_ Eb]. rewrite Eb, Hn. specialize (Hb i m H1).
  rewrite <- filter_filter. apply Forall2_filter_map with (R := expected_edge (nodes t)); [| |exact Hb].
  - intros gc e [_ [_ Hd]]. unfold dst_kept. rewrite (nth_error_nth _ _ 0 Hd). reflexivity.
  - intros gc e. apply expected_edge_redst.
Qed.
Print Assumptions C19_filter_nodes_view.

Theorem C19_filter_edges_exact : forall f t,
  nodes (filter_edges f t) = nodes t /\ forall i, bundle (filter_edges f t) i = filter (f i) (bundle t i).
Proof. intros f t. split; [reflexivity|]. intros i. unfold bundle, filter_edges. cbn [edges]. apply fe_from_nth. Qed.
Print Assumptions C19_filter_edges_exact.

(* dijkstra from node s (module ms): no panic, terminates; every node v <> s
   that s reaches is mapped to an edge leaving s that starts a walk to v no walk
   from s to v is shorter than; s itself and unreachable nodes are not mapped. *)
Theorem C19_first_hop_of_shortest_path : forall t s ms,
  topo_ok t -> NoDup (nodes t) -> nth_error (nodes t) s = Some ms ->
  exists m, dijkstra t ms = DjOk m /\
    forall v mv, nth_error (nodes t) v = Some mv ->
      (v <> s -> treach t s v ->
         exists e p, lookup mv m = Some (s, e) /\ walk t s (e :: p) v /\
                     forall q, walk t s q v -> length (e :: p) <= length q) /\
      (v = s \/ ~ treach t s v -> lookup mv m = None).
Proof. exact first_hop_of_shortest_path. Qed.
Print Assumptions C19_first_hop_of_shortest_path.

(* The hypotheses are met by every world the correspondence check can wire
   (Model.build_world: any gate counts, any list of declared chains; chains
   that re-use or invent gates are not wired): always closed, and short when
   every declared chain has at most 17 gates = 16 hops. *)
Theorem C19_script_worlds : forall counts chains,
  closed (build_world counts chains) /\
  ((forall c, In c chains -> length (pairs (tl c)) <= S MAX_HOPS) -> short (build_world counts chains)).
Proof.
  intros counts chains. destruct (script_world counts chains []) as [Hc Hs].
  split; [exact Hc|]. intros H. apply Hs; [exact H|constructor].
Qed.
Print Assumptions C19_script_worlds.

(* Histories.  The gate graph may change after a view was taken (gates created
   and connected while the simulation is built, or by a module while it runs); a
   script is a history [pre] of queries and wiring operations after the header
   (counts, chains).  [world_after] is the gate graph the header and the wiring
   operations of [pre] build, [state_after] the state of the script interpreter
   (Model.step) after [pre].  Every view query made at that point returns the
   exact view of THAT graph; the graph is closed, and short when every declared
   chain has at most 16 hops. *)
(* Module activity (shut down, waiting for a restart, down after a caught
   panic) is not part of the gate graph: the world has no activity field, the
   operation [ODown] that declares modules down during the run-time part of a
   script leaves the interpreter state unchanged (Model.step), so the statement
   below covers histories with any modules down: no view function reads anything but the gates. *)
Theorem C19_history_exact : forall counts chains pre,
  let s := state_after (init_state (build_world counts chains)) pre in
  let w := world_after (build_world counts chains) pre in
  h_world s = w /\ closed w /\
  ((forall c, In c chains -> length (pairs (tl c)) <= S MAX_HOPS) -> Forall op_short pre -> short w) /\
  (h_topo (fst (step s (OQuery QGlobal))) = global_topology w /\
   (short w -> nodes (global_topology w) = seq 0 (length w) /\ exact_view w (global_topology w))) /\
  (forall r, r < length w ->
     exists t, spanned w r = Some t /\ h_topo (fst (step s (OQuery (QSpanned r)))) = t /\
               exact_view w t /\ hd_error (nodes t) = Some r /\ forall m, In m (nodes t) <-> mreach w r m) /\
  (forall ms, let sel := select_modules (length w) [] ms in
     h_topo (fst (step s (OQuery (QFromModules ms)))) = from_modules w sel /\
     (short w -> exact_view_on (sel_in sel) w (from_modules w sel))).
Proof.
  intros counts chains pre. cbn zeta.
  set (s := state_after (init_state (build_world counts chains)) pre).
  set (w := world_after (build_world counts chains) pre).
  assert (Hw : h_world s = w) by (unfold s, w; rewrite state_after_world; reflexivity).
  destruct (script_world counts chains pre) as [Hc Hsh]. fold w in Hc, Hsh.
  split; [exact Hw|]. split; [exact Hc|]. split; [exact Hsh|]. split; [|split].
  - split; [cbn [step exec fst h_topo]; rewrite Hw; reflexivity|].
    intros Hs. apply global_view_exact; assumption.
  - intros r Hr. destruct (spanned_exact w r Hc Hr) as [t [Ht Hview]]. exists t.
    split; [exact Ht|]. split; [|exact Hview].
    cbn [step exec fst]. rewrite Hw. apply Nat.ltb_lt in Hr. rewrite Hr, Ht. reflexivity.
  - intros ms. split; [cbn [step exec fst h_topo]; rewrite Hw; reflexivity|].
    intros Hs. apply from_modules_exact; [exact Hs|]. apply (select_modules_NoDup (length w) ms []).
Qed.
Print Assumptions C19_history_exact.

(* Premise of all of the above: a module index stands for a ModuleId, and
   from_modules / spanned find the owner of a chain end by id.  Ids come from a
   wrapping 16-bit counter (ModuleId::gen); wherever it stands (p), the n <= 2^16
   modules of one simulation get pairwise distinct ids.  The runner reports the
   same fact about the real ids of every script (first output record), and the
   model's record is computed by [distinctb] on these ids. *)
Theorem C19_module_ids_distinct : forall p n,
  (N.of_nat n <= ID_SPACE)%N -> NoDup (gen_ids p n) /\ distinctb (gen_ids p n) = true.
Proof. intros p n H. pose proof (gen_ids_NoDup p n H) as ND. split; [exact ND|apply distinctb_true; exact ND]. Qed.
Print Assumptions C19_module_ids_distinct.

(* Non-vacuity: the triangle s-a, s-b, a-b with the gates of s created in the
   order to-b, to-a (s = module 0, a = 1, b = 2). *)
Definition triangle : world :=
  [[Endpoint [(2, 0)]; Endpoint [(1, 0)]];
   [Endpoint [(0, 1)]; Endpoint [(2, 1)]];
   [Endpoint [(0, 0)]; Endpoint [(1, 1)]]].

Example C19_nonvacuous_global :
  edges (global_topology triangle) =
  [[{| e_dst := 2; e_start := (0, 0); e_stop := (2, 0) |}; {| e_dst := 1; e_start := (0, 1); e_stop := (1, 0) |}];
   [{| e_dst := 0; e_start := (1, 0); e_stop := (0, 1) |}; {| e_dst := 2; e_start := (1, 1); e_stop := (2, 1) |}];
   [{| e_dst := 0; e_start := (2, 0); e_stop := (0, 0) |}; {| e_dst := 1; e_start := (2, 1); e_stop := (1, 1) |}]].
Proof. vm_compute. reflexivity. Qed.

(* spanned from a: nodes a, s, b; the edge a.to-b, scanned while b is still
   pending behind s, gets the predicted index 2 *)
Example C19_nonvacuous_spanned :
  spanned triangle 1 =
  Some {| nodes := [1; 0; 2];
          edges := [[{| e_dst := 1; e_start := (1, 0); e_stop := (0, 1) |}; {| e_dst := 2; e_start := (1, 1); e_stop := (2, 1) |}];
                    [{| e_dst := 2; e_start := (0, 0); e_stop := (2, 0) |}; {| e_dst := 0; e_start := (0, 1); e_stop := (1, 0) |}];
                    [{| e_dst := 1; e_start := (2, 0); e_stop := (0, 0) |}; {| e_dst := 0; e_start := (2, 1); e_stop := (1, 1) |}]] |}.
Proof. vm_compute. reflexivity. Qed.

(* b is a direct neighbour of s: the first hop towards b is s.to-b *)
Example C19_nonvacuous_dijkstra :
  exists m, dijkstra (global_topology triangle) 0 = DjOk m /\
            lookup 2 m = Some (0, {| e_dst := 2; e_start := (0, 0); e_stop := (2, 0) |}) /\
            lookup 1 m = Some (0, {| e_dst := 1; e_start := (0, 1); e_stop := (1, 0) |}) /\
            lookup 0 m = None.
Proof. eexists. split; [vm_compute; reflexivity|]. vm_compute. repeat split. Qed.

(* a history: a-b wired, look, then b-c connected late, look again: the second
   view has the new edges and is connected *)
Example C19_nonvacuous_history :
  let w0 : world := [[Endpoint [(1, 0)]]; [Endpoint [(0, 0)]; Standalone]; [Standalone]] in
  let late := OConnect [(1, 1); (2, 0)] in
  let s1 := state_after (init_state w0) [OQuery QGlobal] in
  let s2 := state_after (init_state w0) [OQuery QGlobal; late; OQuery QGlobal] in
  connected (h_topo s1) = false /\ length (concat (edges (h_topo s1))) = 2 /\
  connected (h_topo s2) = true /\ length (concat (edges (h_topo s2))) = 4 /\
  h_world s2 = world_after w0 [late].
Proof. vm_compute. repeat split. Qed.

Example C19_activity_ignored : forall s m k, fst (step s (ODown m k)) = s.
Proof. reflexivity. Qed.

Example C19_nonvacuous_filter :
  let t := filter_nodes (fun m => negb (m =? 1)) (global_topology triangle) in
  nodes t = [0; 2] /\
  edges t = [[{| e_dst := 1; e_start := (0, 0); e_stop := (2, 0) |}]; [{| e_dst := 0; e_start := (2, 0); e_stop := (0, 0) |}]] /\
  connected t = true /\ bidirectional t = true /\
  connected (filter_edges (fun src _ => src =? 0) t) = false /\
  bidirectional (filter_edges (fun src _ => src =? 0) t) = false.
Proof. vm_compute. repeat split. Qed.
