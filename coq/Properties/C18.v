(* C18 — NDL elaboration is total and the built simulation matches the description.
   The statements of the property, most with a short proof from the lemmas of coq/Ndl/.  Models: coq/Ndl/Grammar.v (FromStr / Display of def.rs over byte strings),
   Transform.v (des-net-utils/src/ndl/mod.rs), Build.v (des/src/net/ndl/mod.rs + Gate::connect),
   Denote.v (what a description denotes), Model.v (documents: every parsed string of the YAML
   document through its FromStr, then transform, then build).  Outcomes are [Ok v], [Err kind],
   [Panic site] (an assert!/expect/index of the Rust code), [OutOfFuel]; [returns r] says r is
   Ok or Err.  The boolean argument is the flag [fx] of Transform.v: [true] selects /repo with fix: 5295e98 and
   fix: a6f4ffc, [false] the code before them (coq/Refuted/C18.v). *)
From Coq Require Import List NArith Bool Permutation.
From DesVerif Require Import Ndl.Bytes Ndl.BytesProps Ndl.Grammar Ndl.GrammarProps Ndl.Def Ndl.Transform Ndl.Order
     Ndl.Total Ndl.Errors Ndl.Subst Ndl.Build Ndl.Denote Ndl.DenoteTree Ndl.BuildProps Ndl.BuildConns Ndl.Realisable Ndl.BuildTotal Ndl.Known Ndl.Model Ndl.Doc.
Import ListNotations.
Local Open Scope nat_scope.

(* ---- grammar_total: no input string makes a FromStr or Display of def.rs panic ---- *)
Theorem C18_grammar_total : forall s : bytes,
  returns (typclause_from_str true string_from_str s) /\
  returns (typclause_from_str true generic_from_str s) /\
  returns (generic_from_str s) /\ returns (field_from_str s) /\ returns (endpoint_from_str s).
Proof.
  intros s. repeat split; auto with returns.
Qed.
Print Assumptions C18_grammar_total.

Theorem C18_display_total : forall (t1 : TypClause bytes) (t2 : TypClause Generic),
  returns (typclause_display (fun x => x) t1) /\ returns (typclause_display generic_display t2).
Proof. intros t1 t2. split; apply typclause_display_returns. Qed.
Print Assumptions C18_display_total.

(* an endpoint that parses has at least one accessor: transform's assert!(!accessors.is_empty()) cannot fire on parsed input *)
Theorem C18_parsed_endpoint_nonempty : forall s e, endpoint_from_str s = Ok e -> e <> [].
Proof. exact endpoint_from_str_nonempty. Qed.
Print Assumptions C18_parsed_endpoint_nonempty.

(* grammar_total, the round trips: from_str (display v) = Ok v on well-formed values (identifiers of letters, digits, '_'; sizes <= usize::MAX) *)
Theorem C18_roundtrip_field : forall f, wf_field f -> field_from_str (field_display f) = Ok f.
Proof.
  intros [ident k] [Hn Hk]. cbn [fd_ident fd_kard] in *. unfold field_from_str, field_display. cbn [fd_ident fd_kard].
  destruct k as [|n].
  - rewrite last_is_false; [reflexivity|]. apply wf_name_not_in; [exact Hn|reflexivity].
  - cbn [wf_kard] in Hk.
    replace (ident ++ [LBRACK] ++ to_dec n ++ [RBRACK]) with ((ident ++ [LBRACK] ++ to_dec n) ++ [RBRACK])
      by (rewrite <- !app_assoc; reflexivity).
    rewrite last_is_snoc, N.eqb_refl. rewrite <- !app_assoc. cbn [app].
    rewrite split_once_char_app by (apply wf_name_not_in; [exact Hn|reflexivity]).
    rewrite trim_end_matches_snoc by (apply wf_name_not_in; [apply to_dec_name|reflexivity]).
    rewrite parse_usize_to_dec by exact Hk. reflexivity.
Qed.
Print Assumptions C18_roundtrip_field.

Theorem C18_roundtrip_generic : forall g, wf_generic g -> generic_from_str (generic_display g) = Ok g.
Proof.
  intros [a b] [Ha Hb]. cbn [g_binding g_bound] in *. unfold generic_from_str, generic_display. cbn [g_binding g_bound].
  replace (a ++ [SPACE; LT; MINUS; SPACE] ++ b) with ((a ++ [SPACE]) ++ LT :: MINUS :: (SPACE :: b))
    by (rewrite <- app_assoc; reflexivity).
  rewrite split_once_2_app.
  2:{ apply not_in_app; [apply wf_name_not_in; [exact Ha|reflexivity]|]. intros [E|[]]. discriminate E. }
  f_equal. f_equal.
  - apply (trim_spec [] a [SPACE]); [constructor|apply wf_name_no_ws; exact Ha|repeat constructor].
  - pose proof (trim_spec [SPACE] b []) as E. rewrite app_nil_r in E.
    apply E; [repeat constructor|apply wf_name_no_ws; exact Hb|constructor].
Qed.
Print Assumptions C18_roundtrip_generic.

Theorem C18_roundtrip_typclause : forall t : TypClause bytes, wf_name (tc_ident t) -> Forall wf_name (tc_args t) ->
  exists s, typclause_display (fun x => x) t = Ok s /\ typclause_from_str true string_from_str s = Ok t.
Proof.
  intros t Hn Ha. apply typclause_roundtrip; [exact Hn|]. eapply Forall_impl; [|exact Ha]. intros a. apply string_arg_ok.
Qed.
Print Assumptions C18_roundtrip_typclause.

Theorem C18_roundtrip_typclause_generics : forall t : TypClause Generic, wf_name (tc_ident t) -> Forall wf_generic (tc_args t) ->
  exists s, typclause_display generic_display t = Ok s /\ typclause_from_str true generic_from_str s = Ok t.
Proof.
  intros t Hn Ha. apply typclause_roundtrip; [exact Hn|]. eapply Forall_impl; [|exact Ha]. intros a Hg.
  split; [exact (C18_roundtrip_generic a Hg)|].
  split; apply generic_display_not_in; try exact Hg; try reflexivity; discriminate.
Qed.
Print Assumptions C18_roundtrip_typclause_generics.

Theorem C18_roundtrip_endpoint : forall e, e <> [] -> Forall wf_field e -> endpoint_from_str (endpoint_display e) = Ok e.
Proof.
  intros e Hne Hf. unfold endpoint_from_str, endpoint_display. rewrite split_char_join.
  - apply collect_map_roundtrip. eapply Forall_impl; [|exact Hf]. exact C18_roundtrip_field.
  - destruct e; [congruence|discriminate].
  - apply Forall_map. eapply Forall_impl; [|exact Hf]. intros f Hw.
    apply field_display_not_in; [exact Hw|reflexivity|discriminate|discriminate].
Qed.
Print Assumptions C18_roundtrip_endpoint.

(* ---- transform_total ---- *)
(* the ordering loop: within (number of definitions + 1) iterations it returns UnresolvableDependency or a
   rearrangement in which every definition comes after everything it requires; never a panic, never out of fuel *)
Theorem C18_ordering_loop_terminates : forall d,
  match order_loop (S (length (d_modules d))) [] (entries d) [] with
  | Ok l => DepOrdered [] l /\ (forall e, In e l <-> In e (entries d))
  | Err k => k = K_UNRESOLVABLE_DEPENDENCY
  | _ => False
  end.
Proof.
  intros d. pose proof (order_entries_spec d) as H. destruct (order_loop _ [] (entries d) []); try exact H.
  destruct H as [Hdo Hp]. split; [exact Hdo|].
  intros e. split; apply Permutation_in; [exact Hp|symmetry; exact Hp].
Qed.
Print Assumptions C18_ordering_loop_terminates.

Theorem C18_transform_total : forall d, wf_parsed d -> returns (transform true d).
Proof. exact transform_total. Qed.
Print Assumptions C18_transform_total.

(* parsing a document (all strings through FromStr) and elaborating it: an elaborated network or an error *)
Theorem C18_document_total : forall rd, returns (elaborate_document true rd).
Proof.
  intros rd. apply returns_bind_ok; [apply parse_doc_returns|]. intros d E.
  apply transform_total. eapply parse_doc_wf. exact E.
Qed.
Print Assumptions C18_document_total.

(* ---- errors_classified ---- *)
Theorem C18_unknown_type_is_unresolvable : forall fx d im s,
  In im (d_modules d) -> In s (required_symbols (fst im) (snd im)) ->
  (forall im', In im' (d_modules d) -> tc_ident (fst im') <> s) ->
  transform fx d = Err K_UNRESOLVABLE_DEPENDENCY.
Proof.
  intros fx d im s Him Hs Hno. apply (unresolvable_group fx d [im]); [discriminate| |].
  - intros x [<-|[]]. exact Him.
  - intros x [<-|[]]. exists s. split; [exact Hs|]. intros im' Him' E. exfalso. exact (Hno im' Him' E).
Qed.
Print Assumptions C18_unknown_type_is_unresolvable.

(* `inherit: P` inside `Host(P <- Iface)`: the parent is looked up globally, the binding does not provide it; without a
   global definition P the result is UnresolvableDependency (never the expect("unreachable: parse order ..") of transform_module) *)
Theorem C18_inherit_of_own_binding : forall fx d im p,
  In im (d_modules d) -> md_inherit (snd im) = Some p -> is_binding (tc_args (fst im)) p = true ->
  (forall im', In im' (d_modules d) -> tc_ident (fst im') <> p) ->
  transform fx d = Err K_UNRESOLVABLE_DEPENDENCY.
Proof.
  intros fx d im p Him Hinh _ Hno. apply (C18_unknown_type_is_unresolvable fx d im p Him); [|exact Hno].
  apply inherit_is_required. exact Hinh.
Qed.
Print Assumptions C18_inherit_of_own_binding.

(* required_symbols (two passes: subtract all bindings, THEN add all bounds and the parent): the bound of every type
   parameter is required even when another parameter carries the same name (`Lan(Host <- Node, Node <- Switch)` waits for
   the global Node), every other name a submodule uses is required unless the module binds it; hence the ordering loop
   places the bound's definition first and the lookup of a placeholder's interface cannot hit expect("unreachable ..") *)
Theorem C18_bounds_are_required : forall self m,
  (forall g, In g (tc_args self) -> In (g_bound g) (required_symbols self m)) /\
  (forall f t s, In (f, t) (md_subs m) -> (s = tc_ident t \/ In s (tc_args t)) -> is_binding (tc_args self) s = false ->
                 In s (required_symbols self m)).
Proof. intros self m. split; [apply bounds_are_required|apply unbound_names_are_required]. Qed.
Print Assumptions C18_bounds_are_required.

Theorem C18_shadowed_bound_without_definition : forall fx d im g,
  In im (d_modules d) -> In g (tc_args (fst im)) ->
  (forall im', In im' (d_modules d) -> tc_ident (fst im') <> g_bound g) ->
  transform fx d = Err K_UNRESOLVABLE_DEPENDENCY.
Proof.
  intros fx d im g Him Hg Hno. apply (C18_unknown_type_is_unresolvable fx d im (g_bound g) Him); [|exact Hno].
  apply bounds_are_required. exact Hg.
Qed.
Print Assumptions C18_shadowed_bound_without_definition.

Theorem C18_dependency_cycle_is_unresolvable : forall fx d (C : list (TypClause Generic * ModuleDef)),
  C <> [] -> incl C (d_modules d) ->
  (forall im, In im C -> exists im', In im' C /\ In (tc_ident (fst im')) (required_symbols (fst im) (snd im))) ->
  (forall im im', In im C -> In im' (d_modules d) -> tc_ident (fst im') = tc_ident (fst im) -> In im' C) ->
  transform fx d = Err K_UNRESOLVABLE_DEPENDENCY.
Proof.
  intros fx d C Hne Hincl Hdep Hclosed. apply (unresolvable_group fx d C Hne Hincl).
  intros im Him. destruct (Hdep im Him) as (im' & Him' & Hreq). exists (tc_ident (fst im')). split; [exact Hreq|].
  intros im'' Hd E. exact (Hclosed im' im'' Him' Hd E).
Qed.
Print Assumptions C18_dependency_cycle_is_unresolvable.

Theorem C18_unknown_entry : forall fx d,
  (forall im, In im (d_modules d) -> tc_ident (fst im) <> d_entry d) ->
  (forall n, transform fx d <> Ok n) /\
  (forall ordered arch, order_loop (S (length (d_modules d))) [] (entries d) [] = Ok ordered ->
                        elaborate fx ordered [] (d_links d) = Ok arch -> transform fx d = Err K_UNKNOWN_MODULE).
Proof.
  intros fx d Hno.
  assert (Hnot : forall n, transform fx d <> Ok n).
  { intros n H. apply transform_ok in H as (ordered & arch & g & _ & Hp & Ee & El).
    destruct (elaborate_keys _ _ _ _ _ Ee _ _ El) as [Hl|(e & He & Ei)]; [cbn in Hl; congruence|].
    apply (Permutation_in _ Hp) in He. unfold entries in He. apply in_map_iff in He as (im & <- & Him). exact (Hno im Him Ei). }
  split; [exact Hnot|]. intros ordered arch Ho He.
  assert (Et : transform fx d = match lookup (d_entry d) arch with Some (n, _) => Ok n | None => Err K_UNKNOWN_MODULE end).
  { unfold transform. rewrite Ho. cbn [bind]. rewrite He. reflexivity. }
  revert Et. destruct (lookup (d_entry d) arch) as [[n g]|]; intros Et; [|exact Et].
  exfalso. exact (Hnot n Et).
Qed.
Print Assumptions C18_unknown_entry.

Theorem C18_duplicate_binding : forall fx self m nodes links, has_dup_binding (tc_args self) = true ->
  transform_module fx self m nodes links = Err K_SYMBOL_ALREADY_DEFINED.
Proof. intros fx self m nodes links H. unfold transform_module. rewrite H. reflexivity. Qed.
Print Assumptions C18_duplicate_binding.

(* two submodule fields of one name and shape (own + inherited, or x[2] next to x[3]): fix a6f4ffc *)
Theorem C18_duplicate_submodule_field : forall self m nodes links gates subs,
  has_dup_binding (tc_args self) = false -> transform_gates (md_gates m) = Ok gates ->
  transform_submodules true self (md_subs m) nodes = Ok subs ->
  has_dup_field (subs ++ match md_inherit m with
                         | Some p => match lookup p nodes with Some (arch, _) => n_subs arch | None => [] end
                         | None => [] end) = true ->
  (forall p, md_inherit m = Some p -> lookup p nodes <> None) ->
  transform_module true self m nodes links = Err K_SYMBOL_ALREADY_DEFINED.
Proof.
  intros self m nodes links gates subs Hd Hg Hs Hdup Hp. unfold transform_module. rewrite Hd, Hg. cbn [bind]. rewrite Hs. cbn [bind].
  destruct (md_inherit m) as [p|].
  - destruct (lookup p nodes) as [[arch ga]|] eqn:El; [|exfalso; exact (Hp p eq_refl El)].
    cbn [bind andb]. rewrite Hdup. reflexivity.
  - cbn [bind andb]. rewrite app_nil_r in Hdup. rewrite Hdup. reflexivity.
Qed.
Print Assumptions C18_duplicate_submodule_field.

(* ... for ALL pairs: wherever the two fields sit among own and inherited fields, whatever lies between them *)
Theorem C18_duplicate_field_any_position : forall pre a mid b post,
  fd_ident (fst a) = fd_ident (fst b) -> same_shape (fd_kard (fst a)) (fd_kard (fst b)) = true ->
  has_dup_field (pre ++ a :: mid ++ b :: post) = true.
Proof.
  intros pre a mid b post Hn Hs. induction pre as [|x pre IH]; cbn [app has_dup_field].
  - apply orb_true_iff. left. apply existsb_exists. exists b. split; [apply in_or_app; right; left; reflexivity|].
    rewrite Hn, beq_refl, Hs. reflexivity.
  - rewrite IH. apply orb_true_r.
Qed.
Print Assumptions C18_duplicate_field_any_position.

Theorem C18_zero_sized_gate_cluster : forall fx self m nodes links g,
  has_dup_binding (tc_args self) = false -> In g (md_gates m) -> fd_kard g = Cluster 0 ->
  transform_module fx self m nodes links = Err K_INVALID_GATE.
Proof.
  intros fx self m nodes links g Hd Hin Hk. unfold transform_module, transform_gates. rewrite Hd.
  assert (E : existsb (fun v => kard_eqb (fd_kard v) (Cluster 0)) (md_gates m) = true).
  { apply existsb_exists. exists g. split; [exact Hin|]. rewrite Hk. reflexivity. }
  rewrite E. reflexivity.
Qed.
Print Assumptions C18_zero_sized_gate_cluster.

Theorem C18_zero_sized_submodule_cluster : forall fx field self typ nodes, fd_kard field = Cluster 0 ->
  transform_submodule fx field self typ nodes = Err K_INVALID_SUBMODULE.
Proof. intros fx field self typ nodes H. unfold transform_submodule. rewrite H. reflexivity. Qed.
Print Assumptions C18_zero_sized_submodule_cluster.

Theorem C18_unknown_gate : forall pos acc subs gates,
  (forall g, In g gates -> fd_ident g <> fd_ident acc) ->
  transform_connection_endpoint_inner pos [acc] subs gates = Err K_UNKNOWN_GATE_IN_CONNECTION.
Proof.
  intros pos acc subs gates H. cbn [transform_connection_endpoint_inner].
  destruct (find _ gates) as [g|] eqn:E; [|reflexivity].
  apply find_some in E as [Hin Hb]. apply beq_eq in Hb. exfalso. exact (H g Hin Hb).
Qed.
Print Assumptions C18_unknown_gate.

Theorem C18_unknown_submodule : forall pos acc b rest subs gates,
  (forall s, In s subs -> fd_ident (fst s) <> fd_ident acc) ->
  transform_connection_endpoint_inner pos (acc :: b :: rest) subs gates = Err K_UNKNOWN_SUBMODULE_IN_CONNECTION.
Proof.
  intros pos acc b rest subs gates H. cbn [transform_connection_endpoint_inner].
  destruct (find _ subs) as [[sn snode]|] eqn:E; [|reflexivity].
  apply find_some in E as [Hin Hb]. apply beq_eq in Hb. exfalso. exact (H _ Hin Hb).
Qed.
Print Assumptions C18_unknown_submodule.

Theorem C18_index_out_of_bounds : forall def access i,
  fd_kard access = Cluster i ->
  (fd_kard def = Atom \/ exists n, fd_kard def = Cluster n /\ (n <= i)%N) ->
  iter_for_kardinality_access def access = Err K_CONNECTION_INDEX_OUT_OF_BOUNDS.
Proof.
  intros def access i Ha Hd. unfold iter_for_kardinality_access. rewrite Ha.
  destruct Hd as [Hd|(n & Hd & Hle)]; rewrite Hd; [reflexivity|].
  apply N.ltb_ge in Hle. rewrite Hle. reflexivity.
Qed.
Print Assumptions C18_index_out_of_bounds.

Theorem C18_unequal_cluster_sizes : forall def subs gates links lhs rhs,
  transform_connection_endpoint (cd_lhs def) subs gates = Ok lhs ->
  transform_connection_endpoint (cd_rhs def) subs gates = Ok rhs ->
  length lhs <> length rhs ->
  transform_connection def subs gates links = Err K_UNEQUAL_PEERS.
Proof.
  intros def subs gates links lhs rhs Hl Hr Hne. unfold transform_connection. rewrite Hl, Hr. cbn [bind].
  apply PeanoNat.Nat.eqb_neq in Hne. rewrite Hne. reflexivity.
Qed.
Print Assumptions C18_unequal_cluster_sizes.

Theorem C18_unknown_link : forall def subs gates links lhs rhs l,
  transform_connection_endpoint (cd_lhs def) subs gates = Ok lhs ->
  transform_connection_endpoint (cd_rhs def) subs gates = Ok rhs ->
  length lhs = length rhs -> cd_link def = Some l -> lookup l links = None ->
  transform_connection def subs gates links = Err K_UNKNOWN_LINK.
Proof.
  intros def subs gates links lhs rhs l Hl Hr He Hk Hn. unfold transform_connection. rewrite Hl, Hr. cbn [bind].
  apply PeanoNat.Nat.eqb_eq in He. rewrite He. cbn [negb]. rewrite Hk, Hn. reflexivity.
Qed.
Print Assumptions C18_unknown_link.

Theorem C18_wrong_number_of_type_arguments : forall fx field self typ nodes node reqs,
  nonzero field -> is_binding (tc_args self) (tc_ident typ) = false ->
  lookup (match tc_args typ with [] => inner_ty_to_outer_ty (tc_args self) (tc_ident typ) | _ => tc_ident typ end) nodes = Some (node, reqs) ->
  length reqs <> length (tc_args typ) ->
  transform_submodule fx field self typ nodes = Err K_INVALID_TYP_STATEMENT.
Proof.
  intros fx field self typ nodes node reqs Hz Hb Hl Hlen. unfold transform_submodule. rewrite Hz.
  destruct (tc_args typ) as [|a r].
  - rewrite Hl. destruct reqs as [|g gs]; [cbn in Hlen; congruence|reflexivity].
  - rewrite Hb, andb_false_r, Hl. apply PeanoNat.Nat.eqb_neq in Hlen. rewrite Hlen. reflexivity.
Qed.
Print Assumptions C18_wrong_number_of_type_arguments.

Theorem C18_generic_type_arguments : forall self_args nodes gb req name args node,
  (is_binding self_args name = true ->
   replace_loop true self_args nodes (gb :: req) (name :: args) node = Err K_GENERIC_PASSED_AS_TYP_ARGUMENT) /\
  (forall repl d ds, is_binding self_args name = false -> lookup name nodes = Some (repl, d :: ds) ->
   replace_loop true self_args nodes (gb :: req) (name :: args) node = Err K_INVALID_TYP_STATEMENT).
Proof.
  intros self_args nodes gb req name args node. cbn [replace_loop]. split.
  - intros Hb. rewrite Hb. reflexivity.
  - intros repl d ds Hb Hl. rewrite Hb, Hl. reflexivity.
Qed.
Print Assumptions C18_generic_type_arguments.

Theorem C18_arguments_on_generic_parameter : forall field self typ nodes,
  nonzero field -> tc_args typ <> [] -> is_binding (tc_args self) (tc_ident typ) = true ->
  transform_submodule true field self typ nodes = Err K_INVALID_TYP_STATEMENT.
Proof.
  intros field self typ nodes Hz Ha Hb. unfold transform_submodule. rewrite Hz.
  destruct (tc_args typ); [congruence|]. rewrite Hb. reflexivity.
Qed.
Print Assumptions C18_arguments_on_generic_parameter.

Theorem C18_non_conforming_type_argument : forall fx self_args nodes gb req name args node repl iface gi,
  is_binding self_args name = false -> lookup name nodes = Some (repl, []) ->
  lookup (g_bound gb) nodes = Some (iface, gi) -> conform_to repl iface = false ->
  replace_loop fx self_args nodes (gb :: req) (name :: args) node = Err K_DOES_NOT_CONFORM.
Proof.
  intros fx self_args nodes gb req name args node repl iface gi Hb Hl Hi Hc. cbn [replace_loop].
  rewrite Hb, andb_false_r, Hl, Hi, Hc. reflexivity.
Qed.
Print Assumptions C18_non_conforming_type_argument.


(* ---- the substitution step of generics (all instantiations) ---- *)
(* `x: G(A1..An)`: the field gets G's archetype in which EVERY submodule field runs through the substitution
   parameter_i := elaborated A_i ([subst_field]: a field whose type is the parameter takes the argument's node,
   any other field is unchanged); gates and connections of G are kept *)
Theorem C18_substitution_every_field : forall fx field self typ nodes node reqs res,
  tc_args typ <> [] -> lookup (tc_ident typ) nodes = Some (node, reqs) ->
  (fx && is_binding (tc_args self) (tc_ident typ)) = false ->
  transform_submodule fx field self typ nodes = Ok res ->
  res = (field, mkNode (n_typ node) (map (subst_field (sigma_of nodes reqs (tc_args typ))) (n_subs node))
                       (n_gates node) (n_conns node)).
Proof.
  intros fx field self typ nodes node reqs res Ha Hl Hb H. apply transform_submodule_ok in H as [_ H].
  destruct H as [node0 Ea _|node0 reqs0 node' _ _ Hl' _ Hr]; [congruence|].
  rewrite Hl in Hl'. injection Hl' as <- <-. apply replace_loop_spec in Hr as [-> _]. reflexivity.
Qed.
Print Assumptions C18_substitution_every_field.

(* every field of parameter type -- the first, the second, the n-th use alike -- carries the argument's node *)
Theorem C18_parameter_field_gets_argument : forall sigma f n b r,
  n_typ n = b -> (forall b' r', In (b', r') ((b, r) :: sigma) -> ~ In (n_typ r') (map fst ((b, r) :: sigma))) ->
  subst_field ((b, r) :: sigma) (f, n) = (f, r).
Proof.
  intros sigma f n b r Hn Hfresh. unfold subst_field. cbn [fold_left]. unfold subst1 at 2. cbn [fst snd].
  rewrite Hn, beq_refl. apply subst_field_miss. intros Hi.
  apply (Hfresh b r (or_introl eq_refl)). right. exact Hi.
Qed.
Print Assumptions C18_parameter_field_gets_argument.

(* no field keeps a placeholder (the arguments' own symbols not being parameter names) *)
Theorem C18_no_placeholder_left : forall fx self_args nodes reqs args node node',
  replace_loop fx self_args nodes reqs args node = Ok node' ->
  (forall b r, In (b, r) (sigma_of nodes reqs args) -> ~ In (n_typ r) (map g_binding reqs)) ->
  forall s, In s (n_subs node') -> ~ In (n_typ (snd s)) (map g_binding reqs).
Proof.
  intros fx self_args nodes reqs args node node' H Hfresh s Hs. apply replace_loop_spec in H as [-> E].
  rewrite <- E in *. cbn [n_subs] in Hs. apply in_map_iff in Hs as (s0 & <- & _).
  apply subst_field_no_placeholder. exact Hfresh.
Qed.
Print Assumptions C18_no_placeholder_left.

(* a type argument that differs from the interface only deep inside a submodule subtree does not conform: some submodule
   of the interface has no tree-equal partner among the argument's submodules (equal field name and type symbol do not
   suffice: tree equality descends, [sub_eqb_needs_equal_subtrees]) -> AssignedTypDoesNotConformToInterface *)
Theorem C18_deep_mismatch_does_not_conform : forall fx self_args nodes gb req name args node repl iface gi s,
  is_binding self_args name = false -> lookup name nodes = Some (repl, []) -> lookup (g_bound gb) nodes = Some (iface, gi) ->
  In s (n_subs iface) -> (forall o, In o (n_subs repl) -> sub_eqb o s = false) ->
  replace_loop fx self_args nodes (gb :: req) (name :: args) node = Err K_DOES_NOT_CONFORM.
Proof.
  intros fx self_args nodes gb req name args node repl iface gi s Hb Hl Hi Hs Hno.
  apply (C18_non_conforming_type_argument fx self_args nodes gb req name args node repl iface gi Hb Hl Hi).
  exact (deep_mismatch_not_conform repl iface s Hs Hno).
Qed.
Print Assumptions C18_deep_mismatch_does_not_conform.

Theorem C18_tree_equality_descends : forall f f' t t' subs subs' g g' c c',
  sub_eqb (f, mkNode t subs g c) (f', mkNode t' subs' g' c') = true ->
  length subs = length subs' /\ forall i a b, nth_error subs i = Some a -> nth_error subs' i = Some b -> sub_eqb a b = true.
Proof. exact sub_eqb_needs_equal_subtrees. Qed.
Print Assumptions C18_tree_equality_descends.

(* a definition's error is transform's error when everything before it elaborates *)
Theorem C18_first_error_is_reported : forall fx pre e post arch arch' links k,
  elaborate fx pre arch links = Ok arch' ->
  transform_module fx (fst (fst e)) (snd (fst e)) arch' links = Err k ->
  elaborate fx (pre ++ e :: post) arch links = Err k.
Proof.
  intros fx pre e post arch arch' links k Hp He. rewrite elaborate_app, Hp. cbn [bind elaborate]. rewrite He. reflexivity.
Qed.
Print Assumptions C18_first_error_is_reported.

(* what the runners print on failure (the kinds any hash-map order can surface) versus transform in document order *)
Theorem C18_error_is_candidate : forall fx d k, transform fx d = Err k -> In k (cands fx d).
Proof. intros fx d k H. pose proof (cands_spec fx d) as Hc. rewrite H in Hc. exact Hc. Qed.
Print Assumptions C18_error_is_candidate.

Theorem C18_ok_iff_no_candidate : forall d, wf_parsed d ->
  ((exists n, transform true d = Ok n) <-> cands true d = []).
Proof.
  intros d Hwf. pose proof (cands_spec true d) as Hc. pose proof (transform_total d Hwf) as Hr.
  destruct (transform true d) as [n|k| |]; try contradiction.
  - split; [intros _; exact Hc|intros _; exists n; reflexivity].
  - split; [intros (n & H); discriminate H|]. intros E. rewrite E in Hc. destruct Hc.
Qed.
Print Assumptions C18_ok_iff_no_candidate.

(* ---- build_matches_denotation ---- *)
(* (1) descriptions with distinct definition names -- generic definitions and their instantiations included:
   the elaborated tree is exactly the tree the description denotes top-down (Denote.den_node) *)
Theorem C18_tree_is_denotation : forall d n,
  NoDup (names d) -> transform true d = Ok n -> denote_tree d = Some n.
Proof.
  intros d n Hnd H. apply transform_ok in H as (ordered & arch & g & _ & Hp & Ee & El).
  assert (Hin : forall e, In e ordered -> In (fst e) (d_modules d)).
  { intros e He. apply (Permutation_in _ Hp) in He. unfold entries in He.
    apply in_map_iff in He as (im & <- & Him). exact Him. }
  pose proof (elaborate_matches d ordered [] arch 0 Hnd Hin ltac:(intros k v Hk; discriminate Hk) Ee _ _ El) as Hden.
  apply Permutation_length in Hp. unfold entries in Hp. rewrite map_length in Hp. cbn [Nat.add] in Hden. rewrite Hp in Hden.
  unfold denote_tree. rewrite (den_node_mono _ _ _ _ Hden). reflexivity.
Qed.
Print Assumptions C18_tree_is_denotation.

(* (2) when the build succeeds, the simulation's modules (paths with symbols) and gates are exactly the
   flattening of the tree, and every symbol is one the registry knows *)
Theorem C18_build_modules_gates : forall registered n st, build registered n = Ok st ->
  bs_mods st = den_mods n [] /\ state_gates st = den_gates n [] /\
  (forall p s, In (p, s) (bs_mods st) -> registered s = true).
Proof.
  intros registered n st H. destruct (build_after registered n st H) as (Hm & Hg & _ & Hr).
  rewrite plan_mods in Hm, Hr. rewrite plan_gates in Hg. split; [exact Hm|]. split; [exact Hg|].
  intros p s Hin. rewrite Hm in Hin. rewrite Forall_forall in Hr. exact (Hr (p, s) Hin).
Qed.
Print Assumptions C18_build_modules_gates.

(* (3) ... and its connections -- read gate by gate, both slots, with the link parameters of the channel --
   are, up to order, the connection set the tree's statements denote *)
Theorem C18_build_connections : forall registered n st, build registered n = Ok st ->
  Permutation (state_edges st) (conn_set (den_conns n []) []).
Proof.
  intros registered n st H. destruct (build_after registered n st H) as (_ & _ & [_ Hp] & _).
  rewrite plan_conns in Hp. exact Hp.
Qed.
Print Assumptions C18_build_connections.

(* (1)+(2)+(3): when elaboration and build succeed, the simulation contains exactly the modules (paths,
   registered symbols), gates and connections with link parameters that the description denotes *)
Theorem C18_build_matches_denotation : forall registered d n st,
  NoDup (names d) ->
  transform true d = Ok n -> build registered n = Ok st ->
  exists dn, denote_tree d = Some dn /\
    bs_mods st = fst (fst (denotation dn)) /\
    state_gates st = snd (fst (denotation dn)) /\
    Permutation (state_edges st) (snd (denotation dn)) /\
    (forall p s, In (p, s) (bs_mods st) -> registered s = true).
Proof.
  intros registered d n st Hnd Ht Hb. exists n. split; [exact (C18_tree_is_denotation d n Hnd Ht)|].
  destruct (C18_build_modules_gates registered n st Hb) as (H1 & H2 & H3).
  split; [exact H1|]. split; [exact H2|]. split; [exact (C18_build_connections registered n st Hb)|exact H3].
Qed.
Print Assumptions C18_build_matches_denotation.

(* (4) build_succeeds_when_realisable, on the elaborated tree.  [realisable registered n] (Realisable.v, executable):
   every connection endpoint of every node names a chain of submodule fields (indices fitting the fields' shapes) and
   a gate position of the tree, no node has two submodule fields of one name and shape, every symbol is registered,
   and -- going through the connection statements in build order -- no statement connects a position to itself and none
   gives a position a third peer.  Such a tree is built: no panic site of des/src/net/ndl/mod.rs or Gate::connect is
   reached and the registry never misses *)
Theorem C18_realisable_builds : forall registered n,
  realisable registered n = true -> exists st, build registered n = Ok st.
Proof. exact realisable_builds. Qed.
Print Assumptions C18_realisable_builds.

(* read backwards: "cannot crate module .. already exists", expect("child"), expect("gate"), "Cannot connect gate to
   itself", "allready connected to multiple points" and MissingRegistrySymbol are reached only by non-realisable trees *)
Theorem C18_build_failure_not_realisable : forall registered n,
  (forall st, build registered n <> Ok st) -> realisable registered n = false.
Proof.
  intros registered n H. destruct (realisable registered n) eqn:E; [|reflexivity].
  destruct (C18_realisable_builds registered n E) as (st & Hst). exfalso. exact (H st Hst).
Qed.
Print Assumptions C18_build_failure_not_realisable.

(* on the description: outside the known class F11c (Known.v: the description elaborates to a tree with an endpoint
   that does not resolve or a duplicated field; witness in Refuted/C18.v), successful elaboration + registered symbols +
   realisable wiring give a successful build *)
Theorem C18_build_succeeds_when_realisable : forall registered d n,
  ~ KnownClass d -> transform true d = Ok n ->
  forallb (fun m => registered (snd m)) (den_mods n []) = true -> wiring_ok (den_conns n []) [] = true ->
  exists st, build registered n = Ok st.
Proof.
  intros registered d n Hk Ht Hr Hw. apply realisable_builds. unfold realisable. rewrite Hr, Hw.
  destruct (tree_ok n) eqn:E; [reflexivity|]. exfalso. apply Hk. exists n. split; assumption.
Qed.
Print Assumptions C18_build_succeeds_when_realisable.

(* Left open (full statements; both are evaluated on every generated document: the runner prints [den] = 1 only
   if the tree is realisable, a failing build of a realisable tree would be flagged, and the monitor accepts a
   missing-gate / missing-child panic only for descriptions of the syntactic shape):
   - known_class_is_narrow_partial:  forall d, KnownClass d -> f11c_shape d = true
     (i.e. transform's output is tree_ok unless an inherited submodule's type is named like a type parameter);
   - realisable_necessary_partial:  forall registered n st, build registered n = Ok st -> realisable registered n = true. *)

(* ---- non-vacuity ---- *)
Local Open Scope N_scope.
(* entry M0; M0 { a: M1, b[2]: M1; a/p <-> b[0]/p (L0), b[1]/p <-> b[0]/q[1] }; M1 { p, q[2] }; L0 = 100us/5us/1000 *)
Example C18_example_builds :
  exists out, run [1; 1; 2; 77; 48; 2;
                   2; 77; 48; 0; 0; 2; 1; 97; 2; 77; 49; 4; 98; 91; 50; 93; 2; 77; 49;
                      2; 3; 97; 47; 112; 6; 98; 91; 48; 93; 47; 112; 1; 2; 76; 48;
                         6; 98; 91; 49; 93; 47; 112; 9; 98; 91; 48; 93; 47; 113; 91; 49; 93; 0;
                   2; 77; 49; 0; 2; 1; 112; 4; 113; 91; 50; 93; 0; 0;
                   1; 2; 76; 48; 100; 5; 1000; 0] = 1 :: out /\ In 5 out /\ last out 0 = 1.
Proof.
  eexists. split; [vm_compute; reflexivity|]. split; [|reflexivity].
  apply (nth_error_In _ 69%nat). reflexivity.
Qed.

(* the same with the link name misspelt: UnknownLink (kind 4) *)
Example C18_example_unknown_link :
  run [1; 1; 2; 77; 48; 2;
       2; 77; 48; 0; 0; 2; 1; 97; 2; 77; 49; 4; 98; 91; 50; 93; 2; 77; 49;
          1; 3; 97; 47; 112; 6; 98; 91; 48; 93; 47; 112; 1; 2; 76; 49;
       2; 77; 49; 0; 2; 1; 112; 4; 113; 91; 50; 93; 0; 0;
       1; 2; 76; 48; 100; 5; 1000; 0] = [2; 4].
Proof. vm_compute. reflexivity. Qed.

(* M0 { pair: M1(M3) }; M1(T0 <- M2) { left: T0, right[2]: T0 }; M2 { port }; M3: inherit M2 { up }:
   both fields of M1's instance are M3 nodes (77 51 = "M3"; no 84 48 = "T0" left) *)
Example C18_example_parameter_used_twice :
  exists rest, run [1; 1; 2; 77; 48; 4; 2; 77; 48; 0; 0; 1; 4; 112; 97; 105; 114; 6; 77; 49; 40; 77; 51; 41; 0; 12; 77; 49; 40; 84; 48; 32; 60; 45; 32; 77; 50; 41; 0; 0; 2; 4; 108; 101; 102; 116; 2; 84; 48; 8; 114; 105; 103; 104; 116; 91; 50; 93; 2; 84; 48; 0; 2; 77; 50; 0; 1; 4; 112; 111; 114; 116; 0; 0; 2; 77; 51; 1; 2; 77; 50; 1; 2; 117; 112; 0; 0; 0; 1] =
    [1; 2; 77; 48; 0; 1; 4; 112; 97; 105; 114; 0; 2; 77; 49; 0; 2; 4; 108; 101; 102; 116; 0; 2; 77; 51; 2; 2; 117; 112; 0; 4; 112; 111; 114; 116; 0; 0; 0; 5; 114; 105; 103; 104; 116; 3; 2; 77; 51; 2; 2; 117; 112; 0; 4; 112; 111; 114; 116; 0; 0; 0; 0; 0] ++ rest.
Proof. eexists. vm_compute. reflexivity. Qed.
