(* C17 — Configuration entries reach exactly the modules they address.
   Each theorem with its last step: the lemmas are in coq/Props/, the property-level argument (an
   instance, a fold over the configurations, an induction over the operations) is given here.  [cfg_new] / [capture_for_into] are the model of Cfg::new
   (compartmentalize) and Props::update_from (coq/Props/Model.v), [build] the model of
   Sim::include_cfg / Sim::raw, [typed] the entry state machine of props/mod.rs;
   [receives] is the specification (coq/Props/Spec.v).

   Guards (all executable, coq/Props/Main.v):
     wf_cfgb cfg      keys are distinct (a YAML mapping); every key segment is non-empty and is either
                      the wildcard '<any>' or does not contain the text '<any>'; the last segment is
                      not the wildcard (a key ends in a property name);
     known_classb cfg no two keys K and K.<any>.R: next to K the code loses the entry K.<any>.R
                      (`entry_at_wildcard_prefix`, see Refuted/C17.v);
     wf_pathb p       module path segments contain no '.' and none is literally '<any>'.
   Without wf_cfgb soundness, and without known_classb completeness, is false of the code: witnesses in
   coq/Refuted/C17.v (none there drops wf_pathb). *)
From Coq Require Import List NArith Bool Permutation.
From DesVerif Require Import Props.Spec Props.Model Props.Capture Props.Main Props.Typed.
Import ListNotations.
Open Scope N_scope.

(* every captured property is justified: its name is the rest of some entry's key whose front part
   matches the module path segment by segment ('<any>' = exactly one segment), its value that entry's *)
Theorem C17_capture_sound : forall cfg p name e,
  wf_cfgb cfg = true -> known_classb cfg = false -> wf_pathb p = true ->
  In (name, e) (capture_for_into (cfg_new cfg) p) -> exists v, e = EYaml (Scalar v) /\ receives cfg p name v.
Proof.
  intros cfg p name e W K P H. destruct (capture_sound cfg p W K P [] name e H) as [[]|H']. exact H'.
Qed.
Print Assumptions C17_capture_sound.

(* every entry addressing the module yields a property of that name, holding the value of a matching entry *)
Theorem C17_capture_complete : forall cfg p name v,
  wf_cfgb cfg = true -> known_classb cfg = false -> wf_pathb p = true ->
  receives cfg p name v ->
  exists v', In (name, EYaml (Scalar v')) (capture_for_into (cfg_new cfg) p) /\ receives cfg p name v'.
Proof.
  intros cfg p name v W K P R. destruct (capture_complete cfg p W K P [] name v R) as [e He].
  destruct (C17_capture_sound cfg p name e W K P He) as [v' [-> R']]. exists v'. split; assumption.
Qed.
Print Assumptions C17_capture_complete.

(* entries addressed to other modules never appear in or alter the property set: two configurations
   that agree on the entries addressing p give p the same property names *)
Theorem C17_no_foreign_entries : forall cfg1 cfg2 p,
  wf_cfgb cfg1 = true -> known_classb cfg1 = false -> wf_cfgb cfg2 = true -> known_classb cfg2 = false ->
  wf_pathb p = true ->
  (forall name v, receives cfg1 p name v <-> receives cfg2 p name v) ->
  forall name, hasS name (capture_for_into (cfg_new cfg1) p) <-> hasS name (capture_for_into (cfg_new cfg2) p).
Proof.
  intros cfg1 cfg2 p W1 K1 W2 K2 Wp H name.
  split; apply capture_names; try assumption; intros n v; apply H.
Qed.
Print Assumptions C17_no_foreign_entries.

(* ... in particular a module no entry addresses receives nothing *)
Theorem C17_nothing_addressed : forall cfg p,
  wf_cfgb cfg = true -> known_classb cfg = false -> wf_pathb p = true ->
  (forall k v r, In (k, v) cfg -> ~ addresses k p r) -> capture_for_into (cfg_new cfg) p = [].
Proof.
  intros cfg p W K Wp H. destruct (capture_for_into (cfg_new cfg) p) as [|[name e] l] eqn:E; [reflexivity|].
  exfalso. destruct (C17_capture_sound cfg p name e W K Wp) as [v [_ [k [r [Hin [A _]]]]]]; [rewrite E; left; reflexivity|].
  exact (H k v r Hin A).
Qed.
Print Assumptions C17_nothing_addressed.

(* ... and an entry for a sibling (same depth, another specific path) addresses nothing here, whatever
   text the two names share: alice / alicent, a / aé *)
Theorem C17_sibling_not_addressed : forall k q r0 p,
  split_dot k = q ++ r0 -> length q = length p -> ~ In ANY q -> q <> p -> forall r, ~ addresses k p r.
Proof.
  intros k q r0 p E L Nq Ne r [q' [E' [F _]]]. rewrite E in E'.
  assert (q = q') as <- by (apply (app_eq_length _ _ _ _ E'); rewrite L; symmetry; exact (F2_length _ _ F)).
  apply Ne. apply F2_noany; assumption.
Qed.
Print Assumptions C17_sibling_not_addressed.

(* However the entries are partitioned into separate includes and wherever each include_cfg call sits in the
   node-creation sequence (before all nodes, between two, after all): every module ends up with exactly the
   capture, in turn, of all configurations in the order they were included - the same for a node created before,
   between or after them (any configuration values, any paths, any schedule) ... *)
Theorem C17_include_order_irrelevant : forall (sched : list (nat * cfg)) (paths : list (list str)),
  modules (build sim_new sched 0 paths) =
  map (fun q => (q, capture_all (map snd (time_order sched 0 (length paths))) q)) paths.
Proof. exact include_order_irrelevant. Qed.
Print Assumptions C17_include_order_irrelevant.

(* ... that order being a rearrangement of the schedule (nothing lost, nothing included twice) ... *)
Theorem C17_time_order_perm : forall k sched i, Permutation (time_order sched i k) sched.
Proof.
  induction k as [|k IH]; intros sched i; [apply Permutation_refl|]. cbn [time_order].
  eapply Permutation_trans; [apply Permutation_app_head; apply IH|]. apply filter_split_perm.
Qed.
Print Assumptions C17_time_order_perm.

(* ... and capturing several configurations in turn gives exactly the properties the specification lists for
   the UNION of their entries, whatever the order (first set wins: the value is that of some matching entry) *)
Theorem C17_multi_capture_sound : forall groups p name e,
  Forall guarded groups -> wf_pathb p = true ->
  In (name, e) (capture_all (map cfg_new groups) p) ->
  exists v, e = EYaml (Scalar v) /\ receives (concat groups) p name v.
Proof.
  intros groups p name e G Wp H.
  apply (fold_sound _ (fun st => In (name, e) st)
           (fun _ => exists v, e = EYaml (Scalar v) /\ receives (concat groups) p name v)) in H.
  - destruct H as [[]|[_ [_ H]]]. exact H.
  - intros st c Hc Hin. apply in_map_iff in Hc. destruct Hc as [g [<- Hg]].
    rewrite Forall_forall in G. destruct (G g Hg) as [W K].
    destruct (capture_sound g p W K Wp st name e Hin) as [H1|[v [-> R]]]; [left; exact H1|right].
    exists v. split; [reflexivity|]. apply receives_concat. exists g. split; assumption.
Qed.
Print Assumptions C17_multi_capture_sound.

Theorem C17_multi_capture_complete : forall groups p name v,
  Forall guarded groups -> wf_pathb p = true ->
  receives (concat groups) p name v ->
  exists v', In (name, EYaml (Scalar v')) (capture_all (map cfg_new groups) p) /\ receives (concat groups) p name v'.
Proof.
  intros groups p name v G Wp R. apply receives_concat in R. destruct R as [g [Hg R]].
  assert (hasS name (capture_all (map cfg_new groups) p)) as [e He].
  { apply (fold_reach _ (hasS name) _ (cfg_new g)).
    - intros st c. apply upd_has_mono.
    - apply in_map. exact Hg.
    - intros st. rewrite Forall_forall in G. destruct (G g Hg) as [W K].
      exact (capture_complete g p W K Wp st name v R). }
  destruct (C17_multi_capture_sound groups p name e G Wp He) as [v' [-> R']]. exists v'. split; assumption.
Qed.
Print Assumptions C17_multi_capture_complete.

(* once a property holds a value of type t, every sequence of typed reads / writes / raw reads
   answers like a cell of type t: accesses with another type are the InvalidInput error and change nothing *)
Theorem C17_typed_stable : forall ops st name t n, get_raw name st = ESome t n ->
  snd (run_entry st name ops) = cell_run t n ops /\
  exists n', get_raw name (fst (run_entry st name ops)) = ESome t n'.
Proof. exact typed_stable. Qed.
Print Assumptions C17_typed_stable.

(* a configuration included while the node exists never touches a property that already has a slot,
   whatever the slot's state: a configured value, a typed value, or the empty slot a lookup left behind
   (Props::set is entry().or_insert()) - for every configuration value, path and store *)
Theorem C17_include_keeps_slot : forall (c : cfg) (path : list str) (st : store) name e,
  s_get name st = Some e -> s_get name (capture_for c path st) = Some e.
Proof. exact include_keeps_slot. Qed.
Print Assumptions C17_include_keeps_slot.

(* hence the cell law for everything that can reach a property of type t - fresh typed lookups, long-lived typed
   handles Prop<T> (creation, set, get), late includes, in any interleaving: the answers are those of a cell of
   type t; an access of another type is an error (InvalidInput for a lookup / handle creation, the panic record
   9 4 / 9 5 for a set / get through a handle of another type) and changes nothing ... *)
Theorem C17_typed_stable_across_includes : forall ops path st name t n, get_raw name st = ESome t n ->
  snd (run_cell path st name ops) = cell_run2 t n ops /\
  exists n', get_raw name (fst (run_cell path st name ops)) = ESome t n'.
Proof. exact typed_stable_across_includes. Qed.
Print Assumptions C17_typed_stable_across_includes.

(* ... in particular a write through a handle whose type differs from the property's type never changes the
   property (Prop::set's assertion fires before anything is written), and a read through it is an error *)
Theorem C17_handle_of_other_type : forall st name t n ty v, get_raw name st = ESome t n -> t <> ty ->
  h_set st name ty v = (st, [9; 4]) /\ h_get st name ty = [9; 5] /\
  snd (h_new st name ty) = Some TInvalidInput /\ get_raw name (fst (h_new st name ty)) = ESome t n.
Proof.
  intros st name t n ty v H Ne. split; [exact (h_set_mismatch st name t n ty v H Ne)|].
  split; [exact (h_get_mismatch st name t n ty H Ne)|exact (h_new_mismatch st name t n ty H Ne)].
Qed.
Print Assumptions C17_handle_of_other_type.

(* ... and whatever operations (on any properties, through lookups or handles, includes) run on a module, a
   property that has a type keeps it *)
Theorem C17_late_keeps_type : forall ops path st name t n, get_raw name st = ESome t n ->
  exists n', get_raw name (run_module path st ops) = ESome t n'.
Proof.
  induction ops as [|op r IH]; intros path st name t n H; [exists n; exact H|]. cbn [run_module].
  destruct (run_module_step path st name t n op H) as [n1 H1]. exact (IH path _ name t n1 H1).
Qed.
Print Assumptions C17_late_keeps_type.

(* the first typed access converts the configuration value once, to that very number, or fails
   leaving it untouched; an absent property has no type yet *)
Theorem C17_typed_first : forall ty v,
  typed ty (EYaml (Scalar v)) = (if ty <? 2 then (ESome ty v, None) else (EYaml (Scalar v), Some TOther)) /\
  typed ty ENone = (ENone, None).
Proof. intros ty v. split; [apply typed_first|apply typed_absent]. Qed.
Print Assumptions C17_typed_first.

(* the runner (Model.run) builds configurations with cfg_new_v, whose entries may also be hand-nested one-level
   mappings (modelled and correspondence-checked, outside the theorems); on number-valued entries it is cfg_new *)
Theorem C17_cfg_new_v_numbers : forall cfg : list (str * N),
  cfg_new_v (map (fun e => (fst e, VNum (snd e))) cfg) = cfg_new cfg.
Proof. intros cfg. unfold cfg_new_v, cfg_new, cfg_fuel. rewrite !map_map. reflexivity. Qed.
Print Assumptions C17_cfg_new_v_numbers.

(* the executable form of the specification is the specification *)
Theorem C17_spec_executable : forall cfg p name v, In (name, v) (spec_capture cfg p) <-> receives cfg p name v.
Proof. exact spec_capture_ok. Qed.
Print Assumptions C17_spec_executable.

(* Non-vacuity: prefix-sharing siblings (alice / alicent, a / aé), wildcards at depth 0, 1 and twice in a
   row, several entries for one module, a two-segment property name; the configuration passes the guards
   and the model captures what the specification lists. *)
Definition s (l : list N) : str := l.
Definition k_alice_addr : str := [97;108;105;99;101;46;97;100;100;114].               (* alice.addr *)
Definition k_alicent_addr : str := [97;108;105;99;101;110;116;46;97;100;100;114].     (* alicent.addr *)
Definition k_any_log : str := [60;97;110;121;62;46;108;111;103].                       (* <any>.log *)
Definition k_alice_any_mss : str := [97;108;105;99;101;46;60;97;110;121;62;46;116;99;112;46;109;115;115]. (* alice.<any>.tcp.mss *)
Definition k_any_any_x : str := [60;97;110;121;62;46;60;97;110;121;62;46;120].         (* <any>.<any>.x *)
Definition k_ae_x : str := [97;195;169;46;120].                                         (* aé.x *)
Definition k_a_y : str := [97;46;121].                                                  (* a.y *)
Definition demo : list (str * N) :=
  [(k_alice_addr, 1); (k_alicent_addr, 2); (k_any_any_x, 3); (k_any_log, 4); (k_alice_any_mss, 5); (k_ae_x, 6); (k_a_y, 7)].
Definition alice : str := [97;108;105;99;101].
Definition alicent : str := [97;108;105;99;101;110;116].

Example C17_nonvacuous :
  wf_cfgb demo = true /\ known_classb demo = false /\
  sort_props (capture_for_into (cfg_new demo) [alice]) = [([97;100;100;114], EYaml (Scalar 1)); ([108;111;103], EYaml (Scalar 4))] /\
  sort_props (capture_for_into (cfg_new demo) [alicent]) = [([97;100;100;114], EYaml (Scalar 2)); ([108;111;103], EYaml (Scalar 4))] /\
  sort_props (capture_for_into (cfg_new demo) [alice; [116;99;112]]) = [([116;99;112;46;109;115;115], EYaml (Scalar 5)); ([120], EYaml (Scalar 3))] /\
  sort_props (capture_for_into (cfg_new demo) [[97]]) = [([108;111;103], EYaml (Scalar 4)); ([121], EYaml (Scalar 7))] /\
  sort_props (capture_for_into (cfg_new demo) [[97;195;169]]) = [([108;111;103], EYaml (Scalar 4)); ([120], EYaml (Scalar 6))] /\
  spec_capture demo [alice] = [([97;100;100;114], 1); ([108;111;103], 4)] /\
  spec_capture demo [alice; [116;99;112]] = [([120], 3); ([116;99;112;46;109;115;115], 5)].
Proof. vm_compute. repeat split; reflexivity. Qed.

(* two includes whose wildcard entries share the text in front of '<any>' (`alice.<any>.`), the second one
   scheduled before node 0 and the first before node 1: the node alice.tcp, created after both, gets both *)
Definition k_alice_any_log : str := alice ++ [46] ++ ANY ++ [46; 108; 111; 103].   (* alice.<any>.log *)
Definition k_alice_any_mtu : str := alice ++ [46] ++ ANY ++ [46; 109; 116; 117].   (* alice.<any>.mtu *)
Example C17_nonvacuous_multi :
  map (fun mp => sort_props (snd mp))
      (modules (build sim_new [(1%nat, cfg_new [(k_alice_any_log, 1)]); (0%nat, cfg_new [(k_alice_any_mtu, 2)])] 0
                      [[alice]; [alice; [116;99;112]]]))
  = [[]; [([108;111;103], EYaml (Scalar 1)); ([109;116;117], EYaml (Scalar 2))]].
Proof. vm_compute. reflexivity. Qed.

(* a late run on module alice: addr is read as u64, a configuration `alice.addr: 300` arrives, addr is re-read
   as String (type mismatch) and as u64 (still 1); `level` is written as i64 3 before `<any>.level: 300`
   arrives and stays an i64 3; `mtu` is merely looked up before `alice.mtu: 9` arrives and stays empty *)
Definition addr : str := [97;100;100;114].
Definition level : str := [108;101;118;101;108].
Definition mtu : str := [109;116;117].
Example C17_nonvacuous_late :
  snd (run_late [([alice], capture_for_into (cfg_new demo) [alice])] []
        [LTyped (TRead 0 addr 0); LInclude (alice ++ [46] ++ addr) 300; LTyped (TRead 0 addr 2); LTyped (TRead 0 addr 0);
         LTyped (TWrite 0 level 1 3); LInclude (ANY ++ [46] ++ level) 300; LTyped (TRead 0 level 0); LTyped (TRead 0 level 1);
         LTyped (TRaw 0 mtu); LInclude (alice ++ [46] ++ mtu) 9; LTyped (TRead 0 mtu 0);
         LInclude (alice ++ [46; 120]) 5; LTyped (TRead 0 [120] 0)])
  = [3;1;1] ++ [3;2] ++ [3;1;1] ++ [4;0] ++ [3;2] ++ [3;1;3] ++ [5;6] ++ [3;0] ++ [3;1;5].
Proof. vm_compute. reflexivity. Qed.

(* two handles of different types for the absent property mtu, created before its first write: the u64 handle
   writes 1500, the write through the String handle panics and changes nothing, a String lookup is InvalidInput,
   the u64 handle still reads 1500; after clear the String handle may type the property and the u64 one is stale *)
Example C17_nonvacuous_handles :
  snd (run_late [([alice], capture_for_into (cfg_new demo) [alice])] []
        [LHandle 0 mtu 0; LHandle 0 mtu 2; LHset 0 1500; LHset 1 7; LTyped (TRead 0 mtu 2); LHget 0; LHget 1;
         LClear 0 mtu; LHget 0; LHset 1 7; LHset 0 8; LHget 1])
  = [8;0] ++ [8;0] ++ [13;0] ++ [9;4] ++ [3;2] ++ [14;1;1500] ++ [9;5] ++ [15] ++ [14;0] ++ [13;0] ++ [9;4] ++ [14;1;7].
Proof. vm_compute. reflexivity. Qed.
