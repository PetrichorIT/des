(* C01 — Future event set: time-ordered, exactly-once, cancellable dispatch.
   The statements, each proved in a few lines from the lemmas of the directories it imports.  [run_ops true n t] is the calendar-queue model of
   des-cqueue (coq/CQueue/Model.v), [sp_run_ops] the two-list specification
   (coq/CQueue/Spec.v), [ghost_run] the specification instrumented with the
   record of what was added / fetched / cancelled (coq/CQueue/SpecProps.v). *)
From Coq Require Import List NArith Sorting.Sorted Permutation.
From DesVerif Require Import CQueue.Model CQueue.Spec CQueue.ListX CQueue.Refine CQueue.InvBits CQueue.Sim CQueue.SpecProps.
Import ListNotations.
Open Scope N_scope.

(* For every bucket count n >= 1 and bucket width t >= 1 and every operation
   history (adds in the past and fetches on an empty queue included: they panic
   and leave the queue unchanged), the calendar queue answers exactly like the
   specification, which does not mention n or t. *)
Theorem C01_refines_spec : forall n t ops, n <> 0 -> t <> 0 -> run_ops true n t ops = sp_run_ops ops.
Proof. exact cq_refines. Qed.
Print Assumptions C01_refines_spec.

(* The same for a queue created with CQueue::new_at (clock starting at ts);
   histories may contain peek_time, which both sides answer identically and
   which changes nothing. *)
Theorem C01_refines_spec_at : forall n t ts ops, n <> 0 -> t <> 0 -> run_ops_at true n t ts ops = sp_run_ops_at ts ops.
Proof. exact cq_refines_at. Qed.
Print Assumptions C01_refines_spec_at.

(* No adaptive client -- one that picks each next operation from the answers seen
   so far, as the runtime's dispatch loop does -- can tell the calendar queue from
   the specification. *)
Theorem C01_indistinguishable_by_any_client : forall n t ts fuel (c : list out -> option op), n <> 0 -> t <> 0 ->
  interact fuel c (init_at n t ts) [] = sp_interact fuel c (sp_init_at ts) [].
Proof. exact cq_indistinguishable. Qed.
Print Assumptions C01_indistinguishable_by_any_client.

(* The representation invariant (window alignment, per-bucket order, bucket
   membership by slot, len counter, handle/ids discipline) holds in every
   reachable state. *)
Theorem C01_invariant_reachable : forall n t ops, n <> 0 -> t <> 0 ->
  Rst (fst (run_from true (init n t) ops)) (fst (sp_run_from sp_init ops)).
Proof. exact cq_inv_reachable. Qed.
Print Assumptions C01_invariant_reachable.

(* The executable representation-invariant bits (sorted buckets, bucket
   membership by index, no pending event older than the clock, len counter,
   window alignment) -- the same five predicates the harness evaluates on
   CQueue::verif_snapshot() -- are all ones in every reachable state. *)
Theorem C01_invariant_bits_reachable : forall n t ts ops, n <> 0 -> t <> 0 ->
  inv_bits (sq (fst (run_from true (init_at n t ts) ops))) = [1; 1; 1; 1; 1].
Proof.
  intros n t ts ops Hn Ht. destruct (cq_inv_reachable_at n t ts ops Hn Ht) as [HR _].
  exact (CQueue.InvBits.R_inv_bits _ _ _ HR).
Qed.
Print Assumptions C01_invariant_bits_reachable.

(* The head/t0/t1 scan of fetch_next terminates on every reachable state. *)
Theorem C01_scan_terminates : forall n t ts ops, n <> 0 -> t <> 0 ->
  ~ In OOutOfFuel (run_ops true n t ops) /\ ~ In OOutOfFuel (run_ops_at true n t ts ops).
Proof. intros; split; [apply cq_scan_total|apply cq_scan_total_at]; assumption. Qed.
Print Assumptions C01_scan_terminates.

(* fetch returns events in non-decreasing timestamp order *)
Theorem C01_fetch_nondecreasing : forall ts ops, StronglySorted N.le (fetched_times (sp_run_ops_at ts ops)).
Proof. exact fetch_nondecreasing_at. Qed.
Print Assumptions C01_fetch_nondecreasing.

(* every scheduled event is at every moment in exactly one of {fetched,
   cancelled while pending, pending}; what fetch returned is, in order, the
   payload and scheduling time of the fetched ones *)
Theorem C01_exactly_once : forall ts ops,
  let a := fst (ghost_run (sp_init_at ts) g0 ops) in
  let g := snd (ghost_run (sp_init_at ts) g0 ops) in
  (Permutation (g_added g) (g_fetched g ++ g_cancelled g ++ spend (ss a)) /\
   NoDup (map eid (g_fetched g ++ g_cancelled g ++ spend (ss a)))) /\
  fetched_outs (sp_run_ops_at ts ops) = map (fun x => (epay x, etime x)) (g_fetched g).
Proof. intros ts ops. split; [exact (exactly_once ts ops)|exact (fetched_are_ghost ts ops)]. Qed.
Print Assumptions C01_exactly_once.

Theorem C01_cancelled_never_returned : forall ts ops e,
  let g := snd (ghost_run (sp_init_at ts) g0 ops) in In e (g_cancelled g) -> ~ In e (g_fetched g).
Proof. exact cancelled_never_returned. Qed.
Print Assumptions C01_cancelled_never_returned.

(* reported length = scheduled - cancelled - fetched *)
Theorem C01_len_formula : forall ts ops,
  let a := fst (ghost_run (sp_init_at ts) g0 ops) in
  let g := snd (ghost_run (sp_init_at ts) g0 ops) in
  (N.to_nat (sp_len (ss a)) + length (g_cancelled g) + length (g_fetched g) = length (g_added g))%nat.
Proof. exact len_formula. Qed.
Print Assumptions C01_len_formula.

Theorem C01_cancel_after_fetch_noop : forall ts ops e,
  let a := fst (ghost_run (sp_init_at ts) g0 ops) in
  let g := snd (ghost_run (sp_init_at ts) g0 ops) in
  In e (g_fetched g) -> sp_cancel (ss a) (eid e) = ss a.
Proof. exact cancel_after_fetch_noop. Qed.
Print Assumptions C01_cancel_after_fetch_noop.

(* Non-vacuity: a history with a tie at the current time, a year wrap
   (n*t = 6), a far-future outlier and cancels, on which both sides agree and
   something non-trivial happens. *)
Example C01_nonvacuous :
  let ops := [Add 0 1; Add 13 2; Add 7 3; Add 13 4; Add 1000003 9; Fetch; Fetch; Add 7 5; Cancel 3;
              Fetch; Fetch; Fetch; Fetch; Len; Cancel 0; Fetch] in
  run_ops true 3 2 ops = sp_run_ops ops /\
  fetched_outs (sp_run_ops ops) = [(1, 0); (3, 7); (5, 7); (2, 13); (9, 1000003)].
Proof. split; [apply cq_refines; discriminate|vm_compute; reflexivity]. Qed.

(* peek_time announces the next fetch and changes nothing; a queue started at
   ts = 25 (n*t = 6: window on bucket 12 mod 3 = 0) rejects earlier adds *)
Example C01_nonvacuous_at :
  run_ops_at true 3 2 25 [Add 24 1; Add 25 2; Add 31 3; Peek; Fetch; Peek; Time; Fetch; Peek; Len]
  = [OPanic 1; OAdded; OAdded; OPeek (Some 25); OFetched 2 25; OPeek (Some 31); OTime 25; OFetched 3 31; OPeek None; OLen 0].
Proof. vm_compute. reflexivity. Qed.


(* ===========================================================================
   The OTHER future event set: default_impl::FutureEventSet of
   des/src/runtime/event/event_set.rs (BinaryHeap ordered by time only + zero
   queue + last_event_simtime), what a des built without the `cqueue` feature
   runs (the copy under cfg_miri! is the same text).  Model: coq/Runtime/HeapSet.v.
   std's BinaryHeap does not say which of several equal-time entries `pop`
   returns, so the heap is a finite bag and `pop` returns A minimum-time entry
   chosen by an oracle; every statement below is for EVERY oracle
   (orc : position of the operation -> candidates -> index) and every
   cancel-free history [forallb heap_op ops = true] (the backend has no cancel).
   C03's tie order is not promised for this backend and is not claimed. *)
From DesVerif Require Import Runtime.HeapSet Runtime.HeapRt Runtime.HeapSetProps Runtime.Generic Runtime.Model.

(* fetch returns events in non-decreasing timestamp order *)
Theorem C01_heap_fetch_nondecreasing : forall (orc : oracle) ts ops,
  forallb heap_op ops = true -> StronglySorted N.le (fetched_times (hp_run_ops orc ts ops)).
Proof. exact heap_fetch_nondecreasing. Qed.
Print Assumptions C01_heap_fetch_nondecreasing.

(* every accepted add is, as a (payload, time) pair, fetched exactly once with
   that timestamp or still pending: a multiset equation *)
Theorem C01_heap_exactly_once : forall (orc : oracle) ts ops,
  let r := hp_run_from orc 0 (hp_new ts) ops in
  Permutation (accepted_adds ops (snd r)) (fetched_outs (snd r) ++ hpend_pt (fst r)).
Proof. exact heap_exactly_once. Qed.
Print Assumptions C01_heap_exactly_once.

(* len = accepted adds - fetched *)
Theorem C01_heap_len_formula : forall (orc : oracle) ts ops,
  let r := hp_run_from orc 0 (hp_new ts) ops in
  (N.to_nat (hp_len (fst r)) + length (fetched_outs (snd r)) = length (accepted_adds ops (snd r)))%nat.
Proof. exact heap_len_formula. Qed.
Print Assumptions C01_heap_len_formula.

(* in every reachable state: peek_time is None exactly on the empty set;
   otherwise it is the earliest pending time and the time of what fetch_next
   returns next, whichever entry the oracle picks; peek_time changes nothing *)
Theorem C01_heap_peek_is_next_fetch : forall (orc : oracle) ts ops,
  let h := fst (hp_run_from orc 0 (hp_new ts) ops) in
  (hp_peek h = None <-> hp_len h = 0) /\
  (forall t, hp_peek h = Some t ->
     Forall (fun e => t <= fst e) (hpend h) /\
     forall pick, exists p h', hp_step pick h Fetch = (h', OFetched p t) /\ hlast h' = t) /\
  (forall pick, fst (hp_step pick h Peek) = h).
Proof. exact heap_peek_is_next_fetch. Qed.
Print Assumptions C01_heap_peek_is_next_fetch.

(* Refinement of the two-list specification up to the order among equal
   timestamps of entries that are not in the zero queue.  [hp_trace] / [sp_trace]
   pair every answer with "this fetch was served by the zero queue"; [agree]:
   the flags are equal, a zero-queue fetch gives the very same answer, any
   other answer is equal except that a fetch may return another payload with
   the SAME time.  So: all add verdicts, len, time, peek_time answers and the
   time of every fetch coincide position by position, the zero-queue
   sub-sequence is identical, and (with C01_heap_exactly_once and
   C01_exactly_once) both fetched sequences are time-sorted arrangements of the
   same accepted events. *)
Theorem C01_heap_refines_spec_up_to_ties : forall (orc : oracle) ts ops,
  forallb heap_op ops = true ->
  Forall2 agree (hp_trace orc 0 (hp_new ts) ops) (sp_trace (sp_init_at ts) ops) /\
  map fst (hp_trace orc 0 (hp_new ts) ops) = hp_run_ops orc ts ops /\
  map fst (sp_trace (sp_init_at ts) ops) = sp_run_ops_at ts ops.
Proof. exact heap_refines_spec_up_to_ties. Qed.
Print Assumptions C01_heap_refines_spec_up_to_ties.

(* The runtime over this backend (coq/Runtime/Generic.v instantiated in
   HeapRt.v; the extracted runner of `check.py C01 --part heap`), any oracle
   (orc : dispatch number -> candidates -> index), any program, limit, pre-run
   adds and step schedule: every loop terminates, and in the booted, the paused
   and the final state the clock clauses of C02 hold -- see C02_holds_over_heap
   in Properties/C02.v for the statement spelled out. *)
Theorem C01_heap_runtime_total : forall (orc : N -> hint) S B L pre P ops,
  exists s1 xs sf,
    hexec_sched orc P (hboot S B L pre) ops = (Some s1, xs) /\ ~ In OFuel xs /\ hdispatch_all orc P s1 = Some sf /\
    hgood orc S (hboot S B L pre) /\ hgood orc S s1 /\ hgood orc S sf.
Proof. exact heap_runtime_good. Qed.
Print Assumptions C01_heap_runtime_total.

(* Non-vacuity: three entries at time 7 in the heap and one at 9; the oracle
   "last candidate" fetches them in the order 3, 2, 1 (the specification: 1, 2,
   3), all at time 7, then 9; an entry added at the current time 7 goes to the
   zero queue and is served before the remaining heap entries. *)
Example C01_heap_nonvacuous :
  let ops := [Add 7 1; Add 7 2; Add 9 4; Add 7 3; Peek; Fetch; Add 7 5; Fetch; Fetch; Len; Fetch; Fetch; Fetch] in
  hp_run_ops (fun _ cs => pred (length cs)) 0 ops =
    [OAdded; OAdded; OAdded; OAdded; OPeek (Some 7); OFetched 3 7; OAdded; OFetched 5 7; OFetched 2 7; OLen 2;
     OFetched 1 7; OFetched 4 9; OPanic 2] /\
  sp_run_ops_at 0 ops =
    [OAdded; OAdded; OAdded; OAdded; OPeek (Some 7); OFetched 1 7; OAdded; OFetched 5 7; OFetched 2 7; OLen 2;
     OFetched 3 7; OFetched 4 9; OPanic 2].
Proof. vm_compute. split; reflexivity. Qed.
