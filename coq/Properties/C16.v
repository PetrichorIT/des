(* C16 — Message bodies are type safe, value preserving and measured consistently.
   The statements (a proof written out here is a few lines over the theorems of coq/Body).
   [final ops] is the state of the body model (coq/Body/Model.v:
   type-erased box pointer + vtable over a ghost heap, the Message content API on
   four slots) after the operation sequence [ops]; [view st s] is what slot s
   shows: nothing, or a message with header id h and, if it has a body, the
   body's type tag, value, serial, declared length and clonability
   (coq/Body/Props.v).  All statements hold for EVERY operation sequence and for
   every type tag (any number), not only the 23 tags (Body/Model.v, NT) the harness scripts draw from. *)
From Coq Require Import List NArith Bool.
From Coq Require Import Permutation.
From DesVerif Require Import Body.Derive Body.StdLen Body.Model Body.Heap Body.Inv Body.Props Body.Frame
  Body.DeriveProps Body.Main Body.StdLenProps.
Import ListNotations.
Open Scope N_scope.

(* can_cast / try_content / try_cast succeed iff the requested type is the type
   the body holds.  A successful cast hands out exactly the stored value (the
   ghost cell i, not destroyed) and consumes the message; a cast to any other
   type — or of a message without body — returns the message intact: the whole
   state is unchanged and the result is the observation of the same message. *)
Theorem C16_cast_iff_same_tag : forall ops s tag,
  let st := final ops in
  match view st s with
  | VEmpty => step st (OCanCast s tag) = (st, RNone) /\ step st (OTryContent s tag) = (st, RNone) /\
              step st (OTryCast s tag) = (st, RNone)
  | VBroken => False
  | VMsg h bv =>
      step st (OCanCast s tag) = (st, RBool (same_tag bv tag)) /\
      step st (OTryContent s tag) =
        (st, match bv with
             | Some v => if bv_tag v =? tag then RSome (bv_val v) (bv_ser v) else RNoContent
             | None => RNoContent
             end) /\
      (if same_tag bv tag then
         exists v i c, bv = Some v /\
           step st (OTryCast s tag) = (set_slot st (smem st) s None (held st ++ [i]), RCast (bv_val v) (bv_ser v) h) /\
           view (fst (step st (OTryCast s tag))) s = VEmpty /\
           nth_error (heap (smem st)) i = Some c /\ ctag c = tag /\ cval c = bv_val v /\ cser c = bv_ser v /\ cdrops c = 0
       else step st (OTryCast s tag) = (st, RCastErr (obs_of h bv)))
  end.
Proof. exact cast_iff_same_tag. Qed.
Print Assumptions C16_cast_iff_same_tag.

(* What was put in is what the slot shows — tag, value, serial, declared length —
   after ANY operations that do not overwrite/drop that slot or cast it to the
   stored type: casts and borrows with other types, can_cast, reads, clones of it,
   anything on other slots and on cast-out values.  Together with
   C16_cast_iff_same_tag: what is read or cast out equals the value put in, and
   the tag that succeeds is the tag the body was created with. *)
Theorem C16_value_preserved : forall ops s mode tag v L ops',
  Forall (fun o => ~ touches tag s o) ops' ->
  view (final (ops ++ ONew s mode tag v L :: ops')) s =
  VMsg (next_hid (final ops)) (Some (created (final ops) mode tag v L)).
Proof. exact value_preserved. Qed.
Print Assumptions C16_value_preserved.

(* the same for set_content & co. on an existing message (header id kept) *)
Theorem C16_value_preserved_set : forall ops s mode tag v L ops' h bv,
  view (final ops) s = VMsg h bv ->
  Forall (fun o => ~ touches tag s o) ops' ->
  view (final (ops ++ OSet s mode tag v L :: ops')) s = VMsg h (Some (created (final ops) mode tag v L)).
Proof.
  intros ops s mode tag v L ops' h bv Hv0 HF.
  apply view_after; [exact (proj1 (set_view _ s mode tag v L h bv (inv_reachable ops) Hv0))|exact HF].
Qed.
Print Assumptions C16_value_preserved_set.

(* try_clone / clone: None / panic iff the body was stored non-clonable; otherwise
   the target slot shows the same header id, tag, value and declared length (a
   new instance: fresh serial), and the source is unchanged. *)
Theorem C16_clone_preserves_value : forall ops s d h bv,
  let st := final ops in
  view st s = VMsg h bv ->
  match bv with
  | Some v =>
      if bv_clon v then
        step st (OClone s d) = step st (OTryClone s d) /\
        snd (step st (OTryClone s d)) = RCloned (bv_ser (clone_of st v)) /\
        view (fst (step st (OTryClone s d))) d = VMsg h (Some (clone_of st v))
      else step st (OTryClone s d) = (st, RNotClonable) /\ step st (OClone s d) = (st, RPanic 1)
  | None =>
      step st (OClone s d) = step st (OTryClone s d) /\
      snd (step st (OTryClone s d)) = RCloned 0 /\
      view (fst (step st (OTryClone s d))) d = VMsg h None
  end.
Proof. intros ops s d h bv st. apply clone_view, inv_reachable. Qed.
Print Assumptions C16_clone_preserves_value.

Theorem C16_clone_source_unchanged : forall ops s d,
  let st := final ops in
  slot_ix d <> slot_ix s ->
  view (fst (step st (OTryClone s d))) s = view st s /\ view (fst (step st (OClone s d))) s = view st s.
Proof. intros ops s d st. apply clone_source_unchanged, inv_reachable. Qed.
Print Assumptions C16_clone_source_unchanged.

(* Ghost-heap invariant, by induction over the operation list: at every point
   every stored value (cell j) is either referenced exactly once (by one body in
   a slot or one cast-out value) and its destructor has not run, or it is
   unreferenced and its destructor has run exactly once; no reference dangles or
   is duplicated.  After the tear-down (all slots and cast-out values dropped)
   the destructor of every value ever stored has run exactly once. *)
Theorem C16_drop_exactly_once : forall ops,
  let st := final ops in
  (forall j, (j < hlen (smem st))%nat ->
     (cnt j (refs st) = 1 /\ drops (smem st) j = 0) \/ (cnt j (refs st) = 0 /\ drops (smem st) j = 1)) /\
  (forall j, In j (refs st) -> (j < hlen (smem st))%nat) /\
  NoDup (refs st) /\
  hlen (smem (finish st)) = hlen (smem st) /\ mem_le (smem st) (smem (finish st)) /\
  (forall j, (j < hlen (smem (finish st)))%nat -> drops (smem (finish st)) j = 1).
Proof. exact drop_exactly_once. Qed.
Print Assumptions C16_drop_exactly_once.

(* a stored value's cell (tag, value, serial) persists through everything that
   follows and its destructor counter never decreases *)
Theorem C16_heap_persists : forall ops ops', mem_le (smem (final ops)) (smem (final (ops ++ ops'))).
Proof. exact heap_persists. Qed.
Print Assumptions C16_heap_persists.

(* Message::length = the length declared at creation + 64, after any sequence of
   operations that leaves the value in place (failed casts, clones, ...);
   declared = byte_len of the value (new / new_non_clonable), size_of
   (new_non_debugable) or the explicit length (new_with_len). *)
Theorem C16_length_is_header_plus_declared : forall ops s mode tag v L ops',
  Forall (fun o => ~ touches tag s o) ops' ->
  let st := final (ops ++ ONew s mode tag v L :: ops') in
  step st (OLength s) = (st, RLen (declared_len mode tag v L + HEADER_LEN)) /\
  snd (step (final ops) (ONew s mode tag v L)) = RNew (bv_ser (created (final ops) mode tag v L)) (declared_len mode tag v L).
Proof. exact length_is_header_plus_declared. Qed.
Print Assumptions C16_length_is_header_plus_declared.

Theorem C16_length_of_view : forall ops s,
  let st := final ops in
  match view st s with
  | VMsg h bv => step st (OLength s) = (st, RLen (match bv with Some v => bv_len v | None => 0 end + HEADER_LEN)) /\
                 step st (OObserve s) = (st, RObs (obs_of h bv))
  | _ => True
  end.
Proof.
  intros ops s st. destruct (view st s) as [|h bv|] eqn:Hv; auto. split; [eapply length_view|eapply observe_view]; exact Hv.
Qed.
Print Assumptions C16_length_of_view.

(* derive(MessageBody): for every declaration with distinct field / variant names
   and every value of it, the generated byte_len body evaluates to the sum of the
   byte lengths of the fields of the value's active variant (all fields of a struct). *)
Theorem C16_derive_sums_active_variant : forall d rv,
  wf d -> value_of d rv -> byte_len d rv = Some (sum (field_lens rv)).
Proof. exact derive_sums_active_variant. Qed.
Print Assumptions C16_derive_sums_active_variant.

(* no operation sequence dereferences a null, dangling or wrongly typed box pointer *)
Theorem C16_no_undefined_behaviour : forall ops, ~ In RUB (map fst (run_ops ops)).
Proof. exact no_undefined_behaviour. Qed.
Print Assumptions C16_no_undefined_behaviour.

(* ---- structural byte lengths of the std impls of MessageBody (coq/Body/StdLen.v) ---- *)
(* [T; N], Vec, VecDeque, LinkedList, &[T], HashSet, BTreeSet, BinaryHeap: the sum over ALL elements,
   for every element list (not "N times the first element") *)
Theorem C16_array_len_is_sum : forall k xs, std_byte_len (VSeq k xs) = sum (map std_byte_len xs).
Proof. exact seq_len_is_sum. Qed.
Print Assumptions C16_array_len_is_sum.

Theorem C16_map_len_is_sum : forall k kvs,
  std_byte_len (VMap k kvs) = sum (map (fun kv => std_byte_len (fst kv) + std_byte_len (snd kv)) kvs).
Proof. exact map_len_is_sum. Qed.
Print Assumptions C16_map_len_is_sum.

Theorem C16_tuple_len : forall xs, std_byte_len (VTuple xs) = sum (map std_byte_len xs).
Proof. exact tuple_len. Qed.
Print Assumptions C16_tuple_len.

(* Option / Result / Box: the payload of the active variant, nothing for None *)
Theorem C16_option_len : forall x,
  std_byte_len VNone = 0 /\ std_byte_len (VSome x) = std_byte_len x /\
  std_byte_len (VOk x) = std_byte_len x /\ std_byte_len (VErr x) = std_byte_len x /\ std_byte_len (VBox x) = std_byte_len x.
Proof. intros x. repeat split. Qed.
Print Assumptions C16_option_len.

(* iteration order and collection kind are irrelevant (hash sets and maps) *)
Theorem C16_collection_len_order_irrelevant : forall k k' xs ys,
  Permutation xs ys -> std_byte_len (VSeq k xs) = std_byte_len (VSeq k' ys).
Proof. exact seq_len_perm. Qed.
Print Assumptions C16_collection_len_order_irrelevant.

(* a message whose body was created from a value of the std family measures 64 + the structural byte length *)
Theorem C16_std_message_length : forall ops s mode fam v L ops',
  mode mod 4 < 2 ->
  Forall (fun o => ~ touches (STD_BASE + fam) s o) ops' ->
  let st := final (ops ++ ONew s mode (STD_BASE + fam) v L :: ops') in
  step st (OLength s) = (st, RLen (std_byte_len (fam_value fam (unpack v)) + HEADER_LEN)).
Proof. exact std_message_length. Qed.
Print Assumptions C16_std_message_length.

(* the script numbers a value is built from survive the packing into one model value *)
Theorem C16_unpack_pack : forall l, Forall (fun x => x < B62) l -> unpack (pack l) = l.
Proof. exact unpack_pack. Qed.
Print Assumptions C16_unpack_pack.

(* ---- non-vacuity ---- *)
(* Tok (tag 9) value 7 in slot 0; failed casts to the layout-compatible Tok2 (10)
   and to u32 (1); clone into slot 1; cast slot 0 out; clone of a non-clonable
   body refused; everything is destroyed exactly once at the end. *)
Example C16_nonvacuous_body :
  let ops := [ONew 0 0 9 7 0; OTryCast 0 10; OTryContent 0 1; OTryClone 0 1; OTryCast 0 9;
              OTryContent 1 9; OLength 1; ONew 2 1 9 8 0; OTryClone 2 3; OClone 2 3; ODropHeld 0] in
  map fst (run_ops ops) =
    [RNew 1 6; RCastErr {| otag := 9; oval := 7; oser := 1; oblen := 6; omlen := 70; ohid := 1 |};
     RNoContent; RCloned 2; RCast 7 1 1; RSome 7 2; RLen 70; RNew 3 9; RNotClonable; RPanic 1; RHeldDropped] /\
  map snd (run_ops ops) = [[]; []; []; []; []; []; []; []; []; []; [1]] /\
  log_between (final ops) (finish (final ops)) = [2; 3] /\
  view (final ops) 1 = VMsg 1 (Some {| bv_tag := 9; bv_val := 7; bv_ser := 2; bv_len := 6; bv_clon := true |}).
Proof. vm_compute. repeat split; reflexivity. Qed.

(* enum E { A, B(L,L,L), C { x, y }, D(L) }: a value C { x: 5, y: 9 } measures 14 *)
Example C16_nonvacuous_derive :
  wf fam_E3 /\ value_of fam_E3 (e3_value 2 5 9 100) /\ byte_len fam_E3 (e3_value 2 5 9 100) = Some 14 /\
  ds_len 8 = 3 * 3 + 8 + 1.
Proof.
  split; [|split; [|split; reflexivity]].
  - cbn. split; [repeat constructor; cbn; intuition discriminate|].
    repeat constructor; cbn; auto. intros [E|[]]; discriminate.
  - exists {| vname := 2; vfields := named [1; 2] |}. cbn. intuition.
Qed.

(* [String; 3] = ["a", "bcd", ""] as a message body: 4 bytes, message length 68 (not 3 * 1 + 64) *)
Example C16_nonvacuous_std :
  run [3; 0; 0; 1; 3; 0] = [16; 4; 68; 68] /\ run [3; 1; 1; 0; 1; 1; 0] = [16; 8; 72; 72].
Proof. vm_compute. split; reflexivity. Qed.
