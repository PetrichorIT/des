(* C03 — Equal-timestamp events are dispatched in a deterministic scheduling order.
   The statements, each proved in a few lines from the lemmas of the directories it imports.  See coq/CQueue/Order.v. *)
From Coq Require Import List NArith Permutation.
From DesVerif Require Import CQueue.Model CQueue.Spec CQueue.ListX CQueue.Sim CQueue.SpecProps CQueue.Order.
Import ListNotations.
Open Scope N_scope.

(* The order does not depend on the queue parameters: for any two
   parameterisations the calendar queue gives identical answers on every history
   (both equal the parameter-free specification). *)
Theorem C03_order_independent_of_parameters : forall n t n' t' ops,
  n <> 0 -> t <> 0 -> n' <> 0 -> t' <> 0 -> run_ops true n t ops = run_ops true n' t' ops.
Proof. intros. rewrite !cq_refines by assumption. reflexivity. Qed.
Print Assumptions C03_order_independent_of_parameters.

(* Every reachable specification state satisfies the ordering invariant. *)
Theorem C03_invariant_reachable : forall ts ops, SI2 (ss (fst (sp_run_from (sp_init_at ts) ops))).
Proof. intros ts ops. apply SI2_reachable. exact (SI2_new_at ts). Qed.
Print Assumptions C03_invariant_reachable.

(* Fetch returns the pending event with the least dispatch key
   (time, class, scheduling sequence number), class 0 = scheduled for the
   then-current instant, class 1 = otherwise. *)
Theorem C03_fetch_min_dispatch_key : forall s s' p t,
  SI2 s -> sp_fetch s = (s', OFetched p t) ->
  exists x, In x (spend s) /\ epay x = p /\ etime x = t /\
            forall y, In y (spend s) -> y <> x -> dk_lt s x y.
Proof. exact fetch_min_dispatch_key. Qed.
Print Assumptions C03_fetch_min_dispatch_key.

(* The class is fixed at scheduling time ... *)
Theorem C03_class_fixed : forall a o e,
  SI (ss a) -> In e (spend (ss a)) -> In e (spend (ss (fst (sp_step a o)))) ->
  (In e (s_zero (ss a)) <-> In e (s_zero (ss (fst (sp_step a o))))).
Proof. exact class_fixed. Qed.
Print Assumptions C03_class_fixed.

(* ... and is 0 exactly when the event is scheduled for the current instant. *)
Theorem C03_new_event_class : forall s t p,
  s_tcur s <= t ->
  let s' := fst (fst (sp_add s t p)) in
  let e := {| etime := t; eid := s_next s; epay := p |} in
  (t = s_tcur s -> s_zero s' = s_zero s ++ [e] /\ s_rest s' = s_rest s) /\
  (t <> s_tcur s -> s_zero s' = s_zero s /\ Permutation (s_rest s') (e :: s_rest s)).
Proof. exact new_event_class. Qed.
Print Assumptions C03_new_event_class.

(* Two events scheduled one after the other for the same future instant are never reordered.
   fetch reports a payload and a time, not an event: "the fetched event is b" is therefore
   written "b has the reported payload and time, and is the only pending event that has"
   (the conjunction under the negation); when several pending events share payload and
   time the statement claims nothing about which of them was returned. *)
Theorem C03_same_future_instant_fifo : forall s s' p t a b,
  SI2 s -> sp_fetch s = (s', OFetched p t) ->
  In a (s_rest s) -> In b (s_rest s) -> etime a = etime b -> eid a < eid b ->
  ~ (epay b = p /\ etime b = t /\ forall x, In x (spend s) -> epay x = p -> etime x = t -> x = b).
Proof. exact same_future_instant_fifo. Qed.
Print Assumptions C03_same_future_instant_fifo.

(* Events scheduled for the current instant run first ("the fetched event is b" written as above). *)
Theorem C03_current_instant_first : forall s s' p t a b,
  SI2 s -> sp_fetch s = (s', OFetched p t) ->
  In a (s_zero s) -> In b (s_rest s) ->
  ~ (epay b = p /\ etime b = t /\ forall x, In x (spend s) -> epay x = p -> etime x = t -> x = b).
Proof. exact current_instant_first. Qed.
Print Assumptions C03_current_instant_first.

(* Non-vacuity: ties straddling a year wrap (n*t = 6) with a zero-delay
   follow-up: B and C wait for instant 12, A is fetched at 12, then D is
   scheduled for the current instant 12 and overtakes B and C. *)
Example C03_nonvacuous :
  let ops := [Add 12 1; Add 12 2; Add 12 3; Fetch; Add 12 4; Fetch; Fetch; Fetch] in
  fetched_outs (run_ops true 3 2 ops) = [(1, 12); (4, 12); (2, 12); (3, 12)] /\
  run_ops true 3 2 ops = run_ops true 1028 5000000 ops.
Proof. vm_compute. split; reflexivity. Qed.
