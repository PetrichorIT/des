(* C20 -- dropping a simulation releases every module, task and message exactly once.
   The statements, each proved in a few lines from the lemmas of the directories it imports.  The heap is the executable reference-count heap of
   coq/Own/Heap.v ([release_all s roots] drops the handles [roots] one after the
   other; [freed] is the destructor log, [bad] the handles released after the
   free), the schema ([typed false] = after the fixes 6ce5d8e and 012bc88) is coq/Own/Shape.v,
   the scripted simulations are coq/Own/Model.v.

   PARTIAL: the theorems are about the ownership graph.  Rust's Arc/Rc/Weak
   counting and tokio's task ownership are not modelled; the schema is tied to
   the real crate by destructor counters on every run (tools/props/c20.py). *)
From Coq Require Import List NArith Arith Bool.
From DesVerif Require Import Own.Heap Own.Frame Own.Inv Own.Shape Own.Rank Own.Check Own.Cycle Own.Safe Own.SafeP Own.Ops Own.World Own.Model Own.Main.
Import ListNotations.
Local Open Scope nat_scope.

(* For EVERY heap (consistent counts or not, cycles or not) and EVERY release
   sequence, with any amount of fuel: a destructor log that lists only freed
   objects, each once, stays that way -- no object is ever freed twice. *)
Theorem C20_freed_at_most_once : forall fuel s todo,
  (NoDup (freed s) /\ forall o, In o (freed s) -> is_live (hp s) o = false) ->
  let s' := fst (run_release fuel s todo) in
  NoDup (freed s') /\ forall o, In o (freed s') -> is_live (hp s') o = false.
Proof. exact freed_at_most_once_any. Qed.
Print Assumptions C20_freed_at_most_once.

(* On a heap whose counts are consistent (count = strong in-degree + handles
   about to be dropped; freed objects have count 0 and no edges) no handle is
   ever released after its object was freed, and consistency is kept. *)
Theorem C20_no_release_after_free : forall s roots, inv s roots ->
  bad (release_all s roots) = [] /\ NoDup (freed (release_all s roots)) /\ inv (release_all s roots) [].
Proof. exact no_release_after_free. Qed.
Print Assumptions C20_no_release_after_free.

(* The release machine stops on every heap: [release_all] never runs out of fuel. *)
Theorem C20_release_terminates : forall fuel s todo,
  measure (hp s) todo < fuel -> snd (run_release fuel s todo) = [].
Proof. exact run_release_done. Qed.
Print Assumptions C20_release_terminates.

(* For every graph that is count-consistent, typed by the schema [edge_ok false]
   (after the two fixes), and whose connected gates are listed by a module
   context: once all root handles have been dropped -- in whatever order
   [roots] lists them -- NO object is allocated any more, and every object of
   the graph is in the destructor log exactly once. *)
Theorem C20_all_freed_after_root_release : forall s roots, good false s roots ->
  (forall o ob, nth_error (hp (release_all s roots)) o = Some ob -> live ob = false) /\
  (forall o, o < length (hp s) -> cnt o (freed (release_all s roots)) = 1).
Proof. intros s roots G. split; [exact (all_freed s roots G)|exact (freed_exactly_once s roots G)]. Qed.
Print Assumptions C20_all_freed_after_root_release.

(* Corollary for what a user can observe: every module state (with its
   processing stack), processing element, task capture and message of such a
   graph is in the destructor log exactly once and is not alive. *)
Theorem C20_user_objects_freed_exactly_once : forall s roots, good false s roots ->
  forall o t, tag_of (hp s) o = Some t -> user_tag t = true ->
    cnt o (freed (release_all s roots)) = 1%nat /\ is_live (hp (release_all s roots)) o = false.
Proof. exact user_objects_freed_exactly_once. Qed.
Print Assumptions C20_user_objects_freed_exactly_once.

(* The boolean checker that the model runs on every graph it builds (its
   verdict is the first number of the model's output) implies the hypotheses. *)
Theorem C20_checker_sound : forall pin s roots, goodb pin s roots = true -> good pin s roots.
Proof. exact goodb_sound. Qed.
Print Assumptions C20_checker_sound.

(* Why the schema must not contain a cycle of ordinary fields: a set of objects each of which
   is the target of a non-connection strong edge from a member of the set is never freed,
   whatever is released (count-consistent heaps).  The timer cycle repaired by 012bc88 is proved as
   an instance (Refuted/C20.v, C20_pinned_timer_cycle_stays_allocated); the channel cycle repaired
   by 6ce5d8e is such a set as well, but Refuted/C20.v shows that leak by evaluating one script. *)
Theorem C20_supported_set_never_freed : forall (S : nat -> Prop) s roots, inv s roots -> supported S (hp s) ->
  forall o, S o -> is_live (hp (release_all s roots)) o = true.
Proof. exact supported_survives. Qed.
Print Assumptions C20_supported_set_never_freed.

(* The simulation model touches the heap only through the primitives of
   coq/Own/Safe.v (allocate behind a handle, clone a handle, move it into a field, move it out,
   drop it, record a Weak).  Each keeps the state well formed, whatever its arguments: *)
Theorem C20_primitives_preserve_wf : forall pin r,
  G pin r ->
  (forall t, G pin (fst (p_alloc r t))) /\ (forall x, G pin (p_clone r x)) /\
  (forall src k x, G pin (p_move_in r src k x)) /\ (forall src k x, G pin (p_edge r src k x)) /\
  (forall src p, G pin (fst (p_detach r src p))) /\ (forall x, G pin (p_release r x)) /\
  (forall src l t, G pin (p_weak r src l t)).
Proof.
  intros pin r H. split; [intros; apply p_alloc_good; assumption|]. split; [intros; apply p_clone_good; assumption|].
  split; [intros; apply p_move_in_good; assumption|]. split; [intros; apply p_edge_good; assumption|].
  split; [intros; apply p_detach_good; assumption|]. split; [intros; apply p_release_good; assumption|].
  intros; apply p_weak_good; assumption.
Qed.
Print Assumptions C20_primitives_preserve_wf.

(* ... hence every operation built from them does (one lemma per operation in coq/Own/OpsP.v,
   WorldP.v, Main.v: create module / child, create gate, connect with or without channel,
   schedule / send / deliver a message, a message entering and leaving a channel buffer, spawn a
   task, register a timer, activate / deactivate, shutdown, restart, dispatch of every event
   kind, start-up, the event loop under every limit, tear-down), and by induction over the
   script: EVERY graph a scripted simulation reaches, at EVERY stopping point, together with
   the handles that are dropped then, is well formed. *)
Theorem C20_reachable_graphs_wf : forall pin input,
  let '(s, roots, _) := stop_state pin input in good pin s roots.
Proof. exact stop_state_good. Qed.
Print Assumptions C20_reachable_graphs_wf.

(* Together, with no hypothesis left (the model still prints the verdict of the boolean checker,
   Model.run_gen, but nothing below rests on it): for every script (every simulation of the
   model's language, every stopping point, every drop order) dropping the handles held at the
   stopping point -- the Sim / the runtime, the remaining events and the caller's handles as the
   primitives have tracked them, in the drop order of the real program as far as the two
   coincide -- frees every object exactly once, releases no
   handle after the free, leaves nothing allocated -- and the verdict the model prints is
   forced: once = created for every class, 0 dropped otherwise, 0 alive, nothing allocated. *)
Theorem C20_every_simulation_releases_everything : forall input,
  let '(s, roots, _) := stop_state false input in
  let s' := release_all s roots in
  good false s roots /\
  (forall o ob, nth_error (hp s') o = Some ob -> live ob = false) /\
  (forall o, o < length (hp s) -> cnt o (freed s') = 1) /\
  bad s' = [] /\
  exists created, verdict s' = (created, created, 0, 0, 0)%N.
Proof. exact every_simulation_releases_everything. Qed.
Print Assumptions C20_every_simulation_releases_everything.

(* the same, read off the line that `run` prints (two identical records, then 0) *)
Theorem C20_model_output_all_freed : forall input,
  exists ok res nrem time created lg cnts,
    run input = ([ok; res; nrem; time] ++ created ++ created ++ [0; 0; N.of_nat (length lg / 4)] ++ lg ++ cnts
                 ++ [ok; res; nrem; time] ++ created ++ created ++ [0; 0; N.of_nat (length lg / 4)] ++ lg ++ cnts ++ [0])%N.
Proof. exact run_prints_all_freed. Qed.
Print Assumptions C20_model_output_all_freed.

(* The drop path (scopes left normally, or a panic unwinding through the owner of the Sim /
   runtime / result: bit 1 of the script's `order` field, which only the implementation runner
   reads) is not an input of the release: same graph, same handles, same printed line.  So every
   theorem above covers a simulation dropped by unwinding as well. *)
Theorem C20_drop_path_irrelevant : forall pin stop arg o rest,
  stop_state pin (stop :: arg :: (o + 2) :: rest)%N = stop_state pin (stop :: arg :: o :: rest)
  /\ run_gen pin (stop :: arg :: (o + 2) :: rest)%N = run_gen pin (stop :: arg :: o :: rest).
Proof. exact drop_path_irrelevant. Qed.
Print Assumptions C20_drop_path_irrelevant.

(* The reference counts the model prints at a stopping point (compared on every run with
   Arc::strong_count / Arc::weak_count of the real objects) are exactly the schema's edges: in
   every reachable graph the strong count of an object is the number of strong fields holding it
   plus the number of handles held from outside the heap. *)
Theorem C20_counts_are_in_degrees : forall pin input,
  let '(s, roots, _) := stop_state pin input in
  forall o, o < length (hp s) ->
    strong_of (hp s) o = N.of_nat (cnt o (targets (hp s)) + cnt o roots).
Proof. exact counts_are_in_degrees. Qed.
Print Assumptions C20_counts_are_in_degrees.

(* Non-vacuity (scripts: see coq/Own/Model.v; output: ok res nrem time created*4 once*4 notonce alive). *)
Local Open Scope N_scope.

(* (1) the F14 shape: a module sending five messages to itself over a slow queueing channel,
   a timer and a receive-blocked task pending, stopped by max_itr(6) with a backlog, the
   profiler (3 remaining events) dropped before the Sim, the caller keeping its refs: the
   checker accepts; 1 module state, 1 element, 2 tasks, 6 messages, all freed exactly once *)
Example C20_nonvacuous_backlog :
  firstn 14 (run [2; 6; 1; 1;  1;  0;1;5;0;2;3000000000;0;0;0;0;2;1;  1; 0;0;0;1;1;  0])
  = [1; 1; 3; 2100000000; 1; 1; 2; 6; 1; 1; 2; 6; 0; 0].
Proof. vm_compute. reflexivity. Qed.

(* (2) a parent with nested children in a channel ring, a restart and a panic: ends with an
   error, everything is dropped inside run() *)
Example C20_nonvacuous_error :
  firstn 14 (run [2; 9; 1; 1;  3;  0;0;2;1;5;1;10;0;0;0;2;0;  1;2;1;0;2;1000000000;0;2;1;1000000000;2;0;  2;0;1;1;1000000000;0;3;2;0;2;0;
                  3; 0;0;1;1;1; 1;0;2;1;0; 2;0;0;1;1;  2; 0;2;5; 1;0;2000000000])
  = [1; 2; 0; 0; 3; 2; 3; 8; 3; 2; 3; 8; 0; 0].
Proof. vm_compute. reflexivity. Qed.

(* (3) a closed ring of four gates (every gate a transit gate) next to a transit chain with
   channels, two injected messages, dropped without ever being started *)
Example C20_nonvacuous_gate_ring :
  firstn 14 (run [1; 0; 0; 0;  4;  0;0;3;0;0;0;0;0;3;0;  0;0;0;0;2;5;5;1;2;0;3;0;  0;1;2;2;1;1;0;0;0;0;3;0;  3;0;1;0;1;2000000000;0;0;0;3;1;
                  7; 0;2;1;2;0; 1;2;2;2;1; 2;2;3;2;0; 3;2;0;2;0; 0;0;1;1;1; 1;1;2;1;0; 2;0;3;0;1;  2; 1;2;0; 0;1;1000000000])
  = [1; 0; 2; 0; 4; 1; 0; 2; 4; 1; 0; 2; 0; 0].
Proof. vm_compute. reflexivity. Qed.
