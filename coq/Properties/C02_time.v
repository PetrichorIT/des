(* C02, time part — the representation of simulated time.
   SimTime is a (seconds : u64, nanoseconds : u32 < 10^9) pair, the process-global clock a pair of atomics.
   Every other model of this development writes a time as ONE natural number of nanoseconds; these
   theorems make that abstraction a proved fact about the pair-level model of des/src/time/{mod,duration}.rs
   (coq/Time/Model.v), and the correspondence check of this part runs that model against the real SimTime.
   Not covered: f64 conversions and serde of SimTime (they are not used by the runtime, the net layer or
   the timers: `grep -n "as_secs_f64\|from_secs_f64" des/src` hits only time/mod.rs, time/duration.rs,
   the profiler output and the jitter draw of channel.rs, which C07 models). *)
From Coq Require Import List NArith Lia.
From DesVerif Require Import Common.Codec Time.Model Time.Props.
Import ListNotations.
Open Scope N_scope.

(* The pair representation is an order isomorphism between well-formed pairs and [0, 2^64 * 10^9). *)
Theorem C02_time_representation_iso :
  (forall d, wf d -> to_ns d < LIMIT /\ of_ns (to_ns d) = d) /\
  (forall n, n < LIMIT -> wf (of_ns n) /\ to_ns (of_ns n) = n) /\
  (forall a b, wf a -> wf b -> dur_cmp a b = (to_ns a ?= to_ns b)).
Proof. exact repr_iso. Qed.
Print Assumptions C02_time_representation_iso.

(* SimTime + Duration: exact nanosecond addition, refused (None / panic) exactly when the sum leaves the range. *)
Theorem C02_time_add_exact : forall a b, wf a -> wf b ->
  match dur_checked_add a b with
  | Some c => wf c /\ to_ns c = to_ns a + to_ns b
  | None => LIMIT <= to_ns a + to_ns b
  end.
Proof. exact checked_add_spec. Qed.
Print Assumptions C02_time_add_exact.

(* SimTime - Duration, SimTime - SimTime: exact subtraction, refused exactly when it would go below zero. *)
Theorem C02_time_sub_exact : forall a b, wf a -> wf b ->
  match dur_checked_sub a b with
  | Some c => wf c /\ to_ns b <= to_ns a /\ to_ns c = to_ns a - to_ns b
  | None => to_ns a < to_ns b
  end.
Proof. exact checked_sub_spec. Qed.
Print Assumptions C02_time_sub_exact.

(* What SimTime::set_now stores, SimTime::now reads back: the clock shows exactly the stored time. *)
Theorem C02_clock_roundtrip : forall t, wf t -> now (set_now t) = Some t.
Proof. exact clock_roundtrip. Qed.
Print Assumptions C02_clock_roundtrip.

(* A runtime can be built at every start time except inside the last bucket width of the representable range
   (the calendar queue's scan window [t0, t0 + width] must itself be representable): with the default options
   the start times from 2^64 s - 2.5 ms on are refused with a panic, every earlier one is accepted. *)
Theorem C02_start_time_buildable_iff : forall t, wf t ->
  build_ok t = (to_ns t <? LIMIT - WIDTH).
Proof.
  intros t Ht. rewrite (build_ok_spec t Ht).
  pose proof (N.div_mod (to_ns t) WIDTH ltac:(discriminate)) as Hdm.
  pose proof (N.mod_lt (to_ns t) WIDTH ltac:(discriminate)) as Hm.
  assert (HL : LIMIT = WIDTH * 7378697629483820646400) by reflexivity.
  set (q := to_ns t / WIDTH) in *. set (r := to_ns t mod WIDTH) in *. clearbody q r.
  destruct (N.ltb_spec (q * WIDTH + WIDTH) LIMIT) as [A|A];
    destruct (N.ltb_spec (to_ns t) (LIMIT - WIDTH)) as [B|B]; try reflexivity; exfalso;
    rewrite HL in *; change WIDTH with 2500000 in *; lia.
Qed.
Print Assumptions C02_start_time_buildable_iff.

(* Every script over SimTime values (set, +, +=, -, -=, checked_add/sub, comparisons, duration_since in its
   three flavours, duration_diff, eq_approx, the clock, the constants) prints exactly what the same script
   prints when times are plain natural numbers of nanoseconds with range checks. *)
Theorem C02_time_as_nanoseconds_is_faithful : forall script,
  run script = aexec 0 (map abs_op (decode script)).
Proof. exact run_is_nanosecond_arithmetic. Qed.
Print Assumptions C02_time_as_nanoseconds_is_faithful.

(* Non-vacuity: carry, borrow, the top of the range and a refused addition. *)
Example C02_time_nonvacuous :
  run [1; 5; 999999999;  2; 0; 2;  4; 6; 0;  4; 0; 1;  11; 2;  2; 0; 1;  8; 18446744073709551615; 999999998; 10;  4; 0; 2500000; 10]
  = [1; 5; 999999999;   2; 0; 6; 1;   4; 0; 0; 1;   4; 0; 0; 0;   11; 18446744073709551615; 999999999;   2; 9;
     8; 2; 0; 1; 0; 1; 0; 1; 0; 1;   10; 9;   4; 0; 18446744073709551615; 997499999;   10; 0; 18446744073709551615; 997499999].
Proof. vm_compute. reflexivity. Qed.
