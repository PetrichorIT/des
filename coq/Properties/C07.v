(* C07 — Channels account for every message with the specified delay, busy and
   drop rules.  The statements of the property, each with the few lines that derive it from
   the invariants proved in coq/Channel (Good, Tim, Acct, Ord of the reachable states; the
   projection of a multi-channel run; the simulation by the run over the calendar queue).

   [reach tx mt bursts oracle n] is the state of the model of
   des/src/net/channel.rs + the event loop (coq/Channel/Model.v, variant
   [current]) after n events, for an arbitrary transmission-time function
   [tx : len -> ns] (the f64 result of calculate_busy), arbitrary metrics
   [mt] (latency, jitter, Drop | Queue None | Queue (Some limit)), an arbitrary
   script [bursts] (times, message ids and lengths; one burst = the sends of one
   handler invocation) and an arbitrary jitter oracle.  [log] is the record of
   what happened, newest item first (coq/Channel/Trace.v); [pend (q s)] are the
   pending events in the order the event set (CQueue.Spec, C01) returns them. *)
From Coq Require Import List NArith Permutation Lia.
From DesVerif Require Import CQueue.Model CQueue.Spec Channel.Model Channel.Queue Channel.Trace Channel.Core
  Channel.Account Channel.Timing Channel.Props Channel.Term Channel.Order Channel.Multi Channel.Project Channel.Links Channel.MTerm Channel.ModelCq Channel.OverCq Channel.OverCqProps Channel.DrawModel.
Import ListNotations.
Open Scope N_scope.

(* account: every message of the script is, at every event boundary, in exactly one of
   delivered / dropped because busy / dropped because the queue cannot hold it /
   queued / in flight (Exit event pending) / not yet offered (wake-up pending) *)
Theorem C07_account : forall tx mt bursts oracle n,
  let s := reach tx mt bursts oracle n in
  Permutation (all_ids bursts)
    (delivered (log s) ++ dropped_busy (log s) ++ dropped_full (log s) ++ map fst (buffer (ch s))
     ++ exits (pend (q s)) ++ pending_ids bursts (pend (q s))).
Proof. exact account. Qed.
Print Assumptions C07_account.

(* none twice *)
Theorem C07_account_none_twice : forall tx mt bursts oracle n,
  NoDup (all_ids bursts) ->
  let s := reach tx mt bursts oracle n in
  NoDup (delivered (log s) ++ dropped_busy (log s) ++ dropped_full (log s) ++ map fst (buffer (ch s))
         ++ exits (pend (q s)) ++ pending_ids bursts (pend (q s))).
Proof. intros tx mt bursts oracle n Hn. eapply Permutation_NoDup; [apply C07_account|exact Hn]. Qed.
Print Assumptions C07_account_none_twice.

(* the run of a script (offers (time, length), ids = positions) ends within the fuel of
   Model.run_model with no pending event, an idle channel, an empty queue, and every message
   delivered or dropped exactly once *)
Theorem C07_run_completes : forall tx mt oracle offs,
  let bs := group offs 0 in
  let s := steps current enc_ev tx mt bs (fuel_for offs) (init enc_ev bs oracle) in
  step current enc_ev tx mt bs s = None /\ pend (q s) = [] /\ busy (ch s) = false /\ buffer (ch s) = [] /\
  Permutation (ids_from 0 (length offs)) (delivered (log s) ++ dropped_busy (log s) ++ dropped_full (log s)) /\
  NoDup (delivered (log s) ++ dropped_busy (log s) ++ dropped_full (log s)).
Proof.
  intros tx mt oracle offs. cbv zeta. destruct (group_spec offs 0) as [Eids Hlen].
  destruct (runs_dry tx mt (group offs 0) oracle (fuel_for offs)) as (H1 & H2 & H3 & H4 & H5);
    [rewrite Eids, ids_from_length; unfold fuel_for; lia|]. rewrite Eids in H5.
  refine (conj H1 (conj H2 (conj H3 (conj H4 (conj H5 _))))). eapply Permutation_NoDup; [exact H5|apply ids_from_nodup].
Qed.
Print Assumptions C07_run_completes.

(* idle_implies_queue_empty (the F5 statement): at every event boundary an idle channel has an
   empty queue; idle = no Unbusy event pending, busy = exactly one, stamped with the finish time *)
Theorem C07_idle_implies_queue_empty : forall tx mt bursts oracle n,
  let s := reach tx mt bursts oracle n in
  (busy (ch s) = false -> buffer (ch s) = []) /\
  unbusies (pend (q s)) = (if busy (ch s) then [finish (ch s)] else []).
Proof. exact idle_implies_queue_empty. Qed.
Print Assumptions C07_idle_implies_queue_empty.

(* delivery_time: = start + tx len + latency + j, j the sample drawn for that transmission;
   0 <= j holds in N; j = 0 without jitter, j < jitter if the oracle's samples are *)
Theorem C07_delivery_time : forall tx mt bursts oracle n m t',
  let s := reach tx mt bursts oracle n in
  In (IDeliver m t') (log s) ->
  exists len t j fq, In (IStart m len t j fq) (log s) /\ t' = t + (m_lat mt + tx len + j) /\
    (m_jit mt = 0 -> j = 0) /\ (Forall (fun j => j < m_jit mt) oracle -> m_jit mt <> 0 -> j < m_jit mt).
Proof. exact delivery_time. Qed.
Print Assumptions C07_delivery_time.

(* ... and a transmission that started is delivered at that time or still has its Exit event pending for it *)
Theorem C07_started_delivered_or_in_flight : forall tx mt bursts oracle n m len t j fq,
  let s := reach tx mt bursts oracle n in
  In (IStart m len t j fq) (log s) ->
  In (IDeliver m (t + (m_lat mt + tx len + j))) (log s) \/
  exit_at (pend (q s)) m (t + (m_lat mt + tx len + j)).
Proof.
  intros tx mt bursts oracle n m len t j fq s H.
  destruct (T_fwd _ _ _ _ (Tim_reachable tx mt bursts oracle n) _ _ _ _ _ H) as [H'|H']; [left; exact H'|right; apply exit_at_xs, H'].
Qed.
Print Assumptions C07_started_delivered_or_in_flight.

(* busy_span, in event order (Trace.wf_log / item_ok): a transmission with tx len <> 0 makes the
   channel busy until the Unbusy event stamped start + tx len; in between every offer is
   dropped or queued and every sample reads busy with that finish time; outside, offers start at
   once and samples read idle; the channel record agrees with the log; the Unbusy event is pending *)
Theorem C07_busy_span : forall tx mt bursts oracle n,
  let s := reach tx mt bursts oracle n in
  wf_log tx mt (log s) /\
  cur_of tx (log s) = (if busy (ch s) then Some (finish (ch s)) else None) /\
  unbusies (pend (q s)) = (if busy (ch s) then [finish (ch s)] else []).
Proof. exact busy_span. Qed.
Print Assumptions C07_busy_span.

Theorem C07_unbusy_stamp : forall tx mt bursts oracle n l2 t r,
  log (reach tx mt bursts oracle n) = l2 ++ IUnbusy t :: r -> cur_of tx r = Some t.
Proof. intros tx mt bursts oracle n l2 t r. apply reach_item_ok. Qed.
Print Assumptions C07_unbusy_stamp.

(* fifo_start: a message leaves the queue only as its head, during the handling of the Unbusy
   event (deq_ctx) stamped with that very time, with the channel idle; a direct start happens
   only with an empty queue (no overtaking); accepted offers in offer order = transmissions in
   start order followed by the queue *)
Theorem C07_fifo_start : forall tx mt bursts oracle n l2 m len t j r,
  log (reach tx mt bursts oracle n) = l2 ++ IStart m len t j true :: r ->
  hd_error (queue_of r) = Some (m, len) /\ deq_ctx tx r = Some t /\ cur_of tx r = None.
Proof. exact fifo_start. Qed.
Print Assumptions C07_fifo_start.

Theorem C07_direct_start : forall tx mt bursts oracle n l2 m len t j r,
  log (reach tx mt bursts oracle n) = l2 ++ IStart m len t j false :: r -> cur_of tx r = None /\ queue_of r = [].
Proof. intros tx mt bursts oracle n l2 m len t j r. apply reach_item_ok. Qed.
Print Assumptions C07_direct_start.

Theorem C07_fifo_order : forall tx mt bursts oracle n,
  let s := reach tx mt bursts oracle n in
  rev (accepted (log s)) = rev (started (log s)) ++ map fst (buffer (ch s)).
Proof.
  intros tx mt bursts oracle n. cbv zeta. destruct (reach_core tx mt bursts oracle n) as [_ Hw _ Hq _ _ _].
  rewrite (accepted_started tx mt _ Hw), Hq, rev_app_distr, rev_involutive. reflexivity.
Qed.
Print Assumptions C07_fifo_order.

(* zero_jitter_preserves_order: with jitter 0 the deliveries, in order, are an initial piece of the
   accepted offers, in offer order; then come the messages in flight (in the order the event set
   will return them), then the queue *)
Theorem C07_zero_jitter_preserves_order : forall tx mt bursts, m_jit mt = 0 -> forall oracle n,
  let s := steps current enc_ev tx mt bursts n (init enc_ev bursts oracle) in
  rev (accepted (log s)) = rev (delivered (log s)) ++ exits (pend (q s)) ++ map fst (buffer (ch s)).
Proof. exact zero_jitter_preserves_order. Qed.
Print Assumptions C07_zero_jitter_preserves_order.

(* queue_limit: acc_bytes is the sum of the queued lengths; a busy offer under Queue(limit) is
   queued iff acc + len <= limit (always for Queue(None)), else dropped; under Drop it is dropped *)
Theorem C07_queue_limit : forall tx mt bursts oracle n,
  let s := reach tx mt bursts oracle n in
  acc (ch s) = qsum (buffer (ch s)) /\ queue_of (log s) = buffer (ch s) /\
  (forall l2 m len t r, log s = l2 ++ IEnq m len t :: r ->
     cur_of tx r <> None /\ exists lim, m_pol mt = PQueue lim /\
     match lim with None => True | Some l => qsum (queue_of r) + len <= l end) /\
  (forall l2 m len t r, log s = l2 ++ IDropFull m len t :: r ->
     cur_of tx r <> None /\ exists l, m_pol mt = PQueue (Some l) /\ l < qsum (queue_of r) + len) /\
  (forall l2 m len t r, log s = l2 ++ IDropBusy m len t :: r -> cur_of tx r <> None /\ m_pol mt = PDrop).
Proof. exact queue_limit. Qed.
Print Assumptions C07_queue_limit.

(* ---- several channel instances on one event set (coq/Channel/Multi.v): both directions of a link,
   several links built from one template handle, links connected at run time.
   [mreach txs mts mbursts oracles n] is the state after n events, with per-channel transmission
   times [txs c], metrics [mts c] and jitter oracles [oracles c]; a burst may send into
   several channels; [plog c] is channel c's part of the shared log, [pbursts mbursts c] channel
   c's part of the script, [own_run ... c k] the single-channel run on that part. ---- *)

(* links_independent: channel c of a multi-channel run -- its instance, its remaining jitter samples,
   its part of the log -- is a state of the single-channel run with c's own metrics [mts c], [txs c] on
   c's own part of the script.  That run mentions no other channel: what is offered to other channels,
   their metrics and their states have no influence. *)
Theorem C07_links_independent : forall txs mts mbursts oracles c n,
  c < NCH ->
  exists k, inst_of (mreach txs mts mbursts oracles n) c = ch (own_run txs mts mbursts oracles c k) /\
            orcs (mreach txs mts mbursts oracles n) c = orc (own_run txs mts mbursts oracles c k) /\
            plog c (mlog (mreach txs mts mbursts oracles n)) = log (own_run txs mts mbursts oracles c k).
Proof. exact links_independent. Qed.
Print Assumptions C07_links_independent.

(* hence whatever holds of the channel record and the log in every state of every single-channel run
   holds of every channel of a multi-channel run (statements that read the pending events or the
   remaining oracle are not of this form) *)
Theorem C07_multi_transfer : forall txs mts mbursts oracles (P : chan -> list item -> Prop) c n,
  c < NCH ->
  (forall k, P (ch (own_run txs mts mbursts oracles c k)) (log (own_run txs mts mbursts oracles c k))) ->
  P (inst_of (mreach txs mts mbursts oracles n) c) (plog c (mlog (mreach txs mts mbursts oracles n))).
Proof. exact multi_transfer. Qed.
Print Assumptions C07_multi_transfer.

(* for instance: busy span, FIFO start, queue limit, no message stuck -- per channel, with its own metrics *)
Theorem C07_multi_channel_wf : forall txs mts mbursts oracles c n,
  c < NCH ->
  let l := plog c (mlog (mreach txs mts mbursts oracles n)) in
  let r := inst_of (mreach txs mts mbursts oracles n) c in
  wf_log (txs c) (mts c) l /\ cur_of (txs c) l = (if busy r then Some (finish r) else None) /\ queue_of l = buffer r /\
  acc r = qsum (buffer r) /\ (busy r = false -> buffer r = []).
Proof.
  intros txs mts mbursts oracles c n Hc. cbv zeta. destruct (links_independent txs mts mbursts oracles c n Hc) as (k & -> & _ & ->).
  destruct (Good_reachable (txs c) (mts c) (pbursts mbursts c) (oracles c) k) as [[_ Hw Hcu Hq Ha _ _] Hi].
  exact (conj Hw (conj Hcu (conj Hq (conj Ha Hi)))).
Qed.
Print Assumptions C07_multi_channel_wf.

(* a new instance (Channel::dup) starts idle with an empty queue whatever state its template is in --
   also when the template is the live channel of a link that is transmitting at that moment; in the
   model an instance comes into being when a handler first uses it, by dup from the live template *)
Theorem C07_new_instance_starts_idle : forall template, dup template = idle_chan.
Proof. reflexivity. Qed.
Print Assumptions C07_new_instance_starts_idle.

Theorem C07_created_idle : forall s c, chs s c = None -> inst_of s c = idle_chan.
Proof. intros s c H. unfold inst_of. rewrite H. reflexivity. Qed.
Print Assumptions C07_created_idle.

(* multi_run_completes: the run of every script (offers (time, channel, length), grouped into bursts per
   sending module) ends within the fuel of Multi.run with no event pending, whatever the per-channel
   metrics, transmission times and oracles -- every step of the shared loop is a step of at least one
   channel's own run, so the sum of the single-channel termination measures decreases.  The samples of
   at_sim_end leave the event set alone: the marker 9 of the model's output is never printed. *)
Theorem C07_multi_run_completes : forall txs mts oracles offs,
  let bs := sched_order (mgroup offs 0) in
  let s := msteps own_instance txs mts bs (mfuel offs) (minit bs oracles) in
  mstep own_instance txs mts bs s = None /\ pend (mq s) = [] /\
  forall cs, s_zero (mq (fold_left (fun s c => on c sample s) cs s)) ++ s_rest (mq (fold_left (fun s c => on c sample s) cs s)) = [].
Proof.
  intros txs mts oracles offs. cbv zeta. destruct (multi_run_completes txs mts oracles offs) as [H1 H2].
  refine (conj H1 (conj H2 _)). intros cs. rewrite final_samples_keep_queue. exact H2.
Qed.
Print Assumptions C07_multi_run_completes.

(* ---- composition with C01: the loop over the calendar queue ----
   The model above threads the two-list SPECIFICATION of the event set (CQueue.Spec); the crate runs
   on the calendar queue.  Channel/ModelCq.v is the same loop with the calendar-queue model of C01
   (cq_new n t, add, fetch_next, tcur, qlen) in place of the specification's operations.  By forward
   simulation with C01's relation R it computes the same thing for every n, t >= 1: *)

(* wire level: the runner over the calendar queue prints what the extracted runner prints *)
Theorem C07_run_over_cqueue_eq_run_over_spec : forall n t input,
  n <> 0 -> t <> 0 -> run_cq n t input = Multi.run input.
Proof. exact run_cq_eq_run. Qed.
Print Assumptions C07_run_over_cqueue_eq_run_over_spec.

(* state level, one channel: same channel record, same samples left, same log, and the calendar
   queue is empty exactly when the specification has no event pending *)
Theorem C07_single_over_cqueue_eq_over_spec : forall n t tx mt bursts oracle k,
  n <> 0 -> t <> 0 ->
  let a := csteps current enc_ev tx mt bursts k (cinit enc_ev bursts n t oracle) in
  let b := steps current enc_ev tx mt bursts k (init enc_ev bursts oracle) in
  cch a = ch b /\ corc a = orc b /\ clog a = log b /\
  (qlen (cqs a) =? 0) = match s_zero (q b) ++ s_rest (q b) with [] => true | _ => false end.
Proof. exact run_over_cqueue_eq_run_over_spec. Qed.
Print Assumptions C07_single_over_cqueue_eq_over_spec.

(* state level, several channels *)
Theorem C07_multi_over_cqueue_eq_over_spec : forall n t txs mts mbursts oracles k,
  n <> 0 -> t <> 0 ->
  let a := cmsteps own_instance txs mts mbursts k (cminit mbursts n t oracles) in
  let b := msteps own_instance txs mts mbursts k (minit mbursts oracles) in
  (forall c, cinst_of a c = inst_of b c) /\ (forall c, corcs a c = orcs b c) /\ cmlog a = mlog b /\
  (qlen (cmq a) =? 0) = match s_zero (mq b) ++ s_rest (mq b) with [] => true | _ => false end.
Proof. exact multi_over_cqueue_eq_over_spec. Qed.
Print Assumptions C07_multi_over_cqueue_eq_over_spec.

(* the headline theorems for the run over the calendar queue; its pending events are the
   current-instant list followed by the buckets (CQueue.Refine.pend) *)
Theorem C07_account_cq : forall n t, n <> 0 -> t <> 0 -> forall tx mt bursts oracle k,
  let s := reach_cq n t tx mt bursts oracle k in
  Permutation (all_ids bursts)
    (delivered (clog s) ++ dropped_busy (clog s) ++ dropped_full (clog s) ++ map fst (buffer (cch s))
     ++ exits (Refine.pend (cqs s)) ++ pending_ids bursts (Refine.pend (cqs s))).
Proof.
  intros n t Hn Ht tx mt bursts oracle k. cbv zeta. destruct (reach_cq_sim n t Hn Ht tx mt bursts oracle k) as (Hc & _ & Hl & Hq).
  unfold exits, pending_ids, wakes. rewrite Hc, Hl, !(Rq_sel _ _ _ Hq). apply C07_account.
Qed.
Print Assumptions C07_account_cq.

Theorem C07_delivery_time_cq : forall n t, n <> 0 -> t <> 0 -> forall tx mt bursts oracle k m t',
  let s := reach_cq n t tx mt bursts oracle k in
  In (IDeliver m t') (clog s) ->
  exists len t0 j fq, In (IStart m len t0 j fq) (clog s) /\ t' = t0 + (m_lat mt + tx len + j) /\
    (m_jit mt = 0 -> j = 0) /\ (Forall (fun j => j < m_jit mt) oracle -> m_jit mt <> 0 -> j < m_jit mt).
Proof.
  intros n t Hn Ht tx mt bursts oracle k m t'. cbv zeta. destruct (reach_cq_sim n t Hn Ht tx mt bursts oracle k) as (_ & _ & Hl & _).
  rewrite Hl. apply C07_delivery_time.
Qed.
Print Assumptions C07_delivery_time_cq.

Theorem C07_busy_span_cq : forall n t, n <> 0 -> t <> 0 -> forall tx mt bursts oracle k,
  let s := reach_cq n t tx mt bursts oracle k in
  wf_log tx mt (clog s) /\
  cur_of tx (clog s) = (if busy (cch s) then Some (finish (cch s)) else None) /\
  unbusies (Refine.pend (cqs s)) = (if busy (cch s) then [finish (cch s)] else []) /\
  (busy (cch s) = false -> buffer (cch s) = []).
Proof.
  intros n t Hn Ht tx mt bursts oracle k. cbv zeta. destruct (reach_cq_sim n t Hn Ht tx mt bursts oracle k) as (Hc & _ & Hl & Hq).
  rewrite Hc, Hl. destruct (C07_busy_span tx mt bursts oracle k) as (H1 & H2 & H3).
  exact (conj H1 (conj H2 (conj (Rq_unbusies _ _ _ _ Hq H3) (proj1 (C07_idle_implies_queue_empty tx mt bursts oracle k))))).
Qed.
Print Assumptions C07_busy_span_cq.

Theorem C07_fifo_order_cq : forall n t, n <> 0 -> t <> 0 -> forall tx mt bursts oracle k,
  let s := reach_cq n t tx mt bursts oracle k in
  rev (accepted (clog s)) = rev (started (clog s)) ++ map fst (buffer (cch s)).
Proof.
  intros n t Hn Ht tx mt bursts oracle k. cbv zeta. destruct (reach_cq_sim n t Hn Ht tx mt bursts oracle k) as (Hc & _ & Hl & _).
  rewrite Hc, Hl. apply C07_fifo_order.
Qed.
Print Assumptions C07_fifo_order_cq.

(* channel c of a multi-channel run over a calendar queue (n, t) is a state of c's own run over a
   calendar queue of its own (n', t'), whatever the four parameters *)
Theorem C07_links_independent_cq : forall n t, n <> 0 -> t <> 0 -> forall txs mts mbursts oracles n' t' c k,
  n' <> 0 -> t' <> 0 -> c < NCH ->
  exists k', cinst_of (mreach_cq n t txs mts mbursts oracles k) c = cch (own_run_cq txs mts mbursts oracles n' t' c k') /\
             corcs (mreach_cq n t txs mts mbursts oracles k) c = corc (own_run_cq txs mts mbursts oracles n' t' c k') /\
             plog c (cmlog (mreach_cq n t txs mts mbursts oracles k)) = clog (own_run_cq txs mts mbursts oracles n' t' c k').
Proof.
  intros n t Hn Ht txs mts mbursts oracles n' t' c k Hn' Ht' Hc.
  destruct (multi_over_cqueue_eq_over_spec n t txs mts mbursts oracles k Hn Ht) as (H1 & H2 & H3 & _).
  destruct (links_independent txs mts mbursts oracles c k Hc) as (k' & A). exists k'.
  destruct (own_run_cq_sim txs mts mbursts oracles n' t' c k' Hn' Ht') as (B1 & B2 & B3 & _).
  unfold mreach_cq. rewrite H1, H2, H3, B1, B2, B3. exact A.
Qed.
Print Assumptions C07_links_independent_cq.

(* the run of every script over the calendar queue ends within the fuel with an empty queue *)
Theorem C07_multi_run_completes_cq : forall n t, n <> 0 -> t <> 0 -> forall txs mts oracles offs,
  let bs := sched_order (mgroup offs 0) in
  qlen (cmq (cmsteps own_instance txs mts bs (mfuel offs) (cminit bs n t oracles))) = 0.
Proof.
  intros n t Hn Ht txs mts oracles offs. cbv zeta.
  destruct (multi_over_cqueue_eq_over_spec n t txs mts (sched_order (mgroup offs 0)) oracles (mfuel offs) Hn Ht) as (_ & _ & _ & H).
  destruct (multi_run_completes txs mts oracles offs) as [_ Hp]. unfold Queue.pend in Hp. rewrite Hp in H. apply N.eqb_eq, H.
Qed.
Print Assumptions C07_multi_run_completes_cq.

(* ---- the jitter draw of ChannelMetrics::calculate_duration (fix 4f31432), modelled exactly ----
   [jit_of_word J w]: the generator returns the 64-bit word w; rand's StandardUniform keeps its top 53 bits,
   u = (w >> 11) * 2^-53; the code computes (u * J as f64) as u64.  The harness calls the public function
   with generators that return scripted words and compares the answer with this function; the range
   statement of the property holds for EVERY word, not only for the draws a seeded run happens to see: *)
Theorem C07_jitter_below_bound_for_every_draw : forall J w, 0 < J -> jit_of_word J w < J.
Proof. exact jit_of_word_lt. Qed.
Print Assumptions C07_jitter_below_bound_for_every_draw.

Theorem C07_no_jitter_no_offset : forall w, jit_of_word 0 w = 0.
Proof. exact jit_of_word_zero. Qed.
Print Assumptions C07_no_jitter_no_offset.

(* ---- non-vacuity: a script that queues, drains two zero-time messages in one Unbusy, drops on a
   full queue and delivers in order (2 Tbit/s: 64 B -> 0 ns, 1088 B -> 4 ns; latency 0) ---- *)
Definition ex_tx (len : N) : N := if len =? 64 then 0 else 4.
Definition ex_mt : metrics := {| m_lat := 0; m_jit := 0; m_pol := PQueue (Some 128) |}.
Definition ex_offs : list (N * N) := [(0, 1088); (0, 64); (0, 64); (0, 64); (4, 1088)].
Definition ex_final : st := steps current enc_ev ex_tx ex_mt (group ex_offs 0) (fuel_for ex_offs) (init enc_ev (group ex_offs 0) []).

Example C07_example_fates :
  rev (delivered (log ex_final)) = [0; 1; 2] /\ dropped_full (log ex_final) = [4; 3] /\
  pend (q ex_final) = [] /\ buffer (ch ex_final) = [].
Proof. vm_compute. repeat split. Qed.

Example C07_example_dequeues :
  In (IUnbusy 4) (log ex_final) /\ In (IStart 1 64 4 0 true) (log ex_final) /\ In (IStart 2 64 4 0 true) (log ex_final) /\
  In (IDeliver 0 4) (log ex_final) /\ In (IDeliver 2 4) (log ex_final) /\ In (IDropFull 4 1088 4) (log ex_final).
Proof. vm_compute. intuition. Qed.

(* both directions of a link busy at once, and the reverse directions of two links built from one
   handle busy at once (8 kbit/s: 64 B = 64 ms; latency 100 ms; Drop): nothing is dropped *)
Definition ex_mb : list (N * list (N * N * N)) :=
  [(0, [(0, 0, 64)]); (10000000, [(1, 1, 64); (3, 2, 64)])].
Definition ex_mfinal : mst :=
  msteps own_instance (fun _ _ => 64000000) (fun _ => {| m_lat := 100000000; m_jit := 0; m_pol := PDrop |}) ex_mb 20
    (minit ex_mb (fun _ => [])).

Example C07_example_links :
  rev (delivered (plog 0 (mlog ex_mfinal))) = [0] /\ rev (delivered (plog 1 (mlog ex_mfinal))) = [1] /\
  rev (delivered (plog 3 (mlog ex_mfinal))) = [2] /\ In (IStart 1 64 10000000 0 false) (plog 1 (mlog ex_mfinal)) /\
  In (IStart 2 64 10000000 0 false) (plog 3 (mlog ex_mfinal)) /\ pend (mq ex_mfinal) = [].
Proof. vm_compute. intuition. Qed.

(* the same script over a calendar queue with 3 buckets of width 7 ms (the run wraps around it several times) *)
Example C07_example_over_cqueue :
  cmlog (cmsteps own_instance (fun _ _ => 64000000) (fun _ => {| m_lat := 100000000; m_jit := 0; m_pol := PDrop |}) ex_mb 20
           (cminit ex_mb 3 7000000 (fun _ => []))) = mlog ex_mfinal.
Proof. vm_compute. reflexivity. Qed.

(* the largest draw under jitter values of the families a double rounding would push onto the bound *)
Example C07_example_largest_draw :
  map (fun J => jit_of_word J (2 ^ 64 - 1)) [2; 41; 1250; 5000; 10000; 80000; 2 ^ 52] =
  [1; 40; 1249; 4999; 9999; 79999; 2 ^ 52 - 1].
Proof. vm_compute. reflexivity. Qed.
