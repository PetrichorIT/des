(* C11 — Runtime limits stop the run exactly where specified without losing events.
   The statements, each proved in a few lines from the lemmas of the directories it imports.  The model is coq/Runtime/Model.v with the [repaired]
   variant: dispatch_event decides the limit on the timestamp of the next event
   without removing it; the future event set is the two-list specification of
   C01.  [boot S B L pre] is Builder::build with start time S and limit L
   followed by the pre-run add_event calls [pre] (B is the action budget of the
   scripted handlers P); [dispatch_all repaired P] is the event loop of
   Runtime::run; [log] the list of (label, SimTime::now()) written by the
   handlers; [lprefix L i sg] the longest prefix of [sg] no element of which, at
   its 1-based position counted from i, satisfies RuntimeLimit::applies. *)
From Coq Require Import List NArith Bool Sorting.Sorted Permutation.
From DesVerif Require Import CQueue.Spec Runtime.Limit Runtime.Model Runtime.Queue Runtime.Inv Runtime.Prefix
  Runtime.EvSet Runtime.GenericPrefix Runtime.Instances Runtime.OverSpec Runtime.ModelCq Runtime.Compose
  Runtime.ComposeProps Runtime.Generic Runtime.GenericProps Runtime.GenericStep Runtime.EvRuntime Runtime.HeapSet
  Runtime.HeapRt Runtime.HeapSetProps.
Import ListNotations.
Open Scope N_scope.

(* For every program, start time, pre-run schedule and every limit tree: the
   run with the limit handles exactly the longest admissible prefix of what the
   run without a limit handles (same events, same order, same times).  Both
   event loops terminate (the results are [Some]). *)
Theorem C11_limited_log_is_longest_admissible_prefix :
  forall (P : prog) (S B : N) (pre : list (N * N)) (L : lim),
  exists u a,
    dispatch_all repaired P (boot S B LNone pre) = Some u /\
    dispatch_all repaired P (boot S B L pre) = Some a /\
    log a = lprefix L 0 (log u).
Proof.
  intros P S B pre L.
  exact (two_runs P S B pre L (fun lu la => la = lprefix L 0 lu) (g_limited_log spec_evset (fun _ => tt) P S B pre L)).
Qed.
Print Assumptions C11_limited_log_is_longest_admissible_prefix.

(* [lprefix] is what its name says: a prefix; every element of it is admitted at
   its position; the element after it (if any) makes the limit apply; and every
   admissible prefix of the sequence is a prefix of it. *)
Theorem C11_longest_admissible_prefix_spec :
  forall (L : lim) (i : N) (sg : list (N * N)),
  (exists rest, sg = lprefix L i sg ++ rest /\
     match rest with
     | [] => True
     | e :: _ => applies L (i + N.of_nat (length (lprefix L i sg)) + 1) (snd e) = true
     end) /\
  (forall k e, nth_error (lprefix L i sg) k = Some e -> applies L (i + N.of_nat k + 1) (snd e) = false) /\
  (forall p rest, sg = p ++ rest ->
     (forall k e, nth_error p k = Some e -> applies L (i + N.of_nat k + 1) (snd e) = false) ->
     exists r', lprefix L i sg = p ++ r').
Proof.
  intros L i sg. split; [apply lprefix_prefix|]. split; [apply lprefix_admissible|].
  intros p rest -> Ha. apply lprefix_longest. exact Ha.
Qed.
Print Assumptions C11_longest_admissible_prefix_spec.

(* Nothing is lost: every accepted add_event (before the run or inside a
   handler) is, as a (time, label) pair, either handled -- at exactly that time
   -- or returned in [remaining] (the sorted drain of the event set).  End time
   and event count are the next theorem. *)
Theorem C11_nothing_lost :
  forall (P : prog) (S B : N) (pre : list (N * N)) (L : lim) (a : rt),
  dispatch_all repaired P (boot S B L pre) = Some a ->
  Permutation (accepted (adds a)) (handled (log a) ++ isort (pend (fes a))) /\
  ple_sorted (isort (pend (fes a))).
Proof. intros P S B pre L a H. destruct (limited_run_accounting P S B pre L a H) as [H1 [H2 _]]. split; assumption. Qed.
Print Assumptions C11_nothing_lost.

Theorem C11_end_time_and_count :
  forall (P : prog) (S B : N) (pre : list (N * N)) (L : lim) (a : rt),
  dispatch_all repaired P (boot S B L pre) = Some a ->
  finish a = OFinal (N.of_nat (length (log a))) (last (map snd (log a)) S) (log a) (adds a) (isort (pend (fes a))).
Proof. intros P S B pre L a H. apply (limited_run_accounting P S B pre L a H). Qed.
Print Assumptions C11_end_time_and_count.

(* EventCount(n): exactly the first min(n, available) events *)
Theorem C11_event_count_limit :
  forall (P : prog) (S B : N) (pre : list (N * N)) (n : N),
  exists u a, dispatch_all repaired P (boot S B LNone pre) = Some u /\
              dispatch_all repaired P (boot S B (LCount n) pre) = Some a /\
              log a = firstn (N.to_nat n) (log u).
Proof.
  intros P S B pre n.
  exact (two_runs P S B pre (LCount n) (fun lu la => la = firstn (N.to_nat n) lu) (g_count_limit spec_evset (fun _ => tt) P S B pre n)).
Qed.
Print Assumptions C11_event_count_limit.

(* SimTime(T): every event with timestamp <= T and none later *)
Theorem C11_time_limit :
  forall (P : prog) (S B : N) (pre : list (N * N)) (T : N),
  exists u a, dispatch_all repaired P (boot S B LNone pre) = Some u /\
              dispatch_all repaired P (boot S B (LTime T) pre) = Some a /\
              log a = filter (fun e => snd e <=? T) (log u).
Proof.
  intros P S B pre T.
  exact (two_runs P S B pre (LTime T) (fun lu la => la = filter (fun e => snd e <=? T) lu) (g_time_limit spec_evset (fun _ => tt) P S B pre T)).
Qed.
Print Assumptions C11_time_limit.

(* And / Or: [applies] is the conjunction / disjunction of the two conditions,
   so by the first theorem the run stops at the first event where the logical
   combination holds; in terms of the two component runs, Or stops where the
   earlier one stops and And where the later one stops. *)
Theorem C11_and_or :
  (forall a b i t, applies (LAnd a b) i t = applies a i t && applies b i t) /\
  (forall a b i t, applies (LOr a b) i t = applies a i t || applies b i t) /\
  forall (P : prog) (S B : N) (pre : list (N * N)) (la lb : lim),
  exists a b o n,
    dispatch_all repaired P (boot S B la pre) = Some a /\ dispatch_all repaired P (boot S B lb pre) = Some b /\
    dispatch_all repaired P (boot S B (LOr la lb) pre) = Some o /\
    dispatch_all repaired P (boot S B (LAnd la lb) pre) = Some n /\
    length (log o) = Nat.min (length (log a)) (length (log b)) /\
    length (log n) = Nat.max (length (log a)) (length (log b)).
Proof. split; [reflexivity|]. split; [reflexivity|]. exact and_or_run. Qed.
Print Assumptions C11_and_or.

(* The Boolean algebra of the limit trees, up to "stops every run at the same place". *)
Theorem C11_limit_algebra :
  (forall a b, leqv (LAnd a b) (LAnd b a)) /\ (forall a b, leqv (LOr a b) (LOr b a)) /\
  (forall a b c, leqv (LAnd a (LAnd b c)) (LAnd (LAnd a b) c)) /\ (forall a b c, leqv (LOr a (LOr b c)) (LOr (LOr a b) c)) /\
  (forall a, leqv (LAnd a a) a) /\ (forall a, leqv (LOr a a) a) /\
  (forall a b c, leqv (LAnd a (LOr b c)) (LOr (LAnd a b) (LAnd a c))) /\
  (forall a b c, leqv (LOr a (LAnd b c)) (LAnd (LOr a b) (LOr a c))) /\
  (forall a b, leqv (LAnd a (LOr a b)) a) /\ (forall a b, leqv (LOr a (LAnd a b)) a) /\
  (forall a, leqv (LOr LNone a) a) /\ (forall a, leqv (LAnd LNone a) LNone) /\
  (forall l i t i' t', i <= i' -> t <= t' -> applies l i t = true -> applies l i' t' = true).
Proof.
  split; [exact land_comm|]. split; [exact lor_comm|]. split; [exact land_assoc|]. split; [exact lor_assoc|].
  split; [exact land_idem|]. split; [exact lor_idem|]. split; [exact land_lor_distr|]. split; [exact lor_land_distr|].
  split; [exact land_absorb|]. split; [exact lor_absorb|]. split; [exact lor_none_l|]. split; [exact land_none_l|].
  exact applies_mono.
Qed.
Print Assumptions C11_limit_algebra.

(* Builder::max_itr / max_time / limit, called in any mix and order, give a
   limit that applies exactly when one of the given limits applies. *)
Theorem C11_builder_composes_with_or :
  forall (cs : list bcall) (i t : N),
  applies (build_limit cs) i t = existsb (fun c => applies (lim_of c) i t) cs.
Proof. exact build_limit_or. Qed.
Print Assumptions C11_builder_composes_with_or.

(* The event loop terminates for every script: no output record of the three
   runs of [run_script] is the out-of-fuel record. *)
Theorem C11_run_total : forall sc : script, ~ In OFuel (run_script repaired sc).
Proof. exact run_total. Qed.
Print Assumptions C11_run_total.

(* Non-vacuity: three events at time 5 (a tie) and one at 9; the handler of
   label 0 schedules label 3 with zero delay and label 4 two units later.
   Limit (EventCount(2) and SimTime(6)) or SimTime(8): stops after the tie
   group, keeping the events at 7 and 9 as remaining. *)
Example C11_nonvacuous :
  let P := [[(0, 0, 3); (0, 2, 4)]] in
  let pre := [(5, 0); (5, 1); (9, 2); (5, 1)] in
  let L := LOr (LAnd (LCount 2) (LTime 6)) (LTime 8) in
  option_map log (dispatch_all repaired P (boot 0 10 LNone pre)) = Some [(0, 5); (3, 5); (1, 5); (1, 5); (4, 7); (2, 9)] /\
  option_map log (dispatch_all repaired P (boot 0 10 L pre)) = Some [(0, 5); (3, 5); (1, 5); (1, 5)] /\
  option_map (fun a => isort (pend (fes a))) (dispatch_all repaired P (boot 0 10 L pre)) = Some [(7, 4); (9, 2)] /\
  option_map log (dispatch_all repaired P (boot 0 10 (LCount 2) pre)) = Some [(0, 5); (3, 5)].
Proof. vm_compute. repeat split. Qed.

(* ---------------------------------------------------------------------------
   The runtime over the CALENDAR QUEUE.  Runtime/ModelCq.v is the
   runtime model threading the concrete queue state of des-cqueue (cq_new_at n t
   start, add, peek_time, fetch_next, len) for the parameters n, t of
   Builder::cqueue_options; Runtime/Compose.v proves by forward simulation
   (queue part: the refinement relation of C01) that it prints exactly what the
   model over the specification prints.  [run_gen_cq repaired] is what the
   extracted runner executes in the differential check.  The statements below
   are those above read over ModelCq.v; C11_nothing_lost_cq includes the final record. *)
Theorem C11_run_over_cqueue_eq_run_over_spec :
  (forall input : list N, run_gen_cq repaired input = run_gen repaired input) /\
  (forall (n t : N) (sc : script), n <> 0 -> t <> 0 -> crun_script repaired n t sc = run_script repaired sc).
Proof. split; [exact run_over_cqueue_eq_run_over_spec|exact run_script_over_cqueue]. Qed.
Print Assumptions C11_run_over_cqueue_eq_run_over_spec.

(* the headline statements, for every bucket count n >= 1 and width t >= 1 *)
Theorem C11_limited_log_is_longest_admissible_prefix_cq :
  forall (n t : N) (P : prog) (S B : N) (pre : list (N * N)) (L : lim), n <> 0 -> t <> 0 ->
  exists u a,
    cdispatch_all repaired P (cboot n t S B LNone pre) = Some u /\
    cdispatch_all repaired P (cboot n t S B L pre) = Some a /\
    clog a = lprefix L 0 (clog u).
Proof.
  intros n t P S B pre L Hn Ht.
  exact (two_runs_cq n t P S B pre L (fun lu la => la = lprefix L 0 lu) Hn Ht (C11_limited_log_is_longest_admissible_prefix P S B pre L)).
Qed.
Print Assumptions C11_limited_log_is_longest_admissible_prefix_cq.

(* [cremaining] drains the calendar queue with fetch_next as finish does *)
Theorem C11_nothing_lost_cq :
  forall (n t : N) (P : prog) (S B : N) (pre : list (N * N)) (L : lim) (a : rtc), n <> 0 -> t <> 0 ->
  cdispatch_all repaired P (cboot n t S B L pre) = Some a ->
  Permutation (accepted (cadds a)) (handled (clog a) ++ isort (cremaining (cfes a))) /\
  ple_sorted (isort (cremaining (cfes a))) /\
  cfinish a = OFinal (N.of_nat (length (clog a))) (last (map snd (clog a)) S) (clog a) (cadds a) (isort (cremaining (cfes a))).
Proof. exact nothing_lost_cq. Qed.
Print Assumptions C11_nothing_lost_cq.

Theorem C11_event_count_limit_cq :
  forall (n t : N) (P : prog) (S B : N) (pre : list (N * N)) (k : N), n <> 0 -> t <> 0 ->
  exists u a, cdispatch_all repaired P (cboot n t S B LNone pre) = Some u /\
              cdispatch_all repaired P (cboot n t S B (LCount k) pre) = Some a /\
              clog a = firstn (N.to_nat k) (clog u).
Proof.
  intros n t P S B pre k Hn Ht.
  exact (two_runs_cq n t P S B pre (LCount k) (fun lu la => la = firstn (N.to_nat k) lu) Hn Ht (C11_event_count_limit P S B pre k)).
Qed.
Print Assumptions C11_event_count_limit_cq.

Theorem C11_time_limit_cq :
  forall (n t : N) (P : prog) (S B : N) (pre : list (N * N)) (T : N), n <> 0 -> t <> 0 ->
  exists u a, cdispatch_all repaired P (cboot n t S B LNone pre) = Some u /\
              cdispatch_all repaired P (cboot n t S B (LTime T) pre) = Some a /\
              clog a = filter (fun e => snd e <=? T) (clog u).
Proof.
  intros n t P S B pre T Hn Ht.
  exact (two_runs_cq n t P S B pre (LTime T) (fun lu la => la = filter (fun e => snd e <=? T) lu) Hn Ht (C11_time_limit P S B pre T)).
Qed.
Print Assumptions C11_time_limit_cq.

(* all loops terminate, the bucket scans of fetch_next / peek_time included *)
Theorem C11_run_total_cq : forall (n t : N) (sc : script), n <> 0 -> t <> 0 -> ~ In OFuel (crun_script repaired n t sc).
Proof. exact run_total_cq. Qed.
Print Assumptions C11_run_total_cq.

Example C11_nonvacuous_cq :
  let P := [[(0, 0, 3); (0, 2, 4)]] in
  let pre := [(5, 0); (5, 1); (9, 2); (5, 1)] in
  let L := LOr (LAnd (LCount 2) (LTime 6)) (LTime 8) in
  option_map clog (cdispatch_all repaired P (cboot 3 2 0 10 L pre)) = Some [(0, 5); (3, 5); (1, 5); (1, 5)] /\
  option_map (fun a => isort (cremaining (cfes a))) (cdispatch_all repaired P (cboot 3 2 0 10 L pre)) = Some [(7, 4); (9, 2)].
Proof. vm_compute. split; reflexivity. Qed.


(* ===========================================================================
   C11 for the runtime over ANY future event set.  [E : evset]
   (coq/Runtime/EvSet.v) packages new / add / peek_time / fetch_next / len with
   six facts about them; [orc] is the oracle of a backend whose order among
   equal timestamps is unspecified (dispatch number -> hint; deterministic
   backends have hint = unit); the ev_* functions are the runtime of
   coq/Runtime/Generic.v with E's operations plugged in (coq/Runtime/EvRuntime.v).
   Instances: the specification (spec_evset), the calendar queue for every
   n, t >= 1 (cq_evset n t), the BinaryHeap backend for every oracle (heap_evset).
   Proofs: coq/Runtime/GenericProps.v, GenericPrefix.v. *)

Theorem C11_any_event_set_limited_log_is_longest_admissible_prefix :
  forall (E : evset) (orc : N -> eHint E) (P : prog) (S B : N) (pre : list (N * N)) (L : lim),
  exists u a,
    ev_dispatch_all E orc P (ev_boot E S B LNone pre) = Some u /\
    ev_dispatch_all E orc P (ev_boot E S B L pre) = Some a /\
    ev_log E a = lprefix L 0 (ev_log E u).
Proof. exact g_limited_log. Qed.
Print Assumptions C11_any_event_set_limited_log_is_longest_admissible_prefix.

Theorem C11_any_event_set_nothing_lost :
  forall (E : evset) (orc : N -> eHint E) (P : prog) (S B : N) (pre : list (N * N)) (L : lim) (a : ev_rt E),
  ev_dispatch_all E orc P (ev_boot E S B L pre) = Some a ->
  Permutation (accepted (ev_adds E a)) (handled (ev_log E a) ++ isort (ev_remaining E orc a)) /\
  ple_sorted (isort (ev_remaining E orc a)) /\
  ev_finish E orc a = OFinal (N.of_nat (length (ev_log E a))) (last (map snd (ev_log E a)) S) (ev_log E a) (ev_adds E a)
                             (isort (ev_remaining E orc a)) /\
  StronglySorted N.le (map snd (ev_log E a)).
Proof. exact g_nothing_lost. Qed.
Print Assumptions C11_any_event_set_nothing_lost.

Theorem C11_any_event_set_event_count_limit :
  forall (E : evset) (orc : N -> eHint E) (P : prog) (S B : N) (pre : list (N * N)) (n : N),
  exists u a, ev_dispatch_all E orc P (ev_boot E S B LNone pre) = Some u /\
              ev_dispatch_all E orc P (ev_boot E S B (LCount n) pre) = Some a /\
              ev_log E a = firstn (N.to_nat n) (ev_log E u).
Proof. exact g_count_limit. Qed.
Print Assumptions C11_any_event_set_event_count_limit.

Theorem C11_any_event_set_time_limit :
  forall (E : evset) (orc : N -> eHint E) (P : prog) (S B : N) (pre : list (N * N)) (T : N),
  exists u a, ev_dispatch_all E orc P (ev_boot E S B LNone pre) = Some u /\
              ev_dispatch_all E orc P (ev_boot E S B (LTime T) pre) = Some a /\
              ev_log E a = filter (fun e => snd e <=? T) (ev_log E u).
Proof. exact g_time_limit. Qed.
Print Assumptions C11_any_event_set_time_limit.

Theorem C11_any_event_set_and_or :
  forall (E : evset) (orc : N -> eHint E) (P : prog) (S B : N) (pre : list (N * N)) (la lb : lim),
  exists a b o n,
    ev_dispatch_all E orc P (ev_boot E S B la pre) = Some a /\ ev_dispatch_all E orc P (ev_boot E S B lb pre) = Some b /\
    ev_dispatch_all E orc P (ev_boot E S B (LOr la lb) pre) = Some o /\
    ev_dispatch_all E orc P (ev_boot E S B (LAnd la lb) pre) = Some n /\
    length (ev_log E o) = Nat.min (length (ev_log E a)) (length (ev_log E b)) /\
    length (ev_log E n) = Nat.max (length (ev_log E a)) (length (ev_log E b)).
Proof. exact g_and_or. Qed.
Print Assumptions C11_any_event_set_and_or.

(* every loop terminates: no record of a block (build, pre-run adds, schedule, dispatch_all, finish) is the
   out-of-fuel record.  (The limit algebra and the Builder composition, C11_limit_algebra and
   C11_builder_composes_with_or above, do not mention the event set at all.) *)
Theorem C11_any_event_set_run_total :
  forall (E : evset) (orc : N -> eHint E) (sc : script) (L : lim) (sched : list sop), ~ In OFuel (ev_run_block E orc sc L sched).
Proof. exact g_run_total. Qed.
Print Assumptions C11_any_event_set_run_total.

(* ---- instances ---- *)
(* (a), (b): the specification and the calendar queue as event sets; e.g. the main theorem *)
Theorem C11_limited_log_over_spec_event_set :
  forall (P : prog) (S B : N) (pre : list (N * N)) (L : lim),
  exists u a,
    ev_dispatch_all spec_evset (fun _ => tt) P (ev_boot spec_evset S B LNone pre) = Some u /\
    ev_dispatch_all spec_evset (fun _ => tt) P (ev_boot spec_evset S B L pre) = Some a /\
    ev_log spec_evset a = lprefix L 0 (ev_log spec_evset u).
Proof. exact (g_limited_log spec_evset (fun _ => tt)). Qed.
Print Assumptions C11_limited_log_over_spec_event_set.

Theorem C11_limited_log_over_calendar_queue_event_set :
  forall (n t : N) (Hn : n <> 0) (Ht : t <> 0) (P : prog) (S B : N) (pre : list (N * N)) (L : lim),
  let E := cq_evset n t Hn Ht in
  exists u a,
    ev_dispatch_all E (fun _ => tt) P (ev_boot E S B LNone pre) = Some u /\
    ev_dispatch_all E (fun _ => tt) P (ev_boot E S B L pre) = Some a /\
    ev_log E a = lprefix L 0 (ev_log E u).
Proof. intros n t Hn Ht. exact (g_limited_log (cq_evset n t Hn Ht) (fun _ => tt)). Qed.
Print Assumptions C11_limited_log_over_calendar_queue_event_set.

(* (c) the BinaryHeap backend (des built without `cqueue`), EVERY oracle; spelled with the
   functions of coq/Runtime/HeapRt.v, which the extracted runner of `check.py C01 --part heap` executes *)
Theorem C11_limited_log_is_longest_admissible_prefix_heap :
  forall (orc : N -> hint) (P : prog) (S B : N) (pre : list (N * N)) (L : lim),
  exists u a,
    hdispatch_all orc P (hboot S B LNone pre) = Some u /\
    hdispatch_all orc P (hboot S B L pre) = Some a /\
    glog hs a = lprefix L 0 (glog hs u).
Proof. exact (g_limited_log heap_evset). Qed.
Print Assumptions C11_limited_log_is_longest_admissible_prefix_heap.

Theorem C11_nothing_lost_heap :
  forall (orc : N -> hint) (P : prog) (S B : N) (pre : list (N * N)) (L : lim) (a : hrt),
  hdispatch_all orc P (hboot S B L pre) = Some a ->
  let rem := gremaining hs hint hp_fetch hp_len orc a in
  Permutation (accepted (gadds hs a)) (handled (glog hs a) ++ isort rem) /\
  ple_sorted (isort rem) /\
  gfinish hs hint hp_fetch hp_len orc a =
    OFinal (N.of_nat (length (glog hs a))) (last (map snd (glog hs a)) S) (glog hs a) (gadds hs a) (isort rem) /\
  StronglySorted N.le (map snd (glog hs a)).
Proof. exact (g_nothing_lost heap_evset). Qed.
Print Assumptions C11_nothing_lost_heap.

Theorem C11_event_count_limit_heap :
  forall (orc : N -> hint) (P : prog) (S B : N) (pre : list (N * N)) (n : N),
  exists u a, hdispatch_all orc P (hboot S B LNone pre) = Some u /\
              hdispatch_all orc P (hboot S B (LCount n) pre) = Some a /\
              glog hs a = firstn (N.to_nat n) (glog hs u).
Proof. exact (g_count_limit heap_evset). Qed.
Print Assumptions C11_event_count_limit_heap.

Theorem C11_time_limit_heap :
  forall (orc : N -> hint) (P : prog) (S B : N) (pre : list (N * N)) (T : N),
  exists u a, hdispatch_all orc P (hboot S B LNone pre) = Some u /\
              hdispatch_all orc P (hboot S B (LTime T) pre) = Some a /\
              glog hs a = filter (fun e => snd e <=? T) (glog hs u).
Proof. exact (g_time_limit heap_evset). Qed.
Print Assumptions C11_time_limit_heap.

Theorem C11_and_or_heap :
  forall (orc : N -> hint) (P : prog) (S B : N) (pre : list (N * N)) (la lb : lim),
  exists a b o n,
    hdispatch_all orc P (hboot S B la pre) = Some a /\ hdispatch_all orc P (hboot S B lb pre) = Some b /\
    hdispatch_all orc P (hboot S B (LOr la lb) pre) = Some o /\ hdispatch_all orc P (hboot S B (LAnd la lb) pre) = Some n /\
    length (glog hs o) = Nat.min (length (glog hs a)) (length (glog hs b)) /\
    length (glog hs n) = Nat.max (length (glog hs a)) (length (glog hs b)).
Proof. exact (g_and_or heap_evset). Qed.
Print Assumptions C11_and_or_heap.

Theorem C11_run_total_heap :
  forall (orc : N -> hint) (sc : script) (L : lim) (sched : list sop), ~ In OFuel (fst (hrun_block orc sc L sched)).
Proof. exact (g_run_total heap_evset). Qed.
Print Assumptions C11_run_total_heap.

(* Non-vacuity over the heap backend, oracle "last candidate": of the tie group at 5 the heap pops the two entries
   labelled 1 first, then 0, then the 3 that 0's handler put in the zero queue; the limit stops after it and keeps
   (7,4), (9,2). *)
Example C11_nonvacuous_heap :
  let P := [[(0, 0, 3); (0, 2, 4)]] in
  let pre := [(5, 0); (5, 1); (9, 2); (5, 1)] in
  let L := LOr (LAnd (LCount 2) (LTime 6)) (LTime 8) in
  let orc := fun (_ : N) (cs : list (N * N)) => pred (length cs) in
  option_map (glog hs) (hdispatch_all orc P (hboot 0 10 L pre)) = Some [(1, 5); (1, 5); (0, 5); (3, 5)] /\
  option_map (fun a => isort (gremaining hs hint hp_fetch hp_len orc a)) (hdispatch_all orc P (hboot 0 10 L pre)) = Some [(7, 4); (9, 2)].
Proof. vm_compute. split; reflexivity. Qed.
