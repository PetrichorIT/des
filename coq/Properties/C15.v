(* C15 — Calendar-queue memory is safe and every payload is dropped exactly once.
   The statements, each proved in a few lines from the lemmas of the directories it imports.

   Memory half.  [Alloc.Model] is the model of des-cqueue/src/stable/alloc.rs:
   a first-fit free list of (address, size) regions over pages whose addresses
   come from an oracle [base : page index -> address].  [params_ok nsz nal page]:
   the page size and align_of::<ListNode>() = nal are powers of two, nal <= page,
   size_of::<ListNode>() = nsz is a positive multiple of nal and fits a page
   (the target of the runs: nsz = 16, nal = 8, every page = 2^k >= 64).
   [oracle_ok base page] is the ORACLE ASSUMPTION: the pages the system allocator
   returns are page-aligned and pairwise disjoint.  [reach] = the states reachable
   from with_page_size(page) by allocate/deallocate histories whose requests
   satisfy the guard [req_ok l]: the alignment is a power of two <= page and the
   adjusted size s = fst (size_align l) is NOT in the band page - nsz < s < page
   (s > page is allowed: refused).  Inside the band find_region adds pages
   forever (Refuted/C15.v); that corner is excluded by statement.

   Payload half.  On the model side it is C01's accounting theorem (cited). *)
From Coq Require Import List NArith Permutation.
From DesVerif Require Import CQueue.Model CQueue.Spec CQueue.SpecProps.
From DesVerif Require Import Alloc.Model Alloc.Arith Alloc.Inv Alloc.Hist Alloc.Safety Alloc.Payload.
Import ListNotations.
Open Scope N_scope.

(* the representation invariant (page list = oracle prefix; free regions node-aligned,
   >= a node, inside an owned page; live blocks aligned and inside an owned page; free
   regions and live blocks pairwise disjoint; byte counter) holds in every reachable state *)
Theorem C15_invariant_reachable : forall base nsz nal page, params_ok nsz nal page -> oracle_ok base page ->
  forall s, reach base nsz nal page s -> Inv base nsz nal page s.
Proof. exact reach_inv. Qed.
Print Assumptions C15_invariant_reachable.

(* no two live allocations overlap *)
Theorem C15_live_disjoint : forall base nsz nal page, params_ok nsz nal page -> oracle_ok base page ->
  forall s, reach base nsz nal page s -> PD (lranges nsz nal s).
Proof. exact live_disjoint. Qed.
Print Assumptions C15_live_disjoint.

(* every live allocation is aligned to the requested alignment, to the node
   alignment, and to the adjusted alignment (their maximum) *)
Theorem C15_aligned : forall base nsz nal page, params_ok nsz nal page -> oracle_ok base page ->
  forall s, reach base nsz nal page s -> forall p l, In (p, l) (live s) ->
  (snd l | p) /\ (nal | p) /\ (snd (size_align nsz nal l) | p).
Proof. exact aligned. Qed.
Print Assumptions C15_aligned.

(* the pages the allocator owns are exactly the ones the oracle handed out, and
   every live allocation lies inside one of them *)
Theorem C15_inside_owned_page : forall base nsz nal page, params_ok nsz nal page -> oracle_ok base page ->
  forall s, reach base nsz nal page s ->
  pages s = map (fun i => base (N.of_nat i)) (seq 0 (length (pages s))) /\
  forall p l, In (p, l) (live s) ->
    exists b, In b (pages s) /\ b <= p /\ p + fst (size_align nsz nal l) <= b + page.
Proof. exact inside_owned_page. Qed.
Print Assumptions C15_inside_owned_page.

(* free regions are pairwise disjoint, disjoint from every live allocation, and inside owned pages *)
Theorem C15_free_list_disjoint_from_live : forall base nsz nal page, params_ok nsz nal page -> oracle_ok base page ->
  forall s, reach base nsz nal page s ->
  PD (free s) /\
  (forall r e, In r (free s) -> In e (live s) -> disj r (lrange nsz nal e)) /\
  (forall r, In r (free s) -> exists b, In b (pages s) /\ b <= fst r /\ fst r + snd r <= b + page).
Proof. exact free_list_disjoint_from_live. Qed.
Print Assumptions C15_free_list_disjoint_from_live.

(* memory is reused only after it was released: in the record of any history
   (RAlloc ptr size align / RFree ptr size / ...), if two allocate calls returned
   overlapping blocks then the earlier block was deallocated in between *)
Theorem C15_reuse_only_after_free : forall base nsz nal page, params_ok nsz nal page -> oracle_ok base page ->
  forall s0 ops, init base nsz nal page = Some s0 -> Forall (op_ok nsz nal page) ops ->
  forall pre p1 s1 a1 st1 mid p2 s2 a2 st2 post,
    run_ops base nsz nal s0 ops = pre ++ (RAlloc p1 s1 a1, st1) :: mid ++ (RAlloc p2 s2 a2, st2) :: post ->
    In (RFree p1 s1) (map fst mid) \/ disj (p1, s1) (p2, s2).
Proof. exact reuse_only_after_free. Qed.
Print Assumptions C15_reuse_only_after_free.

(* allocate terminates: with ANY non-zero fuel (number of pages find_region may
   add) it returns the same result, never panics, and adds at most one page; a
   request larger than a page is refused without effect.  The resulting state is
   again reachable. *)
Theorem C15_alloc_total : forall base nsz nal page, params_ok nsz nal page -> oracle_ok base page ->
  forall s l, reach base nsz nal page s -> req_ok nsz nal page l ->
  (page < fst (size_align nsz nal l) /\ forall f, allocate_f base nsz nal f s l = AErr) \/
  (exists s' p, (forall f, allocate_f base nsz nal (S f) s l = AOk s' p) /\ reach base nsz nal page s' /\
                (length (pages s') <= S (length (pages s)))%nat).
Proof. exact alloc_total. Qed.
Print Assumptions C15_alloc_total.

(* deallocate of a live block does not panic (both assertions of add_free_region hold, no underflow) *)
Theorem C15_dealloc_total : forall base nsz nal page, params_ok nsz nal page -> oracle_ok base page ->
  forall s k, reach base nsz nal page s -> (k < length (live s))%nat ->
  exists s' p size, deallocate nsz nal s k = DOk s' p size /\ reach base nsz nal page s'.
Proof. exact dealloc_total. Qed.
Print Assumptions C15_dealloc_total.

(* with_page_size succeeds, and no history that respects the guard panics or runs out of fuel *)
Theorem C15_history_total : forall base nsz nal page, params_ok nsz nal page -> oracle_ok base page ->
  (exists s0, init base nsz nal page = Some s0 /\ reach base nsz nal page s0) /\
  forall s0 ops, init base nsz nal page = Some s0 -> Forall (op_ok nsz nal page) ops ->
    length (run_ops base nsz nal s0 ops) = length ops /\
    Forall (fun x => halting (fst x) = false /\ Inv base nsz nal page (snd x)) (run_ops base nsz nal s0 ops).
Proof. intros base nsz nal page Hp Ho. split; [exact (init_total base nsz nal page Hp Ho)|exact (history_total base nsz nal page Hp Ho)]. Qed.
Print Assumptions C15_history_total.

(* allocated_mem = sum of the adjusted sizes of the live allocations *)
Theorem C15_allocated_mem_formula : forall base nsz nal page, params_ok nsz nal page -> oracle_ok base page ->
  forall s, reach base nsz nal page s -> allocated_mem s = sum_sizes nsz nal (live s).
Proof. exact allocated_mem_formula. Qed.
Print Assumptions C15_allocated_mem_formula.

(* the instance the runners use: ListNode is 16 bytes, 8-aligned; pages are powers
   of two >= 64; the symbolic oracle (page i at (i+1) * 2^40) satisfies the oracle
   assumption for every page size up to 2^40 *)
Theorem C15_instance : forall page, pow2 page -> 64 <= page -> page <= 2 ^ 40 ->
  params_ok 16 8 page /\ oracle_ok sym_base page.
Proof. intros page Hp H1 H2. split; [apply params_ok_16_8; assumption|apply sym_oracle_ok; assumption]. Qed.
Print Assumptions C15_instance.

(* ---- payload half (model side): corollaries of C01_exactly_once ---- *)
(* Every payload moved into the queue has its destructor run exactly once over a
   history followed by the drop of the queue - by the caller for what fetch
   returned, inside cancel, or with the queue for what is still pending
   (drop_log = fetched ++ cancelled ++ pending) - and nothing else is dropped. *)
Theorem C15_payload_dropped_exactly_once : forall ts ops,
  let a := fst (ghost_run (sp_init_at ts) g0 ops) in
  let g := snd (ghost_run (sp_init_at ts) g0 ops) in
  (forall e, In e (g_added g) <-> In e (drop_log a g)) /\
  (forall e, In e (g_added g) -> count_occ N.eq_dec (map eid (drop_log a g)) (eid e) = 1%nat) /\
  NoDup (map eid (g_added g)).
Proof. exact payload_dropped_exactly_once. Qed.
Print Assumptions C15_payload_dropped_exactly_once.

(* what the calendar queue (any n, t) returns from fetch is, in order, the payload
   and time of events that were inserted: payloads come back as inserted *)
Theorem C15_payload_returned_as_inserted : forall n t ts ops, n <> 0 -> t <> 0 ->
  let g := snd (ghost_run (sp_init_at ts) g0 ops) in
  fetched_outs (run_ops_at true n t ts ops) = map (fun x => (epay x, etime x)) (g_fetched g) /\
  (forall e, In e (g_fetched g) -> In e (g_added g)).
Proof. exact payload_returned_as_inserted. Qed.
Print Assumptions C15_payload_returned_as_inserted.

(* ---- non-vacuity ---- *)
(* 64-byte page: split with the tail kept, a second page when only an 8-byte
   tail would remain, release, first-fit reuse of the released block (exact
   fit), alignment padding (align 32 in a region starting at offset 16 of page 1),
   and a request inside the band stopped by the fuel *)
Example C15_nonvacuous_run :
  run [1; 64; 16; 8;  1; 16; 8;  1; 24; 8;  1; 1; 1;  2; 0;  1; 16; 16;  1; 8; 32;  3;  1; 56; 8]
  = [1; 0; 0; 16; 8; 1; 16; 1;      1; 0; 16; 24; 8; 1; 40; 1;      1; 1; 0; 16; 8; 2; 56; 2;
     2; 0; 0; 16; 2; 40; 3;         1; 0; 0; 16; 16; 2; 56; 2;      1; 1; 32; 32; 32; 2; 88; 1;
     5; 1; 0; 40; 24;  4; 0; 16; 24;  1; 0; 16;  0; 0; 16;  1; 32; 32;
     8].
Proof. vm_compute. reflexivity. Qed.

(* reuse after free on the model: the same block is handed out twice, with its release in between *)
Example C15_nonvacuous_reuse :
  exists s0 p st1 st2 st3, init sym_base 16 8 64 = Some s0 /\
    run_ops sym_base 16 8 s0 [OAlloc 16 8; OFree 0; OAlloc 16 8] = [(RAlloc p 16 8, st1); (RFree p 16, st2); (RAlloc p 16 8, st3)].
Proof. do 5 eexists. split; [vm_compute; reflexivity|vm_compute; reflexivity]. Qed.

(* a CQueue<P> history (node layout 72/8, n = 3, t = 10): sentinels, adds into the
   zero bucket and into bucket lists, fetch, cancel, reuse of released nodes, and
   the drop of the queue with events pending *)
Example C15_nonvacuous_queue :
  run [2; 2; 1; 4096; 16; 8; 72; 8; 3; 10;  1; 0;  1; 5;  1; 25;  3;  2; 1;  3;  1; 7]
  = [20; 6; 1; 0; 0; 1; 0; 72; 1; 0; 144; 1; 0; 216; 1; 0; 288; 1; 0; 360; 432; 1; 1; 0;
     1; 0; 432; 1; 1; 1; 0;        1; 1; 1; 0; 432; 504; 1; 1; 2; 0;     1; 1; 1; 0; 504; 576; 1; 1; 3; 0;
     2; 0; 0; 1; 0; 576; 1; 1; 2; 0;     5; 1; 2; 0; 432; 504; 1; 1; 1; 1; 1;
     2; 2; 25; 1; 1; 2; 0; 504; 432; 1; 1; 0; 0;     1; 1; 1; 0; 504; 504; 1; 1; 1; 0;
     10; 7; 2; 0; 504; 2; 0; 0; 2; 0; 72; 2; 0; 144; 2; 0; 216; 2; 0; 288; 2; 0; 360; 0; 0; 1; 3; 11; 1; 1; 1].
Proof. vm_compute. reflexivity. Qed.
