(* C02 — The simulation clock is monotone and equals the timestamp of the running event.
   The statements, each proved in a few lines from the lemmas of the directories it imports.  Model: coq/Runtime/Model.v, [repaired] variant (the event
   set's clock starts at Builder::start_time; dispatch_event peeks).  The
   statements quantify over [reachable S B s]: every state a runtime built with
   start time S can be in -- before the run, between two events, in the middle
   of a handler, paused between steps -- under the transition system [tr] of
   coq/Runtime/Mono.v, which allows any add_event at any moment, any limit swap
   and the dispatch of the next event; C02_run_reachable shows that every run
   and every stepped run of every script stays inside it. *)
From Coq Require Import List NArith Bool Sorting.Sorted Permutation.
From DesVerif Require Import CQueue.Spec Runtime.Limit Runtime.Model Runtime.Queue Runtime.Inv Runtime.Prefix
  Runtime.GenericProps Runtime.OverSpec Runtime.Mono Runtime.ModelCq Runtime.Compose Runtime.ComposeProps
  Runtime.HeapSet Runtime.Generic Runtime.HeapRt Runtime.HeapSetProps.
Import ListNotations.
Open Scope N_scope.

(* For every start time S: the clock starts at S, no transition decreases it,
   and the sequence S, now()@handler1, now()@handler2, ... is non-decreasing;
   the clock is the time of the last handled event (S before the first). *)
Theorem C02_clock_monotone :
  forall (S B : N) (s : rt), reachable S B s ->
  S <= clock s /\ (forall s', tr s s' -> clock s <= clock s') /\
  StronglySorted N.le (S :: map snd (log s)) /\ clock s = last (map snd (log s)) S.
Proof. exact clock_monotone. Qed.
Print Assumptions C02_clock_monotone.

(* The clock has a single writer: a transition either leaves it alone or is the
   dispatch of the next event (label l, scheduled time t), which was pending
   with exactly that timestamp, sets the clock to t before the handler runs, and
   the handler logs (l, now() = t). *)
Theorem C02_now_is_event_time :
  forall (S B : N) (s s' : rt), reachable S B s -> tr s s' ->
  clock s' = clock s \/
  exists l t, nextev (fes s) = Some (l, t) /\ In (t, l) (pend (fes s)) /\ s' = fetched s l t /\
              clock s' = t /\ log s' = log s ++ [(l, t)] /\ pend (fes s) = (t, l) :: pend (fes s').
Proof. exact now_is_event_time. Qed.
Print Assumptions C02_now_is_event_time.

(* Events are handled in non-decreasing timestamp order, each exactly once: at
   every moment the accepted add_event calls are, as a multiset of
   (time, label), the handled events (each logged with now() equal to its
   scheduled time) plus the pending ones; the dispatch counter is the number of
   handled events. *)
Theorem C02_dispatch_sorted_once :
  forall (S B : N) (s : rt), reachable S B s ->
  StronglySorted N.le (map snd (log s)) /\
  Permutation (accepted (adds s)) (handled (log s) ++ pend (fes s)) /\
  itr s = N.of_nat (length (log s)).
Proof. exact dispatch_sorted_once. Qed.
Print Assumptions C02_dispatch_sorted_once.

(* Scheduling at or after the current simulated time always succeeds (from
   outside or inside a handler, at any start time), and the event becomes
   pending with that timestamp; add_event_in never fails. *)
Theorem C02_add_at_or_after_now_ok :
  forall (S B : N) (s : rt) (inh : bool) (t l : N), reachable S B s ->
  (clock s <= t ->
     option_map a_ok (last_rec (add_event inh s t l)) = Some true /\
     Permutation (pend (fes (add_event inh s t l))) ((t, l) :: pend (fes s)) /\
     clock (add_event inh s t l) = clock s) /\
  (forall d, option_map a_ok (last_rec (add_event_in s d l)) = Some true).
Proof.
  intros S B s inh t l HR. split; [apply (add_at_or_after_now_ok S B); exact HR|].
  intros d. unfold add_event_in. apply (add_at_or_after_now_ok S B s true (clock s + d) l HR), N.le_add_r.
Qed.
Print Assumptions C02_add_at_or_after_now_ok.

(* Scheduling before the current simulated time is rejected (the recorded
   outcome is the panic) and changes neither the event set nor the clock nor
   the log -- in particular before a non-zero start time. *)
Theorem C02_add_before_now_panics :
  forall (S B : N) (s : rt) (inh : bool) (t l : N), reachable S B s -> t < clock s ->
  option_map a_ok (last_rec (add_event inh s t l)) = Some false /\
  fes (add_event inh s t l) = fes s /\ clock (add_event inh s t l) = clock s /\ log (add_event inh s t l) = log s.
Proof. exact add_before_now_panics. Qed.
Print Assumptions C02_add_before_now_panics.

(* every recorded attempt of a run was accepted iff its time was not before the now() it was made at *)
Theorem C02_all_adds_ok_iff :
  forall (S B : N) (s : rt), reachable S B s -> Forall (fun r => a_ok r = (a_now r <=? a_time r)) (adds s).
Proof. intros S B s HR. apply (G_adds _ _ _ (reachable_Inv S B s HR)). Qed.
Print Assumptions C02_all_adds_ok_iff.

(* The transition system covers the model: for every program, limit, pre-run
   adds and step schedule, the booted state, every paused state and the final
   state are reachable (the handlers' intermediate states are, too:
   Mono.reach_actions). *)
Theorem C02_run_reachable :
  forall (S B : N) (L : lim) (pre : list (N * N)) (P : prog) (ops : list sop) (s1 : rt) (xs : list sout) (sf : rt),
  exec_sched repaired P (boot S B L pre) ops = (Some s1, xs) ->
  dispatch_all repaired P s1 = Some sf ->
  reachable S B (boot S B L pre) /\ reachable S B s1 /\ reachable S B sf.
Proof. exact run_reachable. Qed.
Print Assumptions C02_run_reachable.

(* the event loop terminates for every script *)
Theorem C02_run_total : forall sc : script, ~ In OFuel (run_script repaired sc).
Proof. exact run_total. Qed.
Print Assumptions C02_run_total.

(* Non-vacuity: start time 10; add_event(5) and add_event(9) are rejected,
   add_event(10) and add_event(12) accepted; the handler of label 0 schedules
   label 1 with zero delay and tries label 2 at the absolute time 3 (rejected);
   the clock goes 10, 10, 12 and the run ends at 12. *)
Example C02_nonvacuous :
  let P := [[(0, 0, 1); (1, 3, 2)]] in
  let s0 := boot 10 5 LNone [(5, 0); (12, 7); (10, 0); (9, 0)] in
  map a_ok (adds s0) = [false; true; true; false] /\
  match dispatch_all repaired P s0 with
  | Some sf => log sf = [(0, 10); (1, 10); (7, 12)] /\ clock sf = 12 /\
               map (fun r => (a_time r, a_now r, a_ctx r, a_ok r)) (adds sf) =
               [(5, 10, 0, false); (12, 10, 0, true); (10, 10, 0, true); (9, 10, 0, false);
                (10, 10, 1, true); (3, 10, 1, false)]
  | None => False
  end.
Proof. vm_compute. repeat split. Qed.

(* ---------------------------------------------------------------------------
   The runtime over the CALENDAR QUEUE.  Runtime/ModelCq.v is the
   runtime model threading the concrete queue state of des-cqueue (cq_new_at n t
   start, add, peek_time, fetch_next, len) for the parameters n, t of
   Builder::cqueue_options; Runtime/Compose.v proves by forward simulation
   (queue part: the refinement relation of C01) that it prints exactly what the
   model over the specification prints.  [run_gen_cq repaired] is what the
   extracted runner executes in the differential check.  Over ModelCq.v C02 is
   stated of the booted, paused and final states of runs (C02_holds_over_cqueue),
   not of the transition system [reachable]. *)
Theorem C02_run_over_cqueue_eq_run_over_spec :
  (forall input : list N, run_gen_cq repaired input = run_gen repaired input) /\
  (forall (n t : N) (sc : script), n <> 0 -> t <> 0 -> crun_script repaired n t sc = run_script repaired sc).
Proof. split; [exact run_over_cqueue_eq_run_over_spec|exact run_script_over_cqueue]. Qed.
Print Assumptions C02_run_over_cqueue_eq_run_over_spec.

(* C02 over the calendar queue, for every start time and every queue
   parameterisation: in the booted state, every paused state and the final
   state of every (stepped) run of every program
     - the clock is at or after the start time and is the time of the last
       handled event; S, now()@handler1, now()@handler2, ... never decreases;
     - the calendar queue's own clock (CQueue::time) equals the reported time;
     - every add_event so far was accepted iff its time was not before the
       now() it was made at;
     - the accepted adds are, as a multiset of (time, label), the handled events
       (logged with now() = scheduled time) plus what fetch_next still drains;
     - a further add_event(t) is accepted iff t >= now(), never moves the clock,
       and when rejected leaves the queue untouched. *)
Theorem C02_holds_over_cqueue :
  forall (n t S B : N) (L : lim) (pre : list (N * N)) (P : prog) (ops : list sop) (c1 : rtc) (xs : list sout) (cf : rtc),
  n <> 0 -> t <> 0 ->
  cexec_sched repaired P (cboot n t S B L pre) ops = (Some c1, xs) ->
  cdispatch_all repaired P c1 = Some cf ->
  forall c, c = cboot n t S B L pre \/ c = c1 \/ c = cf ->
  S <= cclock c /\
  StronglySorted N.le (S :: map snd (clog c)) /\
  cclock c = last (map snd (clog c)) S /\
  CQueue.Model.tcur (cfes c) = cclock c /\
  Forall (fun r => a_ok r = (a_now r <=? a_time r)) (cadds c) /\
  Permutation (accepted (cadds c)) (handled (clog c) ++ cremaining (cfes c)) /\
  (forall inh tm l, clast_ok (cadd_event inh c tm l) = (cclock c <=? tm) /\
                    cclock (cadd_event inh c tm l) = cclock c /\
                    (tm < cclock c -> cfes (cadd_event inh c tm l) = cfes c)).
Proof.
  intros n t S B L pre P ops c1 xs cf Hn Ht H1 H2 c Hc.
  destruct (run_good_cq n t S B L pre P ops c1 xs cf Hn Ht H1 H2) as [G0 [G1 Gf]].
  destruct Hc as [ -> | [ -> | -> ] ]; assumption.
Qed.
Print Assumptions C02_holds_over_cqueue.

Theorem C02_run_total_cq : forall (n t : N) (sc : script), n <> 0 -> t <> 0 -> ~ In OFuel (crun_script repaired n t sc).
Proof. exact run_total_cq. Qed.
Print Assumptions C02_run_total_cq.

Example C02_nonvacuous_cq :
  let P := [[(0, 0, 1); (1, 3, 2)]] in
  let c0 := cboot 7 3 10 5 LNone [(5, 0); (12, 7); (10, 0); (9, 0)] in
  map a_ok (cadds c0) = [false; true; true; false] /\
  match cdispatch_all repaired P c0 with
  | Some cf => clog cf = [(0, 10); (1, 10); (7, 12)] /\ cclock cf = 12 /\ CQueue.Model.tcur (cfes cf) = 12
  | None => False
  end.
Proof. vm_compute. repeat split. Qed.


(* ---------------------------------------------------------------------------
   C02 for the runtime over the OTHER future event set (BinaryHeap + zero queue,
   des built without `cqueue`; coq/Runtime/HeapSet.v, HeapRt.v), for EVERY oracle
   resolving BinaryHeap's unspecified order among equal timestamps.  The proofs
   are those of coq/Runtime/GenericProps.v -- the runtime over an abstract event
   set satisfying six facts -- instantiated with the heap backend
   (coq/Runtime/HeapSetProps.v). *)

Theorem C02_holds_over_heap :
  forall (orc : N -> hint) (S B : N) (L : lim) (pre : list (N * N)) (P : prog) (ops : list sop),
  exists s1 xs sf,
    hexec_sched orc P (hboot S B L pre) ops = (Some s1, xs) /\ ~ In OFuel xs /\ hdispatch_all orc P s1 = Some sf /\
    forall s, s = hboot S B L pre \/ s = s1 \/ s = sf ->
      let rem := gremaining hs hint hp_fetch hp_len orc s in
      S <= gclock hs s /\
      StronglySorted N.le (S :: map snd (glog hs s)) /\
      gclock hs s = last (map snd (glog hs s)) S /\
      hlast (gfes hs s) = gclock hs s /\
      gitr hs s = N.of_nat (length (glog hs s)) /\
      hp_len (gfes hs s) = N.of_nat (length rem) /\
      Forall (fun r => a_ok r = (a_now r <=? a_time r)) (gadds hs s) /\
      Permutation (accepted (gadds hs s)) (handled (glog hs s) ++ rem) /\
      (forall inh tm l, glast_ok hs (gadd_event hs hp_add inh s tm l) = (gclock hs s <=? tm) /\
                        gclock hs (gadd_event hs hp_add inh s tm l) = gclock hs s /\
                        (tm < gclock hs s -> gfes hs (gadd_event hs hp_add inh s tm l) = gfes hs s)).
Proof.
  intros orc S B L pre P ops. destruct (heap_runtime_good orc S B L pre P ops) as [s1 [xs [sf [H1 [H2 [H3 [G0 [G1 Gf]]]]]]]].
  exists s1, xs, sf. split; [exact H1|]. split; [exact H2|]. split; [exact H3|].
  intros s [ -> | [ -> | -> ] ]; assumption.
Qed.
Print Assumptions C02_holds_over_heap.

(* one dispatch: the event was pending with exactly the timestamp that now()
   shows inside its handler, and that time is not before the previous now() *)
Theorem C02_heap_now_is_event_time :
  forall (orc : N -> hint) S B L pre P ops s1 xs s',
  hexec_sched orc P (hboot S B L pre) ops = (Some s1, xs) ->
  gdispatch_event hs hint hp_add hp_peek hp_fetch orc P s1 = inl s' ->
  exists t l, In (t, l) (hpend (gfes hs s1)) /\ gclock hs s1 <= t /\ gclock hs s' = t /\ glog hs s' = glog hs s1 ++ [(l, t)].
Proof. exact heap_dispatch_now. Qed.
Print Assumptions C02_heap_now_is_event_time.

Example C02_heap_nonvacuous :
  let P := [[(0, 0, 1); (1, 3, 2)]] in
  let orc := fun (_ : N) (cs : list (N * N)) => pred (length cs) in
  let s0 := hboot 10 5 LNone [(5, 0); (12, 7); (10, 0); (9, 0); (12, 8)] in
  map a_ok (gadds hs s0) = [false; true; true; false; true] /\
  match hdispatch_all orc P s0 with
  | Some sf => glog hs sf = [(0, 10); (1, 10); (8, 12); (7, 12)] /\ gclock hs sf = 12 /\ hlast (gfes hs sf) = 12
  | None => False
  end.
Proof. vm_compute. repeat split. Qed.

(* The harness dimension "concurrent build" (script fields cbk, cbt: while the
   cbk-th event is handled another thread calls Builder::start_time(cbt).build())
   is invisible to a runtime whose simulation lock is taken before the
   process-global clock is touched: the three models (over the specification,
   over the calendar queue, over the heap backend) do not look at the fields.
   The differential check therefore demands that the real runtime prints the
   same with and without the intruding thread. *)
Theorem C02_concurrent_build_irrelevant :
  forall (n t u s b k x k' x' : N) (r : list N),
  run_gen repaired (n :: t :: u :: s :: b :: k :: x :: r) = run_gen repaired (n :: t :: u :: s :: b :: k' :: x' :: r) /\
  run_gen_cq repaired (n :: t :: u :: s :: b :: k :: x :: r) = run_gen_cq repaired (n :: t :: u :: s :: b :: k' :: x' :: r) /\
  hrun (n :: t :: u :: s :: b :: k :: x :: r) = hrun (n :: t :: u :: s :: b :: k' :: x' :: r).
Proof. intros. split; [reflexivity|]. split; reflexivity. Qed.
Print Assumptions C02_concurrent_build_irrelevant.
