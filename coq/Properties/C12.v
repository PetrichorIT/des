(* C12 — Start-up and tear-down callbacks run once, stage by stage, in
   module-tree order.  The statements; a proof written out here puts together
   theorems of coq/Tree (the longest, C12_ndl_block_is_adds, the lemmas of NdlBlock.v).

   Vocabulary (coq/Tree):
     Path.v    ObjectPath as (bytes, last_element_offset, len): from, parent, appended, name
     Model.v   tree_add = ModuleTree::add, raw = SimBuilder::raw, at_sim_start / at_sim_end =
               the SimLifecycle loops, run = the script interpreter compared with the real crate;
               build ops = builder state after a script; ctx_child = ModuleContext::child;
               P_DUP, P_ORPHAN, P_NDL_DUP, P_NDL_ORPHAN = the panic sites of raw / raw_ndl
     PathLaws  good n    : n is a non-empty byte string without '.'   (any bytes: UTF-8 names included)
               join l    : the dotted string "n1.n2.…"
     Refine.v  wf_path p : p is a non-empty list of good names
               wf_ins l  : l is a list of (stage count, wf_path)          -- ANY such list:
                           duplicates and orphans are allowed and get rejected
               built l   : builder state after node(join p, module with st stages) for every (st,p) of l
               accepted l: the declarations the contract accepts, in order, each with
                           (creation ordinal, stage count, parent ordinal)
               forest_of : rose forest in which every declaration was appended as LAST child of its parent
               preorder d: depth-first pre-order of forest_of d (node before children, children left to right)
               valid l   : no path repeated, every nested path's parent earlier in l
               judge d p : the contract's verdict on path p after declarations d: Accept, RejDup (p declared),
                           RejOrphan (nested, parent not declared); spec_run: the contract over a sequence,
                           site_of: the panic site a verdict stands for; new_node: the declaration an accepted p adds
               ord_of d q: creation ordinal of the declaration at path q, if any; to_mref: a declaration as module record
     Stages.v  is_mod m c: the call c goes to module m (same creation ordinal)
     Script.v  node_ins ops: the (stage count, dotted string) of the Node operations of a script, in order;
               no_ndl ops: the script has no NdlBlock operation; strs l: l with every path as dotted string
     Indep.v   child_names q F : names of the children of node q in forest F, left to right
               kids_order ps q : last elements of those paths of ps whose parent is q, in order of ps
     NdlBlock.v  raw_ndl / ndl_paths / ndl_all (Model.v): SimBuilder::raw_ndl and the depth-first instantiation
               of an NDL described block (levels = (cluster size or 0, submodule name) per nesting level)
               block q levels : the block's nodes below attach point q in depth-first order, as name lists
               zipd ps sts    : the i-th path with the i-th stage count *)
From Coq Require Import List NArith Arith Bool Lia.
From DesVerif Require Import Tree.Path Tree.PathLaws Tree.Model Tree.Forest Tree.Refine Tree.Stages
  Tree.Script Tree.Indep Tree.NdlBlock Tree.Main.
Import ListNotations.
Local Open Scope nat_scope.

(* --- add_is_preorder ---------------------------------------------------- *)
(* For EVERY sequence of insertions of well-formed paths the module vector is
   the depth-first pre-order of the declared tree with siblings in creation
   order (rejected insertions leave it unchanged). *)
Theorem C12_add_is_preorder : forall l, wf_ins l ->
  modules (built l) = map to_mref (preorder (accepted l)).
Proof. exact add_is_preorder_thm. Qed.
Print Assumptions C12_add_is_preorder.

(* the forest used above is the declared tree: the children of every node, left
   to right, are exactly its declared children in declaration order *)
Theorem C12_forest_is_declared_tree : forall l, wf_ins l ->
  forall q, child_names pay q (forest_of (accepted l)) = kids_order (map fst (accepted l)) q.
Proof. exact forest_is_declared_tree. Qed.
Print Assumptions C12_forest_is_declared_tree.

(* a valid sequence is accepted entirely *)
Theorem C12_valid_all_accepted : forall l, valid l ->
  map fst (accepted l) = map snd l /\ Forall (fun v => v = Accept) (snd (spec_run [] l)).
Proof. exact valid_all_accepted. Qed.
Print Assumptions C12_valid_all_accepted.

(* hence: two valid insertion orders that declare, for every parent, the same
   children in the same order — however the declarations of different parents
   are interleaved — produce the same vector of paths *)
Theorem C12_interleaving_independent : forall l1 l2, wf_ins l1 -> wf_ins l2 -> valid l1 -> valid l2 ->
  (forall q, kids_order (map snd l1) q = kids_order (map snd l2) q) ->
  map mpath (modules (built l1)) = map mpath (modules (built l2)).
Proof.
  intros l1 l2 H1 H2 V1 V2 Hq. apply interleaving_independent_thm; try assumption.
  rewrite (proj1 (valid_all_accepted l1 V1)), (proj1 (valid_all_accepted l2 V2)). exact Hq.
Qed.
Print Assumptions C12_interleaving_independent.

(* scripts with queries interleaved reach the same builder state *)
Theorem C12_script_state : forall ops l, no_ndl ops -> node_ins ops = strs l -> build ops = built l.
Proof.
  intros ops l Hn H. unfold build, built. rewrite run_from_state by assumption. rewrite raw_all_strs, H. reflexivity.
Qed.
Print Assumptions C12_script_state.

(* --- the second way of adding nodes: NDL described blocks ---------------- *)
(* In every state reached by well-formed insertions, sim.node(q, Ndl{..}) with an acceptable
   attach path q (new, parent present or top level; anywhere relative to existing siblings) is
   the same as sim.node for each node of the block in depth-first order.  The extended
   sequence is again well formed and valid, so every theorem of this file applies to it. *)
Theorem C12_ndl_block_is_adds : forall l q levels sts, wf_ins l -> wf_path q -> good_levels levels ->
  judge (accepted l) q = Accept ->
  let adds := zipd (block q levels) sts in
  ndl_all (built l) (ndl_paths (from (join q)) levels) sts = (built (l ++ adds), None) /\
  wf_ins (l ++ adds) /\ valid_from (map fst (accepted l)) adds.
Proof.
  intros l q levels sts Hl Hq Hlv Hj adds. pose proof (block_valid_accepted l q levels Hl Hq Hj) as Hv.
  pose proof (block_wf levels q Hq Hlv) as Hbw.
  split; [|split].
  - rewrite from_join by (destruct Hq; assumption). rewrite ndl_paths_mk by (destruct Hq; assumption).
    rewrite (ndl_all_adds _ sts _ _ (built_inv l Hl) Hbw Hv). unfold built. rewrite raw_all_app. reflexivity.
  - apply Forall_app. split; [exact Hl|]. apply Forall_forall. intros x Hx.
    rewrite Forall_forall in Hbw. apply Hbw. rewrite <- (zipd_paths (block q levels) sts). apply in_map. exact Hx.
  - apply valid_from_paths. unfold adds. rewrite zipd_paths. exact Hv.
Qed.
Print Assumptions C12_ndl_block_is_adds.

(* a block whose root is a duplicate or an orphan panics and leaves the builder unchanged *)
Theorem C12_ndl_block_rejected : forall l q levels sts, wf_ins l -> wf_path q ->
  (judge (accepted l) q = RejDup ->
     ndl_all (built l) (ndl_paths (from (join q)) levels) sts = (built l, Some P_NDL_DUP)) /\
  (judge (accepted l) q = RejOrphan ->
     ndl_all (built l) (ndl_paths (from (join q)) levels) sts = (built l, Some P_NDL_ORPHAN)).
Proof.
  intros l q levels sts Hl Hq. pose proof (raw_step (built l) (accepted l) (hd 1 sts) q (built_inv l Hl) Hq) as Hstep.
  pose proof (raw_ndl_eq (built l) (from (join q)) (hd 1 sts) (no_root_module _ _ (built_inv l Hl))) as He.
  split; intros Hj; rewrite Hj in Hstep; rewrite Hstep in He;
    destruct levels as [|[k nm] rest]; cbn [ndl_paths ndl_all]; rewrite He; reflexivity.
Qed.
Print Assumptions C12_ndl_block_rejected.

(* --- stage_barrier ------------------------------------------------------ *)
(* in the call log of at_sim_start, a call that comes earlier never has a
   larger stage: all stage-i calls precede every stage-(i+1) call *)
Theorem C12_stage_barrier : forall ms l1 x l2 y l3,
  at_sim_start ms = l1 ++ x :: l2 ++ y :: l3 -> snd x <= snd y.
Proof.
  intros ms l1 x l2 y l3 H. pose proof (rows_sorted ms (max_stage ms) 0) as Hs.
  rewrite <- at_sim_start_rows, H in Hs. rewrite map_app in Hs. cbn [map] in Hs.
  apply ss_split in Hs. rewrite Forall_forall in Hs. apply Hs.
  rewrite map_app. apply in_or_app. right. left. reflexivity.
Qed.
Print Assumptions C12_stage_barrier.

(* within stage st the calls are, in call order, the modules declaring more than
   st stages in pre-order of the declared tree *)
Theorem C12_stage_in_preorder : forall l st, wf_ins l ->
  filter (fun c => snd c =? st) (at_sim_start (modules (built l)))
  = map (fun m => (m, st)) (filter (fun m => st <? mstages m) (map to_mref (preorder (accepted l)))).
Proof. intros l st Hl. rewrite stage_in_vector_order_thm, add_is_preorder_thm by assumption. reflexivity. Qed.
Print Assumptions C12_stage_in_preorder.

(* --- start_once_per_declared_stage -------------------------------------- *)
(* the calls received by module m are at_sim_start(0), …, at_sim_start(stages-1),
   each exactly once and in this order; nothing else is ever called *)
Theorem C12_start_once_per_declared_stage : forall l m, wf_ins l -> In m (modules (built l)) ->
  filter (is_mod m) (at_sim_start (modules (built l))) = map (fun st => (m, st)) (seq 0 (mstages m)).
Proof. exact start_once_built. Qed.
Print Assumptions C12_start_once_per_declared_stage.

Theorem C12_start_calls_declared : forall l c, In c (at_sim_start (modules (built l))) ->
  In (fst c) (modules (built l)) /\ snd c < mstages (fst c).
Proof. exact start_calls_declared. Qed.
Print Assumptions C12_start_calls_declared.

(* --- end_once_per_module ------------------------------------------------ *)
Theorem C12_end_once_per_module : forall l, wf_ins l ->
  at_sim_end (modules (built l)) = map to_mref (preorder (accepted l)) /\
  NoDup (map mord (at_sim_end (modules (built l)))) /\
  (forall m, In m (modules (built l)) ->
     count_occ N.eq_dec (map mord (at_sim_end (modules (built l)))) (mord m) = 1).
Proof. exact end_once_built. Qed.
Print Assumptions C12_end_once_per_module.

(* --- dup_and_orphan_rejected -------------------------------------------- *)
(* in every reachable builder state: a path already declared panics (duplicate),
   a nested path whose parent is not declared panics (orphan), everything else
   is accepted and lands at its pre-order position *)
Theorem C12_dup_and_orphan_rejected : forall l st p, wf_ins l -> wf_path p ->
  let s := built l in
  let seen := map fst (accepted l) in
  (In p seen -> raw s (from (join p)) st = Panic P_DUP) /\
  (~ In p seen -> 2 <= length p -> ~ In (removelast p) seen -> raw s (from (join p)) st = Panic P_ORPHAN) /\
  (~ In p seen -> (length p = 1 \/ In (removelast p) seen) ->
     exists s', raw s (from (join p)) st = Ok s' /\
                modules s' = map to_mref (preorder (accepted l ++ [new_node (accepted l) st p]))).
Proof.
  intros l st p Hl Hp s seen. pose proof (raw_step s (accepted l) st p (built_inv l Hl) Hp) as Hstep.
  destruct (judge_complete (accepted l) p) as (Jd & Jo & Ja). repeat split.
  - intros Hin. rewrite (Jd Hin) in Hstep. exact Hstep.
  - intros Hnot Hlen Hpar. rewrite (Jo Hnot Hlen Hpar) in Hstep. exact Hstep.
  - intros Hnot Hor. rewrite Ja in Hstep; [|exact Hnot|intros Hlen; destruct Hor as [H1|Hin]; [lia|exact Hin]].
    destruct Hstep as [s' [Hraw HI']]. exists s'. split; [exact Hraw|]. exact (inv_vec _ _ HI').
Qed.
Print Assumptions C12_dup_and_orphan_rejected.

(* the builder's outputs over a whole sequence are the contract's verdicts *)
Theorem C12_builder_verdicts : forall l, wf_ins l ->
  snd (raw_all sim_new l) = map site_of (snd (spec_run [] l)).
Proof.
  intros l H. exact (proj2 (proj2 (raw_all_refines (fun _ _ => True) (fun _ _ _ _ _ _ _ _ _ _ => I) l sim_new [] inv_init I H))).
Qed.
Print Assumptions C12_builder_verdicts.

(* the panic inside ModuleTree::add itself cannot be reached through the builder *)
Theorem C12_tree_add_panic_unreachable : forall l st p k, wf_ins l -> wf_path p ->
  raw (built l) (from (join p)) st = Panic k -> k = P_DUP \/ k = P_ORPHAN.
Proof.
  intros l st p k Hl Hp Hraw. pose proof (raw_step (built l) (accepted l) st p (built_inv l Hl) Hp) as Hstep.
  destruct (judge (accepted l) p).
  - destruct Hstep as [s' [E _]]. congruence.
  - left. congruence.
  - right. congruence.
Qed.
Print Assumptions C12_tree_add_panic_unreachable.

(* --- lookups agree with the declared tree ----------------------------- *)
(* every module of the vector is `to_mref y` for a declaration y (C12_add_is_preorder);
   its parent pointer is the module declared at its parent path (none for a
   top-level node), child(n) is the module declared at path.n (none if there is
   no such declaration), and its object path is the declared one *)
Theorem C12_parent_lookup : forall l y, wf_ins l -> In y (accepted l) ->
  mparent (to_mref y) = ord_of (accepted l) (removelast (fst y)).
Proof. intros l y Hl Hy. exact (proj1 (l_tree _ _ (built_linv l Hl) y Hy)). Qed.
Print Assumptions C12_parent_lookup.

Theorem C12_child_lookup : forall l y n, wf_ins l -> In y (accepted l) ->
  ctx_child (built l) (to_mref y) n = ord_of (accepted l) (fst y ++ [n]).
Proof. exact child_lookup_thm. Qed.
Print Assumptions C12_child_lookup.

Theorem C12_object_path : forall l y, wf_ins l -> In y (accepted l) ->
  mpath (to_mref y) = from (join (fst y)) /\
  as_str (mpath (to_mref y)) = join (fst y) /\
  name (mpath (to_mref y)) = last (fst y) [] /\
  len (mpath (to_mref y)) = length (fst y).
Proof.
  intros l y Hl Hy. pose proof (inv_good _ _ (built_inv l Hl)) as Hg. rewrite Forall_forall in Hg.
  destruct (Hg y Hy) as [Hne Hgood]. cbn [to_mref mpath]. repeat split.
  - symmetry. apply from_join. exact Hgood.
  - rewrite (app_removelast_last [] Hne) at 1. apply name_mk_snoc.
Qed.
Print Assumptions C12_object_path.

(* --- path_laws ---------------------------------------------------------- *)
(* for every path p parsed from a dotted string of good names (the root, l = [],
   included) and every good name n *)
Theorem C12_path_laws : forall (l : list (list N)) (n : list N),
  Forall good l -> good n ->
  let p := from (join l) in
  parent (appended p n) = Some p /\
  name (appended p n) = n /\
  len (appended p n) = S (len p) /\
  from (as_str (appended p n)) = appended p n /\
  from (as_str p) = p.
Proof.
  intros l n Hl Hn p. unfold p. rewrite from_join by assumption.
  rewrite appended_mk by assumption.
  pose proof (good_snoc l n Hl Hn) as Hln.
  repeat split.
  - apply parent_mk_snoc; assumption.
  - apply name_mk_snoc.
  - unfold len. rewrite !plen_mk, app_length. cbn [length]. lia.
  - unfold as_str. change (data (mk (l ++ [n]))) with (join (l ++ [n])). apply from_join; assumption.
  - unfold as_str. change (data (mk l)) with (join l). apply from_join; assumption.
Qed.
Print Assumptions C12_path_laws.

(* --- non-vacuity -------------------------------------------------------- *)
Local Open Scope N_scope.
Definition nA : list N := [97].            (* a   *)
Definition nAB : list N := [97; 98].       (* ab  *)
Definition nA_B : list N := [97; 45; 98].  (* a-b *)
Definition nE : list N := [195; 169].      (* é   *)

(* children of a and of ab interleaved in two different ways, names sharing
   prefixes, a multi-byte name, stage counts 0..3: same vector, and it is the
   pre-order a, a.é, a.é.a, a.ab, ab, ab.a, ab.a-b, a-b *)
Example C12_nonvacuous :
  let l1 := [(1%nat, [nA]); (2%nat, [nAB]); (0%nat, [nA; nE]); (3%nat, [nAB; nA]); (1%nat, [nA_B]);
             (1%nat, [nA; nAB]); (2%nat, [nAB; nA_B]); (1%nat, [nA; nE; nA])] in
  let l2 := [(1%nat, [nA]); (0%nat, [nA; nE]); (1%nat, [nA; nE; nA]); (1%nat, [nA; nAB]); (2%nat, [nAB]);
             (1%nat, [nA_B]); (3%nat, [nAB; nA]); (2%nat, [nAB; nA_B])] in
  valid l1 /\ valid l2 /\
  map (fun m => data (mpath m)) (modules (built l1))
    = map join [[nA]; [nA; nE]; [nA; nE; nA]; [nA; nAB]; [nAB]; [nAB; nA]; [nAB; nA_B]; [nA_B]] /\
  map mpath (modules (built l1)) = map mpath (modules (built l2)) /\
  map (fun c => (mord (fst c), snd c)) (at_sim_start (modules (built l1)))
    = [(0, 0%nat); (7, 0%nat); (5, 0%nat); (1, 0%nat); (3, 0%nat); (6, 0%nat); (4, 0%nat);
       (1, 1%nat); (3, 1%nat); (6, 1%nat); (3, 2%nat)].
Proof.
  cbv zeta. split; [|split]. 1,2: apply (all_accepted_valid _ []). all: vm_compute; repeat constructor.
Qed.

(* dc, edge, then the NDL block dc.rack{host[2]} attached below dc although its later sibling
   edge exists, then edge.fw: pre-order dc, dc.rack, dc.rack.host[0], dc.rack.host[1], edge, edge.fw *)
Example C12_nonvacuous_ndl :
  let dc := [100; 99] in let edge := [101; 100; 103; 101] in let rack := [114; 97; 99; 107] in
  let host := [104; 111; 115; 116] in let fw := [102; 119] in
  let ops := [Node 1 dc; Node 1 edge; NdlBlock (dc ++ [46] ++ rack) [(2%nat, host)] [2%nat; 1%nat; 0%nat];
              Node 1 (edge ++ [46] ++ fw)] in
  map (fun m => (data (mpath m), mord m)) (modules (build ops))
  = [(dc, 0); (dc ++ [46] ++ rack, 2); (dc ++ [46] ++ rack ++ [46] ++ host ++ [91; 48; 93], 3);
     (dc ++ [46] ++ rack ++ [46] ++ host ++ [91; 49; 93], 4); (edge, 1); (edge ++ [46] ++ fw, 5)].
Proof. vm_compute. reflexivity. Qed.

(* duplicates and orphans are rejected, the vector is unaffected *)
Example C12_nonvacuous_rejects :
  snd (raw_all sim_new [(1%nat, [nA]); (1%nat, [nA]); (1%nat, [nAB; nA]); (1%nat, [nA; nE]); (1%nat, [nA; nE])])
  = [0; P_DUP; P_ORPHAN; 0; P_DUP].
Proof. vm_compute. reflexivity. Qed.
