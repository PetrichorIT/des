(* C05 — Timers fire exactly at their deadline and are never lost.
   The statements, each proved in a few lines from the lemmas of the directories it imports.  Layers:
     coq/Timer/Driver.v   the per-module timer driver (slot queue, next_wakeup, the
                          AsyncWakeupEvents [scheduled] in the event set; activate/deactivate);
                          its invariant and the exactness theorems: QueueLemmas.v, Inv.v, Exact.v
     coq/Timer/Futures.v  Sleep / Timeout / Interval as pure functions of [now] and the driver;
                          their laws: FutureLaws.v, Fresh.v
     coq/Timer/Model.v    the composite: scripted tasks, FIFO executor, the two drivers, the event
                          set (C01's specification), waker table, channels; Compose.v ties one of
                          its events to a driver event; Frag.v names the proved fragment of its
                          steps and the log [exp_run] demanded of a task; E2EInv.v .. E2EInit.v
                          prove the complete run (composite_exact)
     coq/Timer/ModelCq.v  the same composite over the concrete calendar queue; OverCq.v,
                          OverCqProps.v carry the results over by simulation
   A history of a module is a list of events: [EOther t ops] (a message, start-up stage,
   restart ... at time t) or [EWake ops] (the earliest scheduled AsyncWakeupEvent fires);
   [ops] is ANY list of register / drop / reset operations that the tasks polled during the
   event perform (contract [ops_wf]: Sleep::poll registers only deadlines > now).  An event
   is  activate t; ops; deactivate.  [ev_valid] says only that the event set is served in
   time order: t is not in the past and not after a scheduled wake-up.
   The composition with the task executor (coq/Timer/Model.v) is proved end to end for the
   fragment of coq/Timer/Frag.v (frag_step, frag_step2: sleep, sleep_until, log, reset / drop of
   a Sleep, timeout over a sleep and over a token receive, both selects over sleeps, interval;
   finite durations): C05_composite_sleep_exact .. C05_composite_timeout_recv_exact, and over
   the calendar queue C05_composite_exact_cq.  For the steps outside the fragment (timeout over
   flip, hand-over of a live registered Sleep, plain and select receives, wrap / relay,
   Duration::MAX deadlines that stay registered) the composition is validated by the
   correspondence check only: C05 is `partial` in that sense (DESIGN.md section 10). *)
From Coq Require Import List NArith Permutation Lia.
From DesVerif Require Import Timer.Driver Timer.QueueLemmas Timer.Inv Timer.Exact Timer.Futures Timer.FutureLaws Timer.Model Timer.Compose
  Timer.Frag Timer.E2EInv Timer.E2ELoop Timer.E2EInit Timer.Fresh Timer.ModelCq Timer.OverCq Timer.OverCqProps.
From DesVerif Require CQueue.Model.
Import ListNotations.
Open Scope N_scope.

(* the hypothesis of C05_composite_sleep_exact, decidably, for the tasks of a concrete script *)
Definition frag_stepb (s : step) : bool :=
  match s with SHandOver _ _ => false | _ => frag_step2b false s end.

Lemma frag_stepb_sound s : frag_stepb s = true -> frag_step s.
Proof.
  destruct s; cbn [frag_stepb]; intros H; try discriminate; exact (frag_step2b_sound false _ H).
Qed.

Definition init_okb (ts : list task) : bool :=
  forallb (fun tk => andb (forallb frag_stepb (t_steps tk))
                          (forallb (fun x => x <? TMAX) (expected (fun _ => noarr) tk))) ts.

Lemma decode_init_okb input : init_okb (decode input) = true -> Forall init_ok (decode input).
Proof.
  intros H. apply decode_init_ok. apply Forall_forall. intros tk Htk.
  unfold init_okb in H. rewrite forallb_forall in H. specialize (H tk Htk).
  apply Bool.andb_true_iff in H. destruct H as [H1 H2]. rewrite forallb_forall in H1, H2.
  split; apply Forall_forall; intros x Hx; [exact (frag_stepb_sound _ (H1 x Hx))|].
  apply N.ltb_lt. exact (H2 x Hx).
Qed.

(* Inv_wake (with the bookkeeping facts that make it inductive: slots sorted, live slots in
   the future, next_wakeup is a scheduled wake-up) is preserved by every event, whatever the
   tasks do to their timers during it. *)
Theorem C05_Inv_wake_preserved : forall st e, Inv (fst st) (snd st) -> ev_valid st e ->
  Inv (fst (fst (step_event true st e))) (snd (fst (step_event true st e))).
Proof. exact step_event_inv. Qed.
Print Assumptions C05_Inv_wake_preserved.

(* At every event boundary of every history: each slot that holds a live timer is covered
   by a wake-up w in the event set with now <= w <= deadline. *)
Theorem C05_Inv_wake_every_history : forall tr, valid_trace (0, new_driver) tr ->
  let now := fst (fst (run_trace true (0, new_driver) tr)) in
  let dr := snd (fst (run_trace true (0, new_driver) tr)) in
  forall d es, In (d, es) (pending dr) -> es <> [] -> d < TMAX ->
  exists w, In w (scheduled dr) /\ now <= w /\ w <= d.
Proof. intros tr Hv. exact (proj2 (trace_inv tr (0, new_driver) inv_init Hv)). Qed.
Print Assumptions C05_Inv_wake_every_history.

(* The shape of the driver between two events, in every history -- this is what the
   correspondence check evaluates on the REAL driver after every event through the hook
   Driver::verif_snapshot: slots sorted by distinct deadlines, none in the past, the front slot
   holds a timer, and next_wakeup itself is a scheduled wake-up w with now < w <= deadline for
   every slot that holds a live timer.  [TMAX] is SimTime::MAX, the deadline of a far-future
   Sleep (`now + duration` not representable): such a timer never elapses, the code never
   schedules a wake-up for it (deactivate compares with next_wakeup = MAX), and the theorems
   speak about the finite deadlines d < TMAX. *)
Theorem C05_snapshot_invariant : forall tr, valid_trace (0, new_driver) tr ->
  let now := fst (fst (run_trace true (0, new_driver) tr)) in
  let dr := snd (fst (run_trace true (0, new_driver) tr)) in
  sorted (pending dr) /\
  (forall d es, In (d, es) (pending dr) -> now < d) /\
  match pending dr with (_, []) :: _ => False | _ => True end /\
  (forall d es, In (d, es) (pending dr) -> es <> [] -> d < TMAX ->
     exists w, next_wakeup dr = Some w /\ In w (scheduled dr) /\ now < w /\ w <= d).
Proof.
  intros tr Hv. destruct (trace_snap tr (0, new_driver) inv_init Hv snap_init) as [H1 H2 H3 H4].
  exact (conj H1 (conj H2 (conj H3 H4))).
Qed.
Print Assumptions C05_snapshot_invariant.

(* never early: activation at [now] wakes only slots whose deadline has been reached
   (and, the queue being sorted, all of them) *)
Theorem C05_never_early : forall now dr,
  (forall d es, In (d, es) (fst (activate now dr)) -> d <= now) /\
  (sorted (pending dr) -> forall d es, In (d, es) (pending dr) -> d <= now -> In (d, es) (fst (activate now dr))).
Proof. intros now dr. split; [exact (never_early now dr)|intros Hs d es; exact (bump_takes_all_due now dr d es Hs)]. Qed.
Print Assumptions C05_never_early.

(* in every history, the event that wakes a timer is stamped exactly with its deadline *)
Theorem C05_woken_exactly_at_deadline : forall tr, valid_trace (0, new_driver) tr ->
  forall t d es, In (t, (d, es)) (snd (run_trace true (0, new_driver) tr)) -> es <> [] -> d < TMAX -> t = d.
Proof. intros tr Hv. exact (log_exact tr (0, new_driver) inv_init Hv). Qed.
Print Assumptions C05_woken_exactly_at_deadline.

(* never late, never lost: a timer that is registered under deadline d and whose Sleep is
   left alone is, after any continuation of the history, either already woken -- by an event
   at exactly d -- or still registered with now < d and a wake-up w, now <= w <= d, waiting
   in the event set (so the run cannot end and no event can overtake d). *)
Theorem C05_never_late_never_lost : forall tr st id d,
  Inv (fst st) (snd st) -> valid_trace st tr -> live (snd st) id d -> d < TMAX -> untouched id tr ->
  (exists es, In (d, (d, es)) (snd (run_trace true st tr)) /\ In id es) \/
  (live (snd (fst (run_trace true st tr))) id d /\ fst (fst (run_trace true st tr)) < d /\
   exists w, In w (scheduled (snd (fst (run_trace true st tr)))) /\ fst (fst (run_trace true st tr)) <= w /\ w <= d).
Proof. exact never_late_never_lost. Qed.
Print Assumptions C05_never_late_never_lost.

(* a run that has ended (no wake-up left in the event set) woke it at exactly d *)
Theorem C05_complete_run_wakes_at_deadline : forall tr st id d,
  Inv (fst st) (snd st) -> valid_trace st tr -> live (snd st) id d -> d < TMAX -> untouched id tr ->
  scheduled (snd (fst (run_trace true st tr))) = [] ->
  exists es, In (d, (d, es)) (snd (run_trace true st tr)) /\ In id es.
Proof. exact complete_run_wakes_at_deadline. Qed.
Print Assumptions C05_complete_run_wakes_at_deadline.

(* the futures touch the driver only through contract-respecting operations, so the
   invariant theorems above cover everything Sleep, Timeout and Interval do *)
Theorem C05_futures_keep_invariant : forall t dr, Mid t dr ->
  (forall s, Mid t (snd (sleep_poll t s dr))) /\
  (forall s d', Mid t (snd (sleep_reset s d' dr))) /\
  (forall s, Mid t (sleep_drop s dr)) /\
  (forall iv, Mid t (snd (poll_tick t iv dr))) /\
  (forall V (vpoll : N -> V -> driver -> bool * V * driver),
     (forall v0 dr0, acts t dr0 (snd (vpoll t v0 dr0))) ->
     forall v dl, Mid t (snd (timeout_poll vpoll t v dl dr))).
Proof.
  intros t dr Hm. split; [|split; [|split; [|split]]].
  - intros s. exact (acts_mid _ _ _ (sleep_poll_acts t s dr) Hm).
  - intros s d'. exact (acts_mid _ _ _ (sleep_reset_acts t s d' dr) Hm).
  - intros s. exact (acts_mid _ _ _ (sleep_drop_acts t s dr) Hm).
  - intros iv. exact (acts_mid _ _ _ (poll_tick_acts t iv dr) Hm).
  - intros V vpoll Hv v dl. exact (acts_mid _ _ _ (timeout_poll_acts V vpoll t v dl dr Hv) Hm).
Qed.
Print Assumptions C05_futures_keep_invariant.

(* The composite model that predicts the implementation's logs (coq/Timer/Model.v: scripted
   tasks, FIFO executor, drivers, event set) is tied to the theorems above this far: during one
   event of module m at time t -- whatever tasks are woken or spawned and however they run --
   the driver of m goes through exactly an [event_body] with a contract-respecting operation
   list, and the other module's driver is untouched.  This holds for every step of the model;
   that the event set serves the events in time order and that the task logs are what the
   property demands is proved for the fragment of coq/Timer/Frag.v (the theorems that follow)
   and validated by the correspondence check for the steps outside it. *)
Theorem C05_composite_event_is_driver_event : forall (wfix : bool) (t m : N) (spawn : list nat) (fire : bool) (w : world),
  (exists ops, ops_wf t ops /\
     drv_of (module_event wfix t m spawn fire w) m =
     snd (event_body true t ops (if fire then sched_fire t (drv_of w m) else drv_of w m))) /\
  forall m', (m' =? 0) <> (m =? 0) -> drv_of (module_event wfix t m spawn fire w) m' = drv_of w m'.
Proof. exact module_event_is_driver_event. Qed.
Print Assumptions C05_composite_event_is_driver_event.

(* END TO END, for the composite model itself (scripted tasks + FIFO executor + the two
   drivers + the event set + waker table), on the channel-free fragment [frag_step] of
   coq/Timer/Frag.v ("sleep" in the name stands for that whole fragment; the simplest steps are
   sleep(d), sleep_until(t), log):
   for EVERY list of tasks -- any number, on either module, spawned at start-up or by a message
   at any instant, any durations (zero, equal, coinciding across tasks and modules ...) -- the
   run of the model ENDS (the loop's fuel is never exhausted), every task has finished, and
   task k has logged exactly  exp_run (t_start k) None noarr (t_steps k)  (None: the task starts without an interval; noarr: no channels):  the entry after sleep(d) begun
   at x is x + d, after sleep_until(t) it is max x t -- every await returned at exactly its
   deadline.  [init_ok]: the task is as the decoder produces it (not yet polled, module < 2),
   its steps lie in the fragment and the deadlines it prescribes are finite (< TMAX); [decode_init_ok] shows that every script line over the
   fragment decodes to such tasks.  The proof composes the driver invariant
   (event_body_inv / deactivate_snap), the futures' contract, the executor's run over the
   woken tasks, and the event-set facts of C01's specification (SI: fetch returns a pending
   event of minimal time).  For the other steps of frag_step -- reset / drop, timeout(d, sleep x),
   interval, the two selects -- the theorems (1)-(4') below spell out frag_step and exp_run.  Covered
   for the composite by the correspondence check only: timeout over flip, hand-over of a polled Sleep, message-driven receives, and
   Duration::MAX deadlines that stay registered. *)
Theorem C05_composite_sleep_exact : forall ts, Forall init_ok ts ->
  exists w, run_tasks true ts = (w, true) /\
    Forall2 (fun tk0 tk => t_fin tk = true /\ t_log tk = exp_run (t_start tk0) None noarr (t_steps tk0)) ts (w_tasks w).
Proof. exact composite_sleep_exact. Qed.
Print Assumptions C05_composite_sleep_exact.

(* ... and at every point of the run nothing has been logged that the property does not
   demand: after any number n of loop iterations each task's log is a prefix of exp_run *)
Theorem C05_composite_sleep_prefix : forall ts, Forall init_ok ts -> forall n,
  let w := match Common.Fuel.iter_nat n (loop_step true) (sim_start true (init_world ts)) with inl w => w | inr w => w end in
  Forall2 (fun tk0 tk => exists rest, exp_run (t_start tk0) None noarr (t_steps tk0) = t_log tk ++ rest) ts (w_tasks w).
Proof. exact composite_sleep_prefix. Qed.
Print Assumptions C05_composite_sleep_prefix.

(* (1) reset and drop of registered sleeps are part of the proved fragment: a pinned Sleep that
   is created, polled (registered) and reset is awaited until exactly its NEW deadline; a pinned
   Sleep that is polled and dropped costs no time; in both cases the timers of all other tasks
   still fire at exactly their deadlines, although the driver then holds emptied slots (the
   fresh id makes the removal hit the right entry: Timer/TempOps.v; Inv_wake covers the
   emptied slots).  Durations are finite (< FARK = 2^61 ns; FARK and above stands for
   Duration::MAX, which the correspondence check covers). *)
Theorem C05_composite_reset_drop_exact :
  (forall p d1 d2, d1 < FARK -> d2 < FARK -> frag_step (SReset p d1 d2)) /\
  (forall d, d < FARK -> frag_step (SDropSleep d)) /\
  (forall now iv arr p d1 d2 r, exp_run now iv arr (SReset p d1 d2 :: r) = (now + d2) :: exp_run (now + d2) iv arr r) /\
  (forall now iv arr d r, exp_run now iv arr (SDropSleep d :: r) = now :: exp_run now iv arr r) /\
  (forall ts, Forall init_ok ts ->
     exists w, run_tasks true ts = (w, true) /\
       Forall2 (fun tk0 tk => t_fin tk = true /\ t_log tk = exp_run (t_start tk0) None noarr (t_steps tk0)) ts (w_tasks w)).
Proof.
  split; [intros p d1 d2 H1 H2; split; assumption|]. split; [intros d H; exact H|].
  split; [reflexivity|]. split; [reflexivity|exact C05_composite_sleep_exact].
Qed.
Print Assumptions C05_composite_reset_drop_exact.

(* (2a) timeout(d, sleep(x)) inside the proved fragment.  A task that reaches the step at instant
   [now] (x, d below the far-future cut-off FARK, so both deadlines are now + x and now + d)
   gets its result exactly at now + min x d, and the result is Ok (logged 1) iff x <= d -- the
   tie goes to the inner sleep because Timeout::poll polls the value first -- and Elapsed
   (logged 0) otherwise; the other of the two Sleeps is dropped at that instant and can never
   wake the task again.  Like the other theorems of the fragment this is a statement about
   COMPLETE runs of the composite model (both drivers, the waker table, the event set as
   specified in CQueue.Spec, at most two modules, any number of tasks, tasks spawned at
   sim-start or by a message): the run ends, every task is finished and has logged exactly
   the closed form exp_run.  No fairness or FIFO hypothesis is needed: inside one event the
   run queue is polled in FIFO order (a fact of the model, checked against des by the
   correspondence check), but
   exp_run does not depend on that order since the tasks of the fragment do not communicate. *)
Theorem C05_composite_timeout_sleep_exact :
  (forall d x, d < FARK -> x < FARK -> frag_step (STimeout d (ISleep x))) /\
  (forall now iv arr d x r, exp_run now iv arr (STimeout d (ISleep x) :: r) =
     (now + N.min x d) :: (if x <=? d then 1 else 0) :: exp_run (now + N.min x d) iv arr r) /\
  (forall ts, Forall init_ok ts ->
     exists w, run_tasks true ts = (w, true) /\
       Forall2 (fun tk0 tk => t_fin tk = true /\ t_log tk = exp_run (t_start tk0) None noarr (t_steps tk0)) ts (w_tasks w)).
Proof.
  split; [intros d x H1 H2; split; assumption|].
  split; [intros now iv arr d x r; cbn [exp_run step_log step_time step_iv step_arr app]; destruct (x <=? d); reflexivity|exact C05_composite_sleep_exact].
Qed.
Print Assumptions C05_composite_timeout_sleep_exact.

(* (3) interval ticks inside the proved fragment, all three MissedTickBehavior variants.  The
   log demanded of a task depends on its interval, of which exp_run carries (nominal
   instant nx of the next tick, period, behaviour):  interval(period) created at instant x has
   nx = x (creation, like dropping it, takes no time and logs nothing);  tick().await begun at
   [now] returns at max(now, nx) -- at nx if the task is early, AT ONCE if the tick is due or
   was missed -- with the value nx (logged [instant; value]), and the next tick is nominally
   due at tick_next: nx + period if the tick was taken at most 5 ms late (any behaviour) and
   always under Burst (so a late task catches up, tick k has the value start + k * period
   whatever the delays: exp_run_burst);  for a tick taken more than 5 ms late, now + period
   under Delay, and under Skip the next instant nx + j * period (j integer) strictly after now.
   This too is a statement about complete runs of the composite model: for every list of
   tasks over the fragment the run ends, every task has finished and has logged exactly
   exp_run.  The Sleep of an interval keeps its id over all its ticks while every other Sleep
   gets a fresh one, so the invariant tracks the ids of Sleeps a task OWNS without having them
   registered (fields b_own, b_distinct of the record Base in Timer/E2EInv.v) -- removal by id
   hits the right entry.
   No FIFO or fairness hypothesis. *)
Theorem C05_composite_interval_exact :
  (forall p b, 0 < p -> frag_step (SIvNew p b)) /\ frag_step SIvTick /\ frag_step SIvDrop /\
  (forall now iv arr p b r, exp_run now iv arr (SIvNew p b :: r) = exp_run now (Some (now, p, b)) arr r) /\
  (forall now iv arr r, exp_run now iv arr (SIvDrop :: r) = exp_run now None arr r) /\
  (forall now nx p b arr r, exp_run now (Some (nx, p, b)) arr (SIvTick :: r) =
     N.max now nx :: nx :: exp_run (N.max now nx) (Some (tick_next b nx (N.max now nx) p, p, b)) arr r) /\
  (forall now arr r, exp_run now None arr (SIvTick :: r) = now :: 0 :: exp_run now None arr r) /\
  (forall b nx t p, t <= nx + GRACE -> tick_next b nx t p = nx + p) /\
  (forall nx t p, tick_next Burst nx t p = nx + p) /\
  (forall nx t p, nx + GRACE < t -> tick_next Delay nx t p = t + p) /\
  (forall nx t p, nx + GRACE < t -> 0 < p ->
     tick_next Skip nx t p = nx + ((t - nx) / p + 1) * p /\ t < tick_next Skip nx t p <= t + p) /\
  (forall busy now start p k arr r,
     exp_run now (Some (start + N.of_nat k * p, p, Burst)) arr (ticks busy ++ r) =
     burst_log now start p k busy ++
     exp_run (burst_end now start p k busy) (Some (start + N.of_nat (k + length busy) * p, p, Burst)) arr r) /\
  (forall ts, Forall init_ok ts ->
     exists w, run_tasks true ts = (w, true) /\
       Forall2 (fun tk0 tk => t_fin tk = true /\ t_log tk = exp_run (t_start tk0) None noarr (t_steps tk0)) ts (w_tasks w)).
Proof.
  split; [intros p b H; exact H|]. split; [exact I|]. split; [exact I|].
  split; [reflexivity|]. split; [reflexivity|]. split; [reflexivity|]. split; [reflexivity|].
  split; [exact FutureLaws.tick_next_on_time|]. split; [exact FutureLaws.tick_next_burst|].
  split; [exact FutureLaws.tick_next_delay|].
  split; [intros nx t p H Hp; destruct (FutureLaws.tick_next_skip nx t p H Hp) as (H1 & H2 & H3); exact (conj H3 (conj H1 H2))|].
  split; [exact exp_run_burst|exact C05_composite_sleep_exact].
Qed.
Print Assumptions C05_composite_interval_exact.

(* (4) the biased two-way select! of step 13 (keep-alive timer) inside the proved fragment:
     let kept = Box::pin(sleep(d0)); poll it once; kept.reset(now + d2);
     select! { biased; _ = &mut kept => 0, _ = sleep(x) => 1 }
     on 1:  rearm: kept.reset(now + d3); kept.await      otherwise: drop(kept)
   begun at [now] (d2, x, d3 finite; d0 ARBITRARY, also Duration::MAX -- the far-future
   constructor path -- since that deadline only exists between the first poll and the reset).
   The select returns at now + min(d2, x); branch 0 iff d2 <= x -- the kept timer wins the tie
   because `biased` polls it first; on branch 1 the re-armed timer is awaited until exactly
   (now + x) + d3, the task logging [now + x; 1; now + x + d3] (without rearm [now + x; 1; now + x]).
   The losing Sleep is removed from the driver by its id at that instant; the re-armed timer
   keeps ITS id and is registered a second time under the new deadline (Sleep::reset removes
   the old entry through the handle) -- the invariant shows no entry is lost or hit twice.
   Complete runs of the composite model, any number of tasks on both modules, mixed with all
   other steps of the fragment: the run ends, all tasks finished, logs = exp_run.
   No FIFO or fairness hypothesis: both branches of this select are timers of the same task,
   polled in program order within one poll of the task. *)
Theorem C05_composite_keepalive_select_exact :
  (forall rearm d0 d2 x d3, d2 < FARK -> x < FARK -> d3 < FARK -> frag_step (SKeep rearm d0 d2 x d3)) /\
  (forall now iv arr rearm d0 d2 x d3 r, exp_run now iv arr (SKeep rearm d0 d2 x d3 :: r) =
     if d2 <=? x then (now + d2) :: 0 :: exp_run (now + d2) iv arr r
     else (now + x) :: 1 :: (now + x + (if rearm then d3 else 0)) :: exp_run (now + x + (if rearm then d3 else 0)) iv arr r) /\
  (forall ts, Forall init_ok ts ->
     exists w, run_tasks true ts = (w, true) /\
       Forall2 (fun tk0 tk => t_fin tk = true /\ t_log tk = exp_run (t_start tk0) None noarr (t_steps tk0)) ts (w_tasks w)).
Proof.
  split; [intros rearm d0 d2 x d3 H1 H2 H3; repeat split; assumption|].
  split; [intros now iv arr rearm d0 d2 x d3 r; cbn [exp_run step_log step_time step_iv step_arr app]; destruct (d2 <=? x); reflexivity|exact C05_composite_sleep_exact].
Qed.
Print Assumptions C05_composite_keepalive_select_exact.

(* (4') select! over two fresh sleeps (step 4), biased or not, is in the proved fragment too.  select! { sleep(a) => 0, sleep(b) => 1 } begun at [now] (a, b finite) returns
   at exactly now + min(a, b); the branch is 0 if a < b, 1 if b < a, and on a tie 0 under
   `biased`; without `biased` tokio may take either branch of a tie, which the scripts log as
   2 (sel_code) -- the instant is now + a = now + b in both cases.  The losing Sleep is removed
   from the driver at that instant. *)
Theorem C05_composite_select_exact :
  (forall biased a b, a < FARK -> b < FARK -> frag_step (SSelect biased a b)) /\
  (forall now iv arr biased a b r, exp_run now iv arr (SSelect biased a b :: r) =
     (now + N.min a b) :: (if a <? b then 0 else if b <? a then 1 else if biased then 0 else 2) :: exp_run (now + N.min a b) iv arr r) /\
  (forall ts, Forall init_ok ts ->
     exists w, run_tasks true ts = (w, true) /\
       Forall2 (fun tk0 tk => t_fin tk = true /\ t_log tk = exp_run (t_start tk0) None noarr (t_steps tk0)) ts (w_tasks w)).
Proof.
  split; [intros biased a b H1 H2; split; assumption|]. split; [|exact C05_composite_sleep_exact].
  intros now iv arr biased a b r. cbn [exp_run step_log step_time step_iv step_arr app]. rewrite sel_code_cases. reflexivity.
Qed.
Print Assumptions C05_composite_select_exact.

(* (2b) timeout(d, receive from ch), with the messages sent by other tasks of the module, inside
   the proved fragment.  A sender hands over a boxed sleep(0) that it has polled once -- an
   already elapsed Sleep, which is never registered: a mere token (SHandOver ch 0; the hand-over
   of a LIVE registered Sleep stays outside the proved fragment, see C05_woken_through_last_poller
   and the correspondence check).  The instants at which messages enter channel ch of module m
   are fixed by the scripts of the senders: [arrivals ts m ch] is their sorted list.  A receive
   begun at [now] whose next message arrives at instant a:
     a < now + d   ->  Ok (logged 1) at max(now, a): at once if the message is waiting, else at the
                       very instant it is sent (the send wakes the receiver within the same event);
     otherwise     ->  Elapsed (0) at exactly now + d, the message staying for the next receive.
   The delay timer of a receive that got its message is removed from the driver; this is the
   only step of the fragment in which a registered timer is cancelled in a LATER event than the
   one that registered it, so a scheduled wake-up can be stale (fire with nothing to bump): the
   invariant does not claim that next_wakeup's slot is live, and termination is proved with the
   measure 2 * work + |event set| + stale wake-ups (mu and loop_step_measure in
   Timer/E2ELoop.v, from Timer/E2EEvent.v module_event_measure).
   HYPOTHESES on the task list, all in [chan_ok] (decidable: chan_okb):
     (R1) a task either receives or sends, not both (frag_step2 (rcv_of tk));
     (R2) at most one task of a module receives (one_recv);
     (R3) no message arrives at the very instant the receive it would satisfy elapses, a = now + d
          (recv_ok; also now + d < SimTime::MAX).
   (R3) is where the EXECUTOR'S ORDER would decide: at such a tie the receiver (woken by its
   delay timer) and the sender are polled in the same event, and the result is Ok iff the sender
   is polled first.  In the model the run queue of an event is FIFO in wake order: the due timer
   entries in slot order, i.e. registration order, then the tasks spawned by the event, then
   receivers woken by sends (Model.v run_queue; proved properties of it: Timer/E2EPoll.v
   run_queue_frag).  des itself wakes in that order and tokio's current_thread LocalSet polls
   woken tasks FIFO as long as fewer than 61 are woken per tick (C06: coq/Exec/Model.v has the
   budget rules); a multi-thread runtime, a LIFO slot or a larger batch may order them otherwise.
   Without ties the result does not depend on that order, and the theorem needs no FIFO or
   fairness hypothesis.  (R1), (R2) keep the arrivals a static list; relaxing them needs a
   fixpoint over the tasks' schedules.
   Again: complete runs of the composite model, both modules, any number of tasks, all
   other steps of the fragment mixed in; the run ends, all tasks finished, logs = exp_run. *)
Theorem C05_composite_timeout_recv_exact :
  (forall rcv d ch, frag_step2 rcv (STimeoutRecv d ch) <-> rcv = true /\ d < FARK) /\
  (forall rcv ch d, frag_step2 rcv (SHandOver ch d) <-> rcv = false /\ d = 0) /\
  (forall now iv arr ch d r, exp_run now iv arr (SHandOver ch d :: r) = now :: exp_run now iv arr r) /\
  (forall now iv arr d ch r, exp_run now iv arr (STimeoutRecv d ch :: r) =
     match arr ch with
     | a :: _ => if a <? now + d then N.max now a :: 1 :: exp_run (N.max now a) iv (arr_pop arr ch) r
                 else (now + d) :: 0 :: exp_run (now + d) iv arr r
     | [] => (now + d) :: 0 :: exp_run (now + d) iv arr r
     end) /\
  (forall now iv arr d ch r, recv_ok now iv arr (STimeoutRecv d ch :: r) <->
     (now + d < TMAX /\ match arr ch with a :: _ => a <> now + d | [] => True end) /\
     recv_ok (step_time now iv arr (STimeoutRecv d ch)) iv (step_arr now arr (STimeoutRecv d ch)) r) /\
  (forall ts m c, sortedN (arrivals ts m c) /\
     Permutation (flat_map (fun tk0 => if t_mod tk0 =? m then on_chan c (exp_sends (t_start tk0) None (t_steps tk0)) else []) ts) (arrivals ts m c)) /\
  (forall ts, chan_ok ts <-> Forall (init_ok2 (arrivals ts)) ts /\ one_recv ts) /\
  (forall ts, chan_ok ts ->
     exists w, run_tasks true ts = (w, true) /\
       Forall2 (fun tk0 tk => t_fin tk = true /\ t_log tk = exp_run (t_start tk0) None (arrivals ts (t_mod tk0)) (t_steps tk0)) ts (w_tasks w)).
Proof.
  split; [intros rcv d ch; reflexivity|]. split; [intros rcv ch d; reflexivity|]. split; [reflexivity|].
  split; [intros now iv arr d ch r; cbn [exp_run step_log step_time step_iv step_arr recv_hit app];
          destruct (arr ch) as [|a l]; [reflexivity|cbn [recv_hit]; destruct (a <? now + d); reflexivity]|].
  split; [intros now iv arr d ch r; reflexivity|].
  split; [intros ts m c; split; [apply isort_sorted|apply isort_perm]|].
  split; [intros ts; reflexivity|exact composite_exact].
Qed.
Print Assumptions C05_composite_timeout_recv_exact.

Theorem C05_fragment_scripts_decode_ok : forall input,
  Forall (fun tk => Forall frag_step (t_steps tk) /\ Forall (fun x => x < TMAX) (exp_run (t_start tk) None noarr (t_steps tk))) (decode input) ->
  Forall init_ok (decode input).
Proof. exact decode_init_ok. Qed.
Print Assumptions C05_fragment_scripts_decode_ok.

(* COMPOSITION WITH C01.  The composite model above (Timer/Model.v) takes the fetch order from
   C01's event-set SPECIFICATION; the real crate runs on the calendar queue.  Timer/ModelCq.v is
   the same model with the concrete calendar queue of C01 (CQueue.Model.cq: buckets, head, t0/t1
   window; cq_new_at n t 0, add, fetch_next, qlen = 0 for "no event pending") in place of the
   specification; tasks, futures, executor, drivers, waker table and channels are shared.  By
   forward simulation over C01's refinement relation R (Timer/OverCq.v; R_new_at, R_add,
   R_fetch, R_len) both models print the same output for EVERY script line and every
   parameterisation n, t >= 1 of the queue (Builder::cqueue_options).  (R_add asks for adds at
   or after the set's clock; an add before the clock is rejected by both sets alike, so no
   hypothesis on the script is needed; inside the proved fragment there is no such add.) *)
Theorem C05_run_over_cqueue_eq_run_over_spec : forall n t script, n <> 0 -> t <> 0 -> run_cq n t script = run script.
Proof. intros n t script Hn Ht. exact (run_cq_eq_run n t script Hn Ht). Qed.
Print Assumptions C05_run_over_cqueue_eq_run_over_spec.

(* ... so the end-to-end theorems hold of the run over the calendar queue: for the whole proved
   fragment (sleep, sleep_until, log, reset / drop, timeout over a sleep, select over two sleeps,
   interval, keep-alive select, and with channels timeout over a receive: chan_ok), for every
   n, t >= 1, the run over the calendar queue ends, every task has finished and has logged
   exactly exp_run *)
Theorem C05_composite_exact_cq : forall n t ts, n <> 0 -> t <> 0 -> chan_ok ts ->
  exists cw, run_tasks_cq true n t ts = (cw, true) /\
    Forall2 (fun tk0 tk => t_fin tk = true /\ t_log tk = exp_run (t_start tk0) None (arrivals ts (t_mod tk0)) (t_steps tk0))
            ts (w_tasks (c_w cw)).
Proof. exact composite_exact_cq. Qed.
Print Assumptions C05_composite_exact_cq.

(* ... in the form of C05_composite_sleep_exact (scripts without channels) *)
Theorem C05_composite_sleep_exact_cq : forall n t ts, n <> 0 -> t <> 0 -> Forall init_ok ts ->
  exists cw, run_tasks_cq true n t ts = (cw, true) /\
    Forall2 (fun tk0 tk => t_fin tk = true /\ t_log tk = exp_run (t_start tk0) None noarr (t_steps tk0)) ts (w_tasks (c_w cw)).
Proof. exact composite_sleep_exact_cq. Qed.
Print Assumptions C05_composite_sleep_exact_cq.

(* C05_woken_exactly_at_deadline for the run over the calendar queue (proved fragment): in the
   state the run is in after any number k of iterations of the main loop, whenever the
   calendar queue hands out the next event -- payload pay (0 / 1: the AsyncWakeupEvent of module
   0 / 1; 2 + j: the message that spawns task j), stamped te -- every slot WITH a timer that the
   activation of that event pops from its module's driver has the deadline d = te: no timer is
   woken by an event other than the one at exactly its deadline *)
Theorem C05_woken_exactly_at_deadline_cq : forall n t ts, n <> 0 -> t <> 0 -> chan_ok ts -> forall k,
  let cw := state_of (Common.Fuel.iter_nat k (loop_step_cq true) (sim_start_cq true (init_world_cq n t ts))) in
  forall q' pay te, CQueue.Model.fetch_next (c_q cw) = (q', CQueue.Model.OFetched pay te) ->
  forall m fire, ev_module pay (w_tasks (c_w cw)) m fire ->
  forall d es, In (d, es) (fst (activate te (if fire then sched_fire te (drv_of (c_w cw) m) else drv_of (c_w cw) m))) ->
               es <> [] -> d = te.
Proof. exact woken_exactly_at_deadline_cq. Qed.
Print Assumptions C05_woken_exactly_at_deadline_cq.

(* The premise under the removal-by-id arguments: TimerSlot::remove(id) takes the FIRST entry
   with that id.  If the ids of a slot are pairwise distinct this is exactly the entry of the
   Sleep that asks (it is gone afterwards, every other entry stays, distinctness is kept);
   and every Sleep a task step creates draws a fresh id from the counter (at least its value
   before the step, below its value after, all different), which reset and poll never change.
   (For the proved fragment distinctness is part of the end-to-end invariant: tie_nodup of Tie
   and b_distinct of Base in Timer/E2EInv.v; for the steps outside it, it rests on these two
   facts.  The hook Driver::verif_snapshot reports entry COUNTS only, so the check cannot read
   ids off the real driver.) *)
Theorem C05_removal_by_id_needs_distinct_ids :
  (forall id es es', NoDup es -> ents_remove id es = Some es' ->
     ~ In id es' /\ NoDup es' /\ forall x, x <> id -> (In x es <-> In x es')) /\
  (forall now s iv dr nid lg,
     let r := start_step0 now s iv dr nid lg in
     nid <= snd (fst r) /\
     match fst (fst (fst (fst r))) with
     | Some a => NoDup (aw_sids a) /\ forall i, In i (aw_sids a) -> nid <= i /\ i < snd (fst r)
     | None => True
     end) /\
  (forall now s dr, sid (snd (fst (sleep_poll now s dr))) = sid s) /\
  (forall s d' dr, sid (fst (sleep_reset s d' dr)) = sid s).
Proof.
  split; [exact ents_remove_exact|]. split; [exact start_step0_fresh|]. split; [exact sleep_poll_sid|exact sleep_reset_sid].
Qed.
Print Assumptions C05_removal_by_id_needs_distinct_ids.

(* a deadline that is already reached completes at once, without registering *)
Theorem C05_due_deadline_completes_immediately : forall now s dr, deadline s <= now ->
  sleep_poll now s dr = (true, {| deadline := deadline s; sid := sid s; handle := None |}, dr).
Proof. exact due_deadline_completes_immediately. Qed.
Print Assumptions C05_due_deadline_completes_immediately.

(* A registered Sleep follows whoever polls it: after any sequence of polls
   before the deadline the entry is registered once and the waker stored with it is the one of
   the LAST poll.  [k] in (t, k) is the identity of the WAKER the poll was made with (what
   Waker::will_wake compares), not of a task: two wakers of the same task -- the task's own and the
   one a sub-executor (FuturesUnordered, JoinSet, select_all ...) hands to its children -- are
   different identities, and the theorem does not care which task they belong to.  (A rule keyed
   on the task id instead is refuted: coq/Refuted/C05.v C05_reregister_by_task_id_refuted.) *)
Theorem C05_woken_through_last_poller : forall polls t k s dr tab,
  Forall (fun p => fst p < deadline s) (polls ++ [(t, k)]) ->
  let r := poll_seq true (polls ++ [(t, k)]) s dr tab in
  waker_of (snd r) (sid s) = Some k /\
  snd (fst r) = match handle s with None => register (sid s) (deadline s) dr | Some _ => dr end /\
  handle (fst (fst r)) = Some (match handle s with None => deadline s | Some h => h end).
Proof. exact woken_through_last_poller. Qed.
Print Assumptions C05_woken_through_last_poller.

(* ... stated over the poll sequence as a whole: for ANY non-empty sequence of polls before the
   deadline -- a hand-over chain of any length, also one that returns to a waker that polled the
   Sleep earlier (A, B, A / A, B, C, A / A, B, A, B: script step 15) -- the stored waker is the one
   of the last element.  (A rule that compares with a waker cached at registration is refuted by
   the round trip: coq/Refuted/C05.v C05_waker_cache_never_refreshed_refuted.) *)
Theorem C05_woken_through_last_poller_of_any_sequence : forall l s dr tab,
  l <> [] -> Forall (fun p => fst p < deadline s) l ->
  waker_of (snd (poll_seq true l s dr tab)) (sid s) = Some (snd (last l (0, 0%nat))).
Proof.
  intros l s dr tab Hne Hall.
  destruct (exists_last Hne) as [l' [[t k] El]]. rewrite El in *.
  rewrite last_last. cbn [snd]. exact (proj1 (woken_through_last_poller l' t k s dr tab Hall)).
Qed.
Print Assumptions C05_woken_through_last_poller_of_any_sequence.

Example C05_round_trip_wakes_the_returning_poller : forall s dr tab a b, 2 < deadline s ->
  waker_of (snd (poll_seq true [(0, a); (1, b); (2, a)] s dr tab)) (sid s) = Some a.
Proof.
  intros s dr tab a b H.
  apply (C05_woken_through_last_poller_of_any_sequence [(0, a); (1, b); (2, a)] s dr tab); [discriminate|].
  repeat constructor; cbn [fst]; lia.
Qed.

(* ... spelled out for two wakers of ONE task, in either order (script step 14): wakers are
   numbered so that w / 2 is the task they wake; polled under w0 and then under w1 <> w0 with
   w0 / 2 = w1 / 2, the stored waker is w1 *)
Theorem C05_woken_through_last_waker_of_same_task : forall t0 t1 w0 w1 s dr tab,
  Nat.div2 w0 = Nat.div2 w1 -> w0 <> w1 -> t0 < deadline s -> t1 < deadline s ->
  waker_of (snd (poll_seq true [(t0, w0); (t1, w1)] s dr tab)) (sid s) = Some w1 /\
  waker_of (snd (poll_seq true [(t0, w0); (t1, w1)] s dr tab)) (sid s) <> Some w0.
Proof.
  intros t0 t1 w0 w1 s dr tab _ Hne H0 H1.
  destruct (woken_through_last_poller [(t0, w0)] t1 w1 s dr tab) as (E & _); [repeat constructor; assumption|].
  cbn [app] in E. split; [exact E|]. rewrite E. intros H. injection H as H. exact (Hne (eq_sym H)).
Qed.
Print Assumptions C05_woken_through_last_waker_of_same_task.

(* Timeout, for ANY value future that becomes ready at instant r: polled at instants before
   min r D and then at min r D (the wake-up the driver guarantees), it completes at min r D,
   with the value iff r <= D (a tie goes to the value, which is polled first), Elapsed iff D < r *)
Theorem C05_timeout_ok_iff_inner_first :
  forall (V : Type) (vpoll : N -> V -> driver -> bool * V * driver) (r : N),
  (forall now v dr, fst (fst (vpoll now v dr)) = (r <=? now)) ->
  forall pre post v dl dr, Forall (fun t => t < N.min r (deadline dl)) pre ->
  exists res, timeout_run vpoll (pre ++ N.min r (deadline dl) :: post) v dl dr = Some (N.min r (deadline dl), res) /\
              (res = TOk <-> r <= deadline dl) /\ (res = TElapsed <-> deadline dl < r).
Proof. exact timeout_ok_iff_inner_first. Qed.
Print Assumptions C05_timeout_ok_iff_inner_first.

(* Interval: ticks taken within 5 ms of their nominal instant, and ticks under Burst however
   late, return start, start + period, start + 2 period, ...; a tick taken more than 5 ms late
   returns its nominal instant and re-schedules by the behaviour: Burst one period after the
   nominal instant, Delay one period after now, Skip at the next instant of the original
   schedule strictly after now *)
Theorem C05_interval_ticks :
  (forall ts iv dr, on_time (deadline (iv_delay iv)) (iv_period iv) ts ->
     tick_seq ts iv dr = schedule (deadline (iv_delay iv)) (iv_period iv) (length ts)) /\
  (forall ts iv dr, iv_beh iv = Burst -> not_before (deadline (iv_delay iv)) (iv_period iv) ts ->
     tick_seq ts iv dr = schedule (deadline (iv_delay iv)) (iv_period iv) (length ts)) /\
  (forall start period n k, (k < n)%nat -> nth k (schedule start period n) 0 = start + N.of_nat k * period) /\
  (forall now iv dr, deadline (iv_delay iv) + GRACE < now -> 0 < iv_period iv ->
     let tm := deadline (iv_delay iv) in
     let nx := deadline (iv_delay (snd (fst (poll_tick now iv dr)))) in
     fst (fst (poll_tick now iv dr)) = Some tm /\
     match iv_beh iv with
     | Burst => nx = tm + iv_period iv
     | Delay => nx = now + iv_period iv
     | Skip => now < nx /\ nx <= now + iv_period iv /\ nx = tm + ((now - tm) / iv_period iv + 1) * iv_period iv
     end).
Proof.
  split; [exact interval_no_miss|]. split; [exact interval_burst|]. split; [exact schedule_nth|exact interval_missed].
Qed.
Print Assumptions C05_interval_ticks.

(* Non-vacuity.  The history of finding F3 (Refuted/C05.v C05_pinned_next_refuted) on the code
   with next() skipping emptied front slots: timer 1 registered for 5 and
   dropped in the same event, timer 2 registered for 10; deactivate prunes the emptied slot
   and schedules the wake-up for 10; that wake-up wakes timer 2 at exactly 10. *)
Example C05_nonvacuous_f3_history :
  let tr := [EOther 0 [Register 1 5; DropEntry 1 5; Register 2 10]; EWake []] in
  valid_trace (0, new_driver) tr /\
  run_trace true (0, new_driver) tr = (10, {| pending := []; next_wakeup := None; scheduled := [] |}, [(10, (10, [2]))]).
Proof. cbn zeta. split; [apply valid_traceb_sound|]; vm_compute; reflexivity. Qed.

(* a reset to a deadline in the past leaves an empty slot at the front; equal deadlines
   share a slot; a message event at 7 sees the scheduled wake-up for 10 untouched and
   schedules an earlier one for 8; when that one has fired next_wakeup is cleared, so the
   wake-up for 10 is scheduled a second time -- the duplicate fires as an event that wakes nothing *)
Example C05_nonvacuous_two_wakeups :
  let tr := [EOther 3 [Register 1 10; Register 2 10; Register 3 20; ResetEntry 3 20 2];
             EOther 7 [Register 4 8]; EWake []; EWake [DropEntry 2 10]; EWake []] in
  valid_trace (0, new_driver) tr /\
  snd (run_trace true (0, new_driver) tr) = [(8, (8, [4])); (10, (10, [1; 2]))] /\
  scheduled (snd (fst (run_trace true (0, new_driver) tr))) = [].
Proof. cbn zeta. split; [apply valid_traceb_sound; vm_compute; reflexivity|vm_compute; split; reflexivity]. Qed.

(* hand-over in the composite model: task 0 polls a boxed sleep(10) at 0 and sends it to task 1,
   then sleeps 30; task 1 receives it at 0 and resumes at exactly 10 *)
Example C05_nonvacuous_hand_over :
  firstn 10 (run [0; 2; 7; 0; 0; 9; 0; 10; 1; 30; 4; 0; 0; 10; 0]) = [2; 0; 30; 1; 2; 0; 10; 1; 1; 30].
Proof. vm_compute. reflexivity. Qed.

(* A stale wake-up event is an ordinary event of the histories the theorems quantify over:
   [EWake] asks only that a wake-up is scheduled, not that its bump pops anything.  Timer 1
   (deadline 10, wake-up 10 scheduled) is dropped by a message event at 2, which also registers
   timer 2 for 20 (not earlier than next_wakeup = 10: nothing is scheduled); the wake-up 10 then
   fires with nothing to bump, clears next_wakeup because it is due, and its deactivate
   schedules 20; timer 2 is woken at exactly 20. *)
Example C05_nonvacuous_stale_wakeup :
  let tr := [EOther 0 [Register 1 10]; EOther 2 [DropEntry 1 10; Register 2 20]; EWake []; EWake []] in
  valid_trace (0, new_driver) tr /\
  snd (run_trace true (0, new_driver) [EOther 0 [Register 1 10]; EOther 2 [DropEntry 1 10; Register 2 20]; EWake []]) = [] /\
  run_trace true (0, new_driver) tr = (20, {| pending := []; next_wakeup := None; scheduled := [] |}, [(20, (20, [2]))]).
Proof. cbn zeta. split; [apply valid_traceb_sound; vm_compute; reflexivity|vm_compute; split; reflexivity]. Qed.

(* the same in the composite model: task 0 waits in timeout(10, receive), then sleep_until(20);
   a message at 2 spawns task 1, which sends at once *)
Example C05_nonvacuous_message_cancels_earliest_timer :
  firstn 10 (run [0; 2; 7; 0; 0; 11; 10; 0; 2; 20; 5; 0; 2; 9; 0; 5]) = [3; 2; 1; 20; 1; 1; 2; 1; 1; 20].
Proof. vm_compute. reflexivity. Qed.

(* A far-future Sleep (deadline SimTime::MAX = TMAX) is registered like any other but never
   gets a wake-up: timer 1 (deadline TMAX) and timer 2 (deadline 10) are registered at 0; only
   10 is scheduled; after it fired the queue still holds timer 1, nothing is scheduled, and the
   run ends -- Inv_wake speaks about the finite deadlines. *)
Example C05_nonvacuous_far_future :
  let tr := [EOther 0 [Register 1 TMAX; Register 2 10]; EWake []] in
  valid_trace (0, new_driver) tr /\
  run_trace true (0, new_driver) tr =
    (10, {| pending := [(TMAX, [1])]; next_wakeup := None; scheduled := [] |}, [(10, (10, [2]))]).
Proof. cbn zeta. split; [apply valid_traceb_sound|]; vm_compute; reflexivity. Qed.

(* the keep-alive scenario of the seeded change far_future_shared_id in the composite model: both
   tasks create a far-future sleep at 3 and arm it for 13; task 0 re-arms at 7 (to 27), task 1's
   timer still fires at exactly 13 *)
Example C05_nonvacuous_keepalive_equal_deadlines :
  firstn 14 (run [0; 2; 10; 0; 0; 1; 3; 13; 1; 2305843009213693952; 10; 4; 20;
                        10; 0; 0; 1; 3; 13; 1; 2305843009213693952; 10; 50; 5])
  = [4; 3; 7; 1; 27; 1;  3; 3; 13; 0; 1;  1; 27; 0].
Proof. vm_compute. reflexivity. Qed.

(* non-vacuity of (1): three tasks on two modules; task 0 resets a polled sleep(5) to now + 10,
   drops a polled sleep(5), sleeps 10; task 1 (spawned by a message at 3) drops, resets 20 -> 7,
   logs; task 2 sleeps 10, resets an unpolled sleep to now + 0 and a polled one 4 -> 4.  The script
   satisfies the theorem's hypothesis and the model's run gives the demanded logs. *)
Example C05_nonvacuous_reset_drop :
  let script := [1; 3; 10; 0; 0; 6; 1; 5; 10; 7; 5; 1; 10; 9; 0; 3; 7; 7; 6; 1; 20; 7; 8; 12; 1; 0; 1; 10; 6; 0; 3; 0; 6; 1; 4; 4] in
  Forall init_ok (decode script) /\
  map (fun tk => exp_run (t_start tk) None noarr (t_steps tk)) (decode script) = [[10; 10; 20]; [3; 10; 10]; [10; 10; 14]] /\
  firstn 17 (run script) = [3; 10; 10; 20; 1;  3; 3; 10; 10; 1;  3; 10; 10; 14; 1;  1; 20].
Proof.
  cbn zeta. split; [|vm_compute; split; reflexivity].
  apply decode_init_okb. vm_compute. reflexivity.
Qed.

(* non-vacuity of (2a): three tasks on two modules.  Task 0: timeout(10, sleep 4) is Ok at 4,
   timeout(5, sleep 5) is the tie: Ok at 9, timeout(3, sleep 8) elapses at 12, log.  Task 1
   (module 1, spawned by a message at 2): timeout(2, sleep 2) ties at 4, sleep 5, timeout(0,
   sleep 1) elapses at once at 9, timeout(4, sleep 0) is Ok at once.  Task 2 (module 0):
   timeout(7, sleep 9) elapses at 7, sleep 2, timeout(3, sleep 3) ties at 12 -- the instant
   task 0's timeout elapses in the same module.  The script satisfies the theorem's hypothesis
   and the model's run gives the demanded logs. *)
Example C05_nonvacuous_timeout_sleep :
  let script := [1; 3; 15; 0; 0; 3; 10; 0; 4; 3; 5; 0; 5; 3; 3; 0; 8; 8;  16; 1; 2; 3; 2; 0; 2; 1; 5; 3; 0; 0; 1; 3; 4; 0; 0;
                 12; 0; 0; 3; 7; 0; 9; 1; 2; 3; 3; 0; 3] in
  Forall init_ok (decode script) /\
  map (fun tk => exp_run (t_start tk) None noarr (t_steps tk)) (decode script) = [[4; 1; 9; 1; 12; 0; 12]; [4; 1; 9; 9; 0; 9; 1]; [7; 0; 9; 12; 1]] /\
  firstn 27 (run script) = [7; 4; 1; 9; 1; 12; 0; 12; 1;  7; 4; 1; 9; 9; 0; 9; 1; 1;  5; 7; 0; 9; 12; 1; 1;  1; 12].
Proof.
  cbn zeta. split; [|vm_compute; split; reflexivity].
  apply decode_init_okb. vm_compute. reflexivity.
Qed.

(* non-vacuity of (3): period 10 ms, three tasks on two modules, each: tick, tick, 27 ms of
   work, tick (nominal instant 20 ms, taken 17 ms late), tick.  Task 0, Skip: the fourth tick
   is at 40 ms, the next instant of the schedule after 37 ms.  Task 1, Burst: the fourth tick,
   nominal 30 ms, returns at once at 37 ms; then a log.  Task 2 (module 1, spawned by a message
   at 3 ms), Delay: the third tick is taken at 40 ms (nominal 23 ms), the fourth at 50 ms = 40 ms +
   period; then sleeps of 2 ms and 1 ms around the drop of the interval. *)
Example C05_nonvacuous_interval :
  let script := [1; 3; 10; 0; 0; 5; 10000000; 2; 4; 0; 27000000; 0; 0;  11; 0; 0; 5; 10000000; 0; 4; 0; 27000000; 0; 0; 8;
                 12; 1; 3000000; 5; 10000000; 1; 4; 0; 27000000; 0; 2000000; 1; 1000000] in
  Forall init_ok (decode script) /\
  map (fun tk => exp_run (t_start tk) None noarr (t_steps tk)) (decode script) =
    [[0; 0; 10000000; 10000000; 37000000; 37000000; 20000000; 40000000; 40000000];
     [0; 0; 10000000; 10000000; 37000000; 37000000; 20000000; 37000000; 30000000; 37000000];
     [3000000; 3000000; 13000000; 13000000; 40000000; 40000000; 23000000; 50000000; 50000000; 52000000; 53000000]] /\
  firstn 38 (run script) =
    [9; 0; 0; 10000000; 10000000; 37000000; 37000000; 20000000; 40000000; 40000000; 1;
     10; 0; 0; 10000000; 10000000; 37000000; 37000000; 20000000; 37000000; 30000000; 37000000; 1;
     11; 3000000; 3000000; 13000000; 13000000; 40000000; 40000000; 23000000; 50000000; 50000000; 52000000; 53000000; 1;
     1; 53000000].
Proof.
  cbn zeta. split; [|vm_compute; split; reflexivity].
  apply decode_init_okb. vm_compute. reflexivity.
Qed.

(* non-vacuity of (4): three tasks on two modules.  Task 0: kept timer created far-future
   (Duration::MAX), armed for 10, sleep(4) wins at 4, re-armed for 7 more: [4; 1; 11]; then a
   tie (d2 = x = 3): the kept timer wins at 14; log.  Task 1 (module 1, spawned by a message at
   2): no rearm, sleep(2) wins: [4; 1; 4]; x = 0 with rearm d3 = 0: [4; 1; 4] at once; d2 = 0: [4; 0]
   at once; x = 0 with rearm 3 (created far-future): blocks on the re-armed timer in its first
   poll, [4; 1; 7].  Task 2 (module 0): sleep(4), then sleep(7) wins at 11 -- the instant task 0's
   re-armed timer fires, same slot -- and re-arms to 16. *)
Example C05_nonvacuous_keepalive_select :
  let script := [1; 3; 15; 0; 0; 13; 1; 2305843009213693952; 10; 4; 7; 13; 0; 5; 3; 3; 0; 8;
                 26; 1; 2; 13; 0; 0; 9; 2; 1; 13; 1; 1; 5; 0; 0; 13; 1; 1; 0; 3; 2; 13; 1; 2305843009213693952; 6; 0; 3;
                 10; 0; 0; 1; 4; 13; 1; 3; 8; 7; 5] in
  Forall init_ok (decode script) /\
  map (fun tk => exp_run (t_start tk) None noarr (t_steps tk)) (decode script) =
    [[4; 1; 11; 14; 0; 14]; [4; 1; 4; 4; 1; 4; 4; 0; 4; 1; 7]; [4; 11; 1; 16]] /\
  firstn 29 (run script) = [6; 4; 1; 11; 14; 0; 14; 1;  11; 4; 1; 4; 4; 1; 4; 4; 0; 4; 1; 7; 1;  4; 4; 11; 1; 16; 1;  1; 16].
Proof.
  cbn zeta. split; [|vm_compute; split; reflexivity].
  apply decode_init_okb. vm_compute. reflexivity.
Qed.

(* non-vacuity of (4'): task 0: biased select(3, 7) takes 0 at 3; unbiased tie select(5, 5): 2 at 8;
   biased tie: 0 at 13; select(9, 2) takes 1 at 15; log.  Task 1 (module 1, message at 1): a = 0,
   b = 0 with a > 0, and the unbiased tie a = b = 0, all at once at 1.  Task 2 (module 0): sleep to 7
   (from 3), select(6, 3) takes 1 at 10. *)
Example C05_nonvacuous_select :
  let script := [1; 3; 19; 0; 0; 4; 1; 3; 7; 4; 0; 5; 5; 4; 1; 5; 5; 4; 0; 9; 2; 8;
                 14; 1; 1; 4; 0; 0; 4; 4; 1; 2; 0; 4; 0; 0; 0;   8; 0; 3; 1; 4; 4; 1; 6; 3] in
  Forall init_ok (decode script) /\
  map (fun tk => exp_run (t_start tk) None noarr (t_steps tk)) (decode script) =
    [[3; 0; 8; 2; 13; 0; 15; 1; 15]; [1; 0; 1; 1; 1; 2]; [7; 10; 1]] /\
  firstn 25 (run script) = [9; 3; 0; 8; 2; 13; 0; 15; 1; 15; 1;  6; 1; 0; 1; 1; 1; 2; 1;  3; 7; 10; 1; 1;  1].
Proof.
  cbn zeta. split; [|vm_compute; split; reflexivity].
  apply decode_init_okb. vm_compute. reflexivity.
Qed.

(* non-vacuity of (2b): two modules, four tasks.  Task 0 (module 0) sends into channel 0 at 5 and
   15 and into channel 1 at 15.  Task 1 (module 0) receives: timeout(8, ch 0) begun at 0 is Ok at 5,
   the instant of the send; timeout(3, ch 0) begun at 5 elapses at 8 (next message: 15); after
   sleeping to 18, timeout(0, ch 0) finds the message of 15 waiting: Ok at 18; timeout(4, ch 1):
   waiting as well, Ok at 18; timeout(2, ch 1): nothing more, Elapsed at 20.  Task 2 (module 1,
   message at 3): timeout(4, ch 0) elapses at 7 -- the only message of module 1 is sent at 20, by
   task 3, and is never received.  The hypotheses hold (by computation, chan_okb) and the model's
   run gives the demanded logs. *)
Example C05_nonvacuous_timeout_recv :
  let script := [1; 4; 16; 0; 0; 1; 5; 9; 0; 0; 1; 10; 9; 0; 0; 8; 9; 1; 0;
                 19; 0; 0; 11; 8; 0; 11; 3; 0; 1; 10; 11; 0; 0; 11; 4; 1; 11; 2; 1;
                 7; 1; 3; 11; 4; 0; 1; 1;   8; 1; 0; 1; 20; 9; 0; 0; 8] in
  chan_ok (decode script) /\
  (arrivals (decode script) 0 0, arrivals (decode script) 0 1, arrivals (decode script) 1 0) = ([5; 15], [15], [20]) /\
  map (fun tk => exp_run (t_start tk) None (arrivals (decode script) (t_mod tk)) (t_steps tk)) (decode script) =
    [[5; 5; 15; 15; 15; 15]; [5; 1; 8; 0; 18; 18; 1; 18; 1; 20; 0]; [7; 0; 8]; [20; 20; 20]] /\
  firstn 33 (run script) = [6; 5; 5; 15; 15; 15; 15; 1;  11; 5; 1; 8; 0; 18; 18; 1; 18; 1; 20; 0; 1;  3; 7; 0; 8; 1;  3; 20; 20; 20; 1;  1; 20].
Proof.
  cbn zeta. split; [apply decode_chan_okb; vm_compute; reflexivity|]. vm_compute. repeat split; reflexivity.
Qed.

(* the model over the calendar queue runs: 3 buckets of width 7 ns, the script of the timeout-over-receive
   example -- the same output as over the specification, the task logs included *)
Example C05_nonvacuous_run_over_cqueue :
  let script := [1; 4; 16; 0; 0; 1; 5; 9; 0; 0; 1; 10; 9; 0; 0; 8; 9; 1; 0;
                 19; 0; 0; 11; 8; 0; 11; 3; 0; 1; 10; 11; 0; 0; 11; 4; 1; 11; 2; 1;
                 7; 1; 3; 11; 4; 0; 1; 1;   8; 1; 0; 1; 20; 9; 0; 0; 8] in
  run_cq 3 7 script = run script /\
  firstn 33 (run_cq 3 7 script) = [6; 5; 5; 15; 15; 15; 15; 1;  11; 5; 1; 8; 0; 18; 18; 1; 18; 1; 20; 0; 1;  3; 7; 0; 8; 1;  3; 20; 20; 20; 1;  1; 20].
Proof. cbn zeta. split; vm_compute; reflexivity. Qed.
