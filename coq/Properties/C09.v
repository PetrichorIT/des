(* C09 — A shut-down module is inert until restart and restarts cleanly on time.
   The statements, each with the lemma of coq/Life that proves it; proved here are only the witnesses of
   non-vacuity, a few corollaries and the transfer to the run over the calendar queue.  [trace sc] is the list of
   records of the run of script [sc] in the model of ctx.rs / events.rs / refs.rs (coq/Life/Sim.v): one record per (stage, module)
   pair of the start-up phase ([KStart]), one per dispatched event ([KLoop ev], ending in a
   sample of is_active of all modules) and one per module of the tear-down phase ([KEnd]);
   its items are what the model runner prints and the implementation runner reproduces.  A
   script fixes 2..4 modules, each with ANY handler programs (log / send / schedule /
   shutdown / shutdow_and_restart_in / panic / quiet), ANY number of task programs (the same
   plus sleep), stereotype, stage count and budget, and any list of injected messages; all
   statements hold for every script. *)
From Coq Require Import List NArith Bool.
From DesVerif Require Import Common.Fuel Life.ModelCq Life.CqInst Life.Fresh Life.Local Life.Model Life.Step Life.Trace Life.Frame Life.Inert Life.Inv Life.Events Life.Restart Life.Term.
Import ListNotations.
Open Scope N_scope.

(* handler_runs_only_if_active: scanning any record of the start-up sweep or of a dispatched event
   never finds a call record (start-up stage, message handler, task step, timer completion) with
   is_active = false, except after a panic of the module's own callback in the same record
   ([act_st], coq/Life/Inv.v; Harness::catch has deactivated the module by then).  Only the tear-down
   sweep (at_sim_end, [is_end]) calls every module irrespective of is_active. *)
Theorem C09_handler_runs_only_if_active : forall sc e,
  In e (trace sc) -> is_end e = false -> act_st false (e_items e) <> None.
Proof. exact handler_runs_only_if_active. Qed.
Print Assumptions C09_handler_runs_only_if_active.

(* ... so that in a record without a callback panic every such call carries is_active = true *)
Theorem C09_calls_carry_active : forall l, (forall m c, ~ In (IPanic m 0 c) l) -> act_st false l <> None ->
  forall m c t a, In (ICall m c t a) l -> a = true.
Proof. exact act_st_no_panic. Qed.
Print Assumptions C09_calls_carry_active.

(* inert_while_down: [down_after m pre]: in [pre] module m was reset (its shutdown request was
   consumed) and not (re)started since.  The next record, unless it is m's restart event,
   holds no message handler, task step or timer completion of m; unless it is a tear-down record it
   holds no record of m at all (no at_sim_start, no send, no log, no request either): the start-up
   sweep skips m (since 1526470), messages addressed to m and its wake-ups are dropped. *)
Theorem C09_inert_while_down : forall sc m pre e post,
  trace sc = pre ++ e :: post -> down_after m pre = true -> starts m e = false ->
  no_run m (e_items e) /\
  (is_end e = false -> forallb (fun i => negb (of_mod m i)) (e_items e) = true).
Proof. exact inert_while_down. Qed.
Print Assumptions C09_inert_while_down.

(* reset_once_per_shutdown: a start-up or event record holds exactly one Module::reset of m if
   it holds a shutdown request of m, none otherwise; tear-down records hold none *)
Theorem C09_reset_once_per_shutdown : forall sc e m, In e (trace sc) ->
  count_resets m (e_items e) = (if requests m e && negb (is_end e) then 1 else 0)%nat.
Proof. exact reset_once_per_shutdown. Qed.
Print Assumptions C09_reset_once_per_shutdown.

(* restart_stages_once_at_time.  [pending m pre] is the restart time named by the last consumed
   shutdown request of m (read from the log of the record that reset m: the last
   shutdown()/shutdow_and_restart_in(d) of that event wins, d counts from the event's time),
   and None once m was (re)started.
   (a) a restart event of m only ever happens at exactly that time -- hence once per request;
   (b) every run completes (see C09_run_terminates) and then no requested restart is left pending:
       every restart that was asked for is executed;
   (c) in a restart event the start-up stages run in order 0, 1, .., each once, stamped with the
       event's time: at least stage 0, and all of them unless a stage panicked. *)
Theorem C09_restart_stages_once_at_time :
  (forall sc pre e post m, trace sc = pre ++ e :: post -> e_kind e = KLoop (EvRestart m) ->
     pending m pre = Some (e_time e)) /\
  (forall sc m, pending m (trace sc) = None) /\
  (forall sc e m, In e (trace sc) -> e_kind e = KLoop (EvRestart m) ->
     (exists n, (stage_list (c_stages (cfg sc m)) <> [] -> (0 < n)%nat) /\
        map call_key (start_calls (e_items e)) =
        map (fun st => (m, st, e_time e)) (firstn n (stage_list (c_stages (cfg sc m))))) /\
     ((forall c, ~ In (IPanic m 0 c) (e_items e)) ->
        map call_key (start_calls (e_items e)) =
        map (fun st => (m, st, e_time e)) (stage_list (c_stages (cfg sc m))))).
Proof.
  split; [exact restart_at_requested_time|split; [|exact restart_runs_stages_once]].
  intros sc m. apply no_restart_left_pending, run_terminates.
Qed.
Print Assumptions C09_restart_stages_once_at_time.

(* old_incarnation_silent: every task step (first poll, or completion of one of its timers) is
   logged with the incarnation that spawned the task, and that always equals the number of
   resets of the module so far: nothing created before a shutdown acts after it *)
Theorem C09_old_incarnation_silent : forall sc pre e post m c t a,
  trace sc = pre ++ e :: post -> In (ICall m c t a) (e_items e) ->
  match c with
  | CbTask _ j | CbTimer _ j => j = N.of_nat (count_resets m (items pre))
  | _ => True
  end.
Proof. exact old_incarnation_silent. Qed.
Print Assumptions C09_old_incarnation_silent.

(* fresh_after_restart, at the restart event.  What a module keeps across shutdown / restart is made explicit -- [kept]: the user
   struct (here: incarnation counter and budget; "custom state will be kept"), the time driver's next_wakeup, the
   JoinHandles given to join / try_join, the stereotype -- and everything else is that of a newly created module:
   [fresh v a] is the state of a module created around the kept pieces v with active flag a; the very first state of a
   module is [fresh (kept0 c) true] (C09_first_state_is_fresh).
   (a) consuming a shutdown request leaves exactly [fresh v false], v = the kept pieces with the incarnation counter
       bumped and a due next_wakeup dropped: no task, no timer, no request (C09_shutdown_leaves_fresh);
   (b) when a restart event of m is dispatched, the world is a generated one in which m's state is [fresh v false] for
       some v, and the records of the event are those of activate / module_restart / deactivate / buf_process on it
       (this theorem; with old_incarnation_silent: every task step afterwards belongs to the new incarnation);
   (c) module_restart is: set the active flag, then the callback the first start runs for each stage --
       at_sim_start(stage), with the time of the restart in place of 0 -- in order, until one returns an error or
       leaves the module inactive; for a single-stage module that is literally the first start's callback applied to
       [fresh v true] (C09_restart_runs_first_start_callback).
   Differences to a first start that remain, by design of the code: the kept pieces; and for a module with several
   stages the restart runs all stages inside one event (one buf_process at the end), whereas the start-up sweep handles
   the buffered events after every stage -- a shutdown requested in stage 0 stops the later stages of a first start but
   not those of a restart.
   The whole-trace form -- the records of m from the restart on equal those of a module created fresh around the kept
   pieces at that instant and given the same later inputs -- is proved for single-stage modules only
   (C09_module_local, C09_restarted_as_fresh below). *)
Theorem C09_fresh_after_restart_partial : forall sc pre e post m,
  trace sc = pre ++ e :: post -> e_kind e = KLoop (EvRestart m) ->
  exists w1 f1 v, Gen sc w1 pre /\ fes_fetch (w_fes w1) = Some (e_time e, EvRestart m, f1) /\
    w_mod w1 m = fresh v false /\
    let r := around sc (e_time e) m (module_restart (nmods sc) (cfg sc m) (e_time e) m) (set_fes w1 f1) in
    e_items e = snd r ++ [ISample (e_time e) (mask sc (fst r))].
Proof. exact fresh_after_restart_full. Qed.
Print Assumptions C09_fresh_after_restart_partial.

Theorem C09_first_state_is_fresh : forall sc m, w_mod (init_world sc) m = fresh (kept0 (cfg sc m)) true.
Proof. intros sc m. reflexivity. Qed.
Print Assumptions C09_first_state_is_fresh.

Theorem C09_shutdown_leaves_fresh : forall c now m w r, shut (w_mod w m) = Some r ->
  w_mod (fst (shutdown_part c now m w)) m =
  fresh {| k_inc := inc (w_mod w m) + 1; k_bud := bud (w_mod w m); k_nw := nw_bump now (nw (w_mod w m));
           k_hnd := hnd (w_mod w m); k_catch := catchf (w_mod w m) |} false.
Proof. exact shutdown_leaves_fresh. Qed.
Print Assumptions C09_shutdown_leaves_fresh.

Theorem C09_restart_runs_first_start_callback :
  (forall k c now m s, c_stages c = 1 ->
     module_restart k c now m s = fst (at_sim_start k c now m 0 (on_w (fun w => set_mod w m (set_active (w_mod w m) true)) s))) /\
  (forall sc stage m s, start_cb sc stage m s = fst (at_sim_start (nmods sc) (cfg sc m) 0 m stage s)) /\
  (forall k c now m s,
     module_restart k c now m s =
     fst (fold_left (fun (acc : xs * bool) stage =>
                       if snd acc then acc
                       else (fst (at_sim_start k c now m stage (fst acc)),
                             snd (at_sim_start k c now m stage (fst acc)) ||
                             negb (active (w_mod (x_w (fst (at_sim_start k c now m stage (fst acc)))) m))))
                    (stage_list (c_stages c))
                    (on_w (fun w => set_mod w m (set_active (w_mod w m) true)) s, false))).
Proof. split; [exact module_restart_single|split; [reflexivity|exact module_restart_stages]]. Qed.
Print Assumptions C09_restart_runs_first_start_callback.

(* fresh_after_restart, whole-trace form, for a module with one start-up stage.  Stated as a simulation between two
   worlds restricted to module m ([Mrel m w w']: the two worlds agree on m's state; they may belong to two different
   scripts -- other modules, injections --, have different event sets, buffers, other modules' states, as long as m's
   configuration and the number of modules are the same).
   (a) module_local: a module's records depend on its own state only.  Under the same sequence of dispatched events
       (same times and kinds; [evs], [evs'] may carry different event sets) two worlds that agree on m produce the same
       records of m ([mlog]: the records of the events of m, in order) -- events of other modules change nothing of m.
   (b) loop_is_mlog: the event loop of a run is such a sequence: from any loop state on, the records of m's events in the
       trace ([mrecords], each without the is_active sample that closes it) are the [mlog] of the events it dispatches.
   (c) restarted_as_fresh: let m be [fresh v false] in w (the state every restart event finds it in,
       C09_fresh_after_restart_partial) and the newly created [fresh v true] in w'.  Then the restart event in w at time
       t writes the same records as the first start's step -- activate, at_sim_start(0), deactivate, buf_process, as in
       the start-up sweep -- taken at time t in w'; afterwards the two worlds agree on m, so by (a) every later event
       of m, and m's at_sim_end, writes the same records in both: the restarted incarnation cannot be told from a fresh
       module created around the kept pieces at the restart time, in any environment that delivers the same events.
   (d) fresh_is_mst0: with trivial kept pieces (no surviving JoinHandle, no pending next_wakeup; user struct as first
       created) [fresh v true] is the module as first created.  The hypotheses are needed only there: next_wakeup and the
       handles do not influence m's records at all (they influence the event set -- a stale wake-up event -- and the
       join errors of the final error list), the user struct (incarnation counter, budget) does.
   Not covered: modules with several stages (the restart runs them in one event, see above). *)
Theorem C09_module_local : forall sc sc' m, cfg sc m = cfg sc' m -> nmods sc = nmods sc' ->
  forall evs evs' w w', map fst evs = map fst evs' -> Mrel m w w' ->
  mlog m sc w evs = mlog m sc' w' evs' /\ Mrel m (mrun sc w evs) (mrun sc' w' evs').
Proof. intros sc sc' m Hc Hk evs evs' w w' He E. split; [apply mlog_local|apply mrun_local]; assumption. Qed.
Print Assumptions C09_module_local.

Theorem C09_loop_is_mlog : forall sc m k w now tr wf nf trf,
  iter_nat k (loop_step sc) (w, now, tr) = inr (wf, nf, trf) ->
  exists evs, mrecords m trf = mrecords m tr ++ mlog m sc w evs.
Proof. exact loop_is_mlog. Qed.
Print Assumptions C09_loop_is_mlog.

Theorem C09_restarted_as_fresh : forall sc sc' m t v w w',
  cfg sc m = cfg sc' m -> nmods sc = nmods sc' -> c_stages (cfg sc m) = 1 ->
  w_mod w m = fresh v false -> w_mod w' m = fresh v true ->
  let wa := fst (process sc w t (EvRestart m)) in
  let wb := fst (around sc' t m (fun s => fst (at_sim_start (nmods sc') (cfg sc' m) t m 0 s)) w') in
  snd (process sc w t (EvRestart m)) = snd (around sc' t m (fun s => fst (at_sim_start (nmods sc') (cfg sc' m) t m 0 s)) w') /\
  (forall evs evs', map fst evs = map fst evs' -> mlog m sc wa evs = mlog m sc' wb evs') /\
  (forall evs evs' tend, map fst evs = map fst evs' ->
     e_items (snd (end_rec sc tend m (mrun sc wa evs))) = e_items (snd (end_rec sc' tend m (mrun sc' wb evs')))).
Proof. exact restarted_as_fresh. Qed.
Print Assumptions C09_restarted_as_fresh.

Theorem C09_fresh_is_first_state : forall c v,
  k_inc v = 0 -> k_bud v = c_bud c -> k_nw v = None -> k_hnd v = [] -> k_catch v = c_catch c -> fresh v true = mst0 c.
Proof. exact fresh_is_mst0. Qed.
Print Assumptions C09_fresh_is_first_state.

(* shutdown_frame: consuming m's shutdown request (second half of buf_process) changes no other
   module's state -- tasks and timers included --, leaves the global slots alone, adds to the error
   list at most the PanicError of a panicking Module::reset and changes the queued events only by inserting m's restart event, every other event
   keeping its place in the dispatch order; m itself ends up inactive without tasks or timers *)
Theorem C09_shutdown_frame : forall c now m w r, shut (w_mod w m) = Some r ->
  let w' := fst (shutdown_part c now m w) in
  (forall i, i <> m -> w_mod w' i = w_mod w i) /\
  w_cur w' = w_cur w /\ w_buf w' = w_buf w /\ w_err w' = w_err w ++ (if c_rsend c then [(0, m)] else []) /\
  match r with
  | None => w_fes w' = w_fes w
  | Some t => exists l1 l2, fes_order (w_fes w) = l1 ++ l2 /\ fes_order (w_fes w') = l1 ++ (t, EvRestart m) :: l2
  end /\
  active (w_mod w' m) = false /\ ready (w_mod w' m) = [] /\ timers (w_mod w' m) = [] /\ shut (w_mod w' m) = None.
Proof. exact shutdown_frame. Qed.
Print Assumptions C09_shutdown_frame.

(* reset_panic_frame.  Module::reset is user code too; it runs while the shutdown request is consumed, under
   Harness::pass and with the event buffer's lock held by buf_process -- so every send / schedule in it panics ("Could not
   lock mutex on single thread"; [c_rsend]: the module's reset makes such a call).  That panic changes nothing of the
   shutdown / restart bookkeeping: compared with the same module whose reset does not panic ([with_rsend c false]) the
   resulting world differs in the error list only -- one PanicError more, whatever the stereotype says --, the module is
   down in the same state, the restart event is queued the same, and the record has the one reset-panic record more. *)
Theorem C09_reset_panic_frame : forall c now m w r, shut (w_mod w m) = Some r ->
  let wa := fst (shutdown_part (with_rsend c false) now m w) in
  fst (shutdown_part (with_rsend c true) now m w) = set_err wa (w_err wa ++ [(0, m)]) /\
  snd (shutdown_part (with_rsend c true) now m w) = snd (shutdown_part (with_rsend c false) now m w) ++ [IResetPanic m].
Proof. exact reset_panic_frame. Qed.
Print Assumptions C09_reset_panic_frame.

(* delivery_independent_of_m ("modules that are not shut down are unaffected"):
   (a) whether a message leaving a connection reaches its receiver depends on the active flags
       of the owners of the gates of its own chain only (sender's gate; transit gate for "far");
   (b) handle_message runs iff the receiver is active;
   (c) an event of one module never changes the state of any other module. *)
Theorem C09_delivery_independent_of_m :
  (forall k w1 w2 m far, active (w_mod w1 m) = active (w_mod w2 m) ->
     (far = true -> active (w_mod w1 (next k m)) = active (w_mod w2 (next k m))) ->
     walk k w1 m far = walk k w2 m far) /\
  (forall sc w t m x,
     (active (w_mod w m) = true -> exists l, snd (process sc w t (EvDeliver m x)) = ICall m (CbMsg x) t true :: l) /\
     (active (w_mod w m) = false -> forall c t' a, ~ In (ICall m c t' a) (snd (process sc w t (EvDeliver m x))))) /\
  (forall sc w t ev i, ev_mod ev <> Some i -> w_mod (fst (process sc w t ev)) i = w_mod w i).
Proof. split; [exact walk_depends_on_chain|split; [exact deliver_iff_active|exact process_oth]]. Qed.
Print Assumptions C09_delivery_independent_of_m.

(* every run ends: the fuel of the model's event loop is never exhausted (a potential made of budgets,
   pending events, remaining task actions, pending timers and the time driver's next_wakeup drops
   with every dispatched event) *)
Theorem C09_run_terminates : forall sc, r_ok (run_script sc) = true.
Proof. exact run_terminates. Qed.
Print Assumptions C09_run_terminates.

(* every loop state of the run is a generated state: the invariants above are about the worlds
   the simulation really goes through *)
Theorem C09_run_is_generated : forall sc, exists w tr, Gen sc w tr /\
  ((r_ok (run_script sc) = true /\ fes_fetch (w_fes w) = None /\
    exists now, trace sc = tr ++ snd (end_seq sc now (mods sc) w) /\
                r_err (run_script sc) = w_err (fst (end_seq sc now (mods sc) w))) \/
   (r_ok (run_script sc) = false /\ trace sc = tr /\ r_err (run_script sc) = w_err w)).
Proof. exact run_decomp. Qed.
Print Assumptions C09_run_is_generated.

(* Non-vacuity.  Module 0 (two start-up stages, one task that sleeps 3 ns, logs 7, sleeps 10 ns,
   logs 8) is told at t = 2 to shut down and restart in 5 ns; a message for it arrives at t = 4
   (while it is down) and another at t = 9 (after the restart). *)
Definition ex_m0 : modcfg := {| c_catch := false; c_stages := 2; c_bud := 5; c_start := [[]];
  c_msg := [[ARestartIn 5]; [ALog 1]]; c_tasks := [[ASleep 3; ALog 7; ASleep 10; ALog 8]]; c_end := []; c_join := 0; c_rsend := false |}.
Definition ex_m1 : modcfg := {| c_catch := false; c_stages := 1; c_bud := 5; c_start := [[]];
  c_msg := [[ALog 2]]; c_tasks := []; c_end := []; c_join := 0; c_rsend := false |}.
Definition ex : script :=
  {| s_mods := [ex_m0; ex_m1];
     s_inj := [(2, InjDeliver 0 0); (4, InjDeliver 0 1); (9, InjDeliver 0 1); (4, InjDeliver 1 0)] |}.

Example C09_nonvacuous :
  let tr := trace ex in
  (* the shutdown event: one reset, the old task is cancelled *)
  e_items (nth 4 tr (boot_rec ex (init_world ex))) =
    [ICall 0 (CbMsg 0) 2 true; IShut 0 0 (Some 5); ICancel 0 0; ITaskEnd 0 0 0 2; IReset 0 2 1; ISample 2 2] /\
  down_after 0 (firstn 5 tr) = true /\ pending 0 (firstn 5 tr) = Some 7 /\
  (* the old task's wake-up at 3 and the message at 4 find the module down: nothing runs *)
  map (fun e => (e_kind e, e_items e)) (firstn 2 (skipn 5 tr)) =
    [(KLoop (EvWake 0), [ISample 3 2]); (KLoop (EvDeliver 0 1), [ISample 4 2])] /\
  (* the restart at 7 = 2 + 5: both stages once, a task of incarnation 1 *)
  (let e := nth 8 tr (boot_rec ex (init_world ex)) in
   e_kind e = KLoop (EvRestart 0) /\ e_time e = 7 /\
   e_items e = [ICall 0 (CbStart 0) 7 true; ISpawn 0 0 1 false; ICall 0 (CbTask 0 1) 7 true; ICall 0 (CbStart 1) 7 true; ISample 7 3]) /\
  down_after 0 (firstn 9 tr) = false /\
  (* afterwards the module works again, and only the new incarnation's timers fire *)
  map e_items (firstn 3 (skipn 9 tr)) =
    [[ICall 0 (CbMsg 1) 9 true; ILog 0 0 1; ISample 9 3];
     [ICall 0 (CbTimer 0 1) 10 true; ILog 0 1 7; ISample 10 3];
     [ICall 0 (CbTimer 0 1) 20 true; ILog 0 1 8; ITaskEnd 0 0 1 0; ISample 20 3]] /\
  r_ok (run_script ex) = true.
Proof. vm_compute. repeat split; reflexivity. Qed.

(* Non-vacuity of the whole-trace form.  Module 0 (one stage, one task) of [fx] is restarted at t = 7 (see its trace: the
   records at 7, 9, 10 below are those of the run of [fx]); at that moment it has been reset once, has spent one unit of
   budget and still holds the JoinHandle of its first task.  [fy] is another script around the same module (another
   neighbour, other injections); in its initial world module 0 is replaced by the module freshly created around the
   kept pieces.  The restart event in the one world and the start-up step at t = 7 in the other, then a message at 9
   and the wake-up at 10 -- with different event sets left behind --, and at_sim_end write the same records. *)
Definition fx_m0 : modcfg := {| c_catch := false; c_stages := 1; c_bud := 5; c_start := [[ALog 9]];
  c_msg := [[ARestartIn 5]; [ALog 1; ASend false 2 0]]; c_tasks := [[ASleep 3; ALog 7]]; c_end := [ALog 30]; c_join := 0; c_rsend := false |}.
Definition fx_m1 : modcfg := {| c_catch := false; c_stages := 1; c_bud := 5; c_start := [[]];
  c_msg := [[ALog 2]]; c_tasks := []; c_end := []; c_join := 0; c_rsend := false |}.
Definition fy_m1 : modcfg := {| c_catch := true; c_stages := 2; c_bud := 1; c_start := [[ALog 4]];
  c_msg := [[AShutdown]]; c_tasks := [[ASleep 1]]; c_end := [ALog 5]; c_join := 1; c_rsend := false |}.
Definition fx : script := {| s_mods := [fx_m0; fx_m1]; s_inj := [(2, InjDeliver 0 0); (9, InjDeliver 0 1)] |}.
Definition fy : script := {| s_mods := [fx_m0; fy_m1]; s_inj := [(1, InjDeliver 1 0)] |}.
Definition fv : kept := {| k_inc := 1; k_bud := 4; k_nw := None; k_hnd := [(0, 0)]; k_catch := false |}.
Definition fx_w : world := set_mod (init_world fx) 0 (fresh fv false).
Definition fy_w : world := set_mod (init_world fy) 0 (fresh fv true).
Definition f_evs (f : fes) : list (N * fev * fes) := [(9, EvDeliver 0 1, f); (10, EvWake 0, f)].

Example C09_restarted_as_fresh_nonvacuous :
  let e0 := {| f_tcur := 0; f_zero := []; f_rest := [] |} in
  let wa := fst (process fx fx_w 7 (EvRestart 0)) in
  let wb := fst (around fy 7 0 (fun s => fst (at_sim_start (nmods fy) (cfg fy 0) 7 0 0 s)) fy_w) in
  map e_items (firstn 3 (skipn 5 (trace fx))) =
    [[ICall 0 (CbStart 0) 7 true; ISpawn 0 0 1 false; ILog 0 0 9; ICall 0 (CbTask 0 1) 7 true; ISample 7 3];
     [ICall 0 (CbMsg 1) 9 true; ILog 0 0 1; ISend 0 0 false 2 0; ISample 9 3];
     [ICall 0 (CbTimer 0 1) 10 true; ILog 0 1 7; ITaskEnd 0 0 1 0; ISample 10 3]] /\
  snd (process fx fx_w 7 (EvRestart 0)) = [ICall 0 (CbStart 0) 7 true; ISpawn 0 0 1 false; ILog 0 0 9; ICall 0 (CbTask 0 1) 7 true] /\
  snd (around fy 7 0 (fun s => fst (at_sim_start (nmods fy) (cfg fy 0) 7 0 0 s)) fy_w) = snd (process fx fx_w 7 (EvRestart 0)) /\
  mlog 0 fx wa (f_evs e0) = [[ICall 0 (CbMsg 1) 9 true; ILog 0 0 1; ISend 0 0 false 2 0]; [ICall 0 (CbTimer 0 1) 10 true; ILog 0 1 7; ITaskEnd 0 0 1 0]] /\
  mlog 0 fy wb (f_evs (w_fes fy_w)) = mlog 0 fx wa (f_evs e0) /\
  e_items (snd (end_rec fy 11 0 (mrun fy wb (f_evs (w_fes fy_w))))) = e_items (snd (end_rec fx 11 0 (mrun fx wa (f_evs e0)))) /\
  e_items (snd (end_rec fx 11 0 (mrun fx wa (f_evs e0)))) = [ICall 0 CbEnd 11 true; ILog 0 0 30].
Proof. vm_compute. repeat split; reflexivity. Qed.


(* ---- composition with C01: the life-cycle model over the calendar queue ----
   Every theorem above is about [run_script], which threads the SPECIFICATION of the event set ([fes]: a zero-delay
   FIFO and a time-sorted list).  The real crate runs on des-cqueue's calendar queue.  [run_script_cq n t] / [run_cq n t]
   (coq/Life/ModelCq.v) are the same event loop over the calendar-queue model of C01 (CQueue/Model.v: [cq_new_at n t 0],
   [add], [fetch_next] while [qlen] is not 0) for n buckets of width t: the callbacks are literally those of Life/Sim.v
   (Life/CqComm.v: none of them touches the event set), the event-set layer (deactivate's wake-up, buf_process, the
   restart event, message hops, the injections, the fetch of the main loop) goes through the queue.  The forward
   simulation (Life/CqSim.v, Life/CqInst.v) composes fes <-> sp + event store with sp <-> cq through the relation R of C01
   (R_add, R_fetch, R_len, R_new_at); R_add needs every add to be at or after the queue's clock, which is the
   "nothing is scheduled into the past" invariant FW of Life/Future.v. *)
Theorem C09_run_script_over_cqueue : forall n t sc, n <> 0 -> t <> 0 -> run_script_cq n t sc = run_script sc.
Proof. exact run_script_over_cqueue. Qed.
Print Assumptions C09_run_script_over_cqueue.

Theorem C09_run_over_cqueue_eq_run_over_spec : forall n t input, n <> 0 -> t <> 0 -> run_cq n t input = run input.
Proof. exact run_over_cqueue. Qed.
Print Assumptions C09_run_over_cqueue_eq_run_over_spec.

(* the same over des-cqueue's own specification type (CQueue/Spec.v [sp], with the event store) *)
Theorem C09_run_over_cqueue_spec : forall sc, run_script_sp sc = run_script sc.
Proof. exact run_over_sp_eq. Qed.
Print Assumptions C09_run_over_cqueue_spec.

(* the headline clauses, for the run over the calendar queue *)
Theorem C09_inert_while_down_cq : forall n t sc m pre e post, n <> 0 -> t <> 0 ->
  trace_cq n t sc = pre ++ e :: post -> down_after m pre = true -> starts m e = false ->
  no_run m (e_items e) /\
  (is_end e = false -> forallb (fun i => negb (of_mod m i)) (e_items e) = true).
Proof. intros n t sc m pre e post Hn Ht. rewrite trace_over_cqueue by assumption. apply inert_while_down. Qed.
Print Assumptions C09_inert_while_down_cq.

Theorem C09_restart_stages_once_at_time_cq : forall n t, n <> 0 -> t <> 0 ->
  (forall sc pre e post m, trace_cq n t sc = pre ++ e :: post -> e_kind e = KLoop (EvRestart m) ->
     pending m pre = Some (e_time e)) /\
  (forall sc m, pending m (trace_cq n t sc) = None) /\
  (forall sc e m, In e (trace_cq n t sc) -> e_kind e = KLoop (EvRestart m) ->
     (exists n, (stage_list (c_stages (cfg sc m)) <> [] -> (0 < n)%nat) /\
        map call_key (start_calls (e_items e)) =
        map (fun st => (m, st, e_time e)) (firstn n (stage_list (c_stages (cfg sc m))))) /\
     ((forall c, ~ In (IPanic m 0 c) (e_items e)) ->
        map call_key (start_calls (e_items e)) =
        map (fun st => (m, st, e_time e)) (stage_list (c_stages (cfg sc m))))).
Proof.
  intros n t Hn Ht. destruct C09_restart_stages_once_at_time as (A & B & C).
  split; [|split]; intros sc; rewrite (trace_over_cqueue n t sc Hn Ht); [apply A|apply B|apply C].
Qed.
Print Assumptions C09_restart_stages_once_at_time_cq.

(* non-vacuity: a queue of 3 buckets of width 2 on the example above (shutdown at 2, stale wake-up at 3, message to the
   down module at 4, restart at 7, the new task's timers at 10 and 20) *)
Example C09_nonvacuous_cq :
  run_script_cq 3 2 ex = run_script ex /\ length (trace_cq 3 2 ex) = length (trace ex) /\
  map e_time (trace_cq 3 2 ex) = map e_time (trace ex) /\ Nat.ltb 10 (length (trace_cq 3 2 ex)) = true.
Proof. vm_compute. repeat split; reflexivity. Qed.
