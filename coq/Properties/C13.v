(* C13 — A panicking module is contained, attributed and does not disturb other modules.
   The statements, each with the lemma of coq/Life that proves it (proved here: the witnesses, one arithmetic
   corollary, the transfer to the calendar queue); same model and trace as Properties/C09.v (coq/Life/Sim.v).  A callback
   panic of module m (handle_message, at_sim_start, at_sim_end) is the record [IPanic m 0 c]
   written just before the scripted panic!(), c being the module's on_panic_catch flag at that
   moment; Harness::exec / catch (unwind.rs) are modelled as: the rest of the callback and the
   yield are skipped, the module is deactivated, a PanicError is recorded unless the stereotype
   catches.  The stereotype is read when the panic is caught (after the callback), not before the
   callback: a callback may call set_stereotyp ([ASetCatch], record [ISetCatch m who b]) and
   panic afterwards, and the new value decides ([stereotype_in_force] below).  The scripted panic stands for an explicit panic!() and for a panic the library raises on the
   module's behalf inside the callback (schedule_at / send_at / shutdow_and_restart_at called with a time stamp in the past; coq/Life/Model.v
   decodes both to [APanic]).  Panics inside spawned tasks are caught
   by tokio and reported as JoinErrors by at_sim_end; they do not deactivate the module.
   Unwinding itself (that catch_unwind leaves tokio's and Rust's state intact) is not modelled. *)
From Coq Require Import List NArith Bool.
From DesVerif Require Import Life.ModelCq Life.CqInst Life.Model Life.Trace Life.Frame Life.Inert Life.Events Life.Panic Life.Silent Life.Term Life.Stereo Life.Errors Life.TearDown.
Import ListNotations.
Open Scope N_scope.

(* contained: [dead_after m pre]: in [pre] a callback of m panicked and m was not (re)started
   since.  A start-up stage or dispatched event that follows, unless it is a restart event of m (which
   exists only if m itself had requested shutdow_and_restart before it panicked), holds no record of
   m: no at_sim_start, no message handler, no wake-up, no task step, no send.  (Only the tear-down
   sweep still calls at_sim_end on m.) *)
Theorem C13_contained : forall sc m pre e post,
  trace sc = pre ++ e :: post -> dead_after m pre = true -> starts m e = false -> is_end e = false ->
  forallb (fun i => negb (of_mod m i)) (e_items e) = true.
Proof. exact contained. Qed.
Print Assumptions C13_contained.

(* errors_exact: the PanicError entries of the error returned by the run are exactly the callback
   panics [IPanic m 0 false], i.e. those caught while the module's stereotype does not catch, one per
   panic, in the order of the panics ([perrs], coq/Life/Panic.v); in particular the run returns Ok
   only if there is none *)
Theorem C13_errors_exact : forall sc,
  filter is_pe (r_err (run_script sc)) = perrs sc (items (trace sc)).
Proof. exact errors_exact. Qed.
Print Assumptions C13_errors_exact.

Theorem C13_ok_only_if_no_uncaught_panic : forall sc,
  r_err (run_script sc) = [] -> perrs sc (items (trace sc)) = [].
Proof. exact ok_only_if_no_uncaught_panic. Qed.
Print Assumptions C13_ok_only_if_no_uncaught_panic.

(* stereotype_in_force: the flag c of a panic record is the stereotype in force at that moment:
   the value of the last set_stereotyp of that module before the panic ([force]: the last
   [ISetCatch m _ b] record in the trace so far, in the panicking callback itself or any time
   earlier, shutdown / restart notwithstanding), else the configured one.  With errors_exact: a
   panic is reported iff the stereotype in force when it is caught does not catch.
   (A runtime that samples the stereotype before the callback violates this: seeded change
   stereotype_snapshot_before_callback.) *)
Theorem C13_stereotype_in_force : forall sc m l1 who c l2,
  items (trace sc) = l1 ++ IPanic m who c :: l2 -> c = force m (c_catch (cfg sc m)) l1.
Proof. exact stereotype_in_force. Qed.
Print Assumptions C13_stereotype_in_force.

(* only_catch_flag_matters.  A Stereotyp has five public flags; des reads on_panic_catch only (unwind.rs).  The scripts
   set all five -- bits 4..7 of a module's catch field for the initial stereotype, field a of the set_stereotyp actions
   (ops 8 / 9) at run time -- and the model never looks at the other four: a module's configuration depends on its catch
   field only through its low four bits (on_panic_catch and the join mask) and bit 8 (reset calls send), and the action decoded from a set_stereotyp
   quadruple does not depend on its field a.  So the run of the model -- trace and returned error -- is the same for all 16
   settings of the other four flags, initially and at every change; that the code behaves the same is what the
   differential runs over the full flag space check (seeded change stereotyp_bits_shift: a packed representation that
   lets on_panic_inform_parent land on the on_panic_catch bit). *)
Theorem C13_only_catch_flag_matters :
  (forall k ca ca' rest, ca mod 16 = ca' mod 16 -> N.testbit ca 8 = N.testbit ca' 8 -> dec_mod k (ca :: rest) = dec_mod k (ca' :: rest)) /\
  (forall k o a a' b c r, (o mod 20 =? 8) || (o mod 20 =? 9) = true -> quads k (o :: a :: b :: c :: r) = quads k (o :: a' :: b :: c :: r)).
Proof.
  split.
  - intros k ca ca' rest H H8. unfold dec_mod. cbn [nxt].
    assert (G1 : forall x, N.odd x = N.odd (x mod 16)).
    { intros x. rewrite (N.div_mod x 16) at 1 by discriminate. rewrite N.add_comm.
      replace (16 * (x / 16)) with (2 * (8 * (x / 16))) by (rewrite N.mul_assoc; reflexivity). apply N.odd_add_mul_2. }
    assert (G2 : forall x, (x / 2) mod 8 = (x mod 16) / 2).
    { intros x. rewrite (N.div_mod x 16) at 1 by discriminate.
      replace (16 * (x / 16) + x mod 16) with ((8 * (x / 16)) * 2 + x mod 16) by (rewrite <- N.mul_assoc, (N.mul_comm (x / 16) 2), N.mul_assoc; reflexivity).
      rewrite N.div_add_l by discriminate. rewrite N.add_comm, N.mul_comm, N.mod_add by discriminate.
      apply N.mod_small. apply N.div_lt_upper_bound; [discriminate|]. apply (N.mod_lt x 16). discriminate. }
    assert (E1 : N.odd ca = N.odd ca') by (rewrite (G1 ca), (G1 ca'), H; reflexivity).
    assert (E2 : (ca / 2) mod 8 = (ca' / 2) mod 8) by (rewrite !G2, H; reflexivity).
    rewrite E1, E2, H8. reflexivity.
  - intros k o a a' b c r H. cbn [quads]. apply orb_true_iff in H. destruct H as [H|H]; apply N.eqb_eq in H; rewrite H; reflexivity.
Qed.
Print Assumptions C13_only_catch_flag_matters.

(* globals_released: after every start-up step and every dispatched event -- panicking ones
   included -- the module-context slot (MOD_CTX) is empty and the event buffer (BUF_CTX.events)
   is drained; the context slot is empty after every module's at_sim_end as well *)
Theorem C13_globals_released : forall sc,
  (forall w tr, Gen sc w tr -> w_cur w = None /\ w_buf w = []) /\
  (forall now ms w, w_cur w = None -> w_cur (fst (end_seq sc now ms w)) = None).
Proof. intros sc. split; [exact (globals_released_gen sc)|intros now ms w; exact (end_seq_cur sc now ms w)]. Qed.
Print Assumptions C13_globals_released.

(* others_as_if_silent.  [quieten m sc] is the script in which module m's callbacks (handle_message,
   at_sim_start, at_sim_end) "fall silent" wherever those of [sc] panic: they return normally, request
   shutdown() unless a request is already pending, and the tasks polled in that event end at once.
   [events_of] drops the tear-down records; [others m] keeps, in order, every record of every module
   other than m (callbacks with their time stamps, task steps, sends, logs, requests, resets).  These
   are the same in the two runs, for every script and every module m: no other module can tell
   whether m panicked or merely fell silent -- whichever callbacks of m panic, however often (m may
   have requested a restart before panicking and panic again later), whatever its stereotype and
   number of start-up stages, and whatever m's left-over wake-ups do to the event set.
   (False of the code before 1526470 for every module with several start-up stages and before 9e87d89
   for catching ones: Refuted/C13.v, corpus/C13/multistage_panic.txt.)
   The tear-down records of the other modules: C13_others_teardown below. *)
Theorem C13_others_as_if_silent : forall sc m,
  others m (items (events_of (trace sc))) = others m (items (events_of (trace (quieten m sc)))).
Proof. intros sc m. apply (others_as_if_silent sc m); apply run_terminates. Qed.
Print Assumptions C13_others_as_if_silent.

(* others_teardown: the tear-down records of the other modules.  For every module j other than m the records of its
   at_sim_end (callback, the yield that follows, task steps, sends, logs, requests) are the same in the two runs once
   the time stamp of each call record is blanked ([rt]); [ends_of j] selects j's tear-down record.  The stamps themselves
   are the instant the simulation ends at, and that may differ: a dead module keeps its timer entries, so the time
   driver goes on scheduling wake-ups for it which the run in which it fell silent (and was reset) does not have.
   Proved with: when the event set has run empty no module has a pending timer or next_wakeup (Life/Wake.v), so
   activating a module for at_sim_end wakes nothing at either instant. *)
Theorem C13_others_teardown : forall sc m j, j <> m ->
  map rt (items (ends_of j (trace sc))) = map rt (items (ends_of j (trace (quieten m sc)))).
Proof. exact others_teardown. Qed.
Print Assumptions C13_others_teardown.

(* silent_ends_no_later: the run in which m falls silent does not end later than the one in which it panics: every
   tear-down record of the former is stamped no later than every tear-down record of the latter (all tear-down records
   of a run carry the instant its event loop ended at).  Proved with: nothing is scheduled into the past -- the event
   set's clock is the time of the last dispatched event, every queued event lies at or after it, timer queues are
   sorted (Life/Future.v) --, so the horizon of a run (the later of the clock and the latest queued event) never
   decreases and the run ends exactly at its final horizon; in the phase in which m is dead the silent run's horizon
   stays at or below the panicking run's: events of other modules add the same events to both, the dead m adds
   wake-ups only to the panicking run (in the silent run it was reset and has no timer left). *)
Theorem C13_silent_ends_no_later : forall sc m e e',
  In e (trace sc) -> In e' (trace (quieten m sc)) -> is_end e = true -> is_end e' = true -> e_time e' <= e_time e.
Proof. exact silent_ends_no_later. Qed.
Print Assumptions C13_silent_ends_no_later.

(* errors_exact_full: the complete error list run() returns, entry by entry.  Entries are (code, module): 0 PanicError,
   1 JoinError Paniced, 2 JoinError NotFinished, 3 JoinError Tokio(cancelled).  First the PanicErrors of the
   start-up phase and of the dispatched events, in the order of the panics ([body]: the trace without its tear-down
   records).  Then, module by module in tree order, what the module's at_sim_end contributes ([end_errs]): the
   PanicError of its at_sim_end callback if that panicked uncaught -- the join section is then skipped --, otherwise
   its join errors ([join_errs]): for every try_join handle, in the order the tasks were spawned over all
   incarnations ([spawned]: the module's [ISpawn] records), a Paniced entry if the task has panicked; then for every
   join handle, in that order, NotFinished if the task has not ended, Paniced if it panicked, Tokio if it was
   dropped with the tokio runtime of an earlier incarnation, nothing if it ran to completion.  What became of a task
   is its [ITaskEnd] record in the trace ([ended]; none: still running).  The tear-down goes on after an error, every
   module is asked.  ok_iff: run() returns Ok exactly if that list is empty. *)
Theorem C13_errors_exact_full : forall sc,
  r_err (run_script sc) = perrs sc (items (body (trace sc))) ++ flat_map (fun m => end_errs sc m (trace sc)) (mods sc).
Proof. exact errors_exact_full. Qed.
Print Assumptions C13_errors_exact_full.

Theorem C13_ok_iff : forall sc, r_err (run_script sc) = [] <->
  perrs sc (items (body (trace sc))) = [] /\ forall m, In m (mods sc) -> end_errs sc m (trace sc) = [].
Proof. exact ok_iff. Qed.
Print Assumptions C13_ok_iff.

(* Non-vacuity.  Module 0 panics in handle_message at t = 2; its two tasks (both join()ed, asleep until t = 3) are
   polled again only by the yield of its at_sim_end: one runs to completion, the other goes to sleep again and is
   reported NotFinished.  Module 1's try_join()ed task panics at t = 1.  Module 2 starts with the non-catching
   stereotype, switches to the catching one in at_sim_start and panics in that same callback. *)
Definition px_m0 : modcfg := {| c_catch := false; c_stages := 1; c_bud := 5; c_start := [[]];
  c_msg := [[ALog 1; APanic; ALog 2]; [ALog 3]]; c_tasks := [[ASleep 3; ALog 7]; [ASleep 3; ASleep 50; ALog 9]]; c_end := []; c_join := 3; c_rsend := false |}.
Definition px_m1 : modcfg := {| c_catch := false; c_stages := 1; c_bud := 5; c_start := [[]];
  c_msg := [[ALog 2]]; c_tasks := [[ASleep 1; APanic]]; c_end := []; c_join := 0; c_rsend := false |}.
Definition px_m2 : modcfg := {| c_catch := false; c_stages := 1; c_bud := 0; c_start := [[ASetCatch true; APanic]];
  c_msg := []; c_tasks := []; c_end := []; c_join := 0; c_rsend := false |}.
Definition px : script :=
  {| s_mods := [px_m0; px_m1; px_m2];
     s_inj := [(2, InjDeliver 0 0); (4, InjDeliver 0 1); (4, InjDeliver 1 0)] |}.

Example C13_nonvacuous :
  let tr := trace px in
  (* the panicking event: the rest of the handler is skipped, the module is inactive afterwards *)
  e_items (nth 5 tr (boot_rec px (init_world px))) = [ICall 0 (CbMsg 0) 2 true; ILog 0 0 1; IPanic 0 0 false; ISample 2 2] /\
  dead_after 0 (firstn 6 tr) = true /\
  (* its tasks' wake-up and a further message produce nothing; module 1 is served as usual *)
  map (fun e => (e_kind e, e_items e)) (firstn 3 (skipn 6 tr)) =
    [(KLoop (EvWake 0), [ISample 3 2]); (KLoop (EvDeliver 0 1), [ISample 4 2]);
     (KLoop (EvDeliver 1 0), [ICall 1 (CbMsg 0) 4 true; ILog 1 0 2; ISample 4 2])] /\
  e_items (nth 2 tr (boot_rec px (init_world px))) = [ICall 2 (CbStart 0) 0 true; ISetCatch 2 0 true; IPanic 2 0 true] /\
  (* the returned error: the uncaught callback panic, then module 0's unfinished join()ed task, then module 1's panicked task *)
  r_err (run_script px) = [(0, 0); (2, 0); (1, 1)] /\ perrs px (items tr) = [(0, 0)] /\
  map (fun m => end_errs px m tr) (mods px) = [[(2, 0)]; [(1, 1)]; []] /\
  (* module 1 sees the same in the run where module 0 falls silent instead (it is then reset and its tasks cancelled) *)
  others 0 (items (events_of tr)) = others 0 (items (events_of (trace (quieten 0 px)))) /\
  others 0 (items (events_of tr)) <> [] /\
  e_items (nth 5 (trace (quieten 0 px)) (boot_rec px (init_world px))) =
    [ICall 0 (CbMsg 0) 2 true; ILog 0 0 1; IQuiet 0; ICancel 0 0; ICancel 0 1; ITaskEnd 0 0 0 2; ITaskEnd 0 1 0 2; IReset 0 2 1; ISample 2 2] /\
  r_err (run_script (quieten 0 px)) = [(3, 0); (3, 0); (1, 1)].
Proof. vm_compute. repeat split; try reflexivity; discriminate. Qed.

(* Non-vacuity of others_teardown / silent_ends_no_later: the two runs end at different instants.  Module 0 has two
   sleeping tasks (deadlines 3 and 20) when it panics at t = 2.  Falling silent, it is reset and the run ends with
   the stale wake-up at 3; panicking, it keeps its timer entries and the time driver schedules a further wake-up for the
   second deadline: the run ends at 20.  Module 1's at_sim_end (a log and a send) is the same up to the time stamp. *)
Definition pt_m0 : modcfg := {| c_catch := false; c_stages := 1; c_bud := 5; c_start := [[]];
  c_msg := [[ALog 1; APanic]]; c_tasks := [[ASleep 3; ALog 7]; [ASleep 20; ALog 8]]; c_end := []; c_join := 0; c_rsend := false |}.
Definition pt_m1 : modcfg := {| c_catch := false; c_stages := 1; c_bud := 5; c_start := [[]];
  c_msg := [[ALog 2]]; c_tasks := [[ASleep 1; ALog 4]]; c_end := [ALog 30; ASend false 0 1]; c_join := 1; c_rsend := false |}.
Definition pt : script := {| s_mods := [pt_m0; pt_m1]; s_inj := [(2, InjDeliver 0 0)] |}.

Example C13_end_times_differ :
  map (fun e => (e_kind e, e_time e)) (skipn 5 (trace pt)) =
    [(KLoop (EvWake 0), 3); (KLoop (EvWake 0), 20); (KEnd 0, 20); (KEnd 1, 20)] /\
  map (fun e => (e_kind e, e_time e)) (skipn 5 (trace (quieten 0 pt))) =
    [(KLoop (EvWake 0), 3); (KEnd 0, 3); (KEnd 1, 3)] /\
  items (ends_of 1 (trace pt)) = [ICall 1 CbEnd 20 true; ILog 1 0 30; ISend 1 0 false 0 1] /\
  items (ends_of 1 (trace (quieten 0 pt))) = [ICall 1 CbEnd 3 true; ILog 1 0 30; ISend 1 0 false 0 1] /\
  map rt (items (ends_of 1 (trace pt))) = map rt (items (ends_of 1 (trace (quieten 0 pt)))).
Proof. vm_compute. repeat split; reflexivity. Qed.


(* ---- composition with C01: the same clauses for the run over the calendar queue ----
   [run_script_cq n t] (coq/Life/ModelCq.v) is the event loop of the model over des-cqueue's calendar queue with n buckets
   of width t instead of the specification event set; Properties/C09.v [C09_run_script_over_cqueue] (Life/CqSim.v,
   Life/CqInst.v, through the refinement relation R of C01) proves that it returns what [run_script] returns. *)
Theorem C13_others_as_if_silent_cq : forall n t sc m, n <> 0 -> t <> 0 ->
  others m (items (events_of (trace_cq n t sc))) = others m (items (events_of (trace_cq n t (quieten m sc)))).
Proof. intros n t sc m Hn Ht. rewrite !trace_over_cqueue by assumption. apply C13_others_as_if_silent. Qed.
Print Assumptions C13_others_as_if_silent_cq.

Theorem C13_others_teardown_cq : forall n t sc m j, n <> 0 -> t <> 0 -> j <> m ->
  map rt (items (ends_of j (trace_cq n t sc))) = map rt (items (ends_of j (trace_cq n t (quieten m sc)))).
Proof. intros n t sc m j Hn Ht. rewrite !trace_over_cqueue by assumption. apply others_teardown. Qed.
Print Assumptions C13_others_teardown_cq.

Theorem C13_silent_ends_no_later_cq : forall n t sc m e e', n <> 0 -> t <> 0 ->
  In e (trace_cq n t sc) -> In e' (trace_cq n t (quieten m sc)) -> is_end e = true -> is_end e' = true -> e_time e' <= e_time e.
Proof. intros n t sc m e e' Hn Ht. rewrite !trace_over_cqueue by assumption. apply silent_ends_no_later. Qed.
Print Assumptions C13_silent_ends_no_later_cq.

Theorem C13_errors_exact_full_cq : forall n t sc, n <> 0 -> t <> 0 ->
  r_err (run_script_cq n t sc) =
  perrs sc (items (body (trace_cq n t sc))) ++ flat_map (fun m => end_errs sc m (trace_cq n t sc)) (mods sc).
Proof. intros n t sc Hn Ht. unfold trace_cq. rewrite run_script_over_cqueue by assumption. apply errors_exact_full. Qed.
Print Assumptions C13_errors_exact_full_cq.

Theorem C13_ok_iff_cq : forall n t sc, n <> 0 -> t <> 0 -> (r_err (run_script_cq n t sc) = [] <->
  perrs sc (items (body (trace_cq n t sc))) = [] /\ forall m, In m (mods sc) -> end_errs sc m (trace_cq n t sc) = []).
Proof. intros n t sc Hn Ht. unfold trace_cq. rewrite run_script_over_cqueue by assumption. apply ok_iff. Qed.
Print Assumptions C13_ok_iff_cq.

(* non-vacuity: the two examples above over a queue of 4 buckets of width 3; the dead module's wake-up at 20 is fetched
   from the calendar queue as well *)
Example C13_nonvacuous_cq :
  run_script_cq 4 3 px = run_script px /\ r_err (run_script_cq 4 3 px) = [(0, 0); (2, 0); (1, 1)] /\
  map (fun e => (e_kind e, e_time e)) (skipn 5 (trace_cq 4 3 pt)) =
    [(KLoop (EvWake 0), 3); (KLoop (EvWake 0), 20); (KEnd 0, 20); (KEnd 1, 20)] /\
  map (fun e => (e_kind e, e_time e)) (skipn 5 (trace_cq 4 3 (quieten 0 pt))) =
    [(KLoop (EvWake 0), 3); (KEnd 0, 3); (KEnd 1, 3)].
Proof. vm_compute. repeat split; reflexivity. Qed.
