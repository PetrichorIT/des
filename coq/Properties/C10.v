(* C10 — Stepping a simulation is indistinguishable from running it uninterrupted.
   The statements, each proved in a few lines from the lemmas of the directories it imports.  Model: coq/Runtime/Model.v, [repaired] variant
   (dispatch_event decides the limit on a peek of the next timestamp; the event
   set's clock starts at the start time).  [boot S B L pre] = Builder::build
   (start time S, configured limit L) + the pre-run add_event calls;
   [exec_sched repaired P s ops] runs a step schedule (SN k =
   dispatch_n_events(k), SUntil T = dispatch_events_until(T), SAdd t l =
   add_event while paused) and returns the paused state; [rest_of P s] is the
   sequence of (label, time) the runtime would still dispatch from [s] if it
   ran to the end without a limit.

   Scope (DESIGN.md 6/C10): the step functions swap the configured limit out,
   so "n events or all that remain" and "same as an uninterrupted run" are
   stated for a runtime built without a limit; the swap itself is
   C10_step_ignores_configured_limit, and the per-step theorems hold for every
   configured limit. *)
From Coq Require Import List NArith Bool Sorting.Sorted Permutation.
From DesVerif Require Import CQueue.Spec Runtime.Limit Runtime.Model Runtime.Queue Runtime.Inv Runtime.Prefix
  Runtime.Step Runtime.OverSpec Runtime.ModelCq Runtime.Compose Runtime.ComposeProps Runtime.Generic Runtime.EvSet
  Runtime.GenericProps Runtime.GenericPrefix Runtime.GenericStep Runtime.EvRuntime Runtime.Instances Runtime.HeapSet
  Runtime.HeapRt Runtime.HeapSetProps.
Import ListNotations.
Open Scope N_scope.

(* For every program and every schedule of dispatch_n_events /
   dispatch_events_until steps (cuts inside groups of equal timestamps
   included): the schedule, then dispatch_all, ends in exactly the state in
   which the uninterrupted dispatch_all ends -- same log (events, order,
   times), same pending set, clock, counters, recorded adds.  All loops
   terminate. *)
Theorem C10_stepped_log_eq_run_log :
  forall (P : prog) (S B : N) (pre : list (N * N)) (ops : list sop),
  forallb is_dispatch ops = true ->
  exists s1 xs u,
    exec_sched repaired P (boot S B LNone pre) ops = (Some s1, xs) /\
    dispatch_all repaired P s1 = Some u /\
    dispatch_all repaired P (boot S B LNone pre) = Some u.
Proof. exact stepped_eq_run. Qed.
Print Assumptions C10_stepped_log_eq_run_log.

(* the same on the printed records of a script: the stepped block ends with the
   final record (event_count, end time, log, adds, remaining) of run() *)
Theorem C10_stepped_block_eq_run_block :
  forall (sc : script) (sched : list sop),
  forallb is_dispatch sched = true ->
  exists o0 o1 u,
    run_block repaired sc LNone [] = o0 ++ [finish u] /\
    run_block repaired sc LNone sched = o0 ++ o1 ++ [finish u].
Proof. exact stepped_block_eq_run_block. Qed.
Print Assumptions C10_stepped_block_eq_run_block.

(* dispatch_n_events / dispatch_events_until behave the same whatever limit
   the runtime was configured with (it is swapped out and back) *)
Theorem C10_step_ignores_configured_limit :
  forall (P : prog) (s : rt) (L : lim),
  (forall k, dispatch_n_events repaired P (set_limit s L) k =
             option_map (fun s' => set_limit s' L) (dispatch_n_events repaired P s k)) /\
  (forall T, dispatch_events_until repaired P (set_limit s L) T =
             option_map (fun s' => set_limit s' L) (dispatch_events_until repaired P s T)).
Proof. intros P s L. split; intros x; apply step_ignores_configured_limit. Qed.
Print Assumptions C10_step_ignores_configured_limit.

(* In every paused state (any program, configured limit, schedule so far,
   external adds included): dispatch_n_events(k) dispatches exactly the next k
   events of the remaining run, or all of them if fewer remain. *)
Theorem C10_n_step_exact :
  forall (P : prog) (S B : N) (L : lim) (pre : list (N * N)) (ops : list sop) (s : rt) (xs : list sout) (k : N),
  exec_sched repaired P (boot S B L pre) ops = (Some s, xs) ->
  exists s' u,
    dispatch_n_events repaired P s k = Some s' /\
    dispatch_all repaired P (set_limit s LNone) = Some u /\ log u = log s ++ rest_of P s /\
    log s' = log s ++ firstn (N.to_nat k) (rest_of P s) /\
    itr s' = itr s + N.min k (N.of_nat (length (rest_of P s))).
Proof.
  intros P S B L pre ops s xs k H. destruct (paused P S B L pre ops s xs H) as [_ [_ [_ [_ [_ [_ [[u [Hu Hl]] [Hk _]]]]]]]].
  destruct (Hk k) as [s' [E1 E2]]. exists s', u. split; [exact E1|]. split; [exact Hu|]. split; [exact Hl|exact E2].
Qed.
Print Assumptions C10_n_step_exact.

(* dispatch_events_until(T) dispatches exactly the events of the remaining run
   with timestamp <= T (the remaining run is time-ordered) *)
Theorem C10_until_step_exact :
  forall (P : prog) (S B : N) (L : lim) (pre : list (N * N)) (ops : list sop) (s : rt) (xs : list sout) (T : N),
  exec_sched repaired P (boot S B L pre) ops = (Some s, xs) ->
  exists s',
    dispatch_events_until repaired P s T = Some s' /\
    log s' = log s ++ filter (fun e => snd e <=? T) (rest_of P s) /\
    StronglySorted N.le (map snd (rest_of P s)).
Proof.
  intros P S B L pre ops s xs T H. destruct (paused P S B L pre ops s xs H) as [_ [_ [_ [_ [_ [Hs [_ [_ HT]]]]]]]].
  destruct (HT T) as [s' [E1 E2]]. exists s'. split; [exact E1|]. split; [exact E2|exact Hs].
Qed.
Print Assumptions C10_until_step_exact.

(* While paused: sim_time is the time of the last dispatched event (the start
   time before the first), num_events_dispatched the number of handled events,
   num_events_remaining the number of undelivered events, and these are
   exactly the scheduled-but-unhandled events. *)
Theorem C10_paused_state :
  forall (P : prog) (S B : N) (L : lim) (pre : list (N * N)) (ops : list sop) (s : rt) (xs : list sout),
  exec_sched repaired P (boot S B L pre) ops = (Some s, xs) ->
  status s = OStatus (N.of_nat (length (log s))) (N.of_nat (length (pend (fes s))))
                     (last (map snd (log s)) S) (N.of_nat (length (adds s))) /\
  Permutation (accepted (adds s)) (handled (log s) ++ pend (fes s)).
Proof. intros P S B L pre ops s xs H. destruct (paused P S B L pre ops s xs H) as [H1 [H2 _]]. split; assumption. Qed.
Print Assumptions C10_paused_state.

(* While paused, add_event(t) is accepted iff t is not earlier than the
   reported time; a rejected call leaves the event set untouched. *)
Theorem C10_paused_add_ok_iff :
  forall (P : prog) (S B : N) (L : lim) (pre : list (N * N)) (ops : list sop) (s : rt) (xs : list sout) (t l : N),
  exec_sched repaired P (boot S B L pre) ops = (Some s, xs) ->
  step repaired P s (SAdd t l) = (Some (add_event false s t l), OAddRes (clock s <=? t)) /\
  (t < clock s -> fes (add_event false s t l) = fes s) /\
  (clock s <= t -> Permutation (pend (fes (add_event false s t l))) ((t, l) :: pend (fes s))).
Proof.
  intros P S B L pre ops s xs t l H. destruct (paused P S B L pre ops s xs H) as [_ [_ [H3 [H4 [H5 _]]]]].
  split; [apply H4|]. split; [apply H5|]. intros Hle. unfold add_event. cbn [fes]. apply sp_add_ok. rewrite H3. exact Hle.
Qed.
Print Assumptions C10_paused_add_ok_iff.

(* Non-vacuity.  (1) three events at time 0 whose first handler adds a
   zero-delay follow-up: cutting after one event, then inside the tie group
   again, gives the uninterrupted order.  (2) events at 1 and 10, paused at 1 by
   dispatch_events_until(2): an event added at 5 is accepted and runs in time
   order. *)
Example C10_nonvacuous :
  let P := [[(0, 0, 5)]] in
  let pre := [(0, 0); (0, 1); (0, 2)] in
  (option_map log (dispatch_all repaired P (boot 0 10 LNone pre)) = Some [(0, 0); (1, 0); (2, 0); (5, 0)] /\
   match exec_sched repaired P (boot 0 10 LNone pre) [SN 1; SN 1; SUntil 0] with
   | (Some s1, xs) => option_map log (dispatch_all repaired P s1) = Some [(0, 0); (1, 0); (2, 0); (5, 0)] /\
                      xs = [OStatus 1 3 0 4; OStatus 2 2 0 4; OStatus 4 0 0 4]
   | _ => False
   end) /\
  match exec_sched repaired [] (boot 0 0 LNone [(1, 7); (10, 8)]) [SUntil 2; SAdd 5 9; SAdd 0 9] with
  | (Some s1, xs) => xs = [OStatus 1 1 1 2; OAddRes true; OAddRes false] /\
                     option_map log (dispatch_all repaired [] s1) = Some [(7, 1); (9, 5); (8, 10)]
  | _ => False
  end.
Proof. vm_compute. repeat split. Qed.

(* ---------------------------------------------------------------------------
   The runtime over the CALENDAR QUEUE.  Runtime/ModelCq.v is the
   runtime model threading the concrete queue state of des-cqueue (cq_new_at n t
   start, add, peek_time, fetch_next, len) for the parameters n, t of
   Builder::cqueue_options; Runtime/Compose.v proves by forward simulation
   (queue part: the refinement relation of C01) that it prints exactly what the
   model over the specification prints.  [run_gen_cq repaired] is what the
   extracted runner executes in the differential check.  Over ModelCq.v the
   stepped and the uninterrupted run are stated to end with the same final
   record and the same log (not, as above, in the same state), and the paused
   state is one theorem. *)
Theorem C10_run_over_cqueue_eq_run_over_spec :
  (forall input : list N, run_gen_cq repaired input = run_gen repaired input) /\
  (forall (n t : N) (sc : script), n <> 0 -> t <> 0 -> crun_script repaired n t sc = run_script repaired sc).
Proof. split; [exact run_over_cqueue_eq_run_over_spec|exact run_script_over_cqueue]. Qed.
Print Assumptions C10_run_over_cqueue_eq_run_over_spec.

Theorem C10_stepped_log_eq_run_log_cq :
  forall (n t : N) (P : prog) (S B : N) (pre : list (N * N)) (ops : list sop), n <> 0 -> t <> 0 ->
  forallb is_dispatch ops = true ->
  exists c1 xs cf u,
    cexec_sched repaired P (cboot n t S B LNone pre) ops = (Some c1, xs) /\
    cdispatch_all repaired P c1 = Some cf /\
    cdispatch_all repaired P (cboot n t S B LNone pre) = Some u /\
    cfinish cf = cfinish u /\ clog cf = clog u.
Proof. exact stepped_eq_run_cq. Qed.
Print Assumptions C10_stepped_log_eq_run_log_cq.

Theorem C10_stepped_block_eq_run_block_cq :
  forall (n t : N) (sc : script) (sched : list sop), n <> 0 -> t <> 0 ->
  forallb is_dispatch sched = true ->
  exists o0 o1 u,
    crun_block repaired n t sc LNone [] = o0 ++ [finish u] /\
    crun_block repaired n t sc LNone sched = o0 ++ o1 ++ [finish u].
Proof.
  intros n t sc sched Hn Ht. rewrite !run_block_over_cqueue by assumption. exact (C10_stepped_block_eq_run_block sc sched).
Qed.
Print Assumptions C10_stepped_block_eq_run_block_cq.

(* every paused state of the runtime over the calendar queue (any configured
   limit, any schedule so far): the reported values, the queue's own clock
   equals sim_time, add_event is accepted iff t >= sim_time, dispatch_n_events(k)
   dispatches exactly the next k events of the remaining run (or all),
   dispatch_events_until(T) exactly those with timestamp <= T *)
Theorem C10_paused_cq :
  forall (n t : N) (P : prog) (S B : N) (L : lim) (pre : list (N * N)) (ops : list sop) (c : rtc) (xs : list sout),
  n <> 0 -> t <> 0 ->
  cexec_sched repaired P (cboot n t S B L pre) ops = (Some c, xs) ->
  cstatus c = OStatus (N.of_nat (length (clog c))) (N.of_nat (length (cremaining (cfes c))))
                      (last (map snd (clog c)) S) (N.of_nat (length (cadds c))) /\
  Permutation (accepted (cadds c)) (handled (clog c) ++ cremaining (cfes c)) /\
  CQueue.Model.tcur (cfes c) = cclock c /\
  (forall tm l, cstep repaired P c (SAdd tm l) = (Some (cadd_event false c tm l), OAddRes (cclock c <=? tm))) /\
  (forall k, exists c' u,
     cdispatch_n_events repaired P c k = Some c' /\ cdispatch_all repaired P (cset_limit c LNone) = Some u /\
     clog c' = clog c ++ firstn (N.to_nat k) (skipn (length (clog c)) (clog u))) /\
  (forall T, exists c' u,
     cdispatch_events_until repaired P c T = Some c' /\ cdispatch_all repaired P (cset_limit c LNone) = Some u /\
     clog c' = clog c ++ filter (fun e => snd e <=? T) (skipn (length (clog c)) (clog u))).
Proof. exact paused_cq. Qed.
Print Assumptions C10_paused_cq.

Example C10_nonvacuous_cq :
  match cexec_sched repaired [[(0, 0, 5)]] (cboot 3 2 0 10 LNone [(0, 0); (0, 1); (0, 2)]) [SN 1; SN 1; SUntil 0] with
  | (Some c1, xs) => option_map clog (cdispatch_all repaired [[(0, 0, 5)]] c1) = Some [(0, 0); (1, 0); (2, 0); (5, 0)] /\
                     xs = [OStatus 1 3 0 4; OStatus 2 2 0 4; OStatus 4 0 0 4]
  | _ => False
  end.
Proof. vm_compute. split; reflexivity. Qed.


(* ===========================================================================
   C10 for the runtime over ANY future event set [E : evset]
   (coq/Runtime/EvSet.v; runtime: coq/Runtime/Generic.v / EvRuntime.v; proofs:
   coq/Runtime/GenericStep.v), hence for the specification, the calendar queue
   (every n, t >= 1) and the BinaryHeap backend (every oracle).
   Two things make "stepped = uninterrupted" a theorem even for a backend whose
   order among equal timestamps is unspecified: (1) peek_time cannot change the
   event set -- in the interface it returns no state (the seventh interface
   fact; peek_time of both real backends takes &self) -- so a paused
   runtime holds exactly the event set the uninterrupted run holds at that
   point; (2) the oracle [orc] is asked with the dispatch number and the
   candidates, so the two runs put the same question when they dispatch the same
   event, which is how a deterministic heap behaves: its answer is a function of
   its push/pop history, and that history is the same in both runs. *)

Theorem C10_any_event_set_stepped_log_eq_run_log :
  forall (E : evset) (orc : N -> eHint E) (P : prog) (S B : N) (pre : list (N * N)) (ops : list sop),
  forallb is_dispatch ops = true ->
  exists s1 xs u,
    ev_exec_sched E orc P (ev_boot E S B LNone pre) ops = (Some s1, xs) /\
    ev_dispatch_all E orc P s1 = Some u /\
    ev_dispatch_all E orc P (ev_boot E S B LNone pre) = Some u.
Proof. exact g_stepped_eq_run. Qed.
Print Assumptions C10_any_event_set_stepped_log_eq_run_log.

Theorem C10_any_event_set_stepped_block_eq_run_block :
  forall (E : evset) (orc : N -> eHint E) (sc : script) (sched : list sop),
  forallb is_dispatch sched = true ->
  exists o0 o1 u,
    ev_run_block E orc sc LNone [] = o0 ++ [ev_finish E orc u] /\
    ev_run_block E orc sc LNone sched = o0 ++ o1 ++ [ev_finish E orc u].
Proof. exact g_stepped_block. Qed.
Print Assumptions C10_any_event_set_stepped_block_eq_run_block.

Theorem C10_any_event_set_step_ignores_configured_limit :
  forall (E : evset) (orc : N -> eHint E) (P : prog) (L' L : lim) (s : ev_rt E),
  ev_with_limit E orc P L' (ev_set_limit E s L) = option_map (fun s' => ev_set_limit E s' L) (ev_with_limit E orc P L' s).
Proof. exact g_step_ignores_configured_limit. Qed.
Print Assumptions C10_any_event_set_step_ignores_configured_limit.

(* every paused state (any program, configured limit, schedule so far, external adds included): the reported
   values; add_event accepted iff t >= sim_time, a rejected one changes nothing; the remaining run is
   time-ordered; dispatch_n_events(k) dispatches exactly its next k events (or all), dispatch_events_until(T)
   exactly those with timestamp <= T *)
Theorem C10_any_event_set_paused :
  forall (E : evset) (orc : N -> eHint E) (P : prog) (S B : N) (L : lim) (pre : list (N * N)) (ops : list sop)
         (s : ev_rt E) (xs : list sout),
  ev_exec_sched E orc P (ev_boot E S B L pre) ops = (Some s, xs) ->
  ev_status E s = OStatus (N.of_nat (length (ev_log E s))) (N.of_nat (length (ev_remaining E orc s)))
                          (last (map snd (ev_log E s)) S) (N.of_nat (length (ev_adds E s))) /\
  Permutation (accepted (ev_adds E s)) (handled (ev_log E s) ++ ev_remaining E orc s) /\
  e_clock E (ev_fes E s) = ev_clock E s /\
  (forall tm l, ev_step E orc P s (SAdd tm l) = (Some (ev_add E false s tm l), OAddRes (ev_clock E s <=? tm))) /\
  (forall tm l, tm < ev_clock E s -> ev_fes E (ev_add E false s tm l) = ev_fes E s) /\
  StronglySorted N.le (map snd (ev_rest E orc P s)) /\
  (exists u, ev_dispatch_all E orc P (ev_set_limit E s LNone) = Some u /\ ev_log E u = ev_log E s ++ ev_rest E orc P s) /\
  (forall k, exists s', ev_dispatch_n_events E orc P s k = Some s' /\
                        ev_log E s' = ev_log E s ++ firstn (N.to_nat k) (ev_rest E orc P s) /\
                        ev_itr E s' = ev_itr E s + N.min k (N.of_nat (length (ev_rest E orc P s)))) /\
  (forall T, exists s', ev_dispatch_events_until E orc P s T = Some s' /\
                        ev_log E s' = ev_log E s ++ filter (fun e => snd e <=? T) (ev_rest E orc P s)).
Proof. exact g_paused. Qed.
Print Assumptions C10_any_event_set_paused.

(* ---- instances ---- *)
Theorem C10_stepped_log_eq_run_log_over_spec_event_set :
  forall (P : prog) (S B : N) (pre : list (N * N)) (ops : list sop),
  forallb is_dispatch ops = true ->
  exists s1 xs u,
    ev_exec_sched spec_evset (fun _ => tt) P (ev_boot spec_evset S B LNone pre) ops = (Some s1, xs) /\
    ev_dispatch_all spec_evset (fun _ => tt) P s1 = Some u /\
    ev_dispatch_all spec_evset (fun _ => tt) P (ev_boot spec_evset S B LNone pre) = Some u.
Proof. exact (g_stepped_eq_run spec_evset (fun _ => tt)). Qed.
Print Assumptions C10_stepped_log_eq_run_log_over_spec_event_set.

Theorem C10_stepped_log_eq_run_log_over_calendar_queue_event_set :
  forall (n t : N) (Hn : n <> 0) (Ht : t <> 0) (P : prog) (S B : N) (pre : list (N * N)) (ops : list sop),
  let E := cq_evset n t Hn Ht in
  forallb is_dispatch ops = true ->
  exists s1 xs u,
    ev_exec_sched E (fun _ => tt) P (ev_boot E S B LNone pre) ops = (Some s1, xs) /\
    ev_dispatch_all E (fun _ => tt) P s1 = Some u /\
    ev_dispatch_all E (fun _ => tt) P (ev_boot E S B LNone pre) = Some u.
Proof. intros n t Hn Ht. exact (g_stepped_eq_run (cq_evset n t Hn Ht) (fun _ => tt)). Qed.
Print Assumptions C10_stepped_log_eq_run_log_over_calendar_queue_event_set.

(* the BinaryHeap backend, EVERY oracle (functions of coq/Runtime/HeapRt.v) *)
Theorem C10_stepped_log_eq_run_log_heap :
  forall (orc : N -> hint) (P : prog) (S B : N) (pre : list (N * N)) (ops : list sop),
  forallb is_dispatch ops = true ->
  exists s1 xs u,
    hexec_sched orc P (hboot S B LNone pre) ops = (Some s1, xs) /\
    hdispatch_all orc P s1 = Some u /\
    hdispatch_all orc P (hboot S B LNone pre) = Some u.
Proof. exact (g_stepped_eq_run heap_evset). Qed.
Print Assumptions C10_stepped_log_eq_run_log_heap.

Theorem C10_stepped_block_eq_run_block_heap :
  forall (orc : N -> hint) (sc : script) (sched : list sop),
  forallb is_dispatch sched = true ->
  exists o0 o1 u,
    fst (hrun_block orc sc LNone []) = o0 ++ [gfinish hs hint hp_fetch hp_len orc u] /\
    fst (hrun_block orc sc LNone sched) = o0 ++ o1 ++ [gfinish hs hint hp_fetch hp_len orc u].
Proof. exact (g_stepped_block heap_evset). Qed.
Print Assumptions C10_stepped_block_eq_run_block_heap.

Theorem C10_step_ignores_configured_limit_heap :
  forall (orc : N -> hint) (P : prog) (L' L : lim) (s : hrt),
  gwith_limit hs hint hp_add hp_peek hp_fetch hp_len orc P L' (gset_limit hs s L) =
  option_map (fun s' => gset_limit hs s' L) (gwith_limit hs hint hp_add hp_peek hp_fetch hp_len orc P L' s).
Proof. exact (g_step_ignores_configured_limit heap_evset). Qed.
Print Assumptions C10_step_ignores_configured_limit_heap.

(* C10_n_step_exact, C10_until_step_exact, C10_paused_state, C10_paused_add_ok_iff for the heap backend, in one statement *)
Theorem C10_paused_heap :
  forall (orc : N -> hint) (P : prog) (S B : N) (L : lim) (pre : list (N * N)) (ops : list sop) (s : hrt) (xs : list sout),
  hexec_sched orc P (hboot S B L pre) ops = (Some s, xs) ->
  let rem := gremaining hs hint hp_fetch hp_len orc s in
  let rest := grest heap_evset orc P s in
  gstatus hs hp_len s = OStatus (N.of_nat (length (glog hs s))) (N.of_nat (length rem))
                                (last (map snd (glog hs s)) S) (N.of_nat (length (gadds hs s))) /\
  Permutation (accepted (gadds hs s)) (handled (glog hs s) ++ rem) /\
  hlast (gfes hs s) = gclock hs s /\
  (forall tm l, gstep hs hint hp_add hp_peek hp_fetch hp_len orc P s (SAdd tm l) =
                (Some (gadd_event hs hp_add false s tm l), OAddRes (gclock hs s <=? tm))) /\
  (forall tm l, tm < gclock hs s -> gfes hs (gadd_event hs hp_add false s tm l) = gfes hs s) /\
  StronglySorted N.le (map snd rest) /\
  (exists u, hdispatch_all orc P (gset_limit hs s LNone) = Some u /\ glog hs u = glog hs s ++ rest) /\
  (forall k, exists s', gdispatch_n_events hs hint hp_add hp_peek hp_fetch hp_len orc P s k = Some s' /\
                        glog hs s' = glog hs s ++ firstn (N.to_nat k) rest /\
                        gitr hs s' = gitr hs s + N.min k (N.of_nat (length rest))) /\
  (forall T, exists s', gdispatch_events_until hs hint hp_add hp_peek hp_fetch hp_len orc P s T = Some s' /\
                        glog hs s' = glog hs s ++ filter (fun e => snd e <=? T) rest).
Proof. exact (g_paused heap_evset). Qed.
Print Assumptions C10_paused_heap.

(* Non-vacuity over the heap backend, oracle "last candidate": three entries at time 7 in the heap; cutting after
   one event and again inside the tie group gives the order of the uninterrupted run (3, 2, 1 -- not the
   specification's 1, 2, 3), and an event added while paused at 7 goes first. *)
Example C10_nonvacuous_heap :
  let orc := fun (_ : N) (cs : list (N * N)) => pred (length cs) in
  let pre := [(7, 1); (7, 2); (7, 3); (9, 4)] in
  option_map (glog hs) (hdispatch_all orc [] (hboot 0 0 LNone pre)) = Some [(3, 7); (2, 7); (1, 7); (4, 9)] /\
  match hexec_sched orc [] (hboot 0 0 LNone pre) [SN 1; SUntil 7] with
  | (Some s1, xs) => xs = [OStatus 1 3 7 4; OStatus 3 1 7 4] /\
                     option_map (glog hs) (hdispatch_all orc [] s1) = Some [(3, 7); (2, 7); (1, 7); (4, 9)]
  | _ => False
  end /\
  match hexec_sched orc [] (hboot 0 0 LNone pre) [SN 1; SAdd 7 5; SAdd 6 5] with
  | (Some s1, xs) => xs = [OStatus 1 3 7 4; OAddRes true; OAddRes false] /\
                     option_map (glog hs) (hdispatch_all orc [] s1) = Some [(3, 7); (5, 7); (2, 7); (1, 7); (4, 9)]
  | _ => False
  end.
Proof. vm_compute. repeat split. Qed.
