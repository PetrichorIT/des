(* C08 — A message sent into a gate chain reaches the module at the far end.
   The statements, each proved in a few lines from the lemmas of the directories it imports.  The model is coq/Gate/Model.v (gate.rs connect / next_hop /
   PathIter, events.rs handle_with_sink, ctx.rs buf_send_at).  Every theorem is
   about [exec (init owners) ops] for ALL gate declarations [owners] and ALL
   operation lists [ops]: connect calls in any order and orientation, with or
   without channels, repeated, rejected (self-connect, third peer) — interleaved
   with queries.  [slot gs g i] is connection slot i of gate g, a [conn] is
   (peer gate, slot index used on the peer, channel latency?). *)
From Coq Require Import List NArith.
From DesVerif Require Import Gate.Model Gate.Sym Gate.Walk Gate.Mirror Gate.Deliver Gate.Spawn Gate.Queue.
Import ListNotations.
Open Scope N_scope.

(* Representation invariant (Sym, Fill, NoSelf, Distinct) in every reachable state. *)
Theorem C08_invariant_reachable : forall owners ops, Inv (sgates (fst (exec (init owners) ops))).
Proof. exact inv_reachable. Qed.
Print Assumptions C08_invariant_reachable.

(* Sym: if g.slot i = (h, j) then h.slot j = (g, i), with the same channel configuration. *)
Theorem C08_sym : forall owners ops g i c,
  let gs := sgates (fst (exec (init owners) ops)) in
  slot gs g i = Some c ->
  exists c', slot gs (endpoint c) (endpoint_id c) = Some c' /\
             endpoint c' = g /\ endpoint_id c' = i /\ channel c' = channel c.
Proof. intros owners ops. exact (inv_sym _ (inv_reachable owners ops)). Qed.
Print Assumptions C08_sym.

(* slot 1 is used only if slot 0 is *)
Theorem C08_fill_order : forall owners ops g,
  let gs := sgates (fst (exec (init owners) ops)) in
  slot gs g S1 <> None -> slot gs g S0 <> None.
Proof. intros owners ops. exact (inv_fill _ (inv_reachable owners ops)). Qed.
Print Assumptions C08_fill_order.

(* a gate never has more than two peers; they are distinct and never the gate itself *)
Theorem C08_degree_le_2 : forall owners ops g,
  let gs := sgates (fst (exec (init owners) ops)) in
  (length (peers gs g) <= 2)%nat /\ NoDup (peers gs g) /\ ~ In g (peers gs g).
Proof. intros owners ops g. apply degree_le_2, inv_reachable. Qed.
Print Assumptions C08_degree_le_2.

(* ... and an established connection is never overwritten by anything executed later *)
Theorem C08_slots_monotone : forall owners ops more g i c,
  slot (sgates (fst (exec (init owners) ops))) g i = Some c ->
  slot (sgates (fst (exec (init owners) (ops ++ more)))) g i = Some c.
Proof. intros owners ops more g i c H. rewrite exec_app. apply exec_mono; [apply inv_reachable|exact H]. Qed.
Print Assumptions C08_slots_monotone.

(* ... and a gate with two peers rejects a third, in either orientation, leaving the table unchanged *)
Theorem C08_third_peer_rejected : forall owners ops a b ch p q,
  let s := fst (exec (init owners) ops) in
  slot (sgates s) a S0 = Some p -> slot (sgates s) a S1 = Some q ->
  endpoint p <> b -> endpoint q <> b -> lookup (sgates s) b <> None ->
  (exists site, snd (connect s a b ch) = OPanic site) /\ sgates (fst (connect s a b ch)) = sgates s /\
  (exists site, snd (connect s b a ch) = OPanic site) /\ sgates (fst (connect s b a ch)) = sgates s.
Proof. intros owners ops a b ch p q s. apply third_peer_rejected, inv_reachable. Qed.
Print Assumptions C08_third_peer_rejected.

(* connecting is symmetric: a.connect(b) and b.connect(a) produce the same gate
   table (and, when no lock is poisoned by an earlier caught panic, the same
   answer); after a successful connect each gate lists the other *)
Theorem C08_connect_symmetric : forall owners ops a b ch,
  let s := fst (exec (init owners) ops) in
  (sgates (fst (connect s a b ch)) = sgates (fst (connect s b a ch)) /\
   (poisoned s = [] -> snd (connect s a b ch) = snd (connect s b a ch))) /\
  (snd (connect s a b ch) = OUnit ->
   connected (sgates (fst (connect s a b ch))) a b /\ connected (sgates (fst (connect s a b ch))) b a).
Proof. intros owners ops a b ch s. split; [apply connect_symmetric|apply connect_connected]; apply inv_reachable. Qed.
Print Assumptions C08_connect_symmetric.

(* ... and idempotent: repeating a successful connect, in either orientation and
   with any channel argument, returns without changing anything *)
Theorem C08_connect_idempotent : forall owners ops a b ch ch',
  let s := fst (exec (init owners) ops) in
  poisoned s = [] -> snd (connect s a b ch) = OUnit ->
  let s1 := fst (connect s a b ch) in
  connect s1 a b ch' = (s1, OUnit) /\ connect s1 b a ch' = (s1, OUnit).
Proof. intros owners ops a b ch ch' s. apply connect_idempotent, inv_reachable. Qed.
Print Assumptions C08_connect_idempotent.

(* the walk from a non-transit gate terminates within the fuel 2*|gates|+1:
   path_iter enumerates a path, a send never runs out of fuel, and no operation
   of any script reports fuel exhaustion *)
Theorem C08_walk_from_endpoint_terminates : forall owners ops,
  let gs := sgates (fst (exec (init owners) ops)) in
  (forall g x, lookup gs g = Some x -> kind_of x <> Transit ->
     (exists p, path_iter gs g = Some (Some p)) /\
     (forall h sender t, buf_send_at gs h sender g t <> SOutOfFuel)) /\
  ~ In OOutOfFuel (snd (exec (init owners) ops)).
Proof. intros owners ops gs. split; [intros g x; apply walk_terminates, inv_reachable|apply exec_no_fuel, init_inv]. Qed.
Print Assumptions C08_walk_from_endpoint_terminates.

(* walked from its other end, a chain enumerates as the exact mirror image:
   gates reversed (the far end replaced by the start), channels reversed *)
Theorem C08_mirror : forall owners ops g p,
  let gs := sgates (fst (exec (init owners) ops)) in
  path_iter gs g = Some (Some p) ->
  exists q, path_iter gs (last (map endpoint p) g) = Some (Some q) /\
            map endpoint q = tl (rev (g :: map endpoint p)) /\
            map channel q = rev (map channel p).
Proof. intros owners ops g p gs. apply mirror, inv_reachable. Qed.
Print Assumptions C08_mirror.

(* a message object carrying ANY header h (fresh, or stamped by an earlier leg)
   sent on a non-transit gate g at time t by module [sender] yields exactly one
   result: a delivery to the owner of the far end of g's chain, at t + sum of
   the per-hop channel delays, with header sender = the module that performed
   THIS send, receiver = the far owner, last_gate = the far-end gate *)
Theorem C08_delivered_once_to_far_owner : forall owners ops h sender g x t,
  let gs := sgates (fst (exec (init owners) ops)) in
  lookup gs g = Some x -> kind_of x <> Transit ->
  exists p, path_iter gs g = Some (Some p) /\
    let far := last (map endpoint p) g in
    buf_send_at gs h sender g t =
    SDelivered {| d_to := owner_of gs far; d_time := t + path_delay p;
                  d_sender := sender; d_receiver := owner_of gs far; d_last := far |}.
Proof. intros owners ops h sender g x t gs. apply delivered_once_to_far_owner, inv_reachable. Qed.
Print Assumptions C08_delivered_once_to_far_owner.

(* path_delay is the sum over the hops of (transmission time of the message at
   the hop's bitrate + the hop's latency): the delay of an idle channel.  Scope:
   each direction of a hop has its own channel instance; the statement covers
   runs in which the traffic of one direction of a hop does not overlap in time
   (no message meets a busy channel - busy/drop/queue is C07); opposite
   directions may overlap freely. *)
Theorem C08_path_delay_sum : forall p,
  path_delay p = fold_right N.add 0
    (map (fun c => match channel c with Some (lat, br) => tx br + lat | None => 0 end) p).
Proof. exact path_delay_sum. Qed.
Print Assumptions C08_path_delay_sum.

(* the other direction: sent on the far end, the message reaches g's owner after the same total delay *)
Theorem C08_both_directions : forall owners ops h sender g p t,
  let gs := sgates (fst (exec (init owners) ops)) in
  path_iter gs g = Some (Some p) ->
  let far := last (map endpoint p) g in
  buf_send_at gs h sender far t =
  SDelivered {| d_to := owner_of gs g; d_time := t + path_delay p;
                d_sender := sender; d_receiver := owner_of gs g; d_last := g |}.
Proof. intros owners ops h sender g p t gs. apply both_directions, inv_reachable. Qed.
Print Assumptions C08_both_directions.

(* relayed messages (the received object is sent on by the receiving module,
   echoed back or forwarded onto another chain, at most [b] times): the legs of
   one message form a chain in which every delivery names as sender the module
   that performed that leg's send (the first: [cur]; each later one: the module
   that received the previous leg), receiver = the module it was delivered to;
   there are between 1 and b+1 legs, and each leg is buf_send_at applied to the
   header the previous delivery left on the object *)
Theorem C08_relay_header_per_leg : forall b gs rules h cur g t leg,
  chain_ok cur (legs b gs rules h cur g t leg) /\
  (1 <= length (legs b gs rules h cur g t leg) <= b + 1)%nat /\
  legs b gs rules h cur g t leg =
  (leg, buf_send_at gs h cur g t) ::
  match buf_send_at gs h cur g t, b with
  | SDelivered d, S b' =>
      match find_rule rules (d_last d) with
      | Some (g', dl) => legs b' gs rules (hdr_of d) (d_to d) g' (d_time d + dl) (leg + 1)
      | None => []
      end
  | _, _ => []
  end.
Proof. intros. split; [apply legs_sender_chain|split; [apply legs_length|apply legs_unfold]]. Qed.
Print Assumptions C08_relay_header_per_leg.

(* whole scripts: the delivery log has exactly one entry (list of legs) per
   send, and the k-th send (owner of g calls send_at(fresh msg, g, t+d) at time
   t; d = 0 immediate, d > 0 delayed; relay budget b) on a gate that is not
   transit in the final table starts with the delivery described above, followed
   by at most b relay legs whose headers name their own senders *)
Theorem C08_script_deliveries : forall owners ops k g t d b x,
  let gs := sgates (fst (exec (init owners) ops)) in
  let rules := rules_of gs ops in
  nth_error (sends_of gs ops) k = Some (g, t, d, b) ->
  lookup gs g = Some x -> kind_of x <> Transit ->
  length (map (send_one gs rules) (sends_of gs ops)) = length (sends_of gs ops) /\
  exists p rest, path_iter gs g = Some (Some p) /\
    let far := last (map endpoint p) g in
    nth_error (map (send_one gs rules) (sends_of gs ops)) k =
    Some ((0, SDelivered {| d_to := owner_of gs far; d_time := t + d + path_delay p;
                            d_sender := owner_of gs g; d_receiver := owner_of gs far; d_last := far |}) :: rest) /\
    chain_ok (owner_of gs far) rest /\ (length rest <= N.to_nat b)%nat.
Proof. exact script_deliveries. Qed.
Print Assumptions C08_script_deliveries.

(* Gates created at run time through a spawner ([Spawn caller target size],
   executed inside at_sim_start by module [caller]): the j-th new gate gets the
   next free id and is owned by [target], the module the spawner is bound to -
   whoever executed the call and whatever is executed afterwards.  All theorems
   above are stated for every operation list, Spawn / RConnect included, so the
   receiver of a message is the owner so declared. *)
Theorem C08_spawned_gates_owner : forall owners ops caller target size more j,
  (j < N.to_nat size)%nat ->
  owner_of (sgates (fst (exec (init owners) (ops ++ Spawn caller target size :: more))))
           (N.of_nat (length (sgates (fst (exec (init owners) ops)))) + N.of_nat j) = target.
Proof. exact spawned_gates_owner. Qed.
Print Assumptions C08_spawned_gates_owner.

(* A message that waits in the queue of a busy Queue-policy channel continues
   on exactly the connection it was offered on: the buffer keeps (target gate,
   slot index on the target gate) of every offer, in FIFO order; after the wait
   send_message restores the channel handle, giving back the offered connection;
   and the gate / module a walk ends at does not depend on when it continues.
   (How long the message waits is C07's subject.) *)
Theorem C08_queue_preserves_connection : forall offers : list (N * conn),
  let b := enqueue_all [] offers in
  map (fun x => (fst x, (endpoint (snd x), endpoint_id (snd x)))) (dequeue_all (length b) b) =
  map (fun x => (fst x, (endpoint (snd x), endpoint_id (snd x)))) offers.
Proof. exact queue_preserves_connection. Qed.
Print Assumptions C08_queue_preserves_connection.

Theorem C08_queued_message_resumes_on_offered_connection : forall ch con m,
  channel con = Some ch ->
  (forall c' r, dequeue (enqueue [] m con) = Some ((m, c'), r) -> restore ch c' = con) /\
  (forall gs fuel now last_g o t l, handle_with_sink fuel gs con now last_g = Some (o, t, l) ->
     forall now', exists t', handle_with_sink fuel gs con now' last_g = Some (o, t', l)).
Proof.
  intros ch con m Hc. split; [exact (resume_same_connection ch con m Hc)|].
  intros gs fuel now last_g o t l. exact (hws_route_time_indep gs fuel con now last_g o t l).
Qed.
Print Assumptions C08_queued_message_resumes_on_offered_connection.

(* Non-vacuity (run-time wiring): module 0 creates gate g1 on itself and gate g2
   on module 1 through module 1's spawner, connects them at run time and sends:
   the message reaches module 1. *)
Example C08_nonvacuous_spawn :
  let ops := [Spawn 0 0 1; Spawn 0 1 1; RConnect 0 1 2 (Some (3, 0)); Send 1 5 0 0] in
  let r := exec (init [2]) ops in
  snd r = [OSpawn; OSpawn; OUnit; OSent] /\
  map (send_one (sgates (fst r)) (rules_of (sgates (fst r)) ops)) (sends_of (sgates (fst r)) ops) =
    [[(0, SDelivered {| d_to := 1; d_time := 8; d_sender := 0; d_receiver := 1; d_last := 2 |})]].
Proof. vm_compute. split; reflexivity. Qed.

(* Non-vacuity: a 3-hop chain g3 - g1 - g0 - g2 over modules 0,1,2,0 built
   middle-first with mixed orientation (so g1 and g0 hold their onward
   direction in slot 0 resp. slot 1), a 5 ns latency channel on g1-g0 and a zero-latency
   72 Gbit/s channel on g0-g2 (8 ns transmission time for the 72-byte message), a self-connect, a query on a transit gate and an echo rule at g2. *)
Example C08_nonvacuous :
  let ops := [Connect 0 1 (Some (5, 0)); Connect 2 0 (Some (0, 72000000000)); Connect 3 1 None; Connect 1 0 None; Connect 2 2 None;
              PathIter 3; PathIter 2; PathIter 0; Kind 1; NextGate 3; PathEnd 3; Send 3 10 0 0; Relay 2 2 1; Send 2 0 4 0; Send 3 0 0 2] in
  let r := exec (init [0; 1; 2; 0]) ops in
  snd r = [OUnit; OUnit; OUnit; OUnit; OPanic 1;
           OIter (Some [{| endpoint := 1; endpoint_id := S1; channel := None |};
                        {| endpoint := 0; endpoint_id := S0; channel := Some (5, 0) |};
                        {| endpoint := 2; endpoint_id := S0; channel := Some (0, 72000000000) |}]);
           OIter (Some [{| endpoint := 0; endpoint_id := S1; channel := Some (0, 72000000000) |};
                        {| endpoint := 1; endpoint_id := S0; channel := Some (5, 0) |};
                        {| endpoint := 3; endpoint_id := S0; channel := None |}]);
           OIter None; OKind Transit; ONext (Some 1); OEnd (Some 2); OSent; ORule; OSent; OSent] /\
  map (send_one (sgates (fst r)) (rules_of (sgates (fst r)) ops)) (sends_of (sgates (fst r)) ops) =
    [[(0, SDelivered {| d_to := 2; d_time := 23; d_sender := 0; d_receiver := 2; d_last := 2 |})];
     [(0, SDelivered {| d_to := 0; d_time := 17; d_sender := 2; d_receiver := 0; d_last := 3 |})];
     (* budget 2: m0 sends on g3, m2 echoes the received object back on g2 after 1 ns (sender = m2), no rule at g3 *)
     [(0, SDelivered {| d_to := 2; d_time := 13; d_sender := 0; d_receiver := 2; d_last := 2 |});
      (1, SDelivered {| d_to := 0; d_time := 27; d_sender := 2; d_receiver := 0; d_last := 3 |})]].
Proof. vm_compute. split; reflexivity. Qed.
