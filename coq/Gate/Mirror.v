(* A chain enumerates as the exact mirror image when walked from its other end. *)
From Coq Require Import List NArith Lia.
From DesVerif Require Import Gate.Model Gate.Map Gate.Sym Gate.Walk.
Import ListNotations.
Open Scope N_scope.

(* the same gate, entered through the other slot *)
Definition flip (s : st) : st := (fst s, opp (snd s)).
(* the connection stored on the far side of [c], when [c] was taken out of state [s] *)
Definition back (c : conn) (s : st) : conn :=
  {| endpoint := fst s; endpoint_id := opp (snd s); channel := channel c |}.

Fixpoint revconns (s : st) (p : list conn) : list conn :=
  match p with
  | [] => []
  | c :: p' => revconns (stc c) p' ++ [back c s]
  end.

Fixpoint last_st (s : st) (p : list conn) : st :=
  match p with
  | [] => s
  | c :: p' => last_st (stc c) p'
  end.

Lemma Walk_rev gs s p : Sym gs -> Walk gs s p ->
  forall q, Walk gs (flip s) q -> Walk gs (flip (last_st s p)) (revconns s p ++ q).
Proof.
  intros HS W. induction W as [s Hn|s c p Hc W IH]; intros q Hq; cbn [last_st revconns app]; [exact Hq|].
  rewrite <- app_assoc. cbn [app]. apply IH.
  destruct (HS _ _ _ Hc) as [d [D [A [B C]]]].
  assert (Ed : d = back c s).
  { destruct d as [de di dc]. cbn [endpoint endpoint_id channel] in A, B, C. unfold back. subst. reflexivity. }
  subst d. apply W_cons.
  - unfold flip, stc. cbn [fst snd]. rewrite opp_opp. exact D.
  - unfold stc, back. cbn [endpoint endpoint_id]. exact Hq.
Qed.

Lemma Walk_end gs s p : Walk gs s p -> slot gs (fst (last_st s p)) (opp (snd (last_st s p))) = None.
Proof. induction 1 as [s Hn|s c p Hc W IH]; cbn [last_st]; assumption. Qed.

(* after at least one hop the slot we came in through is occupied *)
Lemma Walk_last_in gs s p : Sym gs -> Walk gs s p -> p <> [] ->
  slot gs (fst (last_st s p)) (snd (last_st s p)) <> None.
Proof.
  intros HS W. induction W as [s Hn|s c p Hc W IH]; intros Hp; [contradiction Hp; reflexivity|].
  cbn [last_st]. destruct p as [|c' p'].
  - cbn [last_st stc fst snd]. destruct (HS _ _ _ Hc) as [d [D _]]. rewrite D. discriminate.
  - apply IH. discriminate.
Qed.

Lemma tl_app {A} (l : list A) x : l <> [] -> tl (l ++ [x]) = tl l ++ [x].
Proof. destruct l; [intros H; contradiction H; reflexivity|reflexivity]. Qed.

Lemma revconns_endpoints s p : map endpoint (revconns s p) = tl (rev (fst s :: map endpoint p)).
Proof.
  revert s; induction p as [|c p IH]; intros s; [reflexivity|].
  cbn [revconns map]. rewrite map_app, IH. cbn [map back endpoint stc fst].
  change (rev (fst s :: endpoint c :: map endpoint p)) with (rev (endpoint c :: map endpoint p) ++ [fst s]).
  rewrite tl_app; [reflexivity|]. cbn [rev]. intros H. apply app_eq_nil in H. destruct H as [_ H]. discriminate.
Qed.

Lemma revconns_channels s p : map channel (revconns s p) = rev (map channel p).
Proof.
  revert s; induction p as [|c p IH]; intros s; [reflexivity|].
  cbn [revconns map rev]. rewrite map_app, IH. reflexivity.
Qed.

Lemma revconns_length s p : length (revconns s p) = length p.
Proof.
  revert s; induction p as [|c p IH]; intros s; [reflexivity|].
  cbn [revconns length]. rewrite app_length, IH. cbn [length]. lia.
Qed.

Lemma last_cons {A} (a : A) l d : last (a :: l) d = last l a.
Proof. revert a; induction l as [|b l IH]; intros a; [reflexivity|]. cbn [last] in *. destruct l; [reflexivity|]. apply IH. Qed.

Lemma last_st_endpoint s p : fst (last_st s p) = last (map endpoint p) (fst s).
Proof.
  revert s; induction p as [|c p IH]; intros s; [reflexivity|].
  cbn [last_st map]. rewrite last_cons, IH. reflexivity.
Qed.

Lemma path_iter_inv gs g r : path_iter gs g = Some r ->
  exists x, lookup gs g = Some x /\ kind_of x <> Transit /\ r = walk (fuel_of gs) gs (new_unchecked g).
Proof.
  unfold path_iter. destruct (lookup gs g) as [x|]; [|discriminate]. intros H. exists x. split; [reflexivity|].
  destruct (kind_of x); try discriminate; injection H as <-; (split; [discriminate|reflexivity]).
Qed.

(* path_iter from the far end yields the reversed gate sequence (minus the far
   end itself, plus the start), with the per-hop channels in reverse order *)
Theorem mirror gs g p :
  Inv gs -> path_iter gs g = Some (Some p) ->
  exists q, path_iter gs (last (map endpoint p) g) = Some (Some q) /\
            map endpoint q = tl (rev (g :: map endpoint p)) /\
            map channel q = rev (map channel p).
Proof.
  intros HI HP. destruct (path_iter_inv _ _ _ HP) as [x [L [K Hw]]]. symmetry in Hw.
  destruct p as [|c p].
  - exists []. cbn [map last rev tl app]. split; [exact HP|split; reflexivity].
  - set (s := (g, S1)). set (pp := c :: p) in *.
    pose proof (walk_Walk _ _ _ _ Hw) as W. change (stc (new_unchecked g)) with s in W.
    pose proof (endpoint_slot1 _ _ _ HI L K) as H1.
    assert (W0 : Walk gs (flip s) []) by (apply W_nil; exact H1).
    pose proof (Walk_rev _ _ _ (inv_sym _ HI) W [] W0) as WR. rewrite app_nil_r in WR.
    pose proof (Walk_end _ _ _ W) as Hend.
    assert (Hpp : pp <> []) by discriminate.
    pose proof (Walk_last_in _ _ _ (inv_sym _ HI) W Hpp) as Hin.
    pose proof (last_st_endpoint s pp) as He. cbn [fst] in He. fold s.
    destruct (last_st s pp) as [e j] eqn:El. cbn [fst snd] in *. subst e.
    assert (Hj : j = S0).
    { destruct j; [reflexivity|]. exfalso. cbn [opp] in Hend. apply (inv_fill _ HI _ Hin). exact Hend. }
    subst j. cbn [opp] in Hend.
    set (e := last (map endpoint pp) g) in *.
    destruct (slot gs e S0) as [d|] eqn:Ed; [|contradiction Hin; reflexivity].
    destruct (slot_some_lookup _ _ _ _ Ed) as [y [Ly _]].
    exists (revconns s pp). split; [|split].
    + unfold path_iter. rewrite Ly.
      assert (Ky : (len y < 2)%nat).
      { rewrite (slot_lookup _ _ _ _ Ly) in Hend. cbn [get] in Hend. unfold len. rewrite Hend. cbn.
        destruct (is_some (c0 y)); lia. }
      apply kind_not_transit in Ky.
      assert (Ww : walk (fuel_of gs) gs (new_unchecked e) = Some (revconns s pp)).
      { apply Walk_walk; [exact WR|]. rewrite revconns_length. eapply walk_length. exact Hw. }
      rewrite Ww. destruct (kind_of y); [reflexivity|reflexivity|contradiction Ky; reflexivity].
    + apply (revconns_endpoints s pp).
    + apply revconns_channels.
Qed.
