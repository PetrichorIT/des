(* Walking a gate chain from an endpoint terminates: the fuel 2*|gates|+1 of
   path_iter / handle_with_sink is never exhausted.

   States of the walk are pairs (gate, slot through which we came in).  By Sym
   the step function is injective, and the start state (g0, 1) of a non-transit
   gate has no predecessor because slot 1 of g0 is empty (Fill).  Hence the
   visited states never repeat (NoDup), they all lie in the finite set
   gates x {0,1}, and a pigeonhole bound on the length of the walk follows. *)
From Coq Require Import List NArith Lia.
From DesVerif Require Import Gate.Model Gate.Map Gate.Sym.
Import ListNotations.
Open Scope N_scope.

Definition st := (N * sid)%type.
Definition stc (c : conn) : st := (endpoint c, endpoint_id c).
Definition step_st (gs : gates) (s : st) : option st := option_map stc (slot gs (fst s) (opp (snd s))).

Lemma step_st_next gs c : step_st gs (stc c) = option_map stc (next_hop gs c).
Proof. reflexivity. Qed.

Lemma step_inj gs s1 s2 t : Sym gs -> step_st gs s1 = Some t -> step_st gs s2 = Some t -> s1 = s2.
Proof.
  intros HS H1 H2. unfold step_st in *. destruct s1 as [g1 i1], s2 as [g2 i2]. cbn [fst snd] in *.
  destruct (slot gs g1 (opp i1)) as [c1|] eqn:E1; [|discriminate].
  destruct (slot gs g2 (opp i2)) as [c2|] eqn:E2; [|discriminate].
  cbn [option_map] in *. injection H1 as H1. injection H2 as H2.
  destruct (HS _ _ _ E1) as [d1 [D1 [A1 [B1 _]]]]. destruct (HS _ _ _ E2) as [d2 [D2 [A2 [B2 _]]]].
  assert (Hc : stc c1 = stc c2) by congruence. unfold stc in Hc. injection Hc as Hc1 Hc2.
  rewrite Hc1, Hc2 in D1. rewrite D1 in D2. injection D2 as D2. subst d2.
  f_equal; [congruence|]. apply opp_inj. congruence.
Qed.

Lemma step_no_pred gs s g i : Sym gs -> slot gs g i = None -> step_st gs s <> Some (g, i).
Proof.
  intros HS Hn H. unfold step_st in H. destruct (slot gs (fst s) (opp (snd s))) as [c|] eqn:E; [|discriminate].
  cbn [option_map] in H. unfold stc in H. injection H as H1 H2.
  destruct (HS _ _ _ E) as [d [D _]]. rewrite H1, H2, Hn in D. discriminate.
Qed.

(* the states visited so far, most recent first *)
Inductive Path (gs : gates) (root : st) : list st -> Prop :=
| P0 : Path gs root [root]
| PS s l s' : Path gs root (s :: l) -> step_st gs s = Some s' -> Path gs root (s' :: s :: l).

Lemma path_pred gs root l : Path gs root l ->
  forall l1 y l2, l = l1 ++ y :: l2 ->
  (y = root /\ l2 = []) \/ exists z l3, l2 = z :: l3 /\ step_st gs z = Some y.
Proof.
  induction 1 as [|s l s' HP IH Hst]; intros l1 y l2 E.
  - destruct l1 as [|x l1]; cbn in E.
    + injection E as <- <-. left. split; reflexivity.
    + injection E as _ E. destruct l1; discriminate.
  - destruct l1 as [|x l1]; cbn in E.
    + injection E as <- <-. right. exists s, l. split; [reflexivity|exact Hst].
    + injection E as _ E. eapply IH. exact E.
Qed.

Lemma path_nodup gs root l :
  Sym gs -> (forall s, step_st gs s <> Some root) -> Path gs root l -> NoDup l.
Proof.
  intros HS Hroot. induction 1 as [|s l s' HP IH Hst].
  - constructor; [intros []|constructor].
  - constructor; [|exact IH]. intros Hin.
    destruct (in_split _ _ Hin) as [l1 [l2 E]].
    destruct (path_pred _ _ _ HP l1 s' l2 E) as [[Er _]|[z [l3 [El2 Hz]]]].
    + subst s'. exact (Hroot s Hst).
    + pose proof (step_inj _ _ _ _ HS Hz Hst) as Ez. subst z l2.
      destruct l1 as [|x l1]; cbn in E; injection E as E1 E2.
      * subst s'. subst l. inversion IH as [|? ? Hn _]. apply Hn. left. reflexivity.
      * subst x l. inversion IH as [|? ? Hn _]. apply Hn. apply in_or_app. right. right. left. reflexivity.
Qed.

Definition states (gs : gates) : list st := flat_map (fun kv => [(fst kv, S0); (fst kv, S1)]) gs.

Lemma states_length gs : length (states gs) = (2 * length gs)%nat.
Proof. induction gs as [|kv r IH]; [reflexivity|]. unfold states in *. cbn [flat_map app length]. rewrite IH. lia. Qed.

Lemma in_states gs g i x : lookup gs g = Some x -> In (g, i) (states gs).
Proof.
  induction gs as [|[k y] r IH]; cbn [lookup]; [discriminate|].
  unfold states. cbn [flat_map fst]. destruct (N.eqb_spec k g) as [E|_].
  - intros _. subst k. destruct i; [left|right; left]; reflexivity.
  - intros H. right. right. apply IH. exact H.
Qed.

Lemma path_incl gs root l : Sym gs -> In root (states gs) -> Path gs root l -> incl l (states gs).
Proof.
  intros HS Hr. induction 1 as [|s l s' HP IH Hst]; intros y Hy.
  - destruct Hy as [<-|[]]. exact Hr.
  - destruct Hy as [<-|Hy]; [|apply IH; exact Hy].
    unfold step_st in Hst. destruct (slot gs (fst s) (opp (snd s))) as [c|] eqn:E; [|discriminate].
    cbn [option_map] in Hst. injection Hst as <-. destruct (HS _ _ _ E) as [d [D _]].
    destruct (slot_some_lookup _ _ _ _ D) as [x [L _]]. eapply in_states. exact L.
Qed.

Lemma path_bound gs root l :
  Sym gs -> (forall s, step_st gs s <> Some root) -> In root (states gs) -> Path gs root l ->
  (length l <= 2 * length gs)%nat.
Proof.
  intros HS Hroot Hr HP. rewrite <- states_length. apply NoDup_incl_length.
  - eapply path_nodup; eassumption.
  - eapply path_incl; eassumption.
Qed.

(* enough fuel for the remaining unvisited states suffices *)
Lemma walk_fuel gs root : Sym gs -> (forall s, step_st gs s <> Some root) -> In root (states gs) ->
  forall fuel c l, Path gs root (stc c :: l) ->
  (2 * length gs - length (stc c :: l) < fuel)%nat -> walk fuel gs c <> None.
Proof.
  intros HS Hroot Hr. induction fuel as [|f IH]; intros c l HP Hf; [lia|].
  cbn [walk]. destruct (next_hop gs c) as [n|] eqn:En; [|discriminate].
  assert (HP' : Path gs root (stc n :: stc c :: l)).
  { apply PS; [exact HP|]. rewrite step_st_next, En. reflexivity. }
  pose proof (path_bound _ _ _ HS Hroot Hr HP') as Hb.
  specialize (IH n (stc c :: l) HP'). cbn [length] in *.
  destruct (walk f gs n); [discriminate|]. exfalso. apply IH; [lia|reflexivity].
Qed.

(* a non-transit gate's slot 1 is empty *)
Lemma endpoint_slot1 gs g x : Inv gs -> lookup gs g = Some x -> kind_of x <> Transit -> slot gs g S1 = None.
Proof.
  intros HI L K. apply kind_not_transit in K. eapply len2_slots; [exact L|exact K|apply inv_fill; exact HI].
Qed.

Theorem walk_from_endpoint_terminates gs g x :
  Inv gs -> lookup gs g = Some x -> kind_of x <> Transit ->
  walk (fuel_of gs) gs (new_unchecked g) <> None.
Proof.
  intros HI L K. pose proof (endpoint_slot1 _ _ _ HI L K) as H1.
  apply (walk_fuel gs (g, S1) (inv_sym _ HI)) with (l := []).
  - intros s. apply step_no_pred; [apply inv_sym; exact HI|exact H1].
  - eapply in_states. exact L.
  - apply P0.
  - unfold fuel_of. cbn [length]. lia.
Qed.

Corollary path_iter_total gs g x :
  Inv gs -> lookup gs g = Some x -> kind_of x <> Transit -> exists p, path_iter gs g = Some (Some p).
Proof.
  intros HI L K. pose proof (walk_from_endpoint_terminates _ _ _ HI L K) as W.
  unfold path_iter. rewrite L. destruct (walk (fuel_of gs) gs (new_unchecked g)) as [p|] eqn:E; [|contradiction W; reflexivity].
  exists p. destruct (kind_of x); [reflexivity|reflexivity|contradiction K; reflexivity].
Qed.

(* ---- the walk as a relation ---- *)
Inductive Walk (gs : gates) : st -> list conn -> Prop :=
| W_nil s : slot gs (fst s) (opp (snd s)) = None -> Walk gs s []
| W_cons s c p : slot gs (fst s) (opp (snd s)) = Some c -> Walk gs (stc c) p -> Walk gs s (c :: p).

Lemma walk_Walk gs fuel c p : walk fuel gs c = Some p -> Walk gs (stc c) p.
Proof.
  revert c p; induction fuel as [|f IH]; intros c p H; cbn [walk] in H; [discriminate|].
  destruct (next_hop gs c) as [n|] eqn:En.
  - destruct (walk f gs n) as [q|] eqn:Eq; [|discriminate]. injection H as <-.
    apply W_cons; [exact En|]. apply IH. exact Eq.
  - injection H as <-. apply W_nil. exact En.
Qed.

Lemma Walk_walk gs c p : Walk gs (stc c) p -> forall fuel, (length p < fuel)%nat -> walk fuel gs c = Some p.
Proof.
  intros W. remember (stc c) as s eqn:Es. revert c Es.
  induction W as [s Hn|s d p Hd W IH]; intros c Es fuel Hf; subst s.
  - destruct fuel as [|f]; [lia|]. cbn [walk]. unfold next_hop. cbn [stc fst snd] in Hn. rewrite Hn. reflexivity.
  - destruct fuel as [|f]; [cbn [length] in Hf; lia|]. cbn [walk]. unfold next_hop. cbn [stc fst snd] in Hd. rewrite Hd.
    rewrite (IH d eq_refl f); [reflexivity|]. cbn [length] in Hf. lia.
Qed.

Lemma walk_length gs fuel c p : walk fuel gs c = Some p -> (length p < fuel)%nat.
Proof.
  revert c p; induction fuel as [|f IH]; intros c p H; cbn [walk] in H; [discriminate|].
  destruct (next_hop gs c) as [n|].
  - destruct (walk f gs n) as [q|] eqn:Eq; [|discriminate]. injection H as <-. cbn [length].
    specialize (IH _ _ Eq). lia.
  - injection H as <-. cbn [length]. lia.
Qed.
