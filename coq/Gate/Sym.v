(* The representation invariant of the gate table and its preservation by
   Gate::connect, for every sequence of operations (panicking ones included). *)
From Coq Require Import List Arith NArith Lia Bool.
From DesVerif Require Import Gate.Model Gate.Map.
Import ListNotations.
Open Scope N_scope.

(* if g.slot i = (h, j) then h.slot j = (g, i), with the same channel metrics *)
Definition Sym (gs : gates) : Prop :=
  forall g i c, slot gs g i = Some c ->
    exists c', slot gs (endpoint c) (endpoint_id c) = Some c' /\
               endpoint c' = g /\ endpoint_id c' = i /\ channel c' = channel c.
(* slot 1 is used only if slot 0 is *)
Definition Fill (gs : gates) : Prop := forall g, slot gs g S1 <> None -> slot gs g S0 <> None.
Definition NoSelf (gs : gates) : Prop := forall g i c, slot gs g i = Some c -> endpoint c <> g.
Definition Distinct (gs : gates) : Prop :=
  forall g c c', slot gs g S0 = Some c -> slot gs g S1 = Some c' -> endpoint c <> endpoint c'.

Record Inv (gs : gates) : Prop :=
  { inv_sym : Sym gs; inv_fill : Fill gs; inv_noself : NoSelf gs; inv_distinct : Distinct gs }.

Definition connected (gs : gates) (a b : N) : Prop := exists i c, slot gs a i = Some c /\ endpoint c = b.

Lemma connected_sym gs a b : Sym gs -> connected gs a b -> connected gs b a.
Proof.
  intros HS [i [c [Hc He]]]. destruct (HS a i c Hc) as [c' [Hc' [E1 _]]].
  exists (endpoint_id c), c'. subst b. split; assumption.
Qed.

(* what a successful, state-changing connect does, in terms of slots *)
Record Linked (gs gs' : gates) (a : N) (ia : sid) (b : N) (ib : sid) (ch : option chan) : Prop := {
  lk_ne : a <> b;
  lk_free_a : slot gs a ia = None;
  lk_free_b : slot gs b ib = None;
  lk_fill_a : ia = S1 -> slot gs a S0 <> None;
  lk_fill_b : ib = S1 -> slot gs b S0 <> None;
  lk_empty_a : ia = S0 -> slot gs a S1 = None;
  lk_empty_b : ib = S0 -> slot gs b S1 = None;
  lk_new_a : forall i c, slot gs a i = Some c -> endpoint c <> b;
  lk_new_b : forall i c, slot gs b i = Some c -> endpoint c <> a;
  lk_slot : forall g i, slot gs' g i =
     if (g =? a) && sid_eqb i ia then Some {| endpoint := b; endpoint_id := ib; channel := ch |}
     else if (g =? b) && sid_eqb i ib then Some {| endpoint := a; endpoint_id := ia; channel := ch |}
     else slot gs g i }.

Lemma and_eqb g a i ia : (g =? a) && sid_eqb i ia = true -> g = a /\ i = ia.
Proof. intros H. apply andb_true_iff in H. destruct H as [H1 H2]. apply N.eqb_eq in H1. apply sid_eqb_eq in H2. split; assumption. Qed.

Lemma and_eqb_refl a ia : (a =? a) && sid_eqb ia ia = true.
Proof. rewrite N.eqb_refl, sid_eqb_refl. reflexivity. Qed.

Lemma and_eqb_ne g a i ia : g <> a -> (g =? a) && sid_eqb i ia = false.
Proof. intros H. apply N.eqb_neq in H. rewrite H. reflexivity. Qed.

Section LinkedFacts.
Variables (gs gs' : gates) (a : N) (ia : sid) (b : N) (ib : sid) (ch : option chan).
Hypothesis L : Linked gs gs' a ia b ib ch.

Lemma Linked_a : slot gs' a ia = Some {| endpoint := b; endpoint_id := ib; channel := ch |}.
Proof. rewrite (lk_slot _ _ _ _ _ _ _ L), and_eqb_refl. reflexivity. Qed.

Lemma Linked_b : slot gs' b ib = Some {| endpoint := a; endpoint_id := ia; channel := ch |}.
Proof.
  rewrite (lk_slot _ _ _ _ _ _ _ L), (and_eqb_ne b a), and_eqb_refl; [reflexivity|].
  intros E. apply (lk_ne _ _ _ _ _ _ _ L). symmetry; exact E.
Qed.

Lemma Linked_slot_inv g i c : slot gs' g i = Some c ->
  (g = a /\ i = ia /\ c = {| endpoint := b; endpoint_id := ib; channel := ch |}) \/
  (g = b /\ i = ib /\ c = {| endpoint := a; endpoint_id := ia; channel := ch |}) \/
  slot gs g i = Some c.
Proof.
  rewrite (lk_slot _ _ _ _ _ _ _ L). destruct ((g =? a) && sid_eqb i ia) eqn:Ea.
  - apply and_eqb in Ea. destruct Ea as [-> ->]. intros H. injection H as <-. left. repeat split.
  - destruct ((g =? b) && sid_eqb i ib) eqn:Eb; [|right; right; assumption].
    apply and_eqb in Eb. destruct Eb as [-> ->]. intros H. injection H as <-. right; left. repeat split.
Qed.

Lemma Linked_mono g i c : slot gs g i = Some c -> slot gs' g i = Some c.
Proof.
  intros H. rewrite (lk_slot _ _ _ _ _ _ _ L).
  destruct ((g =? a) && sid_eqb i ia) eqn:Ea.
  - apply and_eqb in Ea. destruct Ea as [-> ->]. rewrite (lk_free_a _ _ _ _ _ _ _ L) in H. discriminate.
  - destruct ((g =? b) && sid_eqb i ib) eqn:Eb; [|exact H].
    apply and_eqb in Eb. destruct Eb as [-> ->]. rewrite (lk_free_b _ _ _ _ _ _ _ L) in H. discriminate.
Qed.

Lemma Linked_sym : Sym gs -> Sym gs'.
Proof.
  intros HS g i c H.
  destruct (Linked_slot_inv g i c H) as [(-> & -> & ->)|[(-> & -> & ->)|H0]]; cbn [endpoint endpoint_id channel].
  - eexists. split; [exact Linked_b|repeat split].
  - eexists. split; [exact Linked_a|repeat split].
  - destruct (HS g i c H0) as [c' [Hc' HE]]. exists c'. split; [apply Linked_mono; exact Hc'|exact HE].
Qed.

Lemma Linked_fill : Fill gs -> Fill gs'.
Proof.
  intros HF g H. destruct L as [Hne _ _ Hla Hlb _ _ _ _ Hsl]. rewrite Hsl in *.
  pose proof (proj2 (N.eqb_neq a b) Hne) as Eab.
  destruct (N.eqb_spec g a) as [Ega|Nga]; [subst g|].
  - rewrite Eab in *. cbn [andb] in *. destruct ia; cbn [sid_eqb] in *; [discriminate|]. apply Hla. reflexivity.
  - cbn [andb] in *. destruct (N.eqb_spec g b) as [Egb|Ngb]; [subst g|]; cbn [andb] in *.
    + destruct ib; cbn [sid_eqb] in *; [discriminate|]. apply Hlb. reflexivity.
    + apply HF. exact H.
Qed.

Lemma Linked_noself : NoSelf gs -> NoSelf gs'.
Proof.
  intros HN g i c H. pose proof (lk_ne _ _ _ _ _ _ _ L) as Hne.
  destruct (Linked_slot_inv g i c H) as [(-> & -> & ->)|[(-> & -> & ->)|H0]]; cbn [endpoint].
  - intros E. apply Hne. symmetry; exact E.
  - exact Hne.
  - eapply HN; exact H0.
Qed.

Lemma Linked_distinct : Distinct gs -> Distinct gs'.
Proof.
  intros HD g c c' H0 H1. destruct L as [Hne Hfa Hfb _ _ Hea Heb Hna Hnb Hsl]. rewrite Hsl in H0, H1.
  pose proof (proj2 (N.eqb_neq a b) Hne) as Eab.
  destruct (N.eqb_spec g a) as [Ega|Nga]; [subst g|].
  - rewrite Eab in *. cbn [andb] in *. destruct ia; cbn [sid_eqb] in *.
    + rewrite (Hea eq_refl) in H1. discriminate.
    + injection H1 as <-. cbn [endpoint]. eapply Hna; exact H0.
  - cbn [andb] in *. destruct (N.eqb_spec g b) as [Egb|Ngb]; [subst g|]; cbn [andb] in *.
    + destruct ib; cbn [sid_eqb] in *.
      * rewrite (Heb eq_refl) in H1. discriminate.
      * injection H1 as <-. cbn [endpoint]. eapply Hnb; exact H0.
    + eapply HD; eassumption.
Qed.

Lemma Linked_inv : Inv gs -> Inv gs'.
Proof.
  intros [H1 H2 H3 H4]. split; [apply Linked_sym|apply Linked_fill|apply Linked_noself|apply Linked_distinct]; assumption.
Qed.
End LinkedFacts.

Lemma fillok_of gs g x : Fill gs -> lookup gs g = Some x -> fillok x.
Proof.
  intros HF L H. pose proof (HF g) as F. rewrite !(slot_lookup _ _ _ _ L) in F. cbn [get] in F. apply F. exact H.
Qed.

Lemma connected_to_slot gs a ga b : lookup gs a = Some ga -> (connected_to ga b = true <-> connected gs a b).
Proof.
  intros L. rewrite connected_to_spec. unfold connected. split; intros [i [c [H1 H2]]]; exists i, c.
  - rewrite (slot_lookup _ _ _ _ L). split; assumption.
  - rewrite (slot_lookup _ _ _ _ L) in H1. split; assumption.
Qed.

(* the state-changing branch of connect *)
Lemma link_Linked gs a b ga gb ch :
  Inv gs -> a <> b -> lookup gs a = Some ga -> lookup gs b = Some gb ->
  connected_to ga b = false -> (len ga < 2)%nat -> (len gb < 2)%nat ->
  Linked gs
    (upd (upd gs a (put {| endpoint := b; endpoint_id := sid_of_len (len gb); channel := ch |})) b
         (put {| endpoint := a; endpoint_id := sid_of_len (len ga); channel := ch |}))
    a (sid_of_len (len ga)) b (sid_of_len (len gb)) ch.
Proof.
  intros HI Hne La Lb Hct Hla Hlb.
  pose proof (fillok_of _ _ _ (inv_fill _ HI) La) as Fa.
  pose proof (fillok_of _ _ _ (inv_fill _ HI) Lb) as Fb.
  assert (Hnab : forall i c, slot gs a i = Some c -> endpoint c <> b).
  { intros i c H E. assert (connected_to ga b = true) as X; [|rewrite X in Hct; discriminate].
    apply (connected_to_slot gs a ga b La). exists i, c. split; assumption. }
  split.
  - exact Hne.
  - rewrite (slot_lookup _ _ _ _ La). apply get_free; assumption.
  - rewrite (slot_lookup _ _ _ _ Lb). apply get_free; assumption.
  - intros E. rewrite (slot_lookup _ _ _ _ La). cbn [get]. apply len_S1; assumption.
  - intros E. rewrite (slot_lookup _ _ _ _ Lb). cbn [get]. apply len_S1; assumption.
  - intros E. rewrite (slot_lookup _ _ _ _ La). cbn [get]. apply len_S0. exact E.
  - intros E. rewrite (slot_lookup _ _ _ _ Lb). cbn [get]. apply len_S0. exact E.
  - exact Hnab.
  - intros i c H E.
    destruct (connected_sym gs b a (inv_sym _ HI)) as [j [c' [H1 H2]]]; [exists i, c; split; assumption|].
    eapply Hnab; eassumption.
  - intros g i. unfold slot at 1. rewrite !lookup_upd.
    destruct (N.eqb_spec b g) as [Ebg|Nbg]; [subst g|].
    + destruct (N.eqb_spec a b) as [E|_]; [contradiction|]. rewrite Lb. cbn [option_map].
      rewrite (and_eqb_ne b a) by (intros E; apply Hne; symmetry; exact E).
      rewrite N.eqb_refl. cbn [andb]. rewrite get_put by assumption.
      rewrite (slot_lookup _ _ _ _ Lb). reflexivity.
    + destruct (N.eqb_spec a g) as [Eag|Nag]; [subst g|].
      * rewrite La. cbn [option_map]. rewrite N.eqb_refl. cbn [andb]. rewrite get_put by assumption.
        rewrite (and_eqb_ne a b) by exact Hne. rewrite (slot_lookup _ _ _ _ La). reflexivity.
      * rewrite (and_eqb_ne g a) by (intros E; apply Nag; symmetry; exact E).
        rewrite (and_eqb_ne g b) by (intros E; apply Nbg; symmetry; exact E). reflexivity.
Qed.

(* that the answer is never OOutOfFuel rides along for Deliver.connect_out *)
Lemma connect_cases s a b ch :
  (sgates (fst (connect s a b ch)) = sgates s /\ snd (connect s a b ch) <> OOutOfFuel /\
   (snd (connect s a b ch) = OUnit ->
    fst (connect s a b ch) = s /\ exists ga, lookup (sgates s) a = Some ga /\ connected_to ga b = true)) \/
  (exists ga gb, lookup (sgates s) a = Some ga /\ lookup (sgates s) b = Some gb /\ a <> b /\
     connected_to ga b = false /\ (len ga < 2)%nat /\ (len gb < 2)%nat /\
     connect s a b ch =
       ({| sgates := upd (upd (sgates s) a (put {| endpoint := b; endpoint_id := sid_of_len (len gb); channel := ch |})) b
                         (put {| endpoint := a; endpoint_id := sid_of_len (len ga); channel := ch |});
           poisoned := poisoned s |}, OUnit)).
Proof.
  unfold connect.
  destruct (lookup (sgates s) a) as [ga|] eqn:La; [|left; split; [reflexivity|split; discriminate]].
  destruct (lookup (sgates s) b) as [gb|] eqn:Lb; [|left; split; [reflexivity|split; discriminate]].
  destruct (N.eqb_spec a b) as [Eab|Nab]; [left; split; [reflexivity|split; discriminate]|].
  destruct (is_poisoned s a); [left; split; [reflexivity|split; discriminate]|].
  destruct (connected_to ga b) eqn:Ect.
  { left. split; [reflexivity|]. split; [discriminate|]. intros _. split; [reflexivity|].
    exists ga. split; [reflexivity|exact Ect]. }
  destruct (is_poisoned s b); [left; split; [reflexivity|split; discriminate]|].
  destruct (Nat.ltb (len ga) 2 && Nat.ltb (len gb) 2) eqn:El; [|left; split; [reflexivity|split; discriminate]].
  apply andb_true_iff in El. destruct El as [El1 El2]. apply Nat.ltb_lt in El1. apply Nat.ltb_lt in El2.
  right. exists ga, gb. repeat split; assumption.
Qed.

Lemma connect_gates s a b ch :
  Inv (sgates s) ->
  sgates (fst (connect s a b ch)) = sgates s \/
  (snd (connect s a b ch) = OUnit /\
   exists ia ib, Linked (sgates s) (sgates (fst (connect s a b ch))) a ia b ib ch).
Proof.
  intros HI. destruct (connect_cases s a b ch) as [[E _]|(ga & gb & La & Lb & Nab & Ect & El1 & El2 & E)]; [left; exact E|].
  right. rewrite E. split; [reflexivity|]. eexists _, _. apply link_Linked; assumption.
Qed.

Lemma connect_inv s a b ch : Inv (sgates s) -> Inv (sgates (fst (connect s a b ch))).
Proof.
  intros HI. destruct (connect_gates s a b ch HI) as [E|[_ [ia [ib L]]]].
  - rewrite E. exact HI.
  - eapply Linked_inv; eassumption.
Qed.

Lemma connect_mono s a b ch g i c :
  Inv (sgates s) -> slot (sgates s) g i = Some c -> slot (sgates (fst (connect s a b ch))) g i = Some c.
Proof.
  intros HI H. destruct (connect_gates s a b ch HI) as [E|[_ [ia [ib L]]]].
  - rewrite E. exact H.
  - eapply Linked_mono; eassumption.
Qed.

(* ---- all reachable states ---- *)
Lemma slot_mk_gates k owners g i : slot (mk_gates k owners) g i = None.
Proof.
  unfold slot. destruct (lookup (mk_gates k owners) g) as [x|] eqn:L; [|reflexivity].
  destruct (lookup_mk_gates _ _ _ _ L) as [H0 H1]. destruct i; cbn [get]; assumption.
Qed.

(* gates created at run time through a spawner have empty slots and leave every other gate alone *)
Lemma slot_spawn s target size g i : slot (sgates (spawn s target size)) g i = slot (sgates s) g i.
Proof.
  unfold spawn. cbn [sgates]. unfold slot at 1. rewrite lookup_app. unfold slot.
  destruct (lookup (sgates s) g) as [x|]; [reflexivity|].
  change (slot (mk_gates (N.of_nat (length (sgates s))) (repeat target (N.to_nat size))) g i = None).
  apply slot_mk_gates.
Qed.

Lemma Inv_ext gs gs' : (forall g i, slot gs' g i = slot gs g i) -> Inv gs -> Inv gs'.
Proof.
  intros E [H1 H2 H3 H4]. split.
  - intros g i c H. rewrite E in H. destruct (H1 g i c H) as [c' [Hc' HE]]. exists c'. rewrite E. split; assumption.
  - intros g H. rewrite E in *. apply H2. exact H.
  - intros g i c H. rewrite E in H. eapply H3; exact H.
  - intros g c c' Ha Hb. rewrite E in Ha, Hb. eapply H4; eassumption.
Qed.

Lemma step_inv s o : Inv (sgates s) -> Inv (sgates (fst (step s o))).
Proof.
  intros HI. destruct o; cbn [step fst]; try exact HI; try (apply connect_inv; exact HI).
  eapply Inv_ext; [|exact HI]. intros g i. apply slot_spawn.
Qed.

Lemma exec_cons s o r : fst (exec s (o :: r)) = fst (exec (fst (step s o)) r).
Proof. cbn [exec]. destruct (step s o) as [s' x]. cbn [fst]. destruct (exec s' r). reflexivity. Qed.

Lemma exec_app s l1 l2 : fst (exec s (l1 ++ l2)) = fst (exec (fst (exec s l1)) l2).
Proof. revert s; induction l1 as [|o r IH]; intros s; [reflexivity|]. cbn [app]. rewrite !exec_cons. apply IH. Qed.

Lemma exec_inv s ops : Inv (sgates s) -> Inv (sgates (fst (exec s ops))).
Proof.
  revert s; induction ops as [|o r IH]; intros s HI; [exact HI|].
  rewrite exec_cons. apply IH. apply step_inv. exact HI.
Qed.

Lemma init_inv owners : Inv (sgates (init owners)).
Proof.
  cbn [init sgates]. split.
  - intros g i c H. rewrite slot_mk_gates in H. discriminate.
  - intros g H. rewrite slot_mk_gates in H. contradiction H; reflexivity.
  - intros g i c H. rewrite slot_mk_gates in H. discriminate.
  - intros g c c' H. rewrite slot_mk_gates in H. discriminate.
Qed.

Theorem inv_reachable owners ops : Inv (sgates (fst (exec (init owners) ops))).
Proof. apply exec_inv. apply init_inv. Qed.

(* occupied slots are never rewritten, whatever is executed afterwards *)
Lemma exec_mono s ops g i c :
  Inv (sgates s) -> slot (sgates s) g i = Some c -> slot (sgates (fst (exec s ops))) g i = Some c.
Proof.
  revert s; induction ops as [|o r IH]; intros s HI H; [exact H|].
  rewrite exec_cons. apply IH; [apply step_inv; exact HI|].
  destruct o; cbn [step fst]; try exact H; try (apply connect_mono; assumption).
  rewrite slot_spawn. exact H.
Qed.

(* ---- at most two peers ---- *)
Definition peers (gs : gates) (g : N) : list N :=
  match slot gs g S0 with Some c => [endpoint c] | None => [] end ++
  match slot gs g S1 with Some c => [endpoint c] | None => [] end.

Lemma degree_le_2 gs g : Inv gs -> (length (peers gs g) <= 2)%nat /\ NoDup (peers gs g) /\ ~ In g (peers gs g).
Proof.
  intros HI. unfold peers.
  destruct (slot gs g S0) as [c|] eqn:E0; destruct (slot gs g S1) as [c'|] eqn:E1; cbn [app length In].
  - split; [lia|]. split.
    + constructor; [|constructor; [intros []|constructor]]. intros [E|[]].
      apply (inv_distinct _ HI g c c' E0 E1). symmetry; exact E.
    + intros [E|[E|[]]]; [apply (inv_noself _ HI g S0 c E0 E)|apply (inv_noself _ HI g S1 c' E1 E)].
  - split; [lia|]. split; [constructor; [intros []|constructor]|].
    intros [E|[]]. apply (inv_noself _ HI g S0 c E0 E).
  - split; [lia|]. split; [constructor; [intros []|constructor]|].
    intros [E|[]]. apply (inv_noself _ HI g S1 c' E1 E).
  - split; [lia|]. split; [constructor|intros []].
Qed.

Lemma len2_slots gs g x : lookup gs g = Some x -> (len x < 2)%nat -> Fill gs -> slot gs g S1 = None.
Proof.
  intros L Hl HF. pose proof (fillok_of _ _ _ HF L) as F. rewrite (slot_lookup _ _ _ _ L). cbn [get].
  unfold fillok, len in *. destruct x as [o [p|] [q|]]; cbn in *; try reflexivity; try lia.
  exfalso. assert (X : @None conn <> None) by (apply F; discriminate). apply X; reflexivity.
Qed.

(* a gate with two peers rejects a third one, in either orientation, and the table is unchanged *)
Lemma third_peer_rejected s a b ch p q :
  Inv (sgates s) ->
  slot (sgates s) a S0 = Some p -> slot (sgates s) a S1 = Some q ->
  endpoint p <> b -> endpoint q <> b -> lookup (sgates s) b <> None ->
  (exists site, snd (connect s a b ch) = OPanic site) /\ sgates (fst (connect s a b ch)) = sgates s /\
  (exists site, snd (connect s b a ch) = OPanic site) /\ sgates (fst (connect s b a ch)) = sgates s.
Proof.
  intros HI H0 H1 Np Nq Lb.
  destruct (slot_some_lookup _ _ _ _ H0) as [ga [La G0]]. cbn [get] in G0.
  pose proof H1 as G1. rewrite (slot_lookup _ _ _ _ La) in G1. cbn [get] in G1.
  destruct (lookup (sgates s) b) as [gb|] eqn:Lb'; [clear Lb|contradiction Lb; reflexivity].
  assert (Hlen : Nat.ltb (len ga) 2 = false).
  { apply Nat.ltb_ge. unfold len. rewrite G0, G1. cbn. lia. }
  assert (Hc1 : connected_to ga b = false).
  { unfold connected_to. rewrite G0, G1. apply N.eqb_neq in Np. apply N.eqb_neq in Nq. rewrite Np, Nq. reflexivity. }
  assert (Hc2 : connected_to gb a = false).
  { destruct (connected_to gb a) eqn:E; [|reflexivity]. exfalso.
    apply (connected_to_slot _ _ _ _ Lb') in E. apply (connected_sym _ _ _ (inv_sym _ HI)) in E.
    destruct E as [i [c [Hc He]]]. destruct i; rewrite Hc in *.
    - injection H0 as <-. contradiction.
    - injection H1 as <-. contradiction. }
  unfold connect. rewrite La, Lb'.
  destruct (N.eqb_spec a b) as [Eab|Nab].
  - subst b. rewrite N.eqb_refl. cbn [fst snd]. repeat split; eauto.
  - destruct (N.eqb_spec b a) as [E|_]; [symmetry in E; contradiction|].
    rewrite Hc1, Hc2, Hlen, andb_false_r. cbn [andb].
    destruct (is_poisoned s a), (is_poisoned s b); cbn [fst snd poison sgates]; repeat split; eauto.
Qed.

(* ---- orientation does not matter ---- *)
Lemma connected_to_sym gs a b ga gb :
  Sym gs -> lookup gs a = Some ga -> lookup gs b = Some gb -> connected_to ga b = connected_to gb a.
Proof.
  intros HS La Lb. destruct (connected_to ga b) eqn:E1, (connected_to gb a) eqn:E2; try reflexivity; exfalso.
  - apply (connected_to_slot _ _ _ _ La) in E1. apply (connected_sym _ _ _ HS) in E1.
    apply (connected_to_slot _ _ _ _ Lb) in E1. rewrite E1 in E2. discriminate.
  - apply (connected_to_slot _ _ _ _ Lb) in E2. apply (connected_sym _ _ _ HS) in E2.
    apply (connected_to_slot _ _ _ _ La) in E2. rewrite E2 in E1. discriminate.
Qed.

Theorem connect_symmetric s a b ch :
  Inv (sgates s) ->
  sgates (fst (connect s a b ch)) = sgates (fst (connect s b a ch)) /\
  (poisoned s = [] -> snd (connect s a b ch) = snd (connect s b a ch)).
Proof.
  intros HI. unfold connect, is_poisoned.
  destruct (lookup (sgates s) a) as [ga|] eqn:La; destruct (lookup (sgates s) b) as [gb|] eqn:Lb;
    try (split; reflexivity).
  rewrite (N.eqb_sym b a).
  destruct (N.eqb_spec a b) as [Eab|Nab]; [split; reflexivity|].
  rewrite (connected_to_sym _ _ _ _ _ (inv_sym _ HI) Lb La).
  rewrite (andb_comm (Nat.ltb (len gb) 2)).
  split.
  - destruct (existsb (N.eqb a) (poisoned s)), (existsb (N.eqb b) (poisoned s)), (connected_to ga b),
      (Nat.ltb (len ga) 2 && Nat.ltb (len gb) 2); cbn [fst sgates poison]; try reflexivity.
    apply upd_comm. exact Nab.
  - intros Hp. rewrite Hp. cbn [existsb].
    destruct (connected_to ga b), (Nat.ltb (len ga) 2 && Nat.ltb (len gb) 2); reflexivity.
Qed.

(* a successful connect leaves the two gates connected to each other *)
Lemma connect_connected s a b ch :
  Inv (sgates s) -> snd (connect s a b ch) = OUnit ->
  connected (sgates (fst (connect s a b ch))) a b /\ connected (sgates (fst (connect s a b ch))) b a.
Proof.
  intros HI HO.
  assert (H : connected (sgates (fst (connect s a b ch))) a b).
  { destruct (connect_cases s a b ch) as [[E [_ Hc]]|(ga & gb & La & Lb & Nab & Ect & El1 & El2 & E)].
    - destruct (Hc HO) as [_ [ga [La Ect]]]. rewrite E. apply (connected_to_slot _ _ _ _ La). exact Ect.
    - rewrite E. cbn [fst sgates]. pose proof (link_Linked _ _ _ _ _ ch HI Nab La Lb Ect El1 El2) as L.
      exists (sid_of_len (len ga)). eexists. split; [exact (Linked_a _ _ _ _ _ _ _ L)|reflexivity]. }
  split; [exact H|]. apply connected_sym; [|exact H]. apply inv_sym. apply connect_inv. exact HI.
Qed.

(* connected gates: a further connect, in either orientation and with any channel, returns at once *)
Lemma connect_when_connected s a b ch :
  Inv (sgates s) -> poisoned s = [] -> connected (sgates s) a b -> lookup (sgates s) b <> None ->
  connect s a b ch = (s, OUnit).
Proof.
  intros HI Hp Hc Lb. unfold connect, is_poisoned. rewrite Hp. cbn [existsb].
  destruct Hc as [i [c [Hc He]]]. destruct (slot_some_lookup _ _ _ _ Hc) as [ga [La Hg]]. rewrite La.
  destruct (lookup (sgates s) b) as [gb|]; [|contradiction Lb; reflexivity].
  destruct (N.eqb_spec a b) as [Eab|Nab].
  - exfalso. apply (inv_noself _ HI a i c Hc). rewrite He. symmetry; exact Eab.
  - assert (connected_to ga b = true) as ->; [|reflexivity].
    apply connected_to_spec. exists i, c. split; assumption.
Qed.

Theorem connect_idempotent s a b ch ch' :
  Inv (sgates s) -> poisoned s = [] -> snd (connect s a b ch) = OUnit ->
  let s1 := fst (connect s a b ch) in
  connect s1 a b ch' = (s1, OUnit) /\ connect s1 b a ch' = (s1, OUnit).
Proof.
  intros HI Hp HO s1.
  assert (HI1 : Inv (sgates s1)) by (apply connect_inv; exact HI).
  destruct (connect_connected s a b ch HI HO) as [Cab Cba]. fold s1 in Cab, Cba.
  assert (Hp1 : poisoned s1 = []).
  { subst s1. destruct (connect_cases s a b ch) as [[_ [_ Hc]]|(ga & gb & _ & _ & _ & _ & _ & _ & E)].
    - rewrite (proj1 (Hc HO)). exact Hp.
    - rewrite E. exact Hp. }
  split; apply connect_when_connected; try assumption.
  - destruct Cba as [i [c [Hc _]]]. destruct (slot_some_lookup _ _ _ _ Hc) as [x [L _]]. rewrite L. discriminate.
  - destruct Cab as [i [c [Hc _]]]. destruct (slot_some_lookup _ _ _ _ Hc) as [x [L _]]. rewrite L. discriminate.
Qed.
