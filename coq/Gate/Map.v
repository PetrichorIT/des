(* Facts about the association-list gate map of Gate/Model.v: lookup/upd/slot,
   Connections::put and Connections::len. *)
From Coq Require Import List NArith Lia Bool.
From DesVerif Require Import Gate.Model.
Import ListNotations.
Open Scope N_scope.

Lemma sid_eqb_refl i : sid_eqb i i = true.
Proof. destruct i; reflexivity. Qed.

Lemma sid_eqb_eq i j : sid_eqb i j = true <-> i = j.
Proof. destruct i, j; cbn; split; intros H; try reflexivity; discriminate. Qed.

Lemma opp_opp i : opp (opp i) = i.
Proof. destruct i; reflexivity. Qed.

Lemma opp_inj i j : opp i = opp j -> i = j.
Proof. destruct i, j; cbn; intros H; try reflexivity; discriminate. Qed.

Lemma opp_neq i : opp i <> i.
Proof. destruct i; discriminate. Qed.

(* ---- lookup / upd ---- *)
Lemma lookup_upd gs g f g' :
  lookup (upd gs g f) g' = if g =? g' then option_map f (lookup gs g') else lookup gs g'.
Proof.
  induction gs as [|[k x] r IH]; cbn [lookup upd].
  - destruct (g =? g'); reflexivity.
  - destruct (N.eqb_spec k g) as [Ekg|Ekg]; cbn [lookup]; destruct (N.eqb_spec k g') as [Ekg'|Ekg'].
    + subst. rewrite N.eqb_refl. reflexivity.
    + exact IH.
    + subst. destruct (N.eqb_spec g g') as [E|E]; [subst; contradiction|reflexivity].
    + exact IH.
Qed.

Lemma lookup_upd_same gs g f x : lookup gs g = Some x -> lookup (upd gs g f) g = Some (f x).
Proof. intros H. rewrite lookup_upd, N.eqb_refl, H. reflexivity. Qed.

Lemma lookup_upd_other gs g f g' : g <> g' -> lookup (upd gs g f) g' = lookup gs g'.
Proof. intros H. rewrite lookup_upd. destruct (N.eqb_spec g g'); [contradiction|reflexivity]. Qed.

Lemma upd_length gs g f : length (upd gs g f) = length gs.
Proof. induction gs as [|[k x] r IH]; cbn [upd length]; [reflexivity|]. rewrite IH. reflexivity. Qed.

Lemma upd_comm gs a b f h : a <> b -> upd (upd gs a f) b h = upd (upd gs b h) a f.
Proof.
  intros Hab. induction gs as [|[k x] r IH]; cbn [upd]; [reflexivity|]. rewrite IH. f_equal.
  destruct (N.eqb_spec k a) as [Ea|Ea], (N.eqb_spec k b) as [Eb|Eb]; cbn [upd fst snd];
    try (subst; contradiction).
  - destruct (N.eqb_spec k b); [contradiction|]. destruct (N.eqb_spec k a); [reflexivity|contradiction].
  - destruct (N.eqb_spec k b); [|contradiction]. destruct (N.eqb_spec k a); [contradiction|reflexivity].
  - destruct (N.eqb_spec k b); [contradiction|]. destruct (N.eqb_spec k a); [contradiction|reflexivity].
Qed.

Lemma slot_lookup gs g x i : lookup gs g = Some x -> slot gs g i = get i x.
Proof. intros H. unfold slot. rewrite H. reflexivity. Qed.

Lemma slot_some_lookup gs g i c : slot gs g i = Some c -> exists x, lookup gs g = Some x /\ get i x = Some c.
Proof. unfold slot. destruct (lookup gs g) as [x|]; [|discriminate]. intros H. exists x. split; [reflexivity|exact H]. Qed.

(* ---- len / put ---- *)
Definition fillok (x : gate) : Prop := c1 x <> None -> c0 x <> None.

Lemma len_le_2 x : (len x <= 2)%nat.
Proof. unfold len. destruct (is_some (c0 x)), (is_some (c1 x)); lia. Qed.

Lemma put_owner c x : owner (put c x) = owner x.
Proof. unfold put. destruct (c0 x); [destruct (c1 x)|]; reflexivity. Qed.

(* with the fill order respected and a free slot left, [put] writes exactly the
   slot whose index is [len] and leaves the other one alone *)
Lemma get_put c x i : fillok x -> (len x < 2)%nat ->
  get i (put c x) = if sid_eqb i (sid_of_len (len x)) then Some c else get i x.
Proof.
  unfold fillok, len, put. destruct x as [o [a|] [b|]]; cbn; intros F L; destruct i; cbn; try reflexivity; try lia;
    exfalso; assert (X : @None conn <> None) by (apply F; discriminate); apply X; reflexivity.
Qed.

Lemma get_free x : fillok x -> (len x < 2)%nat -> get (sid_of_len (len x)) x = None.
Proof.
  unfold fillok, len. destruct x as [o [a|] [b|]]; cbn; intros F L; try reflexivity; try lia.
  exfalso. assert (X : @None conn <> None) by (apply F; discriminate). apply X; reflexivity.
Qed.

Lemma len_S1 x : fillok x -> (len x < 2)%nat -> sid_of_len (len x) = S1 -> c0 x <> None.
Proof.
  unfold fillok, len. destruct x as [o [a|] [b|]]; cbn; intros F L E; try discriminate; try lia.
  apply F. discriminate.
Qed.

Lemma len_S0 x : sid_of_len (len x) = S0 -> c0 x = None /\ c1 x = None.
Proof. unfold len. destruct x as [o [a|] [b|]]; cbn; intros E; try discriminate. split; reflexivity. Qed.

Lemma connected_to_spec x h :
  connected_to x h = true <-> exists i c, get i x = Some c /\ endpoint c = h.
Proof.
  unfold connected_to. split.
  - intros H. apply orb_true_iff in H. destruct H as [H|H].
    + destruct (c0 x) as [c|] eqn:E; [|discriminate]. apply N.eqb_eq in H. exists S0, c. split; assumption.
    + destruct (c1 x) as [c|] eqn:E; [|discriminate]. apply N.eqb_eq in H. exists S1, c. split; assumption.
  - intros [i [c [Hg He]]]. apply orb_true_iff. destruct i; cbn [get] in Hg; rewrite Hg.
    + left. apply N.eqb_eq. exact He.
    + right. apply N.eqb_eq. exact He.
Qed.

Lemma kind_not_transit x : kind_of x <> Transit <-> (len x < 2)%nat.
Proof.
  unfold kind_of. pose proof (len_le_2 x) as L. destruct (len x) as [|[|[|n]]]; split; intros H; try lia; try discriminate.
  - contradiction H; reflexivity.
Qed.

(* ---- fresh gate table ---- *)
Lemma lookup_mk_gates k owners g x : lookup (mk_gates k owners) g = Some x -> c0 x = None /\ c1 x = None.
Proof.
  revert k; induction owners as [|o r IH]; intros k; cbn [mk_gates lookup]; [discriminate|].
  destruct (k =? g); [|apply IH]. intros H. injection H as <-. split; reflexivity.
Qed.

Lemma lookup_app gs l g :
  lookup (gs ++ l) g = match lookup gs g with Some x => Some x | None => lookup l g end.
Proof.
  induction gs as [|[k x] r IH]; cbn [app lookup]; [reflexivity|]. destruct (k =? g); [reflexivity|exact IH].
Qed.
