(* A message sent on a non-transit gate is delivered exactly once, to the owner
   of the far end of the chain, at send time + sum of the per-hop channel
   delays, with header fields sender / receiver / last_gate; both directions. *)
From Coq Require Import List Arith NArith Lia.
From DesVerif Require Import Gate.Model Gate.Map Gate.Sym Gate.Walk Gate.Mirror.
Import ListNotations.
Open Scope N_scope.

(* idle-hop delay: transmission time of the 72-byte message + latency *)
Definition delay (ch : option chan) : N := match ch with Some c => hop_delay c | None => 0 end.
(* sum of the channel delays of the hops of a path *)
Fixpoint total (chs : list (option chan)) : N :=
  match chs with [] => 0 | ch :: r => delay ch + total r end.
Definition path_delay (p : list conn) : N := total (map channel p).

(* spelled out: sum over the hops of transmission time + latency *)
Lemma path_delay_sum p :
  path_delay p = fold_right N.add 0
    (map (fun c => match channel c with Some (lat, br) => tx br + lat | None => 0 end) p).
Proof.
  unfold path_delay. induction p as [|c p IH]; [reflexivity|]. cbn [map total fold_right]. rewrite IH.
  destruct (channel c) as [[lat br]|]; reflexivity.
Qed.

Lemma total_app a b : total (a ++ b) = total a + total b.
Proof. induction a as [|x a IH]; cbn [total app]; [reflexivity|]. rewrite IH. lia. Qed.

Lemma total_rev a : total (rev a) = total a.
Proof. induction a as [|x a IH]; [reflexivity|]. cbn [rev]. rewrite total_app, IH. cbn [total]. lia. Qed.

(* handle_with_sink follows exactly the hops that path_iter enumerates *)
Lemma hws_walk gs fuel c p : walk fuel gs c = Some p -> forall now last_g,
  handle_with_sink fuel gs c now last_g =
  Some (owner_of gs (last (map endpoint p) (endpoint c)), now + path_delay p, last (map endpoint p) last_g).
Proof.
  revert c p; induction fuel as [|f IH]; intros c p H now last_g; cbn [walk] in H; [discriminate|].
  cbn [handle_with_sink]. destruct (next_hop gs c) as [n|].
  - destruct (walk f gs n) as [q|] eqn:Eq; [|discriminate]. injection H as <-.
    cbn [map]. rewrite !last_cons. unfold path_delay. cbn [map total].
    destruct (channel n) as [lat|]; rewrite (IH _ _ Eq); cbn [delay]; unfold path_delay.
    + rewrite N.add_assoc. reflexivity.
    + rewrite N.add_0_l. reflexivity.
  - injection H as <-. cbn [map last]. unfold path_delay. cbn [map total]. rewrite N.add_0_r. reflexivity.
Qed.

(* [h] is the header the message object carries when it is handed to send: fresh,
   or whatever a previous leg stamped on it.  The delivered header names [cur],
   the module that performed THIS send. *)
Theorem delivered_once_to_far_owner gs h cur g x t :
  Inv gs -> lookup gs g = Some x -> kind_of x <> Transit ->
  exists p, path_iter gs g = Some (Some p) /\
    let far := last (map endpoint p) g in
    buf_send_at gs h cur g t =
    SDelivered {| d_to := owner_of gs far; d_time := t + path_delay p;
                  d_sender := cur; d_receiver := owner_of gs far; d_last := far |}.
Proof.
  intros HI L K. destruct (path_iter_total _ _ _ HI L K) as [p HP]. exists p. split; [exact HP|].
  destruct (path_iter_inv _ _ _ HP) as [x' [L' [_ Hw]]]. symmetry in Hw.
  cbn zeta. unfold buf_send_at. cbn zeta. rewrite L.
  apply kind_not_transit in K. assert (Nat.ltb 1 (len x) = false) as -> by (apply Nat.ltb_ge; lia).
  rewrite (hws_walk _ _ _ _ Hw). reflexivity.
Qed.

(* the same chain in the other direction: the far end is an endpoint whose
   chain ends at g, with the same total delay *)
Theorem both_directions gs h cur g p t :
  Inv gs -> path_iter gs g = Some (Some p) ->
  let far := last (map endpoint p) g in
  buf_send_at gs h cur far t =
  SDelivered {| d_to := owner_of gs g; d_time := t + path_delay p;
                d_sender := cur; d_receiver := owner_of gs g; d_last := g |}.
Proof.
  intros HI HP far. destruct (mirror _ _ _ HI HP) as [q [HQ [Eq Cq]]]. fold far in HQ.
  destruct (path_iter_inv _ _ _ HQ) as [y [Ly [Ky _]]].
  destruct (delivered_once_to_far_owner gs h cur far y t HI Ly Ky) as [q' [HQ' H]].
  rewrite HQ in HQ'. injection HQ' as <-. cbn zeta in H. rewrite H.
  assert (Hd : path_delay q = path_delay p) by (unfold path_delay; rewrite Cq; apply total_rev).
  assert (Hg : last (map endpoint q) far = g).
  { rewrite Eq. subst far. destruct (map endpoint p) as [|e l]; [reflexivity|].
    change (rev (g :: e :: l)) with (rev (e :: l) ++ [g]).
    rewrite tl_app; [apply last_last|]. cbn [rev]. intros E. apply app_eq_nil in E. destruct E as [_ E]. discriminate. }
  rewrite Hd, Hg. reflexivity.
Qed.

Lemma walk_terminates gs g x :
  Inv gs -> lookup gs g = Some x -> kind_of x <> Transit ->
  (exists p, path_iter gs g = Some (Some p)) /\
  (forall h sender t, buf_send_at gs h sender g t <> SOutOfFuel).
Proof.
  intros HI L K. split; [eapply path_iter_total; eassumption|].
  intros h sender t. destruct (delivered_once_to_far_owner gs h sender g x t HI L K) as [p [_ H]].
  cbn zeta in H. rewrite H. discriminate.
Qed.

Lemma connect_out s a b ch : snd (connect s a b ch) <> OOutOfFuel.
Proof.
  destruct (connect_cases s a b ch) as [[_ [H _]]|(ga & gb & _ & _ & _ & _ & _ & _ & E)]; [exact H|rewrite E; discriminate].
Qed.

Lemma q_iter_out s g : Inv (sgates s) -> q_iter s g <> OOutOfFuel.
Proof.
  intros HI. unfold q_iter. destruct (lookup (sgates s) g) as [x|] eqn:L; [|discriminate].
  destruct (is_poisoned s g); [discriminate|].
  destruct (path_iter (sgates s) g) as [[p|]|] eqn:E; [|exfalso|discriminate].
  - destruct (any_poisoned s (map endpoint p)); discriminate.
  - destruct (path_iter_inv _ _ _ E) as [x' [L' [K Hw]]].
    apply (walk_from_endpoint_terminates _ _ _ HI L' K). symmetry. exact Hw.
Qed.

Lemma step_out s o : Inv (sgates s) -> snd (step s o) <> OOutOfFuel.
Proof.
  intros HI. destruct o; cbn [step snd].
  - apply connect_out.
  - unfold q_kind. destruct (lookup (sgates s) g); [|discriminate]. destruct (is_poisoned s g); discriminate.
  - unfold q_next. destruct (lookup (sgates s) g) as [x|]; [|discriminate]. destruct (is_poisoned s g); [discriminate|].
    destruct (kind_of x); discriminate.
  - unfold q_end. pose proof (q_iter_out s g HI) as H. destruct (q_iter s g) as [| | | |p| | | | | | |]; try discriminate; [destruct p; discriminate|contradiction H; reflexivity].
  - apply q_iter_out. exact HI.
  - destruct (lookup (sgates s) g); discriminate.
  - destruct (lookup (sgates s) g); [destruct (lookup (sgates s) g')|]; discriminate.
  - discriminate.
  - apply connect_out.
  - discriminate.
Qed.

Lemma exec_snd_cons s o r : snd (exec s (o :: r)) = snd (step s o) :: snd (exec (fst (step s o)) r).
Proof. cbn [exec]. destruct (step s o) as [s' x]. cbn [fst snd]. destruct (exec s' r). reflexivity. Qed.

Lemma exec_no_fuel s ops : Inv (sgates s) -> ~ In OOutOfFuel (snd (exec s ops)).
Proof.
  revert s; induction ops as [|o r IH]; intros s HI; [intros []|].
  rewrite exec_snd_cons. intros [H|H].
  - apply (step_out s o HI). exact H.
  - apply (IH (fst (step s o))); [apply step_inv; exact HI|exact H].
Qed.


(* ---- relayed messages: the header clause holds on every leg ---- *)
(* whatever header the object carried before, a delivery names the module that sent this leg *)
Lemma buf_send_at_hdr gs h cur g t d :
  buf_send_at gs h cur g t = SDelivered d -> d_sender d = cur /\ d_receiver d = d_to d.
Proof.
  unfold buf_send_at. cbn zeta. destruct (lookup gs g) as [x|]; [|discriminate].
  destruct (Nat.ltb 1 (len x)); [discriminate|].
  destruct (handle_with_sink (fuel_of gs) gs (new_unchecked g) t g) as [[[o t'] l]|]; [|discriminate].
  intros H. injection H as <-. split; reflexivity.
Qed.

(* [cur] performs the first send of the list; each later leg is sent by the
   module that received the previous one; only the last leg may fail *)
Fixpoint chain_ok (cur : N) (l : list (N * sres)) : Prop :=
  match l with
  | [] => True
  | (_, SDelivered d) :: r => d_sender d = cur /\ d_receiver d = d_to d /\ chain_ok (d_to d) r
  | (_, _) :: r => r = []
  end.

Theorem legs_sender_chain b gs rules h cur g t leg : chain_ok cur (legs b gs rules h cur g t leg).
Proof.
  revert h cur g t leg; induction b as [|b IH]; intros h cur g t leg; cbn [legs chain_ok];
    destruct (buf_send_at gs h cur g t) as [d| |] eqn:E; try reflexivity.
  - destruct (buf_send_at_hdr _ _ _ _ _ _ E) as [H1 H2]. repeat split; assumption.
  - destruct (buf_send_at_hdr _ _ _ _ _ _ E) as [H1 H2]. split; [exact H1|]. split; [exact H2|].
    destruct (find_rule rules (d_last d)) as [[g' dl]|]; [apply IH|exact I].
Qed.

(* every leg is one application of buf_send_at to the received object, on the
   gate and after the delay the forwarding rule names *)
Lemma legs_unfold b gs rules h cur g t leg :
  legs b gs rules h cur g t leg =
  (leg, buf_send_at gs h cur g t) ::
  match buf_send_at gs h cur g t, b with
  | SDelivered d, S b' =>
      match find_rule rules (d_last d) with
      | Some (g', dl) => legs b' gs rules (hdr_of d) (d_to d) g' (d_time d + dl) (leg + 1)
      | None => []
      end
  | _, _ => []
  end.
Proof. destruct b; reflexivity. Qed.

Lemma legs_length b gs rules h cur g t leg : (1 <= length (legs b gs rules h cur g t leg) <= b + 1)%nat.
Proof.
  revert h cur g t leg; induction b as [|b IH]; intros h cur g t leg; cbn [legs length].
  - destruct (buf_send_at gs h cur g t); cbn [length]; lia.
  - destruct (buf_send_at gs h cur g t) as [d| |]; cbn [length]; try lia.
    destruct (find_rule rules (d_last d)) as [[g' dl]|]; cbn [length]; [|lia].
    specialize (IH (hdr_of d) (d_to d) g' (d_time d + dl) (leg + 1)). lia.
Qed.

(* ---- scripts: every send of a script is answered by exactly one list of legs ---- *)
Theorem script_deliveries owners ops k g t d b x :
  let gs := sgates (fst (exec (init owners) ops)) in
  let rules := rules_of gs ops in
  nth_error (sends_of gs ops) k = Some (g, t, d, b) ->
  lookup gs g = Some x -> kind_of x <> Transit ->
  length (map (send_one gs rules) (sends_of gs ops)) = length (sends_of gs ops) /\
  exists p rest, path_iter gs g = Some (Some p) /\
    let far := last (map endpoint p) g in
    nth_error (map (send_one gs rules) (sends_of gs ops)) k =
    Some ((0, SDelivered {| d_to := owner_of gs far; d_time := t + d + path_delay p;
                            d_sender := owner_of gs g; d_receiver := owner_of gs far; d_last := far |}) :: rest) /\
    chain_ok (owner_of gs far) rest /\ (length rest <= N.to_nat b)%nat.
Proof.
  intros gs rules Hk L K. split; [apply map_length|].
  pose proof (inv_reachable owners ops) as HI. fold gs in HI.
  destruct (delivered_once_to_far_owner gs fresh_header (owner_of gs g) g x (t + d) HI L K) as [p [HP HB]].
  cbn zeta in HB.
  pose proof (legs_sender_chain (N.to_nat b) gs rules fresh_header (owner_of gs g) g (t + d) 0) as HC.
  pose proof (legs_length (N.to_nat b) gs rules fresh_header (owner_of gs g) g (t + d) 0) as HL.
  rewrite legs_unfold in HC, HL. rewrite HB in HC, HL.
  exists p. eexists. split; [exact HP|]. cbn zeta.
  rewrite (map_nth_error _ _ _ Hk). unfold send_one. rewrite legs_unfold, HB.
  split; [reflexivity|]. cbn [chain_ok] in HC. cbn [length] in HL.
  split; [destruct HC as [_ [_ HC]]; exact HC|lia].
Qed.
