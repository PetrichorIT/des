(* Concrete model of des/src/net/gate.rs (Connections, Connection, PathIter,
   Gate::{kind,connect,path_iter,next_gate,path_end}) and of the message walk of
   des/src/net/runtime/events.rs (MessageExitingConnection::handle_with_sink) +
   des/src/net/runtime/ctx.rs (buf_send_at).  Function names and branch
   structure follow the Rust code.  No proofs in this file.

   Gates are a finite map (association list keyed by the gate id) to two
   optional slots.  A slot holds (peer gate, slot index used on the peer,
   channel?).  A channel is (latency, bitrate), jitter 0.  Each direction of a
   hop has its own Channel instance (Gate::connect dups it).  Messages are
   treated independently: every hop delays by the idle-channel duration
   tx(len) + latency.  That is the code's behaviour as long as no message meets
   a busy channel, i.e. as long as the traffic of ONE direction of a hop does
   not overlap in time (busy / drop / queue is C07's subject); opposite
   directions may overlap freely.

   std::sync::Mutex poisoning is modelled because it is observable once the
   documented panics of connect are caught: the assert "gates allready connected
   to multiple points" fires while both gates' guards are held, which poisons
   both mutexes; every later lock of such a gate panics. *)
From Coq Require Import List NArith Bool.
From DesVerif Require Import Common.Codec.
Import ListNotations.
Open Scope N_scope.

(* slot index of Connections.connections : [Option<Connection>; 2] *)
Inductive sid := S0 | S1.
(* [1, 0][endpoint_id] *)
Definition opp (i : sid) : sid := match i with S0 => S1 | S1 => S0 end.
Definition sid_eqb (i j : sid) : bool :=
  match i, j with S0, S0 => true | S1, S1 => true | _, _ => false end.

(* a channel: (latency ns, bitrate bit/s); jitter 0, bitrate 0 = unlimited *)
Definition chan := (N * N)%type.
(* every message of a script is 72 bytes long (64 header + u64 content) *)
Definition MSG_BITS : N := 576.
(* ChannelMetrics::calculate_busy: len*8/bitrate seconds; scripts only use bitrates
   for which this is a whole number of ns (see [norm_br]) *)
Definition tx (br : N) : N := if br =? 0 then 0 else (MSG_BITS * 1000000000) / br.
(* ChannelMetrics::calculate_duration of an idle channel, jitter 0: latency + transmission time *)
Definition hop_delay (c : chan) : N := tx (snd c) + fst c.

Record conn := { endpoint : N; endpoint_id : sid; channel : option chan }.
Record gate := { owner : N; c0 : option conn; c1 : option conn }.
Definition gates := list (N * gate).

Definition get (i : sid) (x : gate) : option conn := match i with S0 => c0 x | S1 => c1 x end.

Fixpoint lookup (gs : gates) (g : N) : option gate :=
  match gs with
  | [] => None
  | (k, x) :: r => if k =? g then Some x else lookup r g
  end.

Fixpoint upd (gs : gates) (g : N) (f : gate -> gate) : gates :=
  match gs with
  | [] => []
  | (k, x) :: r => (if k =? g then (k, f x) else (k, x)) :: upd r g f
  end.

Definition slot (gs : gates) (g : N) (i : sid) : option conn :=
  match lookup gs g with Some x => get i x | None => None end.

Definition owner_of (gs : gates) (g : N) : N :=
  match lookup gs g with Some x => owner x | None => 0 end.

Definition is_some {A} (o : option A) : bool := match o with Some _ => true | None => false end.

(* Connections::len *)
Definition len (x : gate) : nat :=
  ((if is_some (c0 x) then 1 else 0) + (if is_some (c1 x) then 1 else 0))%nat.

(* Connections::put: first free slot *)
Definition put (c : conn) (x : gate) : gate :=
  match c0 x with
  | None => {| owner := owner x; c0 := Some c; c1 := c1 x |}
  | Some _ =>
      match c1 x with
      | None => {| owner := owner x; c0 := c0 x; c1 := Some c |}
      | Some _ => x                       (* unreachable!() *)
      end
  end.

(* `conns_pos = conns.len()` used as `endpoint_id`; only called with len < 2 *)
Definition sid_of_len (n : nat) : sid := match n with O => S0 | _ => S1 end.

Inductive gkind := Standalone | Endpoint | Transit.
Definition kind_of (x : gate) : gkind :=
  match len x with O => Standalone | S O => Endpoint | _ => Transit end.

(* the loop `if Arc::ptr_eq(&con.endpoint, &other) { return; }` *)
Definition connected_to (x : gate) (h : N) : bool :=
  (match c0 x with Some c => endpoint c =? h | None => false end) ||
  (match c1 x with Some c => endpoint c =? h | None => false end).

Record state := { sgates : gates; poisoned : list N }.

Definition is_poisoned (s : state) (g : N) : bool := existsb (N.eqb g) (poisoned s).
Definition poison (s : state) (l : list N) : state :=
  {| sgates := sgates s; poisoned := l ++ poisoned s |}.

Inductive out :=
| OUnit                                (* connect returned *)
| OKind (k : gkind)
| ONext (h : option N)
| OEnd (h : option N)
| OIter (p : option (list conn))       (* None: transit gate, no iterator *)
| OSent
| ORule
| OSpawn
| OMask
| OInvalid                             (* script names a gate that does not exist *)
| OPanic (site : N)
| OOutOfFuel.
(* panic sites: 0 = buf_send_at on a gate that is not in the table (a case of the model only)
                1 = "Cannot connect gate to itself."
                2 = "Cannot add connection, gates allready connected to multiple points"
                3 = Connection::new assertion (send on a transit gate)
                4 = poisoned lock in kind / next_hop
                5 = poisoned lock in connect *)

(* Gate::connect(self = a, other = b, channel) *)
Definition connect (s : state) (a b : N) (ch : option chan) : state * out :=
  match lookup (sgates s) a, lookup (sgates s) b with
  | Some ga, Some gb =>
      if a =? b then (s, OPanic 1)                               (* assert!(!Arc::ptr_eq(..)) *)
      else if is_poisoned s a then (s, OPanic 5)                 (* self.connections.try_lock().expect(..) *)
      else if connected_to ga b then (s, OUnit)                  (* allready connected: return *)
      else if is_poisoned s b then (poison s [a], OPanic 5)      (* other..try_lock().expect(..), guard of a held *)
      else if (Nat.ltb (len ga) 2) && (Nat.ltb (len gb) 2) then
        let ca := {| endpoint := b; endpoint_id := sid_of_len (len gb); channel := ch |} in
        let cb := {| endpoint := a; endpoint_id := sid_of_len (len ga); channel := ch |} in
        ({| sgates := upd (upd (sgates s) a (put ca)) b (put cb); poisoned := poisoned s |}, OUnit)
      else (poison s [a; b], OPanic 2)                           (* assert!(conns_pos < 2 && other_conns_pos < 2), both guards held *)
  | _, _ => (s, OInvalid)
  end.

(* Connection::new_unchecked *)
Definition new_unchecked (g : N) : conn := {| endpoint := g; endpoint_id := S1; channel := None |}.

(* Connection::next_hop *)
Definition next_hop (gs : gates) (c : conn) : option conn :=
  slot gs (endpoint c) (opp (endpoint_id c)).

(* PathIter, collected; None = out of fuel *)
Fixpoint walk (fuel : nat) (gs : gates) (c : conn) : option (list conn) :=
  match fuel with
  | O => None
  | S f =>
      match next_hop gs c with
      | None => Some []
      | Some n => match walk f gs n with Some p => Some (n :: p) | None => None end
      end
  end.

Definition fuel_of (gs : gates) : nat := (2 * length gs + 1)%nat.

(* Gate::path_iter(..).collect(): outer None = transit gate *)
Definition path_iter (gs : gates) (g : N) : option (option (list conn)) :=
  match lookup gs g with
  | None => None
  | Some x => match kind_of x with
              | Transit => None
              | _ => Some (walk (fuel_of gs) gs (new_unchecked g))
              end
  end.

(* handle_with_sink, with the MessageExitingConnection event that a channel
   schedules at now + latency folded into the same recursion (the event handler
   is handle_with_sink again, on the connection that was exited).
   [last] is msg.header.last_gate.  Result: (receiving module, time, last_gate). *)
Fixpoint handle_with_sink (fuel : nat) (gs : gates) (cur : conn) (now last : N) : option (N * N * N) :=
  match fuel with
  | O => None
  | S f =>
      match next_hop gs cur with
      | Some next =>
          (* msg.header.last_gate = Some(next.endpoint) *)
          match channel next with
          | Some ch => handle_with_sink f gs next (now + hop_delay ch) (endpoint next)  (* ch.send_message(msg, next, sink): idle channel *)
          | None => handle_with_sink f gs next now (endpoint next)              (* cur = next *)
          end
      | None => Some (owner_of gs (endpoint cur), now, last)                     (* HandleMessageEvent at SimTime::now() *)
      end
  end.

(* The header fields of the message OBJECT that C08 talks about.  A message that
   was delivered and is sent on by the receiving module (forwarded, echoed) still
   carries the values stamped on its previous leg.  None = ModuleId::NULL / no gate. *)
Record header := { h_sender : option N; h_receiver : option N; h_last : option N }.
Definition fresh_header : header := {| h_sender := None; h_receiver := None; h_last := None |}.
Definition hN (o : option N) : N := match o with Some x => x | None => 0 end.

Record delivery := { d_to : N; d_time : N; d_sender : N; d_receiver : N; d_last : N }.
(* the header of the delivered object, as handle_message sees it *)
Definition hdr_of (d : delivery) : header :=
  {| h_sender := Some (d_sender d); h_receiver := Some (d_receiver d); h_last := Some (d_last d) |}.

Inductive sres := SDelivered (d : delivery) | SPanic (site : N) | SOutOfFuel.

(* buf_send_at(msg, gate, send_time) called by module [cur] on a message whose
   header is [h]: `msg.header.sender_module_id = current().id()` is unconditional.
   Whether the walk starts inline (send_time = now) or from a
   MessageExitingConnection event at send_time, it is handle_with_sink on
   Connection::new(gate) at send_time (which overwrites last_gate);
   HandleMessageEvent::handle stamps receiver_module_id with the handling module. *)
Definition buf_send_at (gs : gates) (h : header) (cur g send_time : N) : sres :=
  let h1 := {| h_sender := Some cur; h_receiver := h_receiver h; h_last := h_last h |} in
  match lookup gs g with
  | None => SPanic 0
  | Some x =>
      if Nat.ltb 1 (len x) then SPanic 3                         (* Connection::new: assert!(len <= 1) *)
      else match handle_with_sink (fuel_of gs) gs (new_unchecked g) send_time g with
           | Some (o, t, l) =>
               SDelivered {| d_to := o; d_time := t; d_sender := hN (h_sender h1); d_receiver := o; d_last := l |}
           | None => SOutOfFuel
           end
  end.

(* RELAY: a forwarding rule (g, g', dl) makes the module that receives a message
   through gate g (header.last_gate = g) send THE RECEIVED message object on gate
   g' after dl ns, as long as the hop budget carried in the message content is
   not used up.  g' = g echoes the message back along the chain it arrived on. *)
Definition rule := (N * N * N)%type.
Fixpoint find_rule (rules : list rule) (g : N) : option (N * N) :=
  match rules with
  | [] => None
  | (a, b, dl) :: r => if a =? g then Some (b, dl) else find_rule r g
  end.

(* all legs of one message: (leg number, result); [budget] = relays still allowed *)
Fixpoint legs (budget : nat) (gs : gates) (rules : list rule) (h : header) (cur g send_time leg : N)
  : list (N * sres) :=
  let r := buf_send_at gs h cur g send_time in
  (leg, r) ::
  match r, budget with
  | SDelivered d, S b' =>
      match find_rule rules (d_last d) with
      | Some (g', dl) => legs b' gs rules (hdr_of d) (d_to d) g' (d_time d + dl) (leg + 1)
      | None => []
      end
  | _, _ => []
  end.

(* channel.rs Buffer (the queue of a busy ChannelDropBehaviour::Queue channel):
   VecDeque<(Message, Connection)>; a message is a number here *)
Definition buffer := list (N * conn).
(* Buffer::enqueue: `con.channel = None; packets.push_back((msg, con))` *)
Definition enqueue (b : buffer) (m : N) (con : conn) : buffer :=
  b ++ [(m, {| endpoint := endpoint con; endpoint_id := endpoint_id con; channel := None |})].
(* Buffer::dequeue: pop_front *)
Definition dequeue (b : buffer) : option ((N * conn) * buffer) :=
  match b with [] => None | x :: r => Some (x, r) end.
(* send_message on the dequeued pair: `Connection { channel: Some(self.clone()), ..via }` *)
Definition restore (ch : chan) (via : conn) : conn :=
  {| endpoint := endpoint via; endpoint_id := endpoint_id via; channel := Some ch |}.

(* ---- scripts ---- *)
Inductive op :=
| Connect (a b : N) (ch : option chan)
| Kind (g : N) | NextGate (g : N) | PathEnd (g : N) | PathIter (g : N)
| Send (g t d b : N)          (* b = relay budget *)
| Relay (g g' d : N)
(* run time, inside at_sim_start: module [caller] executes the call; who executes it does not matter *)
| Spawn (caller target size : N)              (* target.spawner().gate(name, size): the gates belong to [target] *)
| RConnect (caller a b : N) (ch : option chan)
(* m <> 0: arrival times are not reported (scripts in which messages wait in channel queues: the waiting time is C07's subject) *)
| Mask (m : N).

Definition any_poisoned (s : state) (l : list N) : bool := existsb (is_poisoned s) l.

Definition q_kind (s : state) (g : N) : out :=
  match lookup (sgates s) g with
  | None => OInvalid
  | Some x => if is_poisoned s g then OPanic 4 else OKind (kind_of x)
  end.

(* path_iter()? then iteration; every gate whose mutex is locked on the way must be unpoisoned *)
Definition q_iter (s : state) (g : N) : out :=
  match lookup (sgates s) g with
  | None => OInvalid
  | Some x =>
      if is_poisoned s g then OPanic 4 else
      match path_iter (sgates s) g with
      | None => OIter None
      | Some None => OOutOfFuel
      | Some (Some p) => if any_poisoned s (map endpoint p) then OPanic 4 else OIter (Some p)
      end
  end.

Definition q_end (s : state) (g : N) : out :=
  match q_iter s g with
  | OIter None => OEnd None
  | OIter (Some p) => OEnd (match rev p with c :: _ => Some (endpoint c) | [] => None end)
  | o => o
  end.

(* nth(0): a single next_hop, which locks only the gate itself *)
Definition q_next (s : state) (g : N) : out :=
  match lookup (sgates s) g with
  | None => OInvalid
  | Some x =>
      if is_poisoned s g then OPanic 4 else
      match kind_of x with
      | Transit => ONext None
      | _ => ONext (match next_hop (sgates s) (new_unchecked g) with Some c => Some (endpoint c) | None => None end)
      end
  end.

Fixpoint mk_gates (k : N) (owners : list N) : gates :=
  match owners with
  | [] => []
  | o :: r => (k, {| owner := o; c0 := None; c1 := None |}) :: mk_gates (k + 1) r
  end.

(* Spawner::gate: Gate::new(owner = the module the spawner is bound to, ..) for
   each position, appended to that module's gate list; ids continue the numbering *)
Definition spawn (s : state) (target size : N) : state :=
  {| sgates := sgates s ++ mk_gates (N.of_nat (length (sgates s))) (repeat target (N.to_nat size));
     poisoned := poisoned s |}.

Definition step (s : state) (o : op) : state * out :=
  match o with
  | Connect a b ch => connect s a b ch
  | Kind g => (s, q_kind s g)
  | NextGate g => (s, q_next s g)
  | PathEnd g => (s, q_end s g)
  | PathIter g => (s, q_iter s g)
  | Send g _ _ _ => (s, match lookup (sgates s) g with Some _ => OSent | None => OInvalid end)
  | Relay g g' _ => (s, match lookup (sgates s) g, lookup (sgates s) g' with Some _, Some _ => ORule | _, _ => OInvalid end)
  | Spawn _ target size => (spawn s target size, OSpawn)
  | RConnect _ a b ch => connect s a b ch
  | Mask _ => (s, OMask)
  end.

Fixpoint exec (s : state) (ops : list op) : state * list out :=
  match ops with
  | [] => (s, [])
  | o :: r => let '(s', x) := step s o in
              let '(s'', xs) := exec s' r in (s'', x :: xs)
  end.

(* the sends of a script, in order, restricted to existing gates *)
Fixpoint sends_of (gs : gates) (ops : list op) : list (N * N * N * N) :=
  match ops with
  | [] => []
  | Send g t d b :: r => match lookup gs g with
                         | Some _ => (g, t, d, b) :: sends_of gs r
                         | None => sends_of gs r
                         end
  | _ :: r => sends_of gs r
  end.

(* the forwarding rules of a script, in order, restricted to existing gates *)
Fixpoint rules_of (gs : gates) (ops : list op) : list rule :=
  match ops with
  | [] => []
  | Relay g g' d :: r => match lookup gs g, lookup gs g' with
                         | Some _, Some _ => (g, g', d) :: rules_of gs r
                         | _, _ => rules_of gs r
                         end
  | _ :: r => rules_of gs r
  end.

(* send number k: at time t the owner of g calls send_at(fresh msg, g, t + d);
   the message is relayed at most b times *)
Definition send_one (gs : gates) (rules : list rule) (x : N * N * N * N) : list (N * sres) :=
  let '(g, t, d, b) := x in legs (N.to_nat b) gs rules fresh_header (owner_of gs g) g (t + d) 0.

Definition init (owners : list N) : state := {| sgates := mk_gates 0 owners; poisoned := [] |}.

(* ---- wire format ---- *)
(* script: nmod L (owner size){L/2} op*
     op = 1 a b l   connect(a, b, channel: l = 0 none, else latency l-1 ns, bitrate 0)
        | 9 a b l br  as 1, with bitrate br bit/s
        | 2 g kind | 3 g next_gate | 4 g path_end | 5 g path_iter
        | 6 g t d   at time t the owner of g calls send_at(msg, g, t+d)
        | 7 g g' d  forwarding rule: a message received through g is sent on, as the same object, on g' after d ns
        | 8 g t d b as 6, with a budget of min(b,8) relays
        | 10 c m sz  at sim start module c calls m.spawner().gate(name, sz): sz new gates owned by m
        | 11 c a b l br  at sim start module c calls a.connect(b, channel)
        | 12 a b l br q / 13 c a b l br q  as 9 / 11 with drop behaviour q: 0 Drop, 1 Queue(None), q >= 2 Queue(Some(q-2))
                    (which gate a message is routed to does not depend on it: a queued message resumes on the
                    connection it was offered on, see [enqueue] / [dequeue] / [restore] above)
        | 14 m      m <> 0: arrival times are reported as 0
      Build-time operations (1-5, 9) are executed first, in order; then, inside
      at_sim_start, the run-time ones (6-8, 10, 11) in order; records come out in that order. *)
Definition clamp (lo hi x : N) : N := N.max lo (N.min hi x).

Fixpoint groups (nm : N) (l : list N) : list N :=
  match l with
  | o :: sz :: r => repeat (o mod nm) (N.to_nat (clamp 1 6 sz)) ++ groups nm r
  | _ => []
  end.

(* bitrates whose transmission time for MSG_BITS is not a whole number of ns are read as 0 *)
Definition norm_br (br : N) : N :=
  if br =? 0 then 0 else if (MSG_BITS * 1000000000) mod br =? 0 then br else 0.
Definition dec_ch (l br : N) : option chan := if l =? 0 then None else Some (l - 1, norm_br br).

Definition dec_op (nm : N) (l : list N) : option (op * list N) :=
  match l with
  | 1 :: a :: b :: c :: r => Some (Connect a b (dec_ch c 0), r)
  | 9 :: a :: b :: c :: br :: r => Some (Connect a b (dec_ch c br), r)
  | 2 :: g :: r => Some (Kind g, r)
  | 3 :: g :: r => Some (NextGate g, r)
  | 4 :: g :: r => Some (PathEnd g, r)
  | 5 :: g :: r => Some (PathIter g, r)
  | 6 :: g :: t :: d :: r => Some (Send g t d 0, r)
  | 7 :: g :: g' :: d :: r => Some (Relay g g' d, r)
  | 8 :: g :: t :: d :: b :: r => Some (Send g t d (N.min b 8), r)
  | 10 :: c :: tg :: sz :: r => Some (Spawn (c mod nm) (tg mod nm) (clamp 1 6 sz), r)
  | 11 :: c :: a :: b :: l :: br :: r => Some (RConnect (c mod nm) a b (dec_ch l br), r)
  | 12 :: a :: b :: l :: br :: q :: r => Some (Connect a b (dec_ch l br), r)
  | 13 :: c :: a :: b :: l :: br :: q :: r => Some (RConnect (c mod nm) a b (dec_ch l br), r)
  | 14 :: m :: r => Some (Mask m, r)
  | _ => None
  end.

Definition enc_opt (o : option N) : N := match o with Some x => x + 1 | None => 0 end.
Definition enc_kind (k : gkind) : N := match k with Standalone => 0 | Endpoint => 1 | Transit => 2 end.

Definition enc_out (o : out) : list N :=
  match o with
  | OUnit => [1]
  | OKind k => [2; enc_kind k]
  | ONext h => [3; enc_opt h]
  | OEnd h => [4; enc_opt h]
  | OIter None => [5; 0]
  | OIter (Some p) => 5 :: 1 :: N.of_nat (length p) ::
      flat_map (fun c => [endpoint c; enc_opt (option_map fst (channel c)); match channel c with Some ch => snd ch | None => 0 end]) p
  | OSent => [6]
  | ORule => [14]
  | OSpawn => [16]
  | OMask => [17]
  | OInvalid => [7]
  | OOutOfFuel => [8]
  | OPanic s => [9; s]
  end.

Definition enc_leg (mask : bool) (k : N) (x : N * sres) : list N :=
  match x with
  | (leg, SDelivered d) => [11; k; leg; d_to d; if mask then 0 else d_time d; d_sender d; d_receiver d; d_last d + 1]
  | (leg, SPanic s) => [12; k; leg; s]
  | (_, SOutOfFuel) => [8]
  end.

Fixpoint enc_sends (mask : bool) (k : N) (l : list (list (N * sres))) : list N :=
  match l with
  | [] => []
  | x :: r => flat_map (enc_leg mask k) x ++ enc_sends mask (k + 1) r
  end.

Definition run_script (owners : list N) (ops : list op) : list N :=
  let '(s, outs) := exec (init owners) ops in
  flat_map enc_out outs ++
  match poisoned s with
  | [] => enc_sends (existsb (fun o => match o with Mask m => negb (m =? 0) | _ => false end) ops) 0 (map (send_one (sgates s) (rules_of (sgates s) ops)) (sends_of (sgates s) ops))
  | _ => [10]          (* a mutex is poisoned: the simulation is not run *)
  end.

Definition is_rt (o : op) : bool :=
  match o with Send _ _ _ _ | Relay _ _ _ | Spawn _ _ _ | RConnect _ _ _ _ | Mask _ => true | _ => false end.

Definition run (input : list N) : list N :=
  match input with
  | nmod :: r =>
      let nm := clamp 1 8 nmod in
      let '(grp, rest) := take_lp r in
      let ops := decode_all (dec_op nm) rest in
      run_script (groups nm grp) (filter (fun o => negb (is_rt o)) ops ++ filter is_rt ops)
  | [] => [7]
  end.
