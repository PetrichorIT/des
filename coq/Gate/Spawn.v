(* Gates created at run time through Spawner::gate: they continue the numbering,
   belong to the module the spawner is bound to (whoever executed the call), keep
   that owner for the rest of the run, and are covered by every C08 theorem because
   those are stated for all operation lists. *)
From Coq Require Import List NArith Lia.
From DesVerif Require Import Gate.Model Gate.Map Gate.Sym.
Import ListNotations.
Open Scope N_scope.

(* gate ids are k, k+1, ... in table order *)
Fixpoint contig (k : N) (gs : gates) : Prop :=
  match gs with
  | [] => True
  | (key, _) :: r => key = k /\ contig (k + 1) r
  end.

Lemma contig_mk_gates k owners : contig k (mk_gates k owners).
Proof. revert k; induction owners as [|o r IH]; intros k; cbn [mk_gates contig]; [exact I|]. split; [reflexivity|apply IH]. Qed.

Lemma contig_upd k gs g f : contig k gs -> contig k (upd gs g f).
Proof.
  revert k; induction gs as [|[key x] r IH]; intros k H; cbn [upd contig] in *; [exact I|].
  destruct H as [H1 H2]. destruct (key =? g); cbn [contig]; (split; [exact H1|apply IH; exact H2]).
Qed.

Lemma contig_app k a b : contig k a -> contig (k + N.of_nat (length a)) b -> contig k (a ++ b).
Proof.
  revert k; induction a as [|[key x] r IH]; intros k Ha Hb; cbn [app length contig] in *.
  - rewrite N.add_0_r in Hb. exact Hb.
  - destruct Ha as [H1 H2]. split; [exact H1|]. apply IH; [exact H2|].
    replace (k + 1 + N.of_nat (length r)) with (k + N.of_nat (S (length r))) by lia. exact Hb.
Qed.

Lemma contig_lookup_high k gs g : contig k gs -> k + N.of_nat (length gs) <= g -> lookup gs g = None.
Proof.
  revert k; induction gs as [|[key x] r IH]; intros k H Hg; cbn [lookup]; [reflexivity|].
  cbn [contig length] in *. destruct H as [H1 H2]. subst key.
  destruct (N.eqb_spec k g) as [E|_]; [lia|]. apply (IH (k + 1)); [exact H2|lia].
Qed.

Lemma lookup_mk_gates_nth k owners j o :
  nth_error owners j = Some o ->
  lookup (mk_gates k owners) (k + N.of_nat j) = Some {| owner := o; c0 := None; c1 := None |}.
Proof.
  revert k j; induction owners as [|o' r IH]; intros k j H; [destruct j; discriminate|].
  cbn [mk_gates lookup]. destruct j as [|j]; cbn [nth_error] in H.
  - injection H as <-. rewrite N.add_0_r, N.eqb_refl. reflexivity.
  - destruct (N.eqb_spec k (k + N.of_nat (S j))) as [E|_]; [lia|].
    replace (k + N.of_nat (S j)) with (k + 1 + N.of_nat j) by lia. apply IH. exact H.
Qed.

Lemma connect_contig s a b ch : contig 0 (sgates s) -> contig 0 (sgates (fst (connect s a b ch))).
Proof.
  intros H. destruct (connect_cases s a b ch) as [[E _]|(ga & gb & _ & _ & _ & _ & _ & _ & E)]; rewrite E; [exact H|].
  cbn [fst sgates]. apply contig_upd. apply contig_upd. exact H.
Qed.

Lemma step_contig s o : contig 0 (sgates s) -> contig 0 (sgates (fst (step s o))).
Proof.
  intros H. destruct o; cbn [step fst]; try exact H; try (apply connect_contig; exact H).
  unfold spawn. cbn [sgates]. apply contig_app; [exact H|]. apply contig_mk_gates.
Qed.

Lemma exec_contig s ops : contig 0 (sgates s) -> contig 0 (sgates (fst (exec s ops))).
Proof.
  revert s; induction ops as [|o r IH]; intros s H; [exact H|]. rewrite exec_cons. apply IH. apply step_contig. exact H.
Qed.

(* the j-th gate of a spawn call belongs to the spawner's module *)
Lemma spawn_owner s target size j :
  contig 0 (sgates s) -> (j < N.to_nat size)%nat ->
  lookup (sgates (spawn s target size)) (N.of_nat (length (sgates s)) + N.of_nat j) =
  Some {| owner := target; c0 := None; c1 := None |}.
Proof.
  intros HC Hj. unfold spawn. cbn [sgates]. rewrite lookup_app.
  rewrite (contig_lookup_high 0 (sgates s)); [|exact HC|lia].
  apply lookup_mk_gates_nth. apply nth_error_repeat. exact Hj.
Qed.

Lemma connect_lookup s a b ch g x :
  lookup (sgates s) g = Some x ->
  exists y, lookup (sgates (fst (connect s a b ch))) g = Some y /\ owner y = owner x.
Proof.
  intros L. destruct (connect_cases s a b ch) as [[E _]|(ga & gb & _ & _ & _ & _ & _ & _ & E)]; rewrite E.
  - exists x. split; [exact L|reflexivity].
  - cbn [fst sgates]. rewrite !lookup_upd, L.
    destruct (b =? g), (a =? g); cbn [option_map]; eexists; (split; [reflexivity|]); rewrite ?put_owner; reflexivity.
Qed.

Lemma step_lookup s o g x :
  lookup (sgates s) g = Some x -> exists y, lookup (sgates (fst (step s o))) g = Some y /\ owner y = owner x.
Proof.
  intros L. destruct o; cbn [step fst]; try (exists x; split; [exact L|reflexivity]); try (apply connect_lookup; exact L).
  unfold spawn. cbn [sgates]. rewrite lookup_app, L. exists x. split; reflexivity.
Qed.

Lemma exec_lookup s ops g : forall x,
  lookup (sgates s) g = Some x -> exists y, lookup (sgates (fst (exec s ops))) g = Some y /\ owner y = owner x.
Proof.
  revert s; induction ops as [|o r IH]; intros s x L; [exists x; split; [exact L|reflexivity]|]. rewrite exec_cons.
  destruct (step_lookup s o g x L) as [y [Ly Hy]]. destruct (IH _ _ Ly) as [z [Lz Hz]].
  exists z. split; [exact Lz|congruence].
Qed.

(* whoever executes the call, and whatever is executed afterwards: the gates a
   spawn call creates are owned by the module whose spawner was used *)
Theorem spawned_gates_owner owners ops caller target size more j :
  (j < N.to_nat size)%nat ->
  owner_of (sgates (fst (exec (init owners) (ops ++ Spawn caller target size :: more))))
           (N.of_nat (length (sgates (fst (exec (init owners) ops)))) + N.of_nat j) = target.
Proof.
  intros Hj. rewrite exec_app, exec_cons. cbn [step fst].
  set (s := fst (exec (init owners) ops)).
  assert (HC : contig 0 (sgates s)) by (apply exec_contig, contig_mk_gates).
  destruct (exec_lookup _ more _ _ (spawn_owner s target size j HC Hj)) as [y [Ly Hy]].
  unfold owner_of. rewrite Ly. exact Hy.
Qed.
