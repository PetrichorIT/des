(* A message that waits in the queue of a busy channel resumes with exactly the
   connection it was offered on: Buffer::enqueue / dequeue keep (endpoint,
   endpoint_id), send_message puts the channel handle back.  Which gate and
   module a message is routed to does not depend on when it continues. *)
From Coq Require Import List NArith.
From DesVerif Require Import Gate.Model Gate.Sym.
Import ListNotations.
Open Scope N_scope.

(* what next_hop looks at *)
Definition pos (c : conn) : N * sid := (endpoint c, endpoint_id c).

Lemma enqueue_keeps_pos b m con :
  exists c', enqueue b m con = b ++ [(m, c')] /\ pos c' = pos con.
Proof. eexists. split; [reflexivity|reflexivity]. Qed.

(* FIFO: enqueueing a list of offers onto a buffer and dequeueing gives them back in order *)
Fixpoint enqueue_all (b : buffer) (offers : list (N * conn)) : buffer :=
  match offers with
  | [] => b
  | (m, c) :: r => enqueue_all (enqueue b m c) r
  end.

Fixpoint dequeue_all (fuel : nat) (b : buffer) : list (N * conn) :=
  match fuel with
  | O => []
  | S f => match dequeue b with Some (x, r) => x :: dequeue_all f r | None => [] end
  end.

Lemma dequeue_all_id b : dequeue_all (length b) b = b.
Proof. induction b as [|x r IH]; [reflexivity|]. cbn [length dequeue_all dequeue]. rewrite IH. reflexivity. Qed.

Lemma enqueue_all_app b offers :
  enqueue_all b offers =
  b ++ map (fun x => (fst x, {| endpoint := endpoint (snd x); endpoint_id := endpoint_id (snd x); channel := None |})) offers.
Proof.
  revert b; induction offers as [|[m c] r IH]; intros b; cbn [enqueue_all map]; [rewrite app_nil_r; reflexivity|].
  rewrite IH. unfold enqueue. rewrite <- app_assoc. reflexivity.
Qed.

Theorem queue_preserves_connection offers :
  let b := enqueue_all [] offers in
  map (fun x => (fst x, pos (snd x))) (dequeue_all (length b) b) = map (fun x => (fst x, pos (snd x))) offers.
Proof.
  cbn zeta. rewrite dequeue_all_id, enqueue_all_app. cbn [app]. rewrite map_map. apply map_ext.
  intros [m c]. reflexivity.
Qed.

(* the connection a channel hands to MessageExitingConnection after the wait is
   the one the message was offered on *)
Theorem resume_same_connection ch con m :
  channel con = Some ch ->
  forall c' r, dequeue (enqueue [] m con) = Some ((m, c'), r) -> restore ch c' = con.
Proof.
  intros Hc c' r H. cbn in H. injection H as <- <-. unfold restore. cbn [endpoint endpoint_id].
  destruct con as [e i c]. cbn [channel] in Hc. subst c. reflexivity.
Qed.

(* routing does not depend on the time at which the walk continues *)
Lemma hws_route_time_indep gs fuel c now last_g o t l :
  handle_with_sink fuel gs c now last_g = Some (o, t, l) ->
  forall now', exists t', handle_with_sink fuel gs c now' last_g = Some (o, t', l).
Proof.
  revert c now last_g; induction fuel as [|f IH]; intros c now last_g H now'; cbn [handle_with_sink] in *; [discriminate|].
  destruct (next_hop gs c) as [n|].
  - destruct (channel n) as [ch|]; eapply IH; exact H.
  - injection H as <- <- <-. eexists. reflexivity.
Qed.
