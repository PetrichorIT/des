(* What one step of the scan does (scan_step_eq, scan_step_inl, scan_step_stops), and
   that the scan stops within any bound that covers the distance to a pending event. *)
From Coq Require Import List NArith Lia.
From DesVerif Require Import Common.Fuel CQueue.Model CQueue.ListX CQueue.Scan.
Import ListNotations.
Open Scope N_scope.

Lemma scan_step_eq q :
  J q -> exists b, nth_error (buckets q) (N.to_nat (head q)) = Some b /\
    scan_step q = match b with
                  | [] => inl (advance q)
                  | x :: r => if t1 q <? etime x then inl (advance q)
                              else inr (pop_head q x r, OFetched (epay x) (etime x))
                  end.
Proof.
  intros HJ. pose proof (head_lt q HJ) as Hlt. unfold scan_step.
  destruct (nth_error (buckets q) (N.to_nat (head q))) as [b|] eqn:Hb; [|apply nth_error_None in Hb; lia].
  exists b. rewrite (nth_error_nth _ _ [] Hb). split; reflexivity.
Qed.

Lemma scan_step_inl q q' :
  J q -> scan_step q = inl q' ->
  q' = advance q /\
  (forall b e, nth_error (buckets q) (N.to_nat (head q)) = Some b -> In e b -> t1 q < etime e).
Proof.
  intros HJ H. destruct (scan_step_eq q HJ) as [b [Hb E]]. rewrite E in H.
  assert (Hq : q' = advance q) by (destruct b as [|x r]; [|destruct (t1 q <? etime x)]; congruence).
  split; [exact Hq|]. intros b' e Hb' Hin. rewrite Hb in Hb'. injection Hb' as <-.
  destruct b as [|x r]; [destruct Hin|]. destruct (t1 q <? etime x) eqn:Hc; [|discriminate].
  apply N.ltb_lt in Hc. destruct Hin as [<-|Hin]; [exact Hc|].
  pose proof (sorted_head _ _ _ _ (J_sorted q HJ _ _ Hb) Hin). cbn in *. lia.
Qed.

(* if the head bucket's slot is the event's slot, the scan stops here *)
Lemma scan_step_stops q i b e :
  J q -> nth_error (buckets q) i = Some b -> In e b ->
  slot (qt q) (etime e) = slot (qt q) (t0 q) ->
  exists r, scan_step q = inr r.
Proof.
  intros HJ Hb Hin Hs. pose proof HJ as [Hn Ht Hl Ht0 Ht1 Hh Hsort He].
  destruct (He i b e Hb Hin) as [Hi _].
  assert (Hih : i = N.to_nat (head q)) by (rewrite Hh, <- Hs, <- Hi; lia). subst i.
  destruct (scan_step_eq q HJ) as [b' [Hb' E]]. rewrite Hb in Hb'. injection Hb' as <-. rewrite E.
  destruct b as [|x r]; [destruct Hin|].
  assert (Hxe : etime x <= etime e).
  { destruct Hin as [<-|Hin]; [lia|]. exact (sorted_head _ _ _ _ (Hsort _ _ Hb) Hin). }
  assert (He1 : etime e < t1 q).
  { (* time e = t * k + (time e mod t) with k the slot of the window *)
    rewrite Ht1, Ht0. unfold slot in *. pose proof (N.mod_lt (etime e) (qt q) Ht).
    pose proof (N.div_mod (etime e) (qt q) Ht). rewrite <- Hs. lia. }
  destruct (t1 q <? etime x) eqn:Hc; [apply N.ltb_lt in Hc; lia|]. eexists; reflexivity.
Qed.

Lemma advance_buckets q : buckets (advance q) = buckets q. Proof. reflexivity. Qed.

Lemma scan_terminates k : forall q i b e,
  J q -> nth_error (buckets q) i = Some b -> In e b ->
  (N.to_nat (slot (qt q) (etime e) - slot (qt q) (t0 q)) < k)%nat ->
  exists r, iter_nat k scan_step q = inr r.
Proof.
  induction k as [|k IH]; intros q i b e HJ Hb Hin Hm; [lia|].
  cbn [iter_nat]. destruct (scan_step q) as [q'|r] eqn:Hst; [|eexists; reflexivity].
  destruct (scan_step_inl q q' HJ Hst) as [-> Hskip].
  assert (Hne : slot (qt q) (etime e) <> slot (qt q) (t0 q)).
  { intro E. destruct (scan_step_stops q i b e HJ Hb Hin E) as [r Hr]. congruence. }
  pose proof (J_ev q HJ i b e Hb Hin) as [_ Hle].
  apply (IH (advance q) i b e (advance_J q HJ Hskip) Hb Hin).
  cbn [advance t0 qt]. rewrite (slot_advance q HJ). lia.
Qed.
