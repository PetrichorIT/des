(* Abstract future event set: a FIFO of events scheduled for the current instant
   plus a list of the other pending events kept sorted by (time, id).  It does
   not mention bucket count or bucket width.  No proofs in this file. *)
From Coq Require Import List NArith Bool.
From DesVerif Require Import Common.Codec CQueue.Model.
Import ListNotations.
Open Scope N_scope.

Record sp := { s_tcur : N; s_zero : list ev; s_rest : list ev; s_next : N }.

Definition key_lt (a b : ev) : bool :=
  (etime a <? etime b) || ((etime a =? etime b) && (eid a <? eid b)).

Fixpoint sins (e : ev) (l : list ev) : list ev :=
  match l with
  | [] => [e]
  | x :: r => if key_lt e x then e :: x :: r else x :: sins e r
  end.

Definition sp_new_at (ts : N) : sp := {| s_tcur := ts; s_zero := []; s_rest := []; s_next := 0 |}.
Definition sp_new : sp := sp_new_at 0.

Definition sp_len (s : sp) : N := N.of_nat (length (s_zero s) + length (s_rest s)).

Definition sp_add (s : sp) (time pay : N) : sp * option (N * N) * out :=
  if time <? s_tcur s then (s, None, OPanic 1) else
  let e := {| etime := time; eid := s_next s; epay := pay |} in
  if time =? s_tcur s
  then ({| s_tcur := s_tcur s; s_zero := s_zero s ++ [e]; s_rest := s_rest s; s_next := s_next s + 1 |},
        Some (time, s_next s), OAdded)
  else ({| s_tcur := s_tcur s; s_zero := s_zero s; s_rest := sins e (s_rest s); s_next := s_next s + 1 |},
        Some (time, s_next s), OAdded).

(* cancel looks the event up by id only; the time in the handle is irrelevant *)
Definition sp_cancel (s : sp) (id : N) : sp :=
  match remove_id id (s_zero s) with
  | Some z' => {| s_tcur := s_tcur s; s_zero := z'; s_rest := s_rest s; s_next := s_next s |}
  | None => match remove_id id (s_rest s) with
            | Some r' => {| s_tcur := s_tcur s; s_zero := s_zero s; s_rest := r'; s_next := s_next s |}
            | None => s
            end
  end.

Definition sp_fetch (s : sp) : sp * out :=
  match s_zero s with
  | x :: z => ({| s_tcur := s_tcur s; s_zero := z; s_rest := s_rest s; s_next := s_next s |},
               OFetched (epay x) (etime x))
  | [] => match s_rest s with
          | x :: r => ({| s_tcur := etime x; s_zero := []; s_rest := r; s_next := s_next s |},
                       OFetched (epay x) (etime x))
          | [] => (s, OPanic 2)
          end
  end.

Definition sp_peek (s : sp) : out :=
  match s_zero s with
  | x :: _ => OPeek (Some (etime x))
  | [] => match s_rest s with
          | x :: _ => OPeek (Some (etime x))
          | [] => OPeek None
          end
  end.

Record sst := { ss : sp; shandles : list (N * N) }.

Definition sp_step (s : sst) (o : op) : sst * out :=
  match o with
  | Add t p => let '(q', h, x) := sp_add (ss s) t p in
               ({| ss := q'; shandles := match h with Some h => shandles s ++ [h] | None => shandles s end |}, x)
  | Cancel k => match pick_handle (shandles s) k with
                | Some (_, i) => ({| ss := sp_cancel (ss s) i; shandles := shandles s |}, OUnit)
                | None => (s, OUnit)
                end
  | Fetch => let '(q', x) := sp_fetch (ss s) in ({| ss := q'; shandles := shandles s |}, x)
  | Len => (s, OLen (sp_len (ss s)))
  | Time => (s, OTime (s_tcur (ss s)))
  | Peek => (s, sp_peek (ss s))
  | Check => (s, OInv [1; 1; 1; 1; 1])   (* the representation invariant always holds *)
  end.

Fixpoint sp_run_from (s : sst) (ops : list op) : sst * list out :=
  match ops with
  | [] => (s, [])
  | o :: r => let '(s', x) := sp_step s o in
              let '(s'', xs) := sp_run_from s' r in (s'', x :: xs)
  end.

Definition sp_init_at (ts : N) : sst := {| ss := sp_new_at ts; shandles := [] |}.
Definition sp_init : sst := sp_init_at 0.

Definition sp_run_ops (ops : list op) : list out := snd (sp_run_from sp_init ops).
Definition sp_run_ops_at (ts : N) (ops : list op) : list out := snd (sp_run_from (sp_init_at ts) ops).

(* same wire format as Model.run; n and t are only tested for 0 (answer [7]) *)
Definition sp_run (input : list N) : list N :=
  match input with
  | n :: t :: ts :: u0 :: r =>
      let u := unit_of u0 in
      let ops := map (scale_op u) (decode_all dec_op r) in
      if (n =? 0) || (t =? 0) then [7]
      else flat_map enc_out (map (unscale_out u) (sp_run_ops_at (ts * u) ops))
  | _ => [7]
  end.
