(* Forward simulation: the calendar queue (for every n,t >= 1) produces exactly
   the outputs of the two-list specification, for every operation history. *)
From Coq Require Import List Arith NArith Lia Permutation.
From DesVerif Require Import Common.Fuel CQueue.Model CQueue.Spec CQueue.ListX CQueue.Scan CQueue.Term CQueue.Fetch.
Import ListNotations.
Open Scope N_scope.

Definition pend (q : cq) : list ev := zero q ++ concat (buckets q).

(* [hs] is the client's list of the handles (time, id) that add returned; it is not part
   of the queue and only cancel reads it.
   R_bsorted, R_rsorted: (time, id) order (J knows the time order only); the ids are what
     makes the bucketed events and the sorted rest agree on ties.
   R_ztime, R_btime: what separates the zero bucket from the buckets.
   R_t0: the window does not start after the clock, so an add at or after the clock
     lands in a slot that is not before the window (J_ev for add_bucket).
   R_hs: a handle whose event is still pending carries that event's time, so cancel
     looks into the bucket the event is in.
   R_hid: handle ids are below next_id; with R_ids and R_nodup a stale handle (its event
     fetched or cancelled) names no pending event and never will. *)
Record R (q : cq) (s : sp) (hs : list (N * N)) : Prop := {
  R_J : J q;
  R_zero : zero q = s_zero s;
  R_tcur : tcur q = s_tcur s;
  R_next : next_id q = s_next s;
  R_perm : Permutation (concat (buckets q)) (s_rest s);
  R_bsorted : forall i b, nth_error (buckets q) i = Some b -> key_sorted b;
  R_rsorted : key_sorted (s_rest s);
  R_ids : forall e, In e (pend q) -> eid e < next_id q;
  R_nodup : NoDup (map eid (pend q));
  R_ztime : forall e, In e (zero q) -> etime e = tcur q;
  R_btime : forall e, In e (concat (buckets q)) -> tcur q <= etime e;
  R_len : qlen q = N.of_nat (length (pend q));
  R_t0 : t0 q <= tcur q;
  R_hs : forall t i e, In (t, i) hs -> In e (pend q) -> eid e = i -> etime e = t;
  R_hid : forall t i, In (t, i) hs -> i < next_id q
}.

(* ---- initial state ---- *)
Lemma nth_error_repeat_eq {A} (x : A) k i b : nth_error (repeat x k) i = Some b -> b = x.
Proof. intros H. apply nth_error_In in H. apply repeat_spec in H. exact H. Qed.

Lemma concat_repeat_nil {A} k : concat (repeat (@nil A) k) = [].
Proof. induction k; cbn; auto. Qed.

Lemma J_new_at n t ts : n <> 0 -> t <> 0 -> J (cq_new_at n t ts).
Proof.
  intros Hn Ht.
  assert (Hs : slot t (ts / t * t) = ts / t) by (unfold slot; apply N.div_mul; assumption).
  constructor; cbn [cq_new_at qn qt buckets t0 t1 head]; try assumption.
  - apply repeat_length.
  - rewrite Hs. lia.
  - reflexivity.
  - rewrite Hs. reflexivity.
  - intros i b H. apply nth_error_repeat_eq in H. subst b. constructor.
  - intros i b e H Hin. apply nth_error_repeat_eq in H. subst b. destruct Hin.
Qed.

Lemma R_new_at n t ts : n <> 0 -> t <> 0 -> R (cq_new_at n t ts) (sp_new_at ts) [].
Proof.
  intros Hn Ht.
  assert (E : concat (buckets (cq_new_at n t ts)) = []) by apply concat_repeat_nil.
  (* nothing is pending: apart from J, the order inside the buckets and t0 <= tcur,
     every field speaks of an empty list *)
  constructor; unfold pend; rewrite ?E;
    cbn [cq_new_at sp_new_at zero tcur t0 next_id qlen s_zero s_tcur s_next s_rest app map length In].
  - apply J_new_at; assumption.
  - reflexivity.
  - reflexivity.
  - reflexivity.
  - constructor.
  - intros i b H. apply nth_error_repeat_eq in H. subst b. constructor.
  - constructor.
  - intros e [].
  - constructor.
  - intros e [].
  - intros e [].
  - reflexivity.
  - rewrite N.mul_comm. apply N.mul_div_le. assumption.
  - intros t' i e [].
  - intros t' i [].
Qed.

Lemma perm_sub_facts (l l' : list ev) e :
  Permutation l (e :: l') ->
  (forall x, In x l' -> In x l) /\ (NoDup (map eid l) -> NoDup (map eid l')) /\
  length l = S (length l').
Proof.
  intros P. repeat split.
  - intros x Hx. eapply Permutation_in; [symmetry; exact P|right; exact Hx].
  - intros Hnd. apply (Permutation_map eid) in P. eapply Permutation_NoDup in Hnd; [|exact P].
    cbn in Hnd. inversion Hnd; assumption.
  - apply Permutation_length in P. exact P.
Qed.

Lemma perm_add_facts (l l' : list ev) e n hs :
  Permutation l' (e :: l) -> eid e = n ->
  (forall x, In x l -> eid x < n) -> NoDup (map eid l) ->
  (forall t i x, In (t, i) hs -> In x l -> eid x = i -> etime x = t) -> (forall t i, In (t, i) hs -> i < n) ->
  (forall x, In x l' -> eid x < n + 1) /\ NoDup (map eid l') /\ length l' = S (length l) /\
  (forall t i x, In (t, i) (hs ++ [(etime e, eid e)]) -> In x l' -> eid x = i -> etime x = t) /\
  (forall t i, In (t, i) (hs ++ [(etime e, eid e)]) -> i < n + 1).
Proof.
  intros P Ee Hids Hnd Hhs Hhid.
  destruct (perm_fresh_facts l l' e n P Ee Hids Hnd) as [Hids' Hnd'].
  assert (Hin : forall x, In x l' -> x = e \/ In x l).
  { intros x Hx. apply (Permutation_in _ P) in Hx. destruct Hx; auto. }
  assert (Hh : forall t i, In (t, i) (hs ++ [(etime e, eid e)]) -> In (t, i) hs \/ (t = etime e /\ i = eid e)).
  { intros t i H. apply in_app_or in H. destruct H as [H|[H|[]]]; [left; exact H|right].
    injection H as <- <-. split; reflexivity. }
  split; [exact Hids'|]. split; [exact Hnd'|]. split; [exact (Permutation_length P)|]. split.
  - intros t i x H Hx Ei. destruct (Hh t i H) as [H'|[-> ->]], (Hin x Hx) as [->|Hx'].
    + specialize (Hhid _ _ H'). lia.
    + eapply Hhs; eassumption.
    + reflexivity.
    + specialize (Hids x Hx'). lia.
  - intros t i H. destruct (Hh t i H) as [H'|[_ ->]]; [specialize (Hhid _ _ H')|]; lia.
Qed.

(* ---- add ---- *)
Lemma R_add_zero q s hs e :
  R q s hs -> etime e = tcur q -> eid e = s_next s ->
  R (add_zero q e) {| s_tcur := s_tcur s; s_zero := s_zero s ++ [e]; s_rest := s_rest s; s_next := s_next s + 1 |}
    (hs ++ [(etime e, eid e)]).
Proof.
  intros HR Et Ei. pose proof HR as [HJ Hz Htc Hnx Hp Hbs Hrs Hids Hnd Hzt Hbt Hlen Ht0 Hhs Hhid].
  rewrite <- Hnx in Ei.
  assert (Pp : Permutation (pend (add_zero q e)) (e :: pend q)).
  { unfold pend. cbn [add_zero zero buckets]. rewrite <- app_assoc. symmetry. apply Permutation_middle. }
  destruct (perm_add_facts _ _ _ _ hs Pp Ei Hids Hnd Hhs Hhid) as [Hids' [Hnd' [Hl' [Hhs' Hhid']]]].
  constructor; cbn [add_zero zero tcur next_id buckets qlen t0 s_zero s_tcur s_next s_rest]; try assumption.
  - eapply J_ext; [exact HJ|reflexivity..].
  - rewrite Hz. reflexivity.
  - rewrite Hnx. reflexivity.
  - intros x Hx. apply in_app_or in Hx. destruct Hx as [Hx|[<-|[]]]; [auto|exact Et].
  - rewrite Hl', Hlen. lia.
Qed.

Lemma R_add_bucket q s hs e :
  R q s hs -> tcur q < etime e -> eid e = s_next s ->
  R (add_bucket q e) {| s_tcur := s_tcur s; s_zero := s_zero s; s_rest := sins e (s_rest s); s_next := s_next s + 1 |}
    (hs ++ [(etime e, eid e)]).
Proof.
  intros HR Hlt Ei. pose proof HR as [HJ Hz Htc Hnx Hp Hbs Hrs Hids Hnd Hzt Hbt Hlen Ht0 Hhs Hhid].
  rewrite <- Hnx in Ei.
  set (i := N.to_nat (idx (qn q) (qt q) (etime e))).
  destruct (nth_error (buckets q) i) as [b|] eqn:Hb.
  2:{ apply nth_error_None in Hb. rewrite (J_len q HJ) in Hb.
      pose proof (idx_lt (qn q) (qt q) (etime e) (J_n q HJ)). lia. }
  assert (Hfresh : forall x, In x (concat (buckets q)) -> eid x < eid e).
  { intros x Hx. rewrite Ei. apply Hids. unfold pend. apply in_or_app. right; exact Hx. }
  assert (Hks : key_sorted (ins e b)).
  { apply ins_key_sorted; [eapply Hbs; exact Hb|]. intros x Hx. apply Hfresh, in_concat_nth. exists i, b. split; assumption. }
  destruct (concat_upd_split (buckets q) i (ins e) b Hb) as [pre [post [Ec Ec']]].
  assert (Pc : Permutation (concat (buckets (add_bucket q e))) (e :: concat (buckets q))).
  { cbn [add_bucket buckets]. fold i. rewrite Ec', Ec, (ins_perm e b). cbn [app]. symmetry. apply Permutation_middle. }
  assert (Pp : Permutation (pend (add_bucket q e)) (e :: pend q)).
  { unfold pend. cbn [add_bucket zero]. rewrite Pc. symmetry. apply Permutation_middle. }
  destruct (perm_add_facts _ _ _ _ hs Pp Ei Hids Hnd Hhs Hhid) as [Hids' [Hnd' [Hl' [Hhs' Hhid']]]].
  constructor; cbn [add_bucket zero tcur next_id qlen t0 s_zero s_tcur s_next s_rest]; try assumption.
  - apply (J_ext (set_buckets q (upd i (ins e) (buckets q)) 0)); try reflexivity.
    apply (J_upd q i b (ins e) 0 HJ Hb (key_sorted_time_sorted _ Hks)).
    intros x Hx. apply In_ins in Hx. destruct Hx as [->|Hx]; [right|left; exact Hx]. split.
    + subst i. rewrite N2Nat.id. apply idx_alt; apply HJ.
    + apply slot_mono; [apply HJ|lia].
  - rewrite Hnx. reflexivity.
  - rewrite Pc, sins_perm. constructor. exact Hp.
  - exact (upd_all _ _ _ _ _ Hb Hks Hbs).
  - apply sins_key_sorted; [exact Hrs|]. intros x Hx. apply Hfresh.
    eapply Permutation_in; [symmetry; exact Hp|exact Hx].
  - intros x Hx. eapply Permutation_in in Hx; [|exact Pc]. destruct Hx as [<-|Hx]; [lia|auto].
  - rewrite Hl', Hlen. lia.
Qed.

(* at any time: an add before the clock is rejected on both sides *)
Lemma R_add_total q s hs time pay :
  R q s hs ->
  let '(q', h, o) := add q time pay in
  let '(s', h', o') := sp_add s time pay in
  o = o' /\ h = h' /\ R q' s' (match h with Some hd => hs ++ [hd] | None => hs end).
Proof.
  intros HR. pose proof (R_tcur _ _ _ HR) as Htc. unfold add, sp_add. rewrite Htc, (R_next _ _ _ HR).
  destruct (time <? s_tcur s) eqn:E1; [split; [reflexivity|]; split; [reflexivity|exact HR]|]. apply N.ltb_ge in E1.
  set (e := {| etime := time; eid := s_next s; epay := pay |}).
  destruct (time =? s_tcur s) eqn:E2; (split; [reflexivity|]; split; [reflexivity|]).
  - apply N.eqb_eq in E2. apply (R_add_zero q s hs e HR); [rewrite Htc; exact E2|reflexivity].
  - apply N.eqb_neq in E2. apply (R_add_bucket q s hs e HR); [rewrite Htc; cbn; lia|reflexivity].
Qed.

Lemma add_handle q time pay : tcur q <= time -> snd (fst (add q time pay)) = Some (time, next_id q).
Proof.
  intros Hge. unfold add. destruct (time <? tcur q) eqn:E; [apply N.ltb_lt in E; lia|].
  destruct (time =? tcur q); reflexivity.
Qed.

Lemma R_add q s hs time pay :
  R q s hs -> tcur q <= time ->
  let '(q', h, o) := add q time pay in
  let '(s', h', o') := sp_add s time pay in
  o = o' /\ h = h' /\ exists hd, h = Some hd /\ R q' s' (hs ++ [hd]).
Proof.
  intros HR Hge. pose proof (R_add_total q s hs time pay HR) as H. pose proof (add_handle q time pay Hge) as Hh.
  destruct (add q time pay) as [[q' h] o]. destruct (sp_add s time pay) as [[s' h'] o'].
  cbn [fst snd] in Hh. subst h. destruct H as [Ho [Hh H]]. repeat split; [exact Ho|exact Hh|].
  eexists. split; [reflexivity|exact H].
Qed.

(* ---- removing an element from the zero bucket ---- *)
Lemma R_remove_zero q s hs z' e :
  R q s hs -> Permutation (zero q) (e :: z') -> (forall x, In x z' -> In x (zero q)) ->
  R (set_zero q z' (qlen q - 1))
    {| s_tcur := s_tcur s; s_zero := z'; s_rest := s_rest s; s_next := s_next s |} hs.
Proof.
  intros HR P Hsub. pose proof HR as [HJ Hz Htc Hnx Hp Hbs Hrs Hids Hnd Hzt Hbt Hlen Ht0 Hhs Hhid].
  assert (Pp : Permutation (pend q) (e :: pend (set_zero q z' (qlen q - 1)))).
  { unfold pend. cbn [set_zero zero buckets]. rewrite P. reflexivity. }
  destruct (perm_sub_facts _ _ _ Pp) as [Hin [Hnd' Hl]].
  constructor; cbn [set_zero zero tcur next_id buckets qlen s_zero s_tcur s_next s_rest t0]; try assumption; try reflexivity.
  - eapply J_ext; [exact HJ|reflexivity..].
  - intros x Hx. apply Hids. apply Hin. exact Hx.
  - apply Hnd'. exact Hnd.
  - intros x Hx. apply Hzt. apply Hsub. exact Hx.
  - unfold pend in *. cbn [set_zero zero buckets] in *. rewrite Hlen, Hl. lia.
  - intros t' i x Hh Hx Ei. eapply Hhs; [exact Hh|apply Hin; exact Hx|exact Ei].
Qed.

(* ---- removing an element from an indexed bucket ---- *)
Lemma R_remove_bucket q qm s hs i b b' r' e tc :
  R q s hs -> J qm -> buckets qm = buckets q -> qn qm = qn q -> qt qm = qt q ->
  nth_error (buckets q) i = Some b ->
  Permutation b (e :: b') -> (forall x, In x b' -> In x b) -> key_sorted b' ->
  Permutation (s_rest s) (e :: r') -> key_sorted r' ->
  (forall x, In x (zero q) -> etime x = tc) ->
  (forall x, In x (concat (upd i (fun _ => b') (buckets q))) -> tc <= etime x) ->
  t0 qm <= tc ->
  R {| qn := qn q; qt := qt q; zero := zero q; buckets := upd i (fun _ => b') (buckets q);
       head := head qm; tcur := tc; t0 := t0 qm; t1 := t1 qm; next_id := next_id q; qlen := qlen q - 1 |}
    {| s_tcur := tc; s_zero := s_zero s; s_rest := r'; s_next := s_next s |} hs.
Proof.
  intros HR HJm Eb En Et Hb Pb Hsub Hsb Pr Hsr Hzt' Hbt' Ht0'.
  pose proof HR as [HJ Hz Htc Hnx Hp Hbs Hrs Hids Hnd Hzt Hbt Hlen Ht0 Hhs Hhid].
  destruct (concat_upd_split (buckets q) i (fun _ => b') b Hb) as [pre [post [Ec Ec']]].
  assert (Pc : Permutation (concat (buckets q)) (e :: concat (upd i (fun _ => b') (buckets q)))).
  { rewrite Ec, Ec', Pb. cbn [app]. symmetry. apply Permutation_middle. }
  set (q' := {| qn := qn q; qt := qt q; zero := zero q; buckets := upd i (fun _ => b') (buckets q);
       head := head qm; tcur := tc; t0 := t0 qm; t1 := t1 qm; next_id := next_id q; qlen := qlen q - 1 |}).
  assert (Pp : Permutation (pend q) (e :: pend q')).
  { unfold pend. cbn [q' zero buckets]. rewrite Pc. symmetry. apply Permutation_middle. }
  destruct (perm_sub_facts _ _ _ Pp) as [Hin [Hnd' Hl]].
  constructor; cbn [q' zero tcur next_id buckets qlen s_zero s_tcur s_next s_rest t0]; try assumption; try reflexivity.
  - apply (J_ext (set_buckets qm (upd i (fun _ => b') (buckets qm)) 0)); cbn [q' set_buckets qn qt buckets head t0 t1]; try reflexivity; try congruence.
    rewrite <- Eb in Hb. apply (J_upd qm i b _ 0 HJm Hb (key_sorted_time_sorted _ Hsb)). intros x Hx. left; auto.
  - eapply Permutation_cons_inv with (a := e). rewrite <- Pc, <- Pr. exact Hp.
  - exact (upd_all _ _ _ _ _ Hb Hsb Hbs).
  - intros x Hx. apply Hids. apply Hin. exact Hx.
  - apply Hnd'. exact Hnd.
  - unfold pend in *. cbn [q' zero buckets] in *. rewrite Hlen, Hl. lia.
  - intros t' j x Hh Hx Ei. eapply Hhs; [exact Hh|apply Hin; exact Hx|exact Ei].
Qed.

(* ---- cancel ---- *)
Lemma bucket_of q e :
  J q -> In e (concat (buckets q)) ->
  exists b, nth_error (buckets q) (N.to_nat (idx (qn q) (qt q) (etime e))) = Some b /\ In e b.
Proof.
  intros HJ Hin. apply in_concat_nth in Hin. destruct Hin as [i [b [Hb He]]].
  destruct (J_ev q HJ i b e Hb He) as [Hi _].
  rewrite idx_alt by (apply HJ). rewrite <- Hi, Nat2N.id. exists b. split; assumption.
Qed.

Lemma nodup_bucket q i b :
  NoDup (map eid (pend q)) -> nth_error (buckets q) i = Some b -> NoDup (map eid b).
Proof.
  intros Hnd Hb. unfold pend in Hnd. rewrite map_app in Hnd. apply NoDup_app_remove_l in Hnd.
  destruct (concat_upd_split (buckets q) i (fun x => x) b Hb) as [pre [post [Ec _]]].
  rewrite Ec, !map_app in Hnd. apply NoDup_app_remove_l in Hnd. apply NoDup_app_remove_r in Hnd. exact Hnd.
Qed.

Lemma R_cancel_bucket q s hs ht hid :
  R q s hs -> In (ht, hid) hs -> remove_id hid (zero q) = None -> tcur q <= ht ->
  R (cancel_bucket q ht hid)
    match remove_id hid (s_rest s) with
    | Some r' => {| s_tcur := s_tcur s; s_zero := s_zero s; s_rest := r'; s_next := s_next s |}
    | None => s
    end hs.
Proof.
  intros HR Hh Hnz Hge. pose proof HR as [HJ Hz Htc Hnx Hp Hbs Hrs Hids Hnd Hzt Hbt Hlen Ht0 Hhs Hhid].
  unfold cancel_bucket.
  set (i := N.to_nat (idx (qn q) (qt q) ht)).
  destruct (remove_id hid (s_rest s)) as [r'|] eqn:Hr.
  - (* the event is pending in some bucket *)
    destruct (remove_id_Some _ _ _ Hr) as [e [m1 [m2 [Er [Er' Ee]]]]].
    assert (Her : In e (s_rest s)) by (rewrite Er; apply in_or_app; right; left; reflexivity).
    assert (Hec : In e (concat (buckets q))) by (eapply Permutation_in; [symmetry; exact Hp|exact Her]).
    assert (Het : etime e = ht).
    { eapply Hhs; [exact Hh| |exact Ee]. unfold pend. apply in_or_app. right; exact Hec. }
    destruct (bucket_of q e HJ Hec) as [b [Hb Heb]]. rewrite Het in Hb. fold i in Hb.
    rewrite (nth_error_nth _ _ [] Hb).
    destruct (remove_id_exists b e Heb) as [b' Hb']. rewrite Ee in Hb'. rewrite Hb'.
    pose proof (nodup_bucket q i b Hnd Hb) as Hndb.
    assert (Pb : Permutation b (e :: b')) by (apply remove_id_perm; [exact Hndb|exact Heb|rewrite Ee; exact Hb']).
    assert (Hndr : NoDup (map eid (s_rest s))).
    { eapply Permutation_NoDup; [apply Permutation_map; exact Hp|].
      unfold pend in Hnd. rewrite map_app in Hnd. apply NoDup_app_remove_l in Hnd. exact Hnd. }
    assert (Pr : Permutation (s_rest s) (e :: r')) by (apply remove_id_perm; [exact Hndr|exact Her|rewrite Ee; exact Hr]).
    rewrite <- Htc.
    apply (R_remove_bucket q q s hs i b b' r' e (tcur q) HR HJ eq_refl eq_refl eq_refl Hb Pb).
    + intros x Hx. eapply remove_id_In; eassumption.
    + eapply remove_id_sorted; [eapply Hbs; exact Hb|exact Hb'].
    + exact Pr.
    + eapply remove_id_sorted; [exact Hrs|exact Hr].
    + exact Hzt.
    + intros x Hx. apply Hbt. apply (In_concat_upd_sub _ _ _ _ _ Hb) in Hx; [exact Hx|].
      intros y Hy. eapply remove_id_In; eassumption.
    + exact Ht0.
  - (* not pending: nothing happens on either side *)
    rewrite remove_id_None in Hr.
    destruct (remove_id hid (nth i (buckets q) [])) as [b'|] eqn:Hb'; [|exact HR].
    exfalso. destruct (remove_id_Some _ _ _ Hb') as [e [l1 [l2 [El [_ Ee]]]]].
    assert (Hi : (i < length (buckets q))%nat).
    { destruct (le_lt_dec (length (buckets q)) i) as [Hle|]; [|assumption].
      rewrite nth_overflow in El by assumption. destruct l1; discriminate. }
    apply (Hr e); [|exact Ee]. eapply Permutation_in; [exact Hp|].
    apply in_concat_nth. exists i, (nth i (buckets q) []). split.
    + apply nth_error_nth'; exact Hi.
    + rewrite El. apply in_or_app. right; left; reflexivity.
Qed.

Lemma R_cancel q s hs ht hid :
  R q s hs -> In (ht, hid) hs -> R (cancel true q ht hid) (sp_cancel s hid) hs.
Proof.
  intros HR Hh. pose proof HR as [HJ Hz Htc Hnx Hp Hbs Hrs Hids Hnd Hzt Hbt Hlen Ht0 Hhs Hhid].
  unfold cancel, sp_cancel.
  replace (remove_id hid (s_zero s)) with (remove_id hid (zero q)) by (rewrite Hz; reflexivity).
  destruct (ht <? tcur q) eqn:E1.
  - (* the event was fetched before: it is not pending *)
    apply N.ltb_lt in E1.
    assert (Hno : forall e, In e (pend q) -> eid e <> hid).
    { intros e He Ee. pose proof (Hhs _ _ _ Hh He Ee) as Et. unfold pend in He. apply in_app_or in He.
      destruct He as [He|He]; [specialize (Hzt e He)|specialize (Hbt e He)]; lia. }
    assert (N1 : remove_id hid (zero q) = None).
    { apply remove_id_None. intros e He. apply Hno. unfold pend. apply in_or_app. left; exact He. }
    assert (N2 : remove_id hid (s_rest s) = None).
    { apply remove_id_None. intros e He. apply Hno. unfold pend. apply in_or_app. right.
      eapply Permutation_in; [symmetry; exact Hp|exact He]. }
    rewrite N1, N2. exact HR.
  - apply N.ltb_ge in E1. destruct (remove_id hid (zero q)) as [z'|] eqn:Hzr.
    + (* in the zero bucket: its time is the current time *)
      destruct (remove_id_Some _ _ _ Hzr) as [e [l1 [l2 [El [El' Ee]]]]].
      assert (Hez : In e (zero q)) by (rewrite El; apply in_or_app; right; left; reflexivity).
      assert (Het : etime e = ht).
      { eapply Hhs; [exact Hh| |exact Ee]. unfold pend. apply in_or_app. left; exact Hez. }
      rewrite <- Het, (Hzt e Hez), N.eqb_refl.
      apply (R_remove_zero q s hs z' e HR).
      * rewrite El, El'. symmetry. apply Permutation_middle.
      * intros x Hx. eapply remove_id_In; eassumption.
    + destruct (ht =? tcur q); apply R_cancel_bucket; assumption.
Qed.

(* ---- fetch ---- *)
Lemma t0_le_event q i b e : J q -> nth_error (buckets q) i = Some b -> In e b -> t0 q <= etime e.
Proof.
  intros HJ Hb He. destruct (J_ev q HJ i b e Hb He) as [_ Hle].
  rewrite (J_t0 q HJ). transitivity (qt q * slot (qt q) (etime e)).
  - apply N.mul_le_mono_l. exact Hle.
  - apply N.mul_div_le, HJ.
Qed.

Lemma succ_pos_nat k : Pos.to_nat (N.succ_pos k) = S (N.to_nat k).
Proof.
  change (Pos.to_nat (N.succ_pos k)) with (N.to_nat (N.pos (N.succ_pos k))).
  rewrite N.succ_pos_spec, N2Nat.inj_succ. reflexivity.
Qed.

Lemma scan_result q s hs :
  R q s hs -> zero q = [] -> qlen q <> 0 ->
  exists qm x r0,
    iter_until (scan_fuel q) scan_step q = inr (pop_head qm x r0, OFetched (epay x) (etime x)) /\
    J qm /\ same_content q qm /\
    nth_error (buckets qm) (N.to_nat (head qm)) = Some (x :: r0) /\ etime x <= t1 qm.
Proof.
  intros HR Ez El. pose proof HR as [HJ Hz Htc Hnx Hp Hbs Hrs Hids Hnd Hzt Hbt Hlen Ht0 Hhs Hhid].
  destruct (concat (buckets q)) as [|e0 c0] eqn:Ec.
  { exfalso. unfold pend in Hlen. rewrite Ez, Ec in Hlen. cbn in Hlen. lia. }
  assert (He0 : In e0 (concat (buckets q))) by (rewrite Ec; left; reflexivity).
  pose proof He0 as He0'. apply in_concat_nth in He0'. destruct He0' as [i0 [b0 [Hb0 Hi0]]].
  rewrite iter_until_nat.
  destruct (scan_terminates (Pos.to_nat (scan_fuel q)) q i0 b0 e0 HJ Hb0 Hi0) as [r Hr].
  { unfold scan_fuel. rewrite succ_pos_nat. unfold slot.
    pose proof (max_time_ge _ _ He0) as Hm.
    pose proof (N.div_le_mono _ _ (qt q) (J_t q HJ) Hm). lia. }
  destruct (scan_iter_inr _ _ _ HJ Hr) as [qm [HJm [Hsc Hst]]].
  destruct r as [q' o]. destruct (scan_step_inr qm q' o HJm Hst) as [x [r0 [Hb [Hle [-> ->]]]]].
  exists qm, x, r0. split; [exact Hr|]. split; [exact HJm|]. split; [exact Hsc|]. split; assumption.
Qed.

Lemma head_front_is_key_min q x r :
  J q -> (forall i b, nth_error (buckets q) i = Some b -> key_sorted b) ->
  nth_error (buckets q) (N.to_nat (head q)) = Some (x :: r) -> etime x <= t1 q ->
  forall e, In e (concat (buckets q)) -> e = x \/ key_lt x e = true.
Proof.
  intros HJ Hbs Hb Hx e He. apply in_concat_nth in He. destruct He as [i [b [Hi He]]].
  pose proof (head_front_is_min q x r HJ Hb Hx i b e Hi He) as Hle.
  destruct (N.eq_dec (etime e) (etime x)) as [Et|Hne]; [|right; unfold key_lt; lia].
  (* equal times: same slot, hence the same bucket *)
  assert (Ei : i = N.to_nat (head q)).
  { destruct (J_ev q HJ i b e Hi He) as [Hi1 _]. destruct (J_ev q HJ _ _ x Hb (or_introl eq_refl)) as [Hi2 _].
    rewrite Et, <- Hi2 in Hi1. lia. }
  subst i. rewrite Hb in Hi. injection Hi as <-.
  destruct He as [E|He]; [left; symmetry; exact E|right]. exact (sorted_head _ _ _ _ (Hbs _ _ Hb) He).
Qed.

Lemma key_min_is_head x y r :
  key_sorted (y :: r) -> In x (y :: r) -> y = x \/ key_lt x y = true -> x = y.
Proof.
  intros Hs [E|Hx] [E'|Hm]; try congruence.
  exfalso. eapply key_lt_asym; [exact Hm|exact (sorted_head _ _ _ _ Hs Hx)].
Qed.

Lemma R_fetch q s hs :
  R q s hs ->
  let '(q', o) := fetch_next q in
  let '(s', o') := sp_fetch s in
  o = o' /\ R q' s' hs.
Proof.
  intros HR. pose proof HR as [HJ Hz Htc Hnx Hp Hbs Hrs Hids Hnd Hzt Hbt Hlen Ht0 Hhs Hhid].
  unfold fetch_next, sp_fetch.
  replace (s_zero s) with (zero q) by exact Hz.
  destruct (qlen q =? 0) eqn:El.
  - (* empty *)
    apply N.eqb_eq in El. rewrite El in Hlen. unfold pend in Hlen. rewrite app_length in Hlen.
    destruct (zero q) as [|x z]; [|cbn in Hlen; lia].
    destruct (concat (buckets q)) as [|y c] eqn:Ec; [|cbn in Hlen; lia].
    apply Permutation_nil in Hp. rewrite Hp. split; [reflexivity|exact HR].
  - apply N.eqb_neq in El. destruct (zero q) as [|x z] eqn:Ez.
    + (* scan *)
      destruct (scan_result q s hs HR Ez El) as [qm [x [r0 [Hit [HJm [Hsc [Hb Hle]]]]]]].
      rewrite Hit, (pop_head_same_content q qm x r0 Hsc). destruct Hsc as [Sb Sz Stc Sl Sid Sn St Sslot].
      pose proof (t0_le_event qm _ _ x HJm Hb (or_introl eq_refl)) as Ht0m.
      assert (Hmin : forall e, In e (concat (buckets q)) -> e = x \/ key_lt x e = true).
      { rewrite <- Sb in *. exact (head_front_is_key_min qm x r0 HJm Hbs Hb Hle). }
      rewrite Sb in Hb.
      assert (Hxr : In x (s_rest s)).
      { apply (Permutation_in _ Hp), in_concat_nth. exists (N.to_nat (head qm)), (x :: r0). split; [exact Hb|left; reflexivity]. }
      destruct (s_rest s) as [|y r'] eqn:Er; [destruct Hxr|].
      assert (x = y) as <-.
      { apply (key_min_is_head x y r' Hrs Hxr), Hmin. eapply Permutation_in; [symmetry; exact Hp|left; reflexivity]. }
      split; [reflexivity|].
      assert (HR' := R_remove_bucket q qm s hs (N.to_nat (head qm)) (x :: r0) r0 r' x (etime x) HR HJm Sb Sn St Hb (Permutation_refl _)).
      rewrite Er in HR'. rewrite Ez in HR'. rewrite <- Hz in HR'. rewrite Ez. apply HR'.
      * intros e He. right; exact He.
      * specialize (Hbs _ _ Hb). inversion Hbs; assumption.
      * reflexivity.
      * inversion Hrs; assumption.
      * intros e [].
      * intros e He. apply (In_concat_upd_sub _ _ _ _ _ Hb) in He; [|intros y Hy; right; exact Hy].
        destruct (Hmin e He) as [->|Hk]; [lia|unfold key_lt in Hk; lia].
      * exact Ht0m.
    + (* zero bucket *)
      split; [reflexivity|].
      apply (R_remove_zero q s hs z x HR).
      * rewrite Ez. reflexivity.
      * intros e He. rewrite Ez. right; exact He.
Qed.

(* ---- peek_time ---- *)
Lemma R_peek q s hs : R q s hs -> peek_time q = sp_peek s.
Proof.
  intros HR. pose proof (R_fetch q s hs HR) as H.
  pose proof HR as [HJ Hz Htc Hnx Hp Hbs Hrs Hids Hnd Hzt Hbt Hlen Ht0 Hhs Hhid].
  unfold peek_time, sp_peek. unfold fetch_next, sp_fetch in H.
  replace (s_zero s) with (zero q) in * by exact Hz.
  destruct (qlen q =? 0) eqn:El.
  - destruct (zero q) as [|x z]; [|destruct H as [H _]; discriminate].
    destruct (s_rest s) as [|y r]; [reflexivity|]. destruct H as [H _]; discriminate.
  - apply N.eqb_neq in El. destruct (zero q) as [|x z] eqn:Ez; [|reflexivity].
    destruct (scan_result q s hs HR Ez El) as [qm [x [r0 [Hit _]]]]. rewrite Hit in *.
    destruct (s_rest s) as [|y r]; destruct H as [H _]; [discriminate|]. injection H as _ <-. reflexivity.
Qed.
