(* Concrete model of des-cqueue/src/stable/mod.rs + linked_list.rs.
   Function names and branch structure follow the Rust code.  The intrusive
   doubly linked list of a bucket is a Coq list (its pointer discipline is the
   subject of C15), and so is the VecDeque [zero]; [next_id] stands for the
   process-global event counter (CQueue/Rename.v: its origin is irrelevant);
   [handles] (record [st]) is the client's list of returned handles, not part of
   the queue; simulated time is N nanoseconds.  No proofs in this file. *)
From Coq Require Import List NArith PArith Bool.
From DesVerif Require Import Common.Fuel Common.Codec.
Import ListNotations.
Open Scope N_scope.

Record ev := { etime : N; eid : N; epay : N }.

Inductive out :=
| OAdded                      (* add returned a handle *)
| OFetched (pay time : N)
| OLen (n : N)
| OTime (t : N)
| OUnit                       (* cancel *)
| OPeek (t : option N)        (* peek_time *)
| OInv (bits : list N)        (* representation-invariant bits (verif hook) *)
| OPanic (site : N)           (* 1 = add in the past, 2 = fetch on empty *)
| OOutOfFuel.

Record cq := {
  qn : N; qt : N;
  zero : list ev;
  buckets : list (list ev);
  head : N; tcur : N; t0 : N; t1 : N;
  next_id : N; qlen : N }.

(* mod.rs add/cancel: ((time mod t_all) / t_nanos) mod n, t_all = t*n *)
Definition idx (n t time : N) : N := ((time mod (t * n)) / t) mod n.

Definition cq_new (n t : N) : cq :=
  {| qn := n; qt := t; zero := []; buckets := repeat [] (N.to_nat n);
     head := 0; tcur := 0; t0 := 0; t1 := t; next_id := 0; qlen := 0 |}.

(* mod.rs new_at: the clock starts at ts and the scan
   window sits on the bucket that contains ts *)
Definition cq_new_at (n t ts : N) : cq :=
  {| qn := n; qt := t; zero := []; buckets := repeat [] (N.to_nat n);
     head := (ts / t) mod n; tcur := ts; t0 := (ts / t) * t; t1 := (ts / t) * t + t;
     next_id := 0; qlen := 0 |}.

(* linked_list.rs add: walk from the tail while cur.time > new.time, insert
   after the first node that is not later, i.e. after all nodes with
   time <= new.time, before the first with time > new.time. *)
Fixpoint ins (e : ev) (l : list ev) : list ev :=
  match l with
  | [] => [e]
  | x :: r => if etime e <? etime x then e :: x :: r else x :: ins e r
  end.

Fixpoint upd {A} (i : nat) (f : A -> A) (l : list A) : list A :=
  match l, i with
  | [], _ => []
  | x :: r, O => f x :: r
  | x :: r, S i' => x :: upd i' f r
  end.

(* linked_list.rs cancel / VecDeque position+remove: first node with that id *)
Fixpoint remove_id (id : N) (l : list ev) : option (list ev) :=
  match l with
  | [] => None
  | x :: r => if eid x =? id then Some r
              else match remove_id id r with Some r' => Some (x :: r') | None => None end
  end.

Definition set_zero q z l := {| qn := qn q; qt := qt q; zero := z; buckets := buckets q; head := head q;
        tcur := tcur q; t0 := t0 q; t1 := t1 q; next_id := next_id q; qlen := l |}.
Definition set_buckets q b l := {| qn := qn q; qt := qt q; zero := zero q; buckets := b; head := head q;
        tcur := tcur q; t0 := t0 q; t1 := t1 q; next_id := next_id q; qlen := l |}.

Definition add_zero (q : cq) (e : ev) : cq :=
  {| qn := qn q; qt := qt q; zero := zero q ++ [e]; buckets := buckets q; head := head q;
     tcur := tcur q; t0 := t0 q; t1 := t1 q; next_id := next_id q + 1; qlen := qlen q + 1 |}.

Definition add_bucket (q : cq) (e : ev) : cq :=
  {| qn := qn q; qt := qt q; zero := zero q;
     buckets := upd (N.to_nat (idx (qn q) (qt q) (etime e))) (ins e) (buckets q); head := head q;
     tcur := tcur q; t0 := t0 q; t1 := t1 q; next_id := next_id q + 1; qlen := qlen q + 1 |}.

(* returns the new queue, the handle (time,id) and the output *)
Definition add (q : cq) (time pay : N) : cq * option (N * N) * out :=
  if time <? tcur q then (q, None, OPanic 1) else
  let id := next_id q in
  let e := {| etime := time; eid := id; epay := pay |} in
  if time =? tcur q then (add_zero q e, Some (time, id), OAdded)
  else (add_bucket q e, Some (time, id), OAdded).

Definition cancel_bucket (q : cq) (time id : N) : cq :=
  let i := N.to_nat (idx (qn q) (qt q) time) in
  match remove_id id (nth i (buckets q) []) with
  | Some b' => set_buckets q (upd i (fun _ => b') (buckets q)) (qlen q - 1)
  | None => q
  end.

(* The two variants of cancel.  [fixed = true]: an event stamped with the current
   time may sit in a bucket, so cancel falls through to the buckets when the zero
   bucket does not hold the id.  [fixed = false]: it does not fall through; that
   variant is refuted in Refuted/C01.v.  Every theorem is about [fixed = true]. *)
Definition cancel (fixed : bool) (q : cq) (time id : N) : cq :=
  if time <? tcur q then q else
  if time =? tcur q then
    match remove_id id (zero q) with
    | Some z' => set_zero q z' (qlen q - 1)
    | None => if fixed then cancel_bucket q time id else q
    end
  else cancel_bucket q time id.

Definition advance q := {| qn := qn q; qt := qt q; zero := zero q; buckets := buckets q;
   head := (head q + 1) mod qn q; tcur := tcur q; t0 := t0 q + qt q; t1 := t1 q + qt q;
   next_id := next_id q; qlen := qlen q |}.

Definition pop_head (q : cq) (x : ev) (r : list ev) : cq :=
  {| qn := qn q; qt := qt q; zero := zero q;
     buckets := upd (N.to_nat (head q)) (fun _ => r) (buckets q);
     head := head q; tcur := etime x; t0 := t0 q; t1 := t1 q;
     next_id := next_id q; qlen := qlen q - 1 |}.

(* one iteration of the loop in fetch_next (both the inner `while` over empty
   buckets and the `min > t1 -> continue` branch advance the window by one: the
   number of iterations differs from the code's, only termination and the result
   are compared) *)
Definition scan_step (q : cq) : cq + (cq * out) :=
  match nth (N.to_nat (head q)) (buckets q) [] with
  | [] => inl (advance q)
  | x :: r =>
    if t1 q <? etime x then inl (advance q)
    else inr (pop_head q x r, OFetched (epay x) (etime x))
  end.

(* Fuel for the scan, computed from the state: one more than the number of
   bucket-width slots between the window and the latest pending event.
   It is never exhausted on a reachable state, i.e. the Rust `loop` terminates:
   CQueue/Term.v scan_terminates for any sufficient bound, Refine.scan_result for
   this one, Sim.cq_scan_total for every history. *)
Definition max_time (bs : list (list ev)) : N :=
  fold_right (fun b m => fold_right (fun e m' => N.max (etime e) m') m b) 0 bs.

Definition scan_fuel (q : cq) : positive :=
  N.succ_pos (max_time (buckets q) / qt q - t0 q / qt q + 1).

Definition fetch_next (q : cq) : cq * out :=
  if qlen q =? 0 then (q, OPanic 2) else
  match zero q with
  | x :: z => (set_zero q z (qlen q - 1), OFetched (epay x) (etime x))
  | [] => match iter_until (scan_fuel q) scan_step q with
          | inr r => r
          | inl q' => (q', OOutOfFuel)
          end
  end.

(* mod.rs peek_time: the same search as fetch_next on a
   copy of the window; nothing in the queue changes *)
Definition peek_time (q : cq) : out :=
  if qlen q =? 0 then OPeek None else
  match zero q with
  | x :: _ => OPeek (Some (etime x))
  | [] => match iter_until (scan_fuel q) scan_step q with
          | inr (_, OFetched _ t) => OPeek (Some t)
          | inr (_, o) => o
          | inl _ => OOutOfFuel
          end
  end.

(* ---- representation invariant, executable (L2 check) ----
   The harness evaluates the same five predicates on CQueue::verif_snapshot();
   CQueue/InvBits.v proves that every reachable model state yields all ones. *)
Fixpoint sortedb (l : list ev) : bool :=
  match l with
  | [] => true
  | x :: r => match r with
              | [] => true
              | y :: _ => ((etime x <? etime y) || ((etime x =? etime y) && (eid x <? eid y))) && sortedb r
              end
  end.

Fixpoint indexb (n t : N) (i : N) (bs : list (list ev)) : bool :=
  match bs with
  | [] => true
  | b :: r => forallb (fun e => idx n t (etime e) =? i) b && indexb n t (i + 1) r
  end.

Definition inv_bits (q : cq) : list N :=
  [ b2n (forallb sortedb (buckets q));
    b2n (indexb (qn q) (qt q) 0 (buckets q) && (N.of_nat (length (buckets q)) =? qn q));
    b2n (forallb (fun e => etime e =? tcur q) (zero q) && forallb (forallb (fun e => tcur q <=? etime e)) (buckets q));
    b2n (qlen q =? N.of_nat (length (zero q) + length (concat (buckets q))));
    b2n ((t1 q =? t0 q + qt q) && (t0 q mod qt q =? 0) && (head q =? (t0 q / qt q) mod qn q)) ].

(* ---- histories ---- *)
(* [Cancel k] cancels the handle returned by the k-th successful add (k taken
   modulo the number of handles so far; no-op when there is none). *)
Inductive op := Add (time pay : N) | Cancel (k : N) | Fetch | Len | Time | Peek | Check.

Record st := { sq : cq; handles : list (N * N) }.

Definition pick_handle (hs : list (N * N)) (k : N) : option (N * N) :=
  match hs with
  | [] => None
  | _ => nth_error hs (N.to_nat (k mod N.of_nat (length hs)))
  end.

Definition step (fixed : bool) (s : st) (o : op) : st * out :=
  match o with
  | Add t p => let '(q', h, x) := add (sq s) t p in
               ({| sq := q'; handles := match h with Some h => handles s ++ [h] | None => handles s end |}, x)
  | Cancel k => match pick_handle (handles s) k with
                | Some (t, i) => ({| sq := cancel fixed (sq s) t i; handles := handles s |}, OUnit)
                | None => (s, OUnit)
                end
  | Fetch => let '(q', x) := fetch_next (sq s) in ({| sq := q'; handles := handles s |}, x)
  | Len => (s, OLen (qlen (sq s)))
  | Time => (s, OTime (tcur (sq s)))
  | Peek => (s, peek_time (sq s))
  | Check => (s, OInv (inv_bits (sq s)))
  end.

Fixpoint run_from (fixed : bool) (s : st) (ops : list op) : st * list out :=
  match ops with
  | [] => (s, [])
  | o :: r => let '(s', x) := step fixed s o in
              let '(s'', xs) := run_from fixed s' r in (s'', x :: xs)
  end.

Definition init (n t : N) : st := {| sq := cq_new n t; handles := [] |}.
Definition init_at (n t ts : N) : st := {| sq := cq_new_at n t ts; handles := [] |}.

Definition run_ops (fixed : bool) (n t : N) (ops : list op) : list out :=
  snd (run_from fixed (init n t) ops).
Definition run_ops_at (fixed : bool) (n t ts : N) (ops : list op) : list out :=
  snd (run_from fixed (init_at n t ts) ops).

(* ---- wire format ---- *)
(* script: n t ts u op*   with op = 1 time pay | 2 k | 3 | 4 | 5 | 6 | 7;
   ts = 0 uses CQueue::new, ts > 0 uses CQueue::new_at.  Every time in the script
   (ts and the time of an add) is given in units of u nanoseconds (u = 0 means 1),
   and printed times are divided by u again: this lets scripts reach timestamps
   far beyond 2^64 ns although every number on the wire stays below 2^62. *)
Definition dec_op (l : list N) : option (op * list N) :=
  match l with
  | 1 :: t :: p :: r => Some (Add t p, r)
  | 2 :: k :: r => Some (Cancel k, r)
  | 3 :: r => Some (Fetch, r)
  | 4 :: r => Some (Len, r)
  | 5 :: r => Some (Time, r)
  | 6 :: r => Some (Peek, r)
  | 7 :: r => Some (Check, r)
  | _ => None
  end.

Definition scale_op (u : N) (o : op) : op :=
  match o with Add t p => Add (t * u) p | _ => o end.

Definition unscale_out (u : N) (o : out) : out :=
  match o with
  | OFetched p t => OFetched p (t / u)
  | OTime t => OTime (t / u)
  | OPeek (Some t) => OPeek (Some (t / u))
  | _ => o
  end.

Definition enc_out (o : out) : list N :=
  match o with
  | OAdded => [1]
  | OFetched p t => [2; p; t]
  | OLen n => [3; n]
  | OTime t => [4; t]
  | OUnit => [5]
  | OPeek None => [6; 0]
  | OPeek (Some t) => [6; 1; t]
  | OInv bits => 7 :: bits
  | OPanic s => [9; s]
  | OOutOfFuel => [8]
  end.

Definition unit_of (u : N) : N := if u =? 0 then 1 else u.

Definition run (input : list N) : list N :=
  match input with
  | n :: t :: ts :: u0 :: r =>
      let u := unit_of u0 in
      let ops := map (scale_op u) (decode_all dec_op r) in
      if (n =? 0) || (t =? 0) then [7]
      else if ts =? 0 then flat_map enc_out (map (unscale_out u) (run_ops true n t ops))
      else flat_map enc_out (map (unscale_out u) (run_ops_at true n t (ts * u) ops))
  | _ => [7]
  end.
