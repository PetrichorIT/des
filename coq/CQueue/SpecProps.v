(* Properties of the abstract future event set (Spec.v).  Together with
   Sim.cq_refines they hold of the calendar queue for every (n, t). *)
From Coq Require Import List NArith Lia Sorting.Sorted Permutation.
From DesVerif Require Import CQueue.Model CQueue.Spec CQueue.ListX.
Import ListNotations.
Open Scope N_scope.

Definition spend (s : sp) : list ev := s_zero s ++ s_rest s.

Record SI (s : sp) : Prop := {
  SI_sorted : key_sorted (s_rest s);
  SI_ztime : forall e, In e (s_zero s) -> etime e = s_tcur s;
  SI_rtime : forall e, In e (s_rest s) -> s_tcur s <= etime e;
  SI_ids : forall e, In e (spend s) -> eid e < s_next s;
  SI_nodup : NoDup (map eid (spend s))
}.

Lemma SI_new_at ts : SI (sp_new_at ts).
Proof. constructor; cbn; try constructor; intros e []. Qed.
Lemma SI_new : SI sp_new.
Proof. apply SI_new_at. Qed.

Lemma SI_add s t p : SI s -> SI (fst (fst (sp_add s t p))).
Proof.
  intros [Hs Hz Hr Hi Hn]. unfold sp_add. destruct (t <? s_tcur s) eqn:E1; [constructor; assumption|].
  apply N.ltb_ge in E1. set (e := {| etime := t; eid := s_next s; epay := p |}).
  (* ids and their uniqueness only depend on the pending events as a multiset *)
  assert (F : forall z r, Permutation (z ++ r) (e :: spend s) ->
                (forall x, In x (z ++ r) -> eid x < s_next s + 1) /\ NoDup (map eid (z ++ r))).
  { intros z r P. exact (perm_fresh_facts _ _ e _ P eq_refl Hi Hn). }
  destruct (t =? s_tcur s) eqn:E2; cbn [fst]; constructor; unfold spend in *; cbn [s_zero s_rest s_tcur s_next]; try assumption.
  - apply N.eqb_eq in E2. intros x Hx. apply in_app_or in Hx. destruct Hx as [Hx|[<-|[]]]; [auto|exact E2].
  - apply F. rewrite <- app_assoc. symmetry. apply Permutation_middle.
  - apply F. rewrite <- app_assoc. symmetry. apply Permutation_middle.
  - apply sins_key_sorted; [exact Hs|]. intros x Hx. cbn. apply Hi. apply in_or_app. right; exact Hx.
  - apply N.eqb_neq in E2. intros x Hx. apply In_sins in Hx. destruct Hx as [->|Hx]; [cbn; lia|auto].
  - apply F. rewrite sins_perm. symmetry. apply Permutation_middle.
  - apply F. rewrite sins_perm. symmetry. apply Permutation_middle.
Qed.

Lemma nodup_map_sub (l1 l2 l1' l2' : list ev) e :
  NoDup (map eid (l1 ++ l2)) -> l1 ++ l2 = l1' ++ e :: l2' -> NoDup (map eid (l1' ++ l2')).
Proof.
  intros Hn E. rewrite E in Hn. rewrite map_app in *. cbn [map] in Hn. apply NoDup_remove_1 in Hn. exact Hn.
Qed.

Lemma SI_sub s z' r' tc :
  SI s ->
  (forall x, In x z' -> In x (s_zero s)) -> (forall x, In x r' -> In x (s_rest s)) ->
  key_sorted r' -> NoDup (map eid (z' ++ r')) ->
  (forall x, In x z' -> etime x = tc) -> (forall x, In x r' -> tc <= etime x) ->
  SI {| s_tcur := tc; s_zero := z'; s_rest := r'; s_next := s_next s |}.
Proof.
  intros [Hs Hz Hr Hi Hn] Sz Sr Hs' Hn' Hz' Hr'. constructor; unfold spend in *; cbn [s_zero s_rest s_tcur s_next]; try assumption.
  intros x Hx. apply Hi. apply in_app_or in Hx. apply in_or_app. destruct Hx; [left|right]; auto.
Qed.

Lemma SI_cancel s i : SI s -> SI (sp_cancel s i).
Proof.
  intros HS. pose proof HS as [Hs Hz Hr Hi Hn]. unfold sp_cancel.
  destruct (remove_id i (s_zero s)) as [z'|] eqn:Ez.
  - destruct (remove_id_Some _ _ _ Ez) as [e [l1 [l2 [E1 [E2 _]]]]].
    apply SI_sub; try assumption; try (intros x Hx; auto).
    + eapply remove_id_In; eassumption.
    + unfold spend in Hn. rewrite E1, <- app_assoc in Hn. cbn [app] in Hn. rewrite E2, <- app_assoc.
      rewrite map_app in *. cbn [map] in Hn. apply NoDup_remove_1 in Hn. exact Hn.
    + apply Hz. eapply remove_id_In; eassumption.
  - destruct (remove_id i (s_rest s)) as [r'|] eqn:Er; [|exact HS].
    destruct (remove_id_Some _ _ _ Er) as [e [l1 [l2 [E1 [E2 _]]]]].
    apply SI_sub; try assumption; try (intros x Hx; auto).
    + eapply remove_id_In; eassumption.
    + eapply remove_id_sorted; eassumption.
    + unfold spend in Hn. rewrite E1, app_assoc in Hn. rewrite E2, app_assoc.
      rewrite map_app in *. cbn [map] in Hn. apply NoDup_remove_1 in Hn. exact Hn.
    + apply Hr. eapply remove_id_In; eassumption.
Qed.

Lemma SI_fetch s : SI s -> SI (fst (sp_fetch s)).
Proof.
  intros HS. pose proof HS as [Hs Hz Hr Hi Hn]. unfold sp_fetch.
  destruct (s_zero s) as [|x z] eqn:Ez.
  - destruct (s_rest s) as [|x r] eqn:Er; [exact HS|]. cbn [fst].
    inversion Hs as [|? ? Hs' Hall]; subst. rewrite Forall_forall in Hall.
    apply (SI_sub s [] r (etime x) HS).
    + intros y [].
    + rewrite Er. intros y Hy. right; exact Hy.
    + exact Hs'.
    + unfold spend in Hn. rewrite Ez, Er in Hn. cbn in Hn. inversion Hn; assumption.
    + intros y [].
    + intros y Hy. specialize (Hall y Hy). unfold key_lt in Hall. lia.
  - cbn [fst]. apply (SI_sub s z (s_rest s) (s_tcur s) HS).
    + rewrite Ez. intros y Hy. right; exact Hy.
    + auto.
    + exact Hs.
    + unfold spend in Hn. rewrite Ez in Hn. cbn in Hn. inversion Hn; assumption.
    + intros y Hy. apply Hz. right; exact Hy.
    + exact Hr.
Qed.

Lemma sp_step_ss a o :
  ss (fst (sp_step a o)) =
  match o with
  | Add t p => fst (fst (sp_add (ss a) t p))
  | Cancel k => match pick_handle (shandles a) k with Some (_, i) => sp_cancel (ss a) i | None => ss a end
  | Fetch => fst (sp_fetch (ss a))
  | _ => ss a
  end.
Proof.
  destruct o as [t p|k| | | | |]; cbn [sp_step]; try reflexivity.
  - destruct (sp_add (ss a) t p) as [[s' h] x]. reflexivity.
  - destruct (pick_handle (shandles a) k) as [[t i]|]; reflexivity.
  - destruct (sp_fetch (ss a)) as [s' x]. reflexivity.
Qed.

Section Inv.
Variable P : sp -> Prop.
Hypothesis P_add : forall s t p, P s -> P (fst (fst (sp_add s t p))).
Hypothesis P_cancel : forall s i, P s -> P (sp_cancel s i).
Hypothesis P_fetch : forall s, P s -> P (fst (sp_fetch s)).

Lemma sp_inv_step a o : P (ss a) -> P (ss (fst (sp_step a o))).
Proof.
  intros H. rewrite sp_step_ss. destruct o as [t p|k| | | | |]; auto.
  destruct (pick_handle (shandles a) k) as [[t i]|]; auto.
Qed.

Lemma sp_inv_run ops : forall a, P (ss a) -> P (ss (fst (sp_run_from a ops))).
Proof.
  induction ops as [|o ops IH]; intros a H; cbn [sp_run_from]; [exact H|].
  pose proof (sp_inv_step a o H) as H'. destruct (sp_step a o) as [a' x]. cbn [fst] in H'.
  specialize (IH a' H'). destruct (sp_run_from a' ops) as [a'' xs]. exact IH.
Qed.
End Inv.

Lemma SI_step a o : SI (ss a) -> SI (ss (fst (sp_step a o))).
Proof. exact (sp_inv_step SI SI_add SI_cancel SI_fetch a o). Qed.

Fixpoint fetched_times (outs : list out) : list N :=
  match outs with
  | [] => []
  | OFetched _ t :: r => t :: fetched_times r
  | _ :: r => fetched_times r
  end.

Lemma tcur_step_mono a o : SI (ss a) -> s_tcur (ss a) <= s_tcur (ss (fst (sp_step a o))).
Proof.
  intros [Hs Hz Hr Hi Hn]. destruct o as [t p|k| | | | |]; cbn [sp_step]; try (cbn [fst]; lia).
  - unfold sp_add. destruct (t <? s_tcur (ss a)); [cbn; lia|]. destruct (t =? s_tcur (ss a)); cbn; lia.
  - destruct (pick_handle (shandles a) k) as [[t i]|]; [|cbn [fst]; lia]. cbn [fst ss]. unfold sp_cancel.
    destruct (remove_id i (s_zero (ss a))); [cbn; lia|]. destruct (remove_id i (s_rest (ss a))); cbn; lia.
  - unfold sp_fetch. destruct (s_zero (ss a)); [|cbn; lia]. destruct (s_rest (ss a)) as [|x r] eqn:Er; [cbn; lia|].
    cbn. apply Hr. left; reflexivity.
Qed.

Lemma fetched_lower_bound ops : forall a,
  SI (ss a) ->
  Forall (fun t => s_tcur (ss a) <= t) (fetched_times (snd (sp_run_from a ops))) /\
  StronglySorted N.le (fetched_times (snd (sp_run_from a ops))).
Proof.
  induction ops as [|o ops IH]; intros a HS; cbn [sp_run_from]; [split; constructor|].
  pose proof (SI_step a o HS) as HS'. pose proof (tcur_step_mono a o HS) as Hm.
  assert (Hout : forall p t, snd (sp_step a o) = OFetched p t -> s_tcur (ss (fst (sp_step a o))) = t /\ s_tcur (ss a) <= t).
  { intros p t E. destruct o as [t' p'|k| | | | |]; cbn [sp_step] in *.
    - unfold sp_add in E. destruct (t' <? s_tcur (ss a)); [discriminate|]. destruct (t' =? s_tcur (ss a)); discriminate.
    - destruct (pick_handle (shandles a) k) as [[? ?]|]; discriminate.
    - destruct HS as [Hs Hz Hr Hi Hn]. unfold sp_fetch in *. destruct (s_zero (ss a)) as [|x z] eqn:Ez.
      + destruct (s_rest (ss a)) as [|x r] eqn:Er; [discriminate|]. cbn in *. injection E as _ <-.
        split; [reflexivity|]. apply Hr. left; reflexivity.
      + cbn in *. injection E as _ <-. rewrite (Hz x (or_introl eq_refl)). split; [reflexivity|lia].
    - discriminate.
    - discriminate.
    - cbn in E. unfold sp_peek in E. destruct (s_zero (ss a)); [destruct (s_rest (ss a))|]; discriminate.
    - discriminate. }
  destruct (sp_step a o) as [a' x]. cbn [fst snd] in *. specialize (IH a' HS').
  destruct (sp_run_from a' ops) as [a'' xs]. cbn [snd] in *. destruct IH as [Hall Hsort].
  assert (Hall' : Forall (fun t => s_tcur (ss a) <= t) (fetched_times xs)).
  { eapply Forall_impl; [|exact Hall]. cbn. intros t Ht. lia. }
  destruct x; cbn [fetched_times]; try (split; assumption).
  destruct (Hout pay time eq_refl) as [E Hle]. split.
  - constructor; assumption.
  - constructor; [exact Hsort|]. rewrite <- E. exact Hall.
Qed.

Theorem fetch_nondecreasing_at ts ops : StronglySorted N.le (fetched_times (sp_run_ops_at ts ops)).
Proof. apply (fetched_lower_bound ops (sp_init_at ts)). apply SI_new_at. Qed.

Theorem fetch_nondecreasing ops : StronglySorted N.le (fetched_times (sp_run_ops ops)).
Proof. apply fetch_nondecreasing_at. Qed.

Record ghost := { g_added : list ev; g_fetched : list ev; g_cancelled : list ev }.

Fixpoint find_id (i : N) (l : list ev) : option ev :=
  match l with [] => None | x :: r => if eid x =? i then Some x else find_id i r end.

Definition ghost_step (a : sst) (g : ghost) (o : op) : ghost :=
  match o with
  | Add t p =>
      if t <? s_tcur (ss a) then g
      else {| g_added := g_added g ++ [{| etime := t; eid := s_next (ss a); epay := p |}];
              g_fetched := g_fetched g; g_cancelled := g_cancelled g |}
  | Cancel k =>
      match pick_handle (shandles a) k with
      | Some (_, i) => match find_id i (spend (ss a)) with
                       | Some e => {| g_added := g_added g; g_fetched := g_fetched g; g_cancelled := g_cancelled g ++ [e] |}
                       | None => g
                       end
      | None => g
      end
  | Fetch => match spend (ss a) with
             | x :: _ => {| g_added := g_added g; g_fetched := g_fetched g ++ [x]; g_cancelled := g_cancelled g |}
             | [] => g
             end
  | _ => g
  end.

Fixpoint ghost_run (a : sst) (g : ghost) (ops : list op) : sst * ghost :=
  match ops with
  | [] => (a, g)
  | o :: r => ghost_run (fst (sp_step a o)) (ghost_step a g o) r
  end.

Definition g0 : ghost := {| g_added := []; g_fetched := []; g_cancelled := [] |}.

Definition Acct (a : sst) (g : ghost) : Prop :=
  Permutation (g_added g) (g_fetched g ++ g_cancelled g ++ spend (ss a)) /\
  NoDup (map eid (g_added g)) /\
  (forall e, In e (g_added g) -> eid e < s_next (ss a)).

Lemma find_id_remove i l :
  match find_id i l with
  | Some e => exists l', remove_id i l = Some l' /\ Permutation l (e :: l') /\ eid e = i
  | None => remove_id i l = None
  end.
Proof.
  induction l as [|x l IH]; cbn [find_id remove_id]; [reflexivity|].
  destruct (eid x =? i) eqn:E.
  - apply N.eqb_eq in E. exists l. repeat split; [reflexivity|exact E].
  - destruct (find_id i l) as [e|].
    + destruct IH as [l' [-> [P Ee]]]. exists (x :: l'). repeat split; [|exact Ee].
      rewrite P. apply perm_swap.
    + rewrite IH. reflexivity.
Qed.

Lemma find_id_app i l1 l2 :
  find_id i (l1 ++ l2) = match find_id i l1 with Some e => Some e | None => find_id i l2 end.
Proof. induction l1 as [|x l1 IH]; cbn [app find_id]; [reflexivity|]. destruct (eid x =? i); auto. Qed.

Lemma Acct_step a g o : SI (ss a) -> Acct a g -> Acct (fst (sp_step a o)) (ghost_step a g o).
Proof.
  intros HS [P [Hn Hi]]. destruct o as [t p|k| | | | |]; cbn [sp_step ghost_step]; try (repeat split; assumption).
  - (* add *)
    unfold sp_add. destruct (t <? s_tcur (ss a)) eqn:E1; cbn [fst ss]; [repeat split; assumption|].
    set (e := {| etime := t; eid := s_next (ss a); epay := p |}).
    assert (Hfresh : ~ In (eid e) (map eid (g_added g))).
    { intros Hc. apply in_map_iff in Hc. destruct Hc as [x [Ex Hx]]. specialize (Hi x Hx). cbn in Ex. lia. }
    assert (Hgen : forall z r, Permutation (z ++ r) (e :: spend (ss a)) ->
       Acct {| ss := {| s_tcur := s_tcur (ss a); s_zero := z; s_rest := r; s_next := s_next (ss a) + 1 |};
               shandles := shandles a ++ [(t, s_next (ss a))] |}
            {| g_added := g_added g ++ [e]; g_fetched := g_fetched g; g_cancelled := g_cancelled g |}).
    { intros z r Pz. repeat split; cbn [g_added g_fetched g_cancelled ss s_next].
      - unfold spend; cbn [s_zero s_rest]. rewrite Pz, P.
        rewrite <- !app_assoc. apply Permutation_app_head. apply Permutation_app_head.
        symmetry. apply Permutation_cons_append.
      - rewrite map_app. cbn [map]. apply NoDup_Add with (a := eid e) (l := map eid (g_added g)).
        + rewrite <- (app_nil_r (map eid (g_added g))) at 1. apply Add_app.
        + split; assumption.
      - intros x Hx. apply in_app_or in Hx. destruct Hx as [Hx|[<-|[]]]; [specialize (Hi x Hx); lia|cbn; lia]. }
    destruct (t =? s_tcur (ss a)); cbn [fst ss]; apply Hgen; unfold spend.
    + rewrite <- app_assoc. cbn [app]. symmetry. apply Permutation_middle.
    + rewrite sins_perm. symmetry. apply Permutation_middle.
  - (* cancel *)
    destruct (pick_handle (shandles a) k) as [[t i]|]; [|repeat split; assumption]. cbn [fst ss].
    unfold sp_cancel, spend. rewrite find_id_app.
    pose proof (find_id_remove i (s_zero (ss a))) as Fz. pose proof (find_id_remove i (s_rest (ss a))) as Fr.
    destruct (find_id i (s_zero (ss a))) as [e|].
    + destruct Fz as [z' [-> [Pz _]]]. repeat split; cbn [g_added g_fetched g_cancelled ss s_next spend s_zero s_rest]; try assumption.
      rewrite P. unfold spend. rewrite Pz. rewrite <- !app_assoc. cbn [app].
      apply Permutation_app_head. apply Permutation_app_head. reflexivity.
    + rewrite Fz. destruct (find_id i (s_rest (ss a))) as [e|].
      * destruct Fr as [r' [-> [Pr _]]]. repeat split; cbn [g_added g_fetched g_cancelled ss s_next spend s_zero s_rest]; try assumption.
        rewrite P. unfold spend. rewrite Pr. rewrite <- !app_assoc. cbn [app].
        apply Permutation_app_head. apply Permutation_app_head. symmetry. apply Permutation_middle.
      * rewrite Fr. repeat split; assumption.
  - (* fetch *)
    unfold sp_fetch, spend. destruct (s_zero (ss a)) as [|x z] eqn:Ez; cbn [app].
    + destruct (s_rest (ss a)) as [|x r] eqn:Er; cbn [fst ss]; [repeat split; assumption|].
      repeat split; cbn [g_added g_fetched g_cancelled ss s_next spend s_zero s_rest]; try assumption.
      rewrite P. unfold spend. rewrite Ez, Er. cbn [app]. rewrite <- !app_assoc. cbn [app].
      apply Permutation_app_head. symmetry. apply Permutation_middle.
    + cbn [fst ss]. repeat split; cbn [g_added g_fetched g_cancelled ss s_next spend s_zero s_rest]; try assumption.
      rewrite P. unfold spend. rewrite Ez. cbn [app]. rewrite <- !app_assoc. cbn [app].
      apply Permutation_app_head. symmetry. apply Permutation_middle.
Qed.

Lemma Acct_run ops : forall a g, SI (ss a) -> Acct a g ->
  Acct (fst (ghost_run a g ops)) (snd (ghost_run a g ops)) /\ SI (ss (fst (ghost_run a g ops))).
Proof.
  induction ops as [|o ops IH]; intros a g HS HA; cbn [ghost_run]; [split; assumption|].
  apply IH; [apply SI_step; exact HS|apply Acct_step; assumption].
Qed.

Lemma Acct_init_at ts : Acct (sp_init_at ts) g0.
Proof. repeat split; cbn; try constructor. intros e []. Qed.
Lemma Acct_init : Acct sp_init g0.
Proof. apply Acct_init_at. Qed.

(* every event ever added is, at any point of any history, in exactly one of:
   fetched, cancelled while pending, still pending *)
Theorem exactly_once ts ops :
  let a := fst (ghost_run (sp_init_at ts) g0 ops) in
  let g := snd (ghost_run (sp_init_at ts) g0 ops) in
  Permutation (g_added g) (g_fetched g ++ g_cancelled g ++ spend (ss a)) /\
  NoDup (map eid (g_fetched g ++ g_cancelled g ++ spend (ss a))).
Proof.
  cbn zeta. destruct (Acct_run ops (sp_init_at ts) g0 (SI_new_at ts) (Acct_init_at ts)) as [[P [Hn _]] _]. split; [exact P|].
  eapply Permutation_NoDup; [apply Permutation_map; exact P|exact Hn].
Qed.

(* the ghost record is faithful to the outputs: what fetch returns is, in order,
   exactly the payload and the scheduling time of the ghost-fetched events *)
Fixpoint fetched_outs (outs : list out) : list (N * N) :=
  match outs with
  | [] => []
  | OFetched p t :: r => (p, t) :: fetched_outs r
  | _ :: r => fetched_outs r
  end.

Lemma ghost_outputs ops : forall a g,
  map (fun x => (epay x, etime x)) (g_fetched (snd (ghost_run a g ops))) =
  map (fun x => (epay x, etime x)) (g_fetched g) ++ fetched_outs (snd (sp_run_from a ops)) /\
  fst (ghost_run a g ops) = fst (sp_run_from a ops).
Proof.
  induction ops as [|o ops IH]; intros a g; cbn [ghost_run sp_run_from].
  - rewrite app_nil_r. split; reflexivity.
  - specialize (IH (fst (sp_step a o)) (ghost_step a g o)). destruct IH as [IH1 IH2].
    destruct (sp_step a o) as [a' x] eqn:Es. cbn [fst] in *.
    destruct (sp_run_from a' ops) as [a'' xs] eqn:Er. cbn [fst snd] in *. split; [|exact IH2].
    rewrite IH1. destruct o as [t p|k| | | | |]; cbn [sp_step ghost_step] in *.
    + unfold sp_add in Es. destruct (t <? s_tcur (ss a)); [injection Es as <- <-; reflexivity|].
      destruct (t =? s_tcur (ss a)); injection Es as <- <-; reflexivity.
    + destruct (pick_handle (shandles a) k) as [[? i]|]; [|injection Es as <- <-; reflexivity].
      injection Es as <- <-. destruct (find_id i (spend (ss a))); reflexivity.
    + unfold sp_fetch, spend in *. destruct (s_zero (ss a)) as [|y z]; cbn [app].
      * destruct (s_rest (ss a)) as [|y r]; injection Es as <- <-; [reflexivity|].
        cbn [g_fetched fetched_outs]. rewrite map_app, <- app_assoc. reflexivity.
      * injection Es as <- <-. cbn [g_fetched fetched_outs]. rewrite map_app, <- app_assoc. reflexivity.
    + injection Es as <- <-. reflexivity.
    + injection Es as <- <-. reflexivity.
    + injection Es as <- <-. unfold sp_peek. destruct (s_zero (ss a)); [destruct (s_rest (ss a))|]; reflexivity.
    + injection Es as <- <-. reflexivity.
Qed.

Theorem fetched_are_ghost ts ops :
  fetched_outs (sp_run_ops_at ts ops) = map (fun x => (epay x, etime x)) (g_fetched (snd (ghost_run (sp_init_at ts) g0 ops))).
Proof. destruct (ghost_outputs ops (sp_init_at ts) g0) as [H _]. unfold sp_run_ops_at. rewrite H. reflexivity. Qed.

Theorem len_formula ts ops :
  let a := fst (ghost_run (sp_init_at ts) g0 ops) in
  let g := snd (ghost_run (sp_init_at ts) g0 ops) in
  (N.to_nat (sp_len (ss a)) + length (g_cancelled g) + length (g_fetched g) = length (g_added g))%nat.
Proof.
  cbn zeta. destruct (exactly_once ts ops) as [P _]. apply Permutation_length in P.
  rewrite !app_length in P. unfold sp_len. rewrite Nat2N.id. unfold spend in P. rewrite app_length in P. lia.
Qed.

Theorem cancel_not_pending_noop a g e :
  Acct a g -> In e (g_fetched g ++ g_cancelled g) -> sp_cancel (ss a) (eid e) = ss a.
Proof.
  intros [P [Hn _]] Hin.
  assert (Hn' : NoDup (map eid ((g_fetched g ++ g_cancelled g) ++ spend (ss a)))).
  { rewrite <- app_assoc. eapply Permutation_NoDup; [apply Permutation_map; exact P|exact Hn]. }
  assert (Hno : forall x, In x (spend (ss a)) -> eid x <> eid e).
  { intros x Hx Ex. rewrite map_app in Hn'. revert Hn'. generalize (in_map eid _ _ Hin) (in_map eid _ _ Hx).
    rewrite Ex. generalize (map eid (g_fetched g ++ g_cancelled g)) (map eid (spend (ss a))) (eid e).
    intros l1 l2 i H1 H2 Hnd. induction l1 as [|y l1 IH]; [destruct H1|].
    cbn in Hnd. inversion Hnd as [|? ? Hnin Hnd']; subst. destruct H1 as [->|H1].
    - apply Hnin. apply in_or_app. right; exact H2.
    - apply IH; assumption. }
  unfold sp_cancel.
  assert (N1 : remove_id (eid e) (s_zero (ss a)) = None).
  { apply remove_id_None. intros x Hx. apply Hno. unfold spend. apply in_or_app. left; exact Hx. }
  assert (N2 : remove_id (eid e) (s_rest (ss a)) = None).
  { apply remove_id_None. intros x Hx. apply Hno. unfold spend. apply in_or_app. right; exact Hx. }
  rewrite N1, N2. reflexivity.
Qed.

Theorem cancel_after_fetch_noop ts ops e :
  let a := fst (ghost_run (sp_init_at ts) g0 ops) in
  let g := snd (ghost_run (sp_init_at ts) g0 ops) in
  In e (g_fetched g) -> sp_cancel (ss a) (eid e) = ss a.
Proof.
  cbn zeta. intros Hin. destruct (Acct_run ops (sp_init_at ts) g0 (SI_new_at ts) (Acct_init_at ts)) as [HA _].
  eapply cancel_not_pending_noop; [exact HA|apply in_or_app; left; exact Hin].
Qed.

(* a pending event that is cancelled leaves the pending set for good: it is
   recorded as cancelled, and by exactly_once it can never also be fetched *)
Theorem cancelled_never_returned ts ops e :
  let g := snd (ghost_run (sp_init_at ts) g0 ops) in
  In e (g_cancelled g) -> ~ In e (g_fetched g).
Proof.
  cbn zeta. intros Hc Hf. destruct (exactly_once ts ops) as [_ Hn].
  rewrite map_app in Hn. apply in_split in Hf. destruct Hf as [l1 [l2 Ef]]. rewrite Ef in Hn.
  rewrite map_app in Hn. cbn [map] in Hn. rewrite <- app_assoc in Hn. cbn [app] in Hn.
  apply NoDup_remove_2 in Hn. apply Hn. apply in_or_app. right. apply in_or_app. right.
  rewrite map_app. apply in_or_app. left. apply in_map. exact Hc.
Qed.
