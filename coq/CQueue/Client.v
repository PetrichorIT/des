(* The refinement as a client of the queue sees it: the relation without the
   handle list (a client that never cancels only carries it along) and one
   total statement for each operation of the interface. *)
From Coq Require Import List NArith Bool Lia Permutation.
From DesVerif Require Import CQueue.Model CQueue.Spec CQueue.ListX CQueue.Refine.
Import ListNotations.
Open Scope N_scope.

Definition Rq (q : cq) (s : sp) : Prop := exists hs, R q s hs.

Lemma Rq_new_at n t ts : n <> 0 -> t <> 0 -> Rq (cq_new_at n t ts) (sp_new_at ts).
Proof. intros Hn Ht. exists []. apply R_new_at; assumption. Qed.

(* [cq_new n t] and [cq_new_at n t 0] are convertible *)
Lemma Rq_new n t : n <> 0 -> t <> 0 -> Rq (cq_new n t) sp_new.
Proof. exact (Rq_new_at n t 0). Qed.

Lemma Rq_tcur q s : Rq q s -> tcur q = s_tcur s.
Proof. intros [hs HR]. exact (R_tcur _ _ _ HR). Qed.

Lemma Rq_len q s : Rq q s -> qlen q = sp_len s.
Proof.
  intros [hs HR]. rewrite (R_len _ _ _ HR). unfold sp_len, pend.
  rewrite (R_zero _ _ _ HR), !app_length, (Permutation_length (R_perm _ _ _ HR)). reflexivity.
Qed.

Lemma sp_len_zero s : (sp_len s =? 0) = true <-> s_zero s = [] /\ s_rest s = [].
Proof.
  rewrite N.eqb_eq. unfold sp_len. destruct (s_zero s), (s_rest s); cbn [length Nat.add]; split; try lia; try (intros [? ?]; discriminate).
  split; reflexivity.
Qed.

Lemma Rq_empty q s : Rq q s -> (qlen q =? 0) = true <-> s_zero s = [] /\ s_rest s = [].
Proof. intros H. rewrite (Rq_len q s H). apply sp_len_zero. Qed.

(* at any time: an add before the clock is rejected on both sides *)
Lemma Rq_add q s t p :
  Rq q s ->
  snd (add q t p) = snd (sp_add s t p) /\ snd (fst (add q t p)) = snd (fst (sp_add s t p)) /\
  Rq (fst (fst (add q t p))) (fst (fst (sp_add s t p))).
Proof.
  intros [hs HR]. pose proof (R_add_total q s hs t p HR) as H.
  destruct (add q t p) as [[q' h] o]. destruct (sp_add s t p) as [[s' h'] o'].
  destruct H as [Ho [Hh H]]. repeat split; [exact Ho|exact Hh|eexists; exact H].
Qed.

Lemma Rq_fetch q s :
  Rq q s -> snd (fetch_next q) = snd (sp_fetch s) /\ Rq (fst (fetch_next q)) (fst (sp_fetch s)).
Proof.
  intros [hs HR]. pose proof (R_fetch q s hs HR) as H.
  destruct (fetch_next q) as [q' o]. destruct (sp_fetch s) as [s' o']. destruct H as [Ho H].
  split; [exact Ho|eexists; exact H].
Qed.

Lemma Rq_peek q s : Rq q s -> peek_time q = sp_peek s.
Proof. intros [hs HR]. exact (R_peek q s hs HR). Qed.

(* A client whose events are not numbers keeps them in a store beside the queue and
   schedules the index of an event as its payload.  The client's own event set is given
   by its three components: clock, FIFO of the current instant, and the other pending
   events with every entry behind all entries that are not later ([tins]).  This section
   relates such a set to the specification [sp] with a store, and to the calendar queue
   with a store through the refinement; it is parametric in the type of the events. *)
Section Store.
Variable E : Type.
Variable d : E.

Definition view (st : list E) (x : ev) : N * E := (etime x, nth (N.to_nat (epay x)) st d).

Fixpoint tins (t : N) (e : E) (l : list (N * E)) : list (N * E) :=
  match l with
  | [] => [(t, e)]
  | x :: r => if t <? fst x then (t, e) :: x :: r else x :: tins t e r
  end.

Record SpRel (s : sp) (st : list E) (tc : N) (z r : list (N * E)) : Prop := {
  SR_tcur : s_tcur s = tc;
  SR_zero : map (view st) (s_zero s) = z;
  SR_rest : map (view st) (s_rest s) = r;
  SR_ids : Forall (fun x => eid x < s_next s) (s_rest s);
  SR_pay : Forall (fun x => epay x < N.of_nat (length st)) (s_zero s ++ s_rest s) }.

Lemma view_ext st e x : epay x < N.of_nat (length st) -> view (st ++ [e]) x = view st x.
Proof. intros H. unfold view. rewrite app_nth1 by lia. reflexivity. Qed.

Lemma map_view_ext st e l : Forall (fun x => epay x < N.of_nat (length st)) l -> map (view (st ++ [e])) l = map (view st) l.
Proof. intros H. apply map_ext_in. intros x Hx. apply view_ext. exact (proj1 (Forall_forall _ _) H x Hx). Qed.

Lemma view_new st e t i : view (st ++ [e]) {| etime := t; eid := i; epay := N.of_nat (length st) |} = (t, e).
Proof. unfold view. cbn [etime epay]. rewrite Nat2N.id, nth_middle. reflexivity. Qed.

(* an entry with the largest id goes behind all entries that are not later: what [tins] does *)
Lemma sins_view st e l : Forall (fun x => eid x < eid e) l ->
  map (view st) (sins e l) = tins (etime e) (snd (view st e)) (map (view st) l).
Proof.
  induction 1 as [|x l Hx Hl IH]; cbn [sins map tins]; [reflexivity|].
  unfold key_lt. assert (E0 : eid e <? eid x = false) by (apply N.ltb_ge; lia).
  rewrite E0, andb_false_r, orb_false_r. cbn [fst view]. destruct (etime e <? etime x); cbn [map]; [reflexivity|].
  rewrite IH. reflexivity.
Qed.

Lemma sp_add_rel s st tc z r t e :
  SpRel s st tc z r -> tc <= t ->
  SpRel (fst (fst (sp_add s t (N.of_nat (length st))))) (st ++ [e]) tc
        (if t =? tc then z ++ [(t, e)] else z) (if t =? tc then r else tins t e r).
Proof.
  intros [Ht Hz Hr Hi Hp] Hge. unfold sp_add. rewrite Ht.
  assert (E0 : t <? tc = false) by (apply N.ltb_ge; exact Hge). rewrite E0.
  apply Forall_app in Hp. destruct Hp as [Hpz Hpr].
  set (x := {| etime := t; eid := s_next s; epay := N.of_nat (length st) |}).
  assert (Hlen : N.of_nat (length (st ++ [e])) = N.of_nat (length st) + 1) by (rewrite app_length; cbn [length]; lia).
  assert (Hw : forall l, Forall (fun y => epay y < N.of_nat (length st)) l -> Forall (fun y => epay y < N.of_nat (length (st ++ [e]))) l)
    by (intros l; apply Forall_impl; intros y Hy; lia).
  assert (Hx : epay x < N.of_nat (length (st ++ [e]))) by (unfold x; cbn [epay]; lia).
  destruct (t =? tc); cbn [fst]; constructor; cbn [s_tcur s_zero s_rest s_next].
  - reflexivity.
  - rewrite map_app, (map_view_ext st e _ Hpz), Hz. cbn [map]. unfold x. rewrite view_new. reflexivity.
  - rewrite (map_view_ext st e _ Hpr). exact Hr.
  - eapply Forall_impl; [|exact Hi]. intros y Hy. cbn beta in Hy |- *. lia.
  - rewrite <- app_assoc. apply Forall_app; split; [apply Hw, Hpz|]. cbn [app]. constructor; [exact Hx|apply Hw, Hpr].
  - reflexivity.
  - rewrite (map_view_ext st e _ Hpz). exact Hz.
  - rewrite sins_view by (exact Hi). rewrite (map_view_ext st e _ Hpr), Hr.
    unfold x. rewrite view_new. reflexivity.
  - apply (Permutation_Forall (Permutation_sym (sins_perm x (s_rest s)))). constructor; [unfold x; cbn [eid]; lia|].
    eapply Forall_impl; [|exact Hi]. intros y Hy. cbn beta in Hy |- *. lia.
  - apply Forall_app; split; [apply Hw, Hpz|].
    apply (Permutation_Forall (Permutation_sym (sins_perm x (s_rest s)))). constructor; [exact Hx|apply Hw, Hpr].
Qed.

Lemma sp_fetch_rel s st tc z r :
  SpRel s st tc z r ->
  match z, r with
  | p :: z', _ => exists x s', sp_fetch s = (s', OFetched (epay x) (etime x)) /\ p = view st x /\ SpRel s' st tc z' r
  | [], p :: r' => exists x s', sp_fetch s = (s', OFetched (epay x) (etime x)) /\ p = view st x /\ SpRel s' st (fst p) [] r'
  | [], [] => s_zero s = [] /\ s_rest s = []
  end.
Proof.
  intros [Ht Hz Hr Hi Hp]. unfold sp_fetch. apply Forall_app in Hp. destruct Hp as [Hpz Hpr].
  destruct (s_zero s) as [|x z0] eqn:Ez; cbn [map] in Hz; rewrite <- Hz.
  - destruct (s_rest s) as [|x r0] eqn:Er; cbn [map] in Hr; rewrite <- Hr; [split; reflexivity|].
    exists x. eexists. split; [reflexivity|]. split; [reflexivity|].
    inversion Hi; subst. inversion Hpr; subst.
    constructor; cbn [s_tcur s_zero s_rest s_next fst view map app]; auto.
  - exists x. eexists. split; [reflexivity|]. split; [reflexivity|].
    inversion Hpz; subst. constructor; cbn [s_tcur s_zero s_rest s_next]; auto.
    apply Forall_app; split; assumption.
Qed.

Lemma SpRel_new : SpRel (sp_new_at 0) [] 0 [] [].
Proof. constructor; cbn; auto. Qed.

Definition fetch_sim {Q} (RQ : N -> list (N * E) -> list (N * E) -> Q -> Prop) (q_fetch : Q -> option (N * E * Q))
    (tc : N) (z r : list (N * E)) (q : Q) : Prop :=
  match z, r with
  | p :: z', _ => exists q', q_fetch q = Some (fst p, snd p, q') /\ RQ tc z' r q'
  | [], p :: r' => exists q', q_fetch q = Some (fst p, snd p, q') /\ RQ (fst p) [] r' q'
  | [], [] => q_fetch q = None
  end.

Definition sp_store_add (t : N) (e : E) (qs : sp * list E) : sp * list E :=
  (fst (fst (sp_add (fst qs) t (N.of_nat (length (snd qs))))), snd qs ++ [e]).
Definition sp_store_fetch (qs : sp * list E) : option (N * E * (sp * list E)) :=
  if sp_len (fst qs) =? 0 then None
  else match sp_fetch (fst qs) with
       | (s', OFetched p t) => Some (t, nth (N.to_nat p) (snd qs) d, (s', snd qs))
       | _ => None
       end.
Definition RQs (tc : N) (z r : list (N * E)) (qs : sp * list E) : Prop := SpRel (fst qs) (snd qs) tc z r.

Lemma sp_store_add_sim tc z r qs t e : RQs tc z r qs -> tc <= t ->
  RQs tc (if t =? tc then z ++ [(t, e)] else z) (if t =? tc then r else tins t e r) (sp_store_add t e qs).
Proof. destruct qs as [s st]. apply sp_add_rel. Qed.

Lemma sp_fetch_len s s' p t : sp_fetch s = (s', OFetched p t) -> sp_len s =? 0 = false.
Proof.
  intros Hf. destruct (sp_len s =? 0) eqn:E0; [|reflexivity]. apply sp_len_zero in E0. destruct E0 as [Ez Er].
  unfold sp_fetch in Hf. rewrite Ez, Er in Hf. discriminate.
Qed.

Lemma sp_store_fetch_sim tc z r qs : RQs tc z r qs -> fetch_sim RQs sp_store_fetch tc z r qs.
Proof.
  destruct qs as [s st]. unfold RQs, sp_store_fetch, fetch_sim. cbn [fst snd]. intros HR.
  pose proof (sp_fetch_rel s st tc z r HR) as H.
  destruct z as [|p z']; [destruct r as [|p r']|]; try (rewrite (proj2 (sp_len_zero s) H); reflexivity);
    destruct H as (x & s' & Hf & -> & HR'); rewrite (sp_fetch_len _ _ _ _ Hf), Hf; eexists; (split; [reflexivity|exact HR']).
Qed.

Definition cq_store_add (t : N) (e : E) (qs : cq * list E) : cq * list E :=
  (fst (fst (add (fst qs) t (N.of_nat (length (snd qs))))), snd qs ++ [e]).
Definition cq_store_fetch (qs : cq * list E) : option (N * E * (cq * list E)) :=
  if qlen (fst qs) =? 0 then None
  else match fetch_next (fst qs) with
       | (q', OFetched p t) => Some (t, nth (N.to_nat p) (snd qs) d, (q', snd qs))
       | _ => None
       end.
Definition RQc (tc : N) (z r : list (N * E)) (qs : cq * list E) : Prop :=
  exists s, Rq (fst qs) s /\ SpRel s (snd qs) tc z r.

Lemma cq_store_add_sim tc z r qs t e : RQc tc z r qs -> tc <= t ->
  RQc tc (if t =? tc then z ++ [(t, e)] else z) (if t =? tc then r else tins t e r) (cq_store_add t e qs).
Proof.
  destruct qs as [q st]. intros (s & HR & HS) Hge. eexists. split; [|exact (sp_add_rel s st tc z r t e HS Hge)].
  apply (Rq_add q s t (N.of_nat (length st)) HR).
Qed.

Lemma cq_store_fetch_sim tc z r qs : RQc tc z r qs -> fetch_sim RQc cq_store_fetch tc z r qs.
Proof.
  destruct qs as [q st]. unfold RQc, cq_store_fetch, fetch_sim. cbn [fst snd]. intros (s & HR & HS).
  pose proof (sp_fetch_rel s st tc z r HS) as H. rewrite (Rq_len q s HR).
  destruct (Rq_fetch q s HR) as [Ho HR']. destruct (fetch_next q) as [q' o]. cbn [fst snd] in Ho, HR'. subst o.
  destruct z as [|p z']; [destruct r as [|p r']|]; try (rewrite (proj2 (sp_len_zero s) H); reflexivity);
    destruct H as (x & s' & Hf & -> & HS'); rewrite (sp_fetch_len _ _ _ _ Hf); rewrite Hf in *; cbn [fst snd] in *;
    eexists; (split; [reflexivity|]); exists s'; (split; [exact HR'|exact HS']).
Qed.

Lemma RQc_init n t : n <> 0 -> t <> 0 -> RQc 0 [] [] (cq_new_at n t 0, []).
Proof. intros Hn Ht. exists (sp_new_at 0). split; [apply Rq_new_at; assumption|exact SpRel_new]. Qed.

End Store.
