(* The dispatch order among equal timestamps is a fixed function of the
   scheduling history.  Every event gets, when it is scheduled, the dispatch key
   (time, class, id): class 0 if it was scheduled for the then-current instant
   (it went to the FIFO), class 1 otherwise; id is the scheduling sequence
   number.  Fetch always returns the pending event with the smallest key, and the
   class of a pending event never changes. *)
From Coq Require Import List NArith Lia Sorting.Sorted Permutation.
From DesVerif Require Import CQueue.Model CQueue.Spec CQueue.ListX CQueue.SpecProps.
Import ListNotations.
Open Scope N_scope.

Definition id_sorted (l : list ev) := StronglySorted (fun a b => eid a < eid b) l.

Record SI2 (s : sp) : Prop := { SI2_si : SI s; SI2_zsorted : id_sorted (s_zero s) }.

Lemma SI2_new_at ts : SI2 (sp_new_at ts).
Proof. split; [apply SI_new_at|constructor]. Qed.
Lemma SI2_new : SI2 sp_new.
Proof. apply SI2_new_at. Qed.

Lemma id_sorted_app_one l e : id_sorted l -> (forall x, In x l -> eid x < eid e) -> id_sorted (l ++ [e]).
Proof.
  unfold id_sorted. induction l as [|y l IH]; intros Hs Hlt; cbn [app].
  - repeat constructor.
  - inversion Hs as [|? ? Hs' Hall]; subst. constructor.
    + apply IH; [exact Hs'|intros x Hx; apply Hlt; right; exact Hx].
    + rewrite Forall_forall in *. intros x Hx. apply in_app_or in Hx. destruct Hx as [Hx|[<-|[]]]; [auto|].
      apply Hlt. left; reflexivity.
Qed.

Lemma SI2_add s t p : SI2 s -> SI2 (fst (fst (sp_add s t p))).
Proof.
  intros [HS Hz]. split; [apply SI_add; exact HS|]. unfold sp_add.
  destruct (t <? s_tcur s); [exact Hz|]. destruct (t =? s_tcur s); cbn [fst s_zero]; [|exact Hz].
  apply id_sorted_app_one; [exact Hz|]. intros x Hx. cbn. apply (SI_ids s HS). apply in_or_app. left; exact Hx.
Qed.

Lemma SI2_cancel s i : SI2 s -> SI2 (sp_cancel s i).
Proof.
  intros [HS Hz]. split; [apply SI_cancel; exact HS|]. unfold sp_cancel.
  destruct (remove_id i (s_zero s)) as [z'|] eqn:Ez; cbn [s_zero].
  - eapply remove_id_sorted; eassumption.
  - destruct (remove_id i (s_rest s)); exact Hz.
Qed.

Lemma SI2_fetch s : SI2 s -> SI2 (fst (sp_fetch s)).
Proof.
  intros [HS Hz]. split; [apply SI_fetch; exact HS|]. unfold sp_fetch.
  destruct (s_zero s) as [|x z] eqn:Ez.
  - destruct (s_rest s); cbn [fst s_zero]; [rewrite Ez|]; constructor.
  - cbn [fst s_zero]. inversion Hz; assumption.
Qed.

Lemma SI2_reachable ops a : SI2 (ss a) -> SI2 (ss (fst (sp_run_from a ops))).
Proof. exact (sp_inv_run SI2 SI2_add SI2_cancel SI2_fetch ops a). Qed.

(* ---- the dispatch key ---- *)
Definition in_zero (s : sp) (e : ev) : bool := existsb (fun x => eid x =? eid e) (s_zero s).
Definition cls (s : sp) (e : ev) : N := if in_zero s e then 0 else 1.

(* lexicographic (time, class, id) *)
Definition dk_lt (s : sp) (a b : ev) : Prop :=
  etime a < etime b \/
  (etime a = etime b /\ (cls s a < cls s b \/ (cls s a = cls s b /\ eid a < eid b))).

Lemma in_zero_true s e : In e (s_zero s) -> in_zero s e = true.
Proof. intros H. unfold in_zero. apply existsb_exists. exists e. split; [exact H|apply N.eqb_refl]. Qed.

Lemma in_zero_rest s e : SI s -> In e (s_rest s) -> in_zero s e = false.
Proof.
  intros HS Hr. unfold in_zero. destruct (existsb _ _) eqn:E; [|reflexivity]. exfalso.
  apply existsb_exists in E. destruct E as [x [Hx Ex]]. apply N.eqb_eq in Ex.
  pose proof (SI_nodup s HS) as Hn. unfold spend in Hn. rewrite map_app in Hn.
  apply in_split in Hx. destruct Hx as [l1 [l2 El]]. rewrite El, map_app in Hn. cbn [map] in Hn.
  rewrite <- app_assoc in Hn. cbn [app] in Hn. apply NoDup_remove_2 in Hn. apply Hn.
  apply in_or_app. right. apply in_or_app. right. rewrite Ex. apply in_map. exact Hr.
Qed.

Lemma cls_zero s e : In e (s_zero s) -> cls s e = 0.
Proof. intros H. unfold cls. rewrite (in_zero_true s e H). reflexivity. Qed.

Lemma cls_rest s e : SI s -> In e (s_rest s) -> cls s e = 1.
Proof. intros HS H. unfold cls. rewrite (in_zero_rest s e HS H). reflexivity. Qed.

(* fetch returns the pending event with the least dispatch key *)
Theorem fetch_min_dispatch_key s s' p t :
  SI2 s -> sp_fetch s = (s', OFetched p t) ->
  exists x, In x (spend s) /\ epay x = p /\ etime x = t /\
            forall y, In y (spend s) -> y <> x -> dk_lt s x y.
Proof.
  intros [HS Hzs] Hf. pose proof HS as [Hs Hz Hr Hi Hn]. unfold sp_fetch in Hf.
  destruct (s_zero s) as [|x z] eqn:Ez.
  - destruct (s_rest s) as [|x r] eqn:Er; [discriminate|]. injection Hf as _ <- <-.
    exists x. unfold spend. rewrite Ez, Er. cbn [app]. split; [left; reflexivity|]. split; [reflexivity|]. split; [reflexivity|].
    intros y [<-|Hy] Hne; [congruence|].
    pose proof (sorted_head _ _ _ _ Hs Hy) as Hall. cbn in Hall.
    unfold dk_lt. rewrite !(cls_rest s) by (assumption || (rewrite Er; cbn; auto)). unfold key_lt in Hall. lia.
  - injection Hf as _ <- <-. exists x. unfold spend. rewrite Ez. cbn [app].
    split; [left; reflexivity|]. split; [reflexivity|]. split; [reflexivity|].
    assert (Hcx : cls s x = 0) by (apply cls_zero; rewrite Ez; left; reflexivity).
    intros y [<-|Hy] Hne; [congruence|]. apply in_app_or in Hy. unfold dk_lt. rewrite Hcx.
    rewrite (Hz x (or_introl eq_refl)).
    destruct Hy as [Hy|Hy].
    + rewrite (cls_zero s y) by (rewrite Ez; right; exact Hy). rewrite (Hz y (or_intror Hy)). right. split; [reflexivity|]. right. split; [reflexivity|].
      exact (sorted_head _ _ _ _ Hzs Hy).
    + rewrite (cls_rest s y HS Hy). specialize (Hr y Hy). lia.
Qed.

(* the class of a pending event is fixed when it is scheduled: no operation
   moves an event between the FIFO and the sorted rest *)
Theorem class_fixed a o e :
  SI (ss a) -> In e (spend (ss a)) -> In e (spend (ss (fst (sp_step a o)))) ->
  (In e (s_zero (ss a)) <-> In e (s_zero (ss (fst (sp_step a o))))).
Proof.
  intros HS Hin Hin'. pose proof HS as [Hs Hz Hr Hi Hn].
  assert (Hex : In e (s_zero (ss a)) -> In e (s_rest (ss a)) -> False).
  { intros H1 H2. pose proof (in_zero_rest _ _ HS H2) as F. rewrite (in_zero_true _ _ H1) in F. discriminate. }
  assert (Hfresh : forall t p, e <> {| etime := t; eid := s_next (ss a); epay := p |}).
  { intros t p ->. specialize (Hi _ Hin). cbn in Hi. lia. }
  destruct o as [t p|k| | | | |]; cbn [sp_step] in *; try tauto.
  - unfold sp_add in *. destruct (t <? s_tcur (ss a)); [tauto|].
    destruct (t =? s_tcur (ss a)); cbn [fst ss s_zero s_rest spend] in *; unfold spend in *; cbn [s_zero s_rest] in *.
    + rewrite in_app_iff. cbn [In]. specialize (Hfresh t p). split; [tauto|]. intros [H|[H|[]]]; [exact H|congruence].
    + tauto.
  - destruct (pick_handle (shandles a) k) as [[t i]|]; [|tauto]. cbn [fst ss] in *. unfold sp_cancel, spend in *.
    destruct (remove_id i (s_zero (ss a))) as [z'|] eqn:Ez; cbn [s_zero s_rest] in *.
    + split; [|intros H; eapply remove_id_In; eassumption].
      intros H. apply in_app_or in Hin'. destruct Hin' as [H'|H']; [exact H'|]. exfalso. eapply Hex; eassumption.
    + destruct (remove_id i (s_rest (ss a))); cbn [s_zero]; tauto.
  - unfold sp_fetch, spend in *. destruct (s_zero (ss a)) as [|x z] eqn:Ez.
    + destruct (s_rest (ss a)) as [|x r] eqn:Er; cbn [fst ss s_zero s_rest] in *; [rewrite Ez; tauto|]. tauto.
    + cbn [fst ss s_zero s_rest] in *. split; [|intros H; right; exact H].
      intros H. apply in_app_or in Hin'. destruct Hin' as [H'|H']; [exact H'|]. exfalso. apply (Hex H H').
Qed.

(* what class a newly scheduled event gets *)
Theorem new_event_class s t p :
  s_tcur s <= t ->
  let s' := fst (fst (sp_add s t p)) in
  let e := {| etime := t; eid := s_next s; epay := p |} in
  (t = s_tcur s -> s_zero s' = s_zero s ++ [e] /\ s_rest s' = s_rest s) /\
  (t <> s_tcur s -> s_zero s' = s_zero s /\ Permutation (s_rest s') (e :: s_rest s)).
Proof.
  intros Hle. cbn zeta. unfold sp_add. destruct (t <? s_tcur s) eqn:E1; [apply N.ltb_lt in E1; lia|].
  destruct (t =? s_tcur s) eqn:E2; cbn [fst s_zero s_rest].
  - apply N.eqb_eq in E2. split; [intros _; split; reflexivity|congruence].
  - apply N.eqb_neq in E2. split; [congruence|]. intros _. split; [reflexivity|apply sins_perm].
Qed.

(* consequence spelled out as in the property: two events scheduled for the same
   future instant (both waiting in the sorted part) are never reordered.  fetch reports
   payload and time only, so "the fetched event is b" reads: b has them and no other
   pending event has. *)
Theorem same_future_instant_fifo s s' p t a b :
  SI2 s -> sp_fetch s = (s', OFetched p t) ->
  In a (s_rest s) -> In b (s_rest s) -> etime a = etime b -> eid a < eid b ->
  ~ (epay b = p /\ etime b = t /\ forall x, In x (spend s) -> epay x = p -> etime x = t -> x = b).
Proof.
  intros HS2 Hf Ha Hb Et Hid [Hp [Ht Huniq]].
  destruct (fetch_min_dispatch_key s s' p t HS2 Hf) as [x [Hx [Ep [Etx Hmin]]]].
  assert (x = b) as -> by (apply Huniq; assumption).
  destruct HS2 as [HS _].
  assert (Hab : a <> b) by (intros ->; lia).
  specialize (Hmin a (in_or_app _ _ _ (or_intror Ha)) Hab).
  unfold dk_lt in Hmin. rewrite (cls_rest s a HS Ha), (cls_rest s b HS Hb) in Hmin. lia.
Qed.

(* events scheduled for the current instant run before events of the same
   timestamp that were already waiting *)
Theorem current_instant_first s s' p t a b :
  SI2 s -> sp_fetch s = (s', OFetched p t) ->
  In a (s_zero s) -> In b (s_rest s) ->
  ~ (epay b = p /\ etime b = t /\ forall x, In x (spend s) -> epay x = p -> etime x = t -> x = b).
Proof.
  intros [HS Hzs] Hf Ha Hb [Hp [Ht Huniq]]. unfold sp_fetch in Hf.
  destruct (s_zero s) as [|x z] eqn:Ez; [destruct Ha|]. injection Hf as _ <- <-.
  assert (x = b).
  { apply Huniq; [unfold spend; rewrite Ez; left; reflexivity|reflexivity|reflexivity]. }
  subst x. pose proof (in_zero_rest s b HS Hb) as F.
  rewrite in_zero_true in F; [discriminate|rewrite Ez; left; reflexivity].
Qed.
