(* List facts about upd / concat / remove_id / ins / sins used by the refinement. *)
From Coq Require Import List Arith NArith Lia Sorting.Sorted Permutation ZifyBool.
From DesVerif Require Import CQueue.Model CQueue.Spec.
Import ListNotations.
Open Scope N_scope.

Lemma nth_error_upd_eq {A} (l : list A) i f x : nth_error l i = Some x -> nth_error (upd i f l) i = Some (f x).
Proof. revert i; induction l as [|y l IH]; intros [|i] H; cbn in *; try discriminate; [congruence|auto]. Qed.
Lemma nth_error_upd_ne {A} (l : list A) i j f : i <> j -> nth_error (upd i f l) j = nth_error l j.
Proof. revert i j; induction l as [|y l IH]; intros [|i] [|j] H; cbn; try reflexivity; try lia. apply IH; lia. Qed.
Lemma length_upd {A} (l : list A) i f : length (upd i f l) = length l.
Proof. revert i; induction l as [|y l IH]; intros [|i]; cbn; auto. Qed.

Lemma nth_error_upd_cases {A} (l : list A) i f b j c :
  nth_error l i = Some b -> nth_error (upd i f l) j = Some c ->
  (i = j /\ c = f b) \/ (i <> j /\ nth_error l j = Some c).
Proof.
  intros Hb Hj. destruct (Nat.eq_dec i j) as [<-|Hne].
  - rewrite (nth_error_upd_eq _ _ _ _ Hb) in Hj. injection Hj as <-. left; split; reflexivity.
  - rewrite nth_error_upd_ne in Hj by assumption. right; split; assumption.
Qed.

Lemma upd_all {A} (P : A -> Prop) (l : list A) i f b :
  nth_error l i = Some b -> P (f b) -> (forall j c, nth_error l j = Some c -> P c) ->
  forall j c, nth_error (upd i f l) j = Some c -> P c.
Proof.
  intros Hb Hf Hall j c Hj.
  destruct (nth_error_upd_cases _ _ _ _ _ _ Hb Hj) as [[_ ->]|[_ Hj']]; [exact Hf|exact (Hall _ _ Hj')].
Qed.

Lemma concat_upd_split {A} (bs : list (list A)) i f b :
  nth_error bs i = Some b ->
  exists pre post, concat bs = pre ++ b ++ post /\ concat (upd i f bs) = pre ++ f b ++ post.
Proof.
  revert i; induction bs as [|c bs IH]; intros [|i] H; cbn in H; try discriminate.
  - injection H as ->. exists [], (concat bs). split; reflexivity.
  - destruct (IH i H) as [pre [post [E1 E2]]]. exists (c ++ pre), post.
    cbn [concat upd]. rewrite E1, E2, <- !app_assoc. split; reflexivity.
Qed.

Lemma in_concat_nth {A} (bs : list (list A)) e :
  In e (concat bs) <-> exists i b, nth_error bs i = Some b /\ In e b.
Proof.
  rewrite in_concat. split.
  - intros [b [Hb He]]. apply In_nth_error in Hb. destruct Hb as [i Hi]. exists i, b. split; assumption.
  - intros [i [b [Hi He]]]. exists b. split; [eapply nth_error_In; eassumption|assumption].
Qed.

Lemma In_concat_upd_sub {A} (bs : list (list A)) i b b' e :
  nth_error bs i = Some b -> (forall x, In x b' -> In x b) ->
  In e (concat (upd i (fun _ => b') bs)) -> In e (concat bs).
Proof.
  intros Hb Hsub He. destruct (concat_upd_split bs i (fun _ => b') b Hb) as [pre [post [-> Ec']]].
  rewrite Ec' in He. rewrite !in_app_iff in *. destruct He as [He|[He|He]]; auto.
Qed.

(* ---- remove_id ---- *)
Lemma remove_id_None id l : remove_id id l = None <-> (forall e, In e l -> eid e <> id).
Proof.
  induction l as [|x l IH]; cbn [remove_id].
  - split; [intros _ e []|reflexivity].
  - destruct (eid x =? id) eqn:E.
    + apply N.eqb_eq in E. split; [discriminate|]. intros H. exfalso. apply (H x); [left; reflexivity|exact E].
    + apply N.eqb_neq in E. destruct (remove_id id l) as [r|].
      * split; [discriminate|]. intros H. assert (Some r = None) as X; [|discriminate X].
        apply IH. intros e He. apply H. right; exact He.
      * split; [|reflexivity]. intros _ e [<-|He]; [exact E|]. apply IH; [reflexivity|exact He].
Qed.

Lemma remove_id_Some id l l' :
  remove_id id l = Some l' ->
  exists e l1 l2, l = l1 ++ e :: l2 /\ l' = l1 ++ l2 /\ eid e = id.
Proof.
  revert l'; induction l as [|x l IH]; intros l' H; cbn [remove_id] in H; [discriminate|].
  destruct (eid x =? id) eqn:E.
  - injection H as <-. apply N.eqb_eq in E. exists x, [], l. repeat split; assumption.
  - destruct (remove_id id l) as [r|]; [|discriminate]. injection H as <-.
    destruct (IH r eq_refl) as [e [l1 [l2 [-> [-> He]]]]]. exists e, (x :: l1), l2. repeat split; assumption.
Qed.

Lemma nodup_eid_inj l a b : NoDup (map eid l) -> In a l -> In b l -> eid a = eid b -> a = b.
Proof.
  induction l as [|x l IH]; intros Hnd Ha Hb E; [destruct Ha|].
  cbn in Hnd. inversion Hnd as [|? ? Hnin Hnd']; subst.
  destruct Ha as [<-|Ha], Hb as [<-|Hb]; try reflexivity.
  - exfalso. apply Hnin. rewrite E. apply in_map; exact Hb.
  - exfalso. apply Hnin. rewrite <- E. apply in_map; exact Ha.
  - apply IH; assumption.
Qed.

Lemma remove_id_perm l e l' :
  NoDup (map eid l) -> In e l -> remove_id (eid e) l = Some l' -> Permutation l (e :: l').
Proof.
  intros Hnd Hin H. destruct (remove_id_Some _ _ _ H) as [x [l1 [l2 [-> [-> Hx]]]]].
  assert (x = e) as ->.
  { apply (nodup_eid_inj (l1 ++ x :: l2)); [exact Hnd| |exact Hin|exact Hx].
    apply in_or_app; right; left; reflexivity. }
  symmetry. apply Permutation_middle.
Qed.

Lemma remove_id_exists l e : In e l -> exists l', remove_id (eid e) l = Some l'.
Proof.
  intros Hin. destruct (remove_id (eid e) l) as [l'|] eqn:H; [eexists; reflexivity|].
  exfalso. rewrite remove_id_None in H. apply (H e Hin). reflexivity.
Qed.

Lemma remove_id_In id l l' x : remove_id id l = Some l' -> In x l' -> In x l.
Proof.
  intros H Hx. destruct (remove_id_Some _ _ _ H) as [e [l1 [l2 [-> [-> _]]]]].
  apply in_app_or in Hx. apply in_or_app. destruct Hx; [left|right; right]; assumption.
Qed.

Lemma sorted_head {A} (P : A -> A -> Prop) x r e : StronglySorted P (x :: r) -> In e r -> P x e.
Proof. intros Hs. apply StronglySorted_inv in Hs. destruct Hs as [_ Hall]. rewrite Forall_forall in Hall. apply Hall. Qed.

Lemma sorted_app_remove {A} (P : A -> A -> Prop) l1 e l2 :
  StronglySorted P (l1 ++ e :: l2) -> StronglySorted P (l1 ++ l2).
Proof.
  induction l1 as [|x l1 IH]; cbn; intros H.
  - inversion H; assumption.
  - inversion H as [|? ? Hs Hall]; subst. constructor; [apply IH; exact Hs|].
    rewrite Forall_forall in *. intros y Hy. apply Hall. apply in_app_or in Hy. apply in_or_app.
    destruct Hy; [left|right; right]; assumption.
Qed.

Lemma remove_id_sorted (P : ev -> ev -> Prop) id l l' :
  StronglySorted P l -> remove_id id l = Some l' -> StronglySorted P l'.
Proof.
  intros Hs H. destruct (remove_id_Some _ _ _ H) as [e [l1 [l2 [-> [-> _]]]]].
  eapply sorted_app_remove; eassumption.
Qed.

(* ---- key order ---- *)
Definition key_sorted (l : list ev) := StronglySorted (fun a b => key_lt a b = true) l.

Lemma key_lt_asym a b : key_lt a b = true -> key_lt b a = true -> False.
Proof. unfold key_lt. intros H1 H2. lia. Qed.

Lemma key_lt_trans a b c : key_lt a b = true -> key_lt b c = true -> key_lt a c = true.
Proof. unfold key_lt. intros H1 H2. lia. Qed.

Lemma key_lt_total a b : key_lt a b = false -> a = b \/ key_lt b a = true \/ (etime a = etime b /\ eid a = eid b).
Proof. unfold key_lt. intros H. right. lia. Qed.

Lemma In_sins e x l : In x (sins e l) <-> x = e \/ In x l.
Proof.
  induction l as [|y l IH]; cbn [sins].
  - cbn. intuition.
  - destruct (key_lt e y); cbn [In]; [intuition|]. rewrite IH. intuition.
Qed.

Lemma sins_perm e l : Permutation (sins e l) (e :: l).
Proof.
  induction l as [|y l IH]; cbn [sins]; [reflexivity|].
  destruct (key_lt e y); [reflexivity|]. rewrite IH. apply perm_swap.
Qed.

Lemma key_lt_fresh e y : eid y < eid e ->
  key_lt e y = (etime e <? etime y) /\ (key_lt e y = false -> key_lt y e = true).
Proof. unfold key_lt. lia. Qed.

Lemma sins_key_sorted e l :
  key_sorted l -> (forall x, In x l -> eid x < eid e) -> key_sorted (sins e l).
Proof.
  unfold key_sorted. induction l as [|y l IH]; intros Hs Hid; cbn [sins].
  - repeat constructor.
  - inversion Hs as [|? ? Hs' Hall]; subst.
    destruct (key_lt e y) eqn:Hc.
    + constructor; [exact Hs|]. constructor; [exact Hc|].
      rewrite Forall_forall in *. intros z Hz. specialize (Hall z Hz). eapply key_lt_trans; eassumption.
    + constructor; [apply IH; [exact Hs'|intros x Hx; apply Hid; right; exact Hx]|].
      rewrite Forall_forall in *. intros z Hz. apply In_sins in Hz. destruct Hz as [->|Hz]; [|auto].
      exact (proj2 (key_lt_fresh e y (Hid y (or_introl eq_refl))) Hc).
Qed.

(* the id tie-break of sins never fires for a fresh (largest) id *)
Lemma ins_eq_sins e l : (forall x, In x l -> eid x < eid e) -> ins e l = sins e l.
Proof.
  induction l as [|y l IH]; intros Hid; cbn [ins sins]; [reflexivity|].
  rewrite (proj1 (key_lt_fresh e y (Hid y (or_introl eq_refl)))), IH by (intros x Hx; apply Hid; right; exact Hx). reflexivity.
Qed.

Lemma In_ins e x l : In x (ins e l) <-> x = e \/ In x l.
Proof.
  induction l as [|y l IH]; cbn [ins].
  - cbn. intuition.
  - destruct (etime e <? etime y); cbn [In]; [intuition|]. rewrite IH. intuition.
Qed.

Lemma ins_perm e l : Permutation (ins e l) (e :: l).
Proof.
  induction l as [|y l IH]; cbn [ins]; [reflexivity|].
  destruct (etime e <? etime y); [reflexivity|]. rewrite IH. apply perm_swap.
Qed.

Lemma ins_key_sorted e l :
  key_sorted l -> (forall x, In x l -> eid x < eid e) -> key_sorted (ins e l).
Proof. intros Hs Hid. rewrite ins_eq_sins by exact Hid. apply sins_key_sorted; assumption. Qed.

Lemma perm_fresh_facts (l l' : list ev) e n :
  Permutation l' (e :: l) -> eid e = n -> (forall x, In x l -> eid x < n) -> NoDup (map eid l) ->
  (forall x, In x l' -> eid x < n + 1) /\ NoDup (map eid l').
Proof.
  intros P Ee Hids Hnd. split.
  - intros x Hx. apply (Permutation_in _ P) in Hx. destruct Hx as [<-|Hx]; [lia|]. specialize (Hids x Hx). lia.
  - eapply Permutation_NoDup; [symmetry; apply Permutation_map; exact P|]. cbn [map]. constructor; [|exact Hnd].
    intros Hc. apply in_map_iff in Hc. destruct Hc as [x [Ex Hx]]. specialize (Hids x Hx). lia.
Qed.

Lemma max_time_ge bs e : In e (concat bs) -> etime e <= max_time bs.
Proof.
  induction bs as [|b bs IH]; cbn [concat max_time fold_right]; [intros []|].
  intros H. apply in_app_or in H.
  fold (max_time bs).
  assert (Hmono : forall l m, m <= fold_right (fun e m' => N.max (etime e) m') m l).
  { induction l as [|x l IHl]; intros m; cbn [fold_right]; [lia|]. specialize (IHl m). lia. }
  destruct H as [H|H].
  - clear IH. induction b as [|x b IHb]; [destruct H|]. cbn [fold_right].
    destruct H as [<-|H]; [lia|]. specialize (IHb H). lia.
  - specialize (IH H). specialize (Hmono b (max_time bs)). lia.
Qed.

Lemma NoDup_app_remove_l {A} (l l' : list A) : NoDup (l ++ l') -> NoDup l'.
Proof. induction l as [|x l IH]; cbn; intros H; [exact H|]. inversion H; auto. Qed.

Lemma NoDup_app_remove_r {A} (l l' : list A) : NoDup (l ++ l') -> NoDup l.
Proof.
  induction l as [|x l IH]; cbn; intros H; [constructor|].
  inversion H as [|? ? Hn Hd]; subst. constructor; [|auto].
  intros Hc. apply Hn. apply in_or_app. left; exact Hc.
Qed.
