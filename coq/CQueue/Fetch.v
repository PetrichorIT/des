(* What a scan that returns has done: it advanced the window some number of times
   ([same_content]) and then popped the front of the head bucket. *)
From Coq Require Import List NArith Lia.
From DesVerif Require Import Common.Fuel CQueue.Model CQueue.Scan CQueue.Term.
Import ListNotations.
Open Scope N_scope.

(* states reachable by advancing the window only *)
Record same_content (q qm : cq) : Prop := {
  sc_b : buckets qm = buckets q; sc_z : zero qm = zero q; sc_tc : tcur qm = tcur q;
  sc_len : qlen qm = qlen q; sc_id : next_id qm = next_id q; sc_n : qn qm = qn q; sc_t : qt qm = qt q;
  sc_slot : slot (qt q) (t0 q) <= slot (qt q) (t0 qm) }.

Lemma same_content_refl q : same_content q q.
Proof. constructor; first [reflexivity | lia]. Qed.

Lemma pop_head_same_content q qm x r : same_content q qm ->
  pop_head qm x r =
  {| qn := qn q; qt := qt q; zero := zero q; buckets := upd (N.to_nat (head qm)) (fun _ => r) (buckets q);
     head := head qm; tcur := etime x; t0 := t0 qm; t1 := t1 qm; next_id := next_id q; qlen := qlen q - 1 |}.
Proof. intros [Sb Sz Stc Sl Sid Sn St _]. unfold pop_head. rewrite Sn, St, Sz, Sb, Sid, Sl. reflexivity. Qed.

Lemma scan_iter_inr k : forall q r,
  J q -> iter_nat k scan_step q = inr r ->
  exists qm, J qm /\ same_content q qm /\ scan_step qm = inr r.
Proof.
  induction k as [|k IH]; intros q r HJ H; cbn [iter_nat] in H; [discriminate|].
  destruct (scan_step q) as [q'|r'] eqn:Hst.
  - destruct (scan_step_inl q q' HJ Hst) as [-> Hskip].
    pose proof (advance_J q HJ Hskip) as HJ'.
    destruct (IH _ _ HJ' H) as [qm [HJm [Hsc Hr]]]. exists qm. split; [exact HJm|]. split; [|exact Hr].
    destruct Hsc as [? ? ? ? ? ? ? Hs]. constructor; cbn [advance buckets zero tcur qlen next_id qn qt] in *; try assumption.
    cbn [advance t0 qt] in Hs. rewrite (slot_advance q HJ) in Hs. lia.
  - injection H as <-. exists q. split; [exact HJ|]. split; [apply same_content_refl|exact Hst].
Qed.

Lemma scan_step_inr q q' o :
  J q -> scan_step q = inr (q', o) ->
  exists x r, nth_error (buckets q) (N.to_nat (head q)) = Some (x :: r) /\ etime x <= t1 q /\
              q' = pop_head q x r /\ o = OFetched (epay x) (etime x).
Proof.
  intros HJ H. destruct (scan_step_eq q HJ) as [b [Hb E]]. rewrite E in H.
  destruct b as [|x r]; [discriminate|].
  destruct (t1 q <? etime x) eqn:Hc; [discriminate|]. apply N.ltb_ge in Hc.
  injection H as <- <-. exists x, r. repeat split; assumption.
Qed.

Lemma J_pop q x r :
  J q -> nth_error (buckets q) (N.to_nat (head q)) = Some (x :: r) -> J (pop_head q x r).
Proof.
  intros HJ Hb. apply (J_ext (set_buckets q (upd (N.to_nat (head q)) (fun _ => r) (buckets q)) 0)); try reflexivity.
  apply (J_upd q _ _ _ _ HJ Hb).
  - pose proof (J_sorted q HJ _ _ Hb) as Hs. inversion Hs; assumption.
  - intros e He. left; right; exact He.
Qed.
