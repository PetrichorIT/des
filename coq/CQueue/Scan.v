(* Loop invariant J of the fetch_next scan and the two lemmas the argument rests on. *)
From Coq Require Import List NArith Lia Sorting.Sorted.
From DesVerif Require Import CQueue.Model CQueue.Spec CQueue.ListX.
Import ListNotations.
Open Scope N_scope.

Definition slot (t x : N) := x / t.

Lemma idx_alt n t x : t <> 0 -> n <> 0 -> idx n t x = (slot t x) mod n.
Proof.
  intros Ht Hn. unfold idx, slot. rewrite N.mod_mul_r by assumption.
  rewrite N.mul_comm, N.div_add by assumption.
  rewrite N.div_small by (apply N.mod_lt; assumption).
  rewrite N.add_0_l. apply N.mod_mod; assumption.
Qed.

Definition time_sorted (b : list ev) := StronglySorted (fun a c => etime a <= etime c) b.

Lemma key_sorted_time_sorted l : key_sorted l -> time_sorted l.
Proof.
  unfold key_sorted, time_sorted. induction 1 as [|x l Hs IH Hall]; constructor; [exact IH|].
  rewrite Forall_forall in *. intros y Hy. specialize (Hall y Hy). unfold key_lt in Hall. lia.
Qed.

Record J (q : cq) : Prop := {
  J_n : qn q <> 0; J_t : qt q <> 0;
  J_len : length (buckets q) = N.to_nat (qn q);
  J_t0 : t0 q = qt q * slot (qt q) (t0 q);
  J_t1 : t1 q = t0 q + qt q;
  J_head : head q = slot (qt q) (t0 q) mod qn q;
  J_sorted : forall i b, nth_error (buckets q) i = Some b -> time_sorted b;
  J_ev : forall i b e, nth_error (buckets q) i = Some b -> In e b ->
           N.of_nat i = slot (qt q) (etime e) mod qn q /\ slot (qt q) (t0 q) <= slot (qt q) (etime e)
}.

Lemma slot_mul t k : t <> 0 -> slot t (t * k) = k.
Proof. intros. unfold slot. rewrite N.mul_comm. apply N.div_mul; assumption. Qed.

Lemma slot_lower t k x : t <> 0 -> t * k <= x -> k <= slot t x.
Proof. intros Ht H. unfold slot. apply N.div_le_lower_bound; assumption. Qed.

Lemma slot_lt_upper t k x : t <> 0 -> k + 1 <= slot t x -> t * (k + 1) <= x.
Proof.
  intros Ht H. unfold slot in H.
  transitivity (t * (x / t)); [apply N.mul_le_mono_l; exact H|apply N.mul_div_le; exact Ht].
Qed.

Lemma head_lt q : J q -> (N.to_nat (head q) < length (buckets q))%nat.
Proof.
  intros [Hn Ht Hl _ _ Hh _ _]. rewrite Hl, Hh.
  pose proof (N.mod_lt (slot (qt q) (t0 q)) (qn q) Hn). lia.
Qed.

Lemma idx_lt n t x : n <> 0 -> idx n t x < n.
Proof. intros. unfold idx. apply N.mod_lt; assumption. Qed.

Lemma slot_mono t x y : t <> 0 -> x <= y -> slot t x <= slot t y.
Proof. intros. unfold slot. apply N.div_le_mono; assumption. Qed.

Lemma slot_advance q : J q -> slot (qt q) (t0 q + qt q) = slot (qt q) (t0 q) + 1.
Proof.
  intros HJ. pose proof (J_t0 q HJ) as Ht0. rewrite Ht0 at 1.
  replace (qt q * slot (qt q) (t0 q) + qt q) with (qt q * (slot (qt q) (t0 q) + 1)) by lia.
  apply slot_mul, HJ.
Qed.

Lemma other_bucket_later q i b e :
  J q -> nth_error (buckets q) i = Some b -> In e b -> N.of_nat i <> head q ->
  slot (qt q) (t0 q) + 1 <= slot (qt q) (etime e).
Proof.
  intros HJ Hb Hin Hne. destruct (J_ev q HJ i b e Hb Hin) as [Hi Hle].
  assert (slot (qt q) (etime e) <> slot (qt q) (t0 q)) by (intro E; apply Hne; rewrite Hi, (J_head q HJ), E; reflexivity).
  lia.
Qed.

Lemma advance_J q :
  J q ->
  (forall b e, nth_error (buckets q) (N.to_nat (head q)) = Some b -> In e b -> t1 q < etime e) ->
  J (advance q).
Proof.
  intros HJ Hskip. pose proof (slot_advance q HJ) as Hk. pose proof HJ as [Hn Ht Hl Ht0 Ht1 Hh Hs He].
  constructor; cbn [advance qn qt buckets t0 t1 head]; try assumption.
  - rewrite Hk. lia.
  - lia.
  - rewrite Hk, Hh. rewrite N.add_mod_idemp_l by assumption. reflexivity.
  - intros i b e Hb Hin. split; [apply (He i b e Hb Hin)|]. rewrite Hk.
    destruct (N.eq_dec (N.of_nat i) (head q)) as [Heq|Hne]; [|eapply other_bucket_later; eassumption].
    (* head bucket: all events are later than t1 *)
    rewrite <- Heq, Nat2N.id in Hskip. specialize (Hskip b e Hb Hin).
    (* t0 = t * k and t0 + t < time give t * (k + 1) <= time: linear in the product t * k *)
    apply slot_lower; [assumption|]. rewrite Ht1, Ht0 in Hskip. lia.
Qed.

(* the event returned by the scan is a global minimum of the bucketed events *)
Lemma head_front_is_min q x r :
  J q -> nth_error (buckets q) (N.to_nat (head q)) = Some (x :: r) -> etime x <= t1 q ->
  forall i b e, nth_error (buckets q) i = Some b -> In e b -> etime x <= etime e.
Proof.
  intros HJ Hb Hx i b e Hb' Hin.
  destruct (N.eq_dec (N.of_nat i) (head q)) as [Heq|Hne].
  - rewrite <- Heq, Nat2N.id, Hb' in Hb. injection Hb as ->.
    destruct Hin as [<-|Hin]; [lia|]. exact (sorted_head _ _ _ _ (J_sorted q HJ _ _ Hb') Hin).
  - pose proof (other_bucket_later q i b e HJ Hb' Hin Hne) as H1.
    (* time x <= t0 + t = t * (k + 1) <= time e *)
    apply slot_lt_upper in H1; [|apply HJ]. rewrite (J_t1 q HJ), (J_t0 q HJ) in Hx. lia.
Qed.

Lemma J_ext q q' :
  J q -> qn q' = qn q -> qt q' = qt q -> buckets q' = buckets q -> head q' = head q ->
  t0 q' = t0 q -> t1 q' = t1 q -> J q'.
Proof.
  intros [Hn Ht Hl Ht0 Ht1 Hh Hs He] En Et Eb Eh E0 E1.
  constructor; rewrite ?En, ?Et, ?Eb, ?Eh, ?E0, ?E1; assumption.
Qed.

Lemma J_upd q i b f l :
  J q -> nth_error (buckets q) i = Some b -> time_sorted (f b) ->
  (forall x, In x (f b) -> In x b \/
     (N.of_nat i = slot (qt q) (etime x) mod qn q /\ slot (qt q) (t0 q) <= slot (qt q) (etime x))) ->
  J (set_buckets q (upd i f (buckets q)) l).
Proof.
  intros [Hn Ht Hl Ht0 Ht1 Hh Hs He] Hb Hsort Hev.
  constructor; cbn [set_buckets qn qt buckets t0 t1 head]; try assumption.
  - rewrite length_upd; assumption.
  - exact (upd_all _ _ _ _ _ Hb Hsort Hs).
  - intros j c e Hj Hin.
    destruct (nth_error_upd_cases _ _ _ _ _ _ Hb Hj) as [[<- ->]|[_ Hj']]; [|eapply He; eassumption].
    destruct (Hev e Hin) as [Hin'|H]; [eapply He; eassumption|exact H].
Qed.
