(* The executable representation-invariant bits are all ones in every state
   related to a specification state, hence in every reachable state. *)
From Coq Require Import List NArith Lia Bool.
From DesVerif Require Import CQueue.Model CQueue.Spec CQueue.ListX CQueue.Scan CQueue.Refine.
Import ListNotations.
Open Scope N_scope.

Lemma key_sorted_sortedb b : key_sorted b -> sortedb b = true.
Proof.
  unfold key_sorted. induction 1 as [|x l Hs IH Hall]; [reflexivity|].
  cbn [sortedb]. destruct l as [|y l']; [reflexivity|].
  inversion Hall as [|? ? Hxy _]; subst. unfold key_lt in Hxy. rewrite Hxy. exact IH.
Qed.

Lemma forallb_nth {A} (f : A -> bool) l :
  (forall i x, nth_error l i = Some x -> f x = true) -> forallb f l = true.
Proof.
  intros H. apply forallb_forall. intros x Hx. apply In_nth_error in Hx. destruct Hx as [i Hi]. eapply H; exact Hi.
Qed.

Lemma indexb_ok n t bs : forall i0,
  (forall j b e, nth_error bs j = Some b -> In e b -> idx n t (etime e) = i0 + N.of_nat j) ->
  indexb n t i0 bs = true.
Proof.
  induction bs as [|b bs IH]; intros i0 H; cbn [indexb]; [reflexivity|].
  apply andb_true_intro. split.
  - apply forallb_forall. intros e He. apply N.eqb_eq. rewrite (H 0%nat b e eq_refl He). cbn. lia.
  - apply IH. intros j b' e Hj He. rewrite (H (S j) b' e Hj He). lia.
Qed.

Lemma R_inv_bits q s hs : R q s hs -> inv_bits q = [1; 1; 1; 1; 1].
Proof.
  intros HR. pose proof HR as [HJ Hz Htc Hnx Hp Hbs Hrs Hids Hnd Hzt Hbt Hlen Ht0 Hhs Hhid].
  pose proof HJ as [Hn Ht Hl Jt0 Jt1 Jh Js Je].
  unfold inv_bits.
  assert (B1 : forallb sortedb (buckets q) = true).
  { apply forallb_nth. intros i b Hi. apply key_sorted_sortedb. eapply Hbs; exact Hi. }
  assert (B2 : indexb (qn q) (qt q) 0 (buckets q) && (N.of_nat (length (buckets q)) =? qn q) = true).
  { apply andb_true_intro. split.
    - apply indexb_ok. intros j b e Hj He. destruct (Je j b e Hj He) as [Hi _].
      rewrite idx_alt by assumption. lia.
    - apply N.eqb_eq. rewrite Hl. lia. }
  assert (B3 : forallb (fun e => etime e =? tcur q) (zero q) &&
               forallb (forallb (fun e => tcur q <=? etime e)) (buckets q) = true).
  { apply andb_true_intro. split.
    - apply forallb_forall. intros e He. apply N.eqb_eq. apply Hzt. exact He.
    - apply forallb_nth. intros i b Hi. apply forallb_forall. intros e He. apply N.leb_le. apply Hbt.
      apply in_concat_nth. exists i, b. split; assumption. }
  assert (B4 : (qlen q =? N.of_nat (length (zero q) + length (concat (buckets q)))) = true).
  { apply N.eqb_eq. rewrite Hlen. unfold pend. rewrite app_length. reflexivity. }
  assert (B5 : (t1 q =? t0 q + qt q) && (t0 q mod qt q =? 0) && (head q =? t0 q / qt q mod qn q) = true).
  { apply andb_true_intro. split; [apply andb_true_intro; split|].
    - apply N.eqb_eq. exact Jt1.
    - apply N.eqb_eq. rewrite Jt0. rewrite N.mul_comm. apply N.mod_mul. exact Ht.
    - apply N.eqb_eq. exact Jh. }
  rewrite B1, B2, B3, B4, B5. reflexivity.
Qed.
