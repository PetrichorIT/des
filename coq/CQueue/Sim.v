(* Lifting the per-operation simulation to whole histories. *)
From Coq Require Import List NArith.
From DesVerif Require Import CQueue.Model CQueue.Spec CQueue.Refine CQueue.InvBits CQueue.Client.
Import ListNotations.
Open Scope N_scope.

Definition Rst (s : st) (a : sst) : Prop := R (sq s) (ss a) (handles s) /\ handles s = shandles a.

Lemma pick_handle_In hs k h : pick_handle hs k = Some h -> In h hs.
Proof.
  unfold pick_handle. destruct hs as [|h0 hs]; [discriminate|]. intros H. eapply nth_error_In; exact H.
Qed.

Lemma step_sim s a o :
  Rst s a ->
  let '(s', x) := step true s o in
  let '(a', x') := sp_step a o in
  x = x' /\ Rst s' a'.
Proof.
  intros [HR Hh]. destruct o as [t p|k| | | | |]; cbn [step sp_step].
  - (* add *)
    pose proof (R_add_total (sq s) (ss a) (handles s) t p HR) as H.
    destruct (add (sq s) t p) as [[q' h] x]. destruct (sp_add (ss a) t p) as [[a' h'] x'].
    destruct H as [-> [<- H]]. split; [reflexivity|]. rewrite <- Hh. split; [|reflexivity].
    cbn [sq handles ss]. destruct h; exact H.
  - (* cancel *)
    assert (Ep : pick_handle (shandles a) k = pick_handle (handles s) k) by (rewrite Hh; reflexivity).
    rewrite Ep. destruct (pick_handle (handles s) k) as [[t i]|] eqn:Hp.
    + split; [reflexivity|]. split; cbn [sq handles ss shandles]; [|exact Hh].
      apply R_cancel; [exact HR|]. eapply pick_handle_In; exact Hp.
    + split; [reflexivity|]. split; assumption.
  - (* fetch *)
    pose proof (R_fetch (sq s) (ss a) (handles s) HR) as H.
    destruct (fetch_next (sq s)) as [q' x]. destruct (sp_fetch (ss a)) as [a' x'].
    destruct H as [-> H]. split; [reflexivity|]. split; cbn [sq handles ss shandles]; assumption.
  - (* len *)
    split; [|split; assumption]. f_equal. apply Rq_len. eexists; exact HR.
  - split; [|split; assumption]. f_equal. apply (R_tcur _ _ _ HR).
  - split; [|split; assumption]. apply (R_peek _ _ _ HR).
  - split; [|split; assumption]. f_equal. apply (R_inv_bits _ _ _ HR).
Qed.

Lemma run_sim ops : forall s a,
  Rst s a ->
  snd (run_from true s ops) = snd (sp_run_from a ops) /\
  Rst (fst (run_from true s ops)) (fst (sp_run_from a ops)).
Proof.
  induction ops as [|o ops IH]; intros s a HR; cbn [run_from sp_run_from].
  - split; [reflexivity|exact HR].
  - pose proof (step_sim s a o HR) as H.
    destruct (step true s o) as [s' x]. destruct (sp_step a o) as [a' x'].
    destruct H as [-> HR']. specialize (IH s' a' HR').
    destruct (run_from true s' ops) as [s'' xs]. destruct (sp_run_from a' ops) as [a'' xs'].
    cbn [fst snd] in *. destruct IH as [-> IH]. split; [reflexivity|exact IH].
Qed.

Lemma Rst_init_at n t ts : n <> 0 -> t <> 0 -> Rst (init_at n t ts) (sp_init_at ts).
Proof. intros Hn Ht. split; [apply R_new_at; assumption|reflexivity]. Qed.

Theorem cq_refines_at n t ts ops : n <> 0 -> t <> 0 -> run_ops_at true n t ts ops = sp_run_ops_at ts ops.
Proof. intros Hn Ht. apply run_sim. apply Rst_init_at; assumption. Qed.

Theorem cq_inv_reachable_at n t ts ops : n <> 0 -> t <> 0 ->
  Rst (fst (run_from true (init_at n t ts) ops)) (fst (sp_run_from (sp_init_at ts) ops)).
Proof. intros Hn Ht. apply run_sim. apply Rst_init_at; assumption. Qed.

(* outputs do not depend on (n, t); [init n t] and [init_at n t 0] are convertible, so
   the statements about CQueue::new are those about new_at at ts = 0 *)
Theorem cq_refines n t ops : n <> 0 -> t <> 0 -> run_ops true n t ops = sp_run_ops ops.
Proof. exact (cq_refines_at n t 0 ops). Qed.

Theorem cq_inv_reachable n t ops : n <> 0 -> t <> 0 ->
  Rst (fst (run_from true (init n t) ops)) (fst (sp_run_from sp_init ops)).
Proof. exact (cq_inv_reachable_at n t 0 ops). Qed.

Lemma sp_step_no_fuel a o : snd (sp_step a o) <> OOutOfFuel.
Proof.
  destruct o as [t p|k| | | | |]; cbn [sp_step].
  - unfold sp_add. destruct (t <? s_tcur (ss a)); [cbn; discriminate|]. destruct (t =? s_tcur (ss a)); cbn; discriminate.
  - destruct (pick_handle (shandles a) k) as [[? ?]|]; cbn; discriminate.
  - unfold sp_fetch. destruct (s_zero (ss a)); [destruct (s_rest (ss a))|]; cbn; discriminate.
  - cbn; discriminate.
  - cbn; discriminate.
  - cbn. unfold sp_peek. destruct (s_zero (ss a)); [destruct (s_rest (ss a))|]; discriminate.
  - cbn; discriminate.
Qed.

Lemma sp_run_no_fuel ops : forall a, ~ In OOutOfFuel (snd (sp_run_from a ops)).
Proof.
  induction ops as [|o ops IH]; intros a; cbn [sp_run_from]; [intros []|].
  pose proof (sp_step_no_fuel a o) as H. destruct (sp_step a o) as [a' x]. specialize (IH a').
  destruct (sp_run_from a' ops) as [a'' xs]. cbn [snd] in *. intros [E|Hin]; [exact (H E)|exact (IH Hin)].
Qed.

Theorem cq_scan_total_at n t ts ops : n <> 0 -> t <> 0 -> ~ In OOutOfFuel (run_ops_at true n t ts ops).
Proof. intros Hn Ht. rewrite cq_refines_at by assumption. apply sp_run_no_fuel. Qed.

Theorem cq_scan_total n t ops : n <> 0 -> t <> 0 -> ~ In OOutOfFuel (run_ops true n t ops).
Proof. exact (cq_scan_total_at n t 0 ops). Qed.

(* wire-level statement: the two runners agree on every input line *)
Theorem run_eq_sp_run input : run input = sp_run input.
Proof.
  unfold run, sp_run. destruct input as [|n [|t [|ts [|u0 r]]]]; try reflexivity.
  cbn zeta. destruct (n =? 0) eqn:En; [reflexivity|]. destruct (t =? 0) eqn:Et; [reflexivity|]. cbn [orb].
  apply N.eqb_neq in En, Et. destruct (ts =? 0) eqn:Es.
  - apply N.eqb_eq in Es. subst ts. rewrite cq_refines by assumption. rewrite N.mul_0_l. reflexivity.
  - rewrite cq_refines_at by assumption. reflexivity.
Qed.

(* ---- adaptive clients ----
   A client that chooses every next operation from the answers it has seen so
   far (the runtime's dispatch loop is such a client: it only calls add,
   fetch_next, peek_time and len) cannot distinguish the calendar queue from the
   specification, whatever n and t are. *)
Fixpoint interact (fuel : nat) (c : list out -> option op) (s : st) (hist : list out) : list out :=
  match fuel with
  | O => hist
  | S f => match c hist with
           | None => hist
           | Some o => let '(s', x) := step true s o in interact f c s' (hist ++ [x])
           end
  end.

Fixpoint sp_interact (fuel : nat) (c : list out -> option op) (a : sst) (hist : list out) : list out :=
  match fuel with
  | O => hist
  | S f => match c hist with
           | None => hist
           | Some o => let '(a', x) := sp_step a o in sp_interact f c a' (hist ++ [x])
           end
  end.

Lemma interact_sim fuel c : forall s a hist, Rst s a -> interact fuel c s hist = sp_interact fuel c a hist.
Proof.
  induction fuel as [|f IH]; intros s a hist HR; cbn [interact sp_interact]; [reflexivity|].
  destruct (c hist) as [o|]; [|reflexivity].
  pose proof (step_sim s a o HR) as H. destruct (step true s o) as [s' x]. destruct (sp_step a o) as [a' x'].
  destruct H as [-> HR']. apply IH. exact HR'.
Qed.

Theorem cq_indistinguishable n t ts fuel c : n <> 0 -> t <> 0 ->
  interact fuel c (init_at n t ts) [] = sp_interact fuel c (sp_init_at ts) [].
Proof. intros Hn Ht. apply interact_sim. apply Rst_init_at; assumption. Qed.
