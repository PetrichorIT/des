(* Event identifiers are only compared with each other: starting the sequence
   numbers of a future event set at any other value (as happens to process-global
   counters between two runs in one process) changes no answer. *)
From Coq Require Import List NArith Lia ZifyBool.
From DesVerif Require Import CQueue.Model CQueue.Spec.
Import ListNotations.
Open Scope N_scope.

Definition shift_ev (c : N) (e : ev) : ev := {| etime := etime e; eid := eid e + c; epay := epay e |}.

Definition shift_sp (c : N) (s : sp) : sp :=
  {| s_tcur := s_tcur s; s_zero := map (shift_ev c) (s_zero s); s_rest := map (shift_ev c) (s_rest s);
     s_next := s_next s + c |}.

Definition shift_h (c : N) (h : N * N) : N * N := (fst h, snd h + c).

Definition shift_sst (c : N) (a : sst) : sst :=
  {| ss := shift_sp c (ss a); shandles := map (shift_h c) (shandles a) |}.

Lemma key_lt_shift c a b : key_lt (shift_ev c a) (shift_ev c b) = key_lt a b.
Proof. unfold key_lt, shift_ev; cbn. destruct (etime a <? etime b), (etime a =? etime b); cbn; try reflexivity.
  destruct (eid a <? eid b) eqn:E1, (eid a + c <? eid b + c) eqn:E2; try reflexivity; lia. Qed.

Lemma sins_shift c e l : sins (shift_ev c e) (map (shift_ev c) l) = map (shift_ev c) (sins e l).
Proof.
  induction l as [|x l IH]; cbn [sins map]; [reflexivity|]. rewrite key_lt_shift.
  destruct (key_lt e x); cbn [map]; [reflexivity|]. rewrite IH. reflexivity.
Qed.

Lemma remove_id_shift c i l :
  remove_id (i + c) (map (shift_ev c) l) = option_map (map (shift_ev c)) (remove_id i l).
Proof.
  induction l as [|x l IH]; cbn [remove_id map option_map]; [reflexivity|].
  assert (E : (eid (shift_ev c x) =? i + c) = (eid x =? i)).
  { cbn. destruct (eid x =? i) eqn:E1, (eid x + c =? i + c) eqn:E2; try reflexivity; lia. }
  rewrite E. destruct (eid x =? i); [reflexivity|]. rewrite IH.
  destruct (remove_id i l); reflexivity.
Qed.

Lemma pick_handle_shift c hs k :
  pick_handle (map (shift_h c) hs) k = option_map (shift_h c) (pick_handle hs k).
Proof.
  unfold pick_handle. destruct hs as [|h hs]; [reflexivity|]. cbn [map]. rewrite <- map_cons.
  rewrite map_length. rewrite nth_error_map. reflexivity.
Qed.

Lemma sp_step_shift c a o :
  sp_step (shift_sst c a) o = (shift_sst c (fst (sp_step a o)), snd (sp_step a o)).
Proof.
  destruct o as [t p|k| | | | |]; cbn [sp_step].
  - unfold sp_add. cbn [shift_sst ss shift_sp s_tcur s_next s_zero s_rest shandles].
    destruct (t <? s_tcur (ss a)); [reflexivity|]. destruct (t =? s_tcur (ss a)); cbn [fst snd].
    + unfold shift_sst, shift_sp. cbn. rewrite !map_app. cbn. unfold shift_h, shift_ev. cbn.
      replace (s_next (ss a) + c + 1) with (s_next (ss a) + 1 + c) by lia. reflexivity.
    + unfold shift_sst, shift_sp. cbn. rewrite !map_app. cbn.
      change {| etime := t; eid := s_next (ss a) + c; epay := p |} with (shift_ev c {| etime := t; eid := s_next (ss a); epay := p |}).
      rewrite sins_shift. unfold shift_h. cbn.
      replace (s_next (ss a) + c + 1) with (s_next (ss a) + 1 + c) by lia. reflexivity.
  - cbn [shift_sst shandles]. rewrite pick_handle_shift. destruct (pick_handle (shandles a) k) as [[t i]|]; cbn [option_map shift_h fst snd]; [|reflexivity].
    f_equal. unfold shift_sst. cbn [ss shandles]. f_equal. unfold sp_cancel. cbn [shift_sp s_zero s_rest s_tcur s_next].
    rewrite !remove_id_shift. destruct (remove_id i (s_zero (ss a))); cbn [option_map]; [reflexivity|].
    destruct (remove_id i (s_rest (ss a))); reflexivity.
  - unfold sp_fetch. cbn [shift_sst ss shift_sp s_zero s_rest s_tcur s_next shandles].
    destruct (s_zero (ss a)) as [|x z]; cbn [map].
    + destruct (s_rest (ss a)) as [|x r]; cbn [map fst snd]; reflexivity.
    + reflexivity.
  - cbn [fst snd]. f_equal. f_equal. unfold sp_len. cbn. rewrite !map_length. reflexivity.
  - reflexivity.
  - cbn [fst snd]. f_equal. unfold sp_peek. cbn. destruct (s_zero (ss a)); cbn; [destruct (s_rest (ss a))|]; reflexivity.
  - reflexivity.
Qed.

Theorem outputs_independent_of_id_origin c ops : forall a,
  snd (sp_run_from (shift_sst c a) ops) = snd (sp_run_from a ops).
Proof.
  induction ops as [|o ops IH]; intros a; cbn [sp_run_from]; [reflexivity|].
  rewrite sp_step_shift. destruct (sp_step a o) as [a' x]. cbn [fst snd]. specialize (IH a').
  destruct (sp_run_from (shift_sst c a') ops) as [b xs]. destruct (sp_run_from a' ops) as [b' xs']. cbn [snd] in *.
  rewrite IH. reflexivity.
Qed.
