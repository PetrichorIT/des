(* Readable consequences of the bracket shape (Proc/Shape.v [brk_ok]): exactly-once and
   order of event_start / incoming / handler / event_end within one bracket. *)
From Coq Require Import List NArith Bool.
From DesVerif Require Import Common.Lists Proc.Model Proc.Shape.
Import ListNotations.
Open Scope N_scope.

Definition is_start (e : entry) : bool := match en_hook e with HStart _ => true | _ => false end.
Definition is_in (e : entry) : bool := match en_hook e with HIn _ => true | _ => false end.
Definition is_end (e : entry) : bool := match en_hook e with HEnd => true | _ => false end.
Definition is_handler_call (e : entry) : bool :=
  match en_hook e with HHandle _ _ | HSimStart _ _ | HSimEnd _ => true | _ => false end.

(* ---- list facts ---- *)
Lemma flat_map_single {A B} (h : A -> B) l : flat_map (fun x => [h x]) l = map h l.
Proof. induction l as [|x l IH]; cbn; [reflexivity|rewrite IH; reflexivity]. Qed.

Lemma filter_sub {A} (f g : A -> bool) l : (forall x, f x = true -> g x = true) -> filter f (filter g l) = filter f l.
Proof.
  intros H. induction l as [|x l IH]; cbn [filter]; [reflexivity|].
  destruct (g x) eqn:G; cbn [filter]; [rewrite IH; reflexivity|].
  destruct (f x) eqn:F; [rewrite (H x F) in G; discriminate|exact IH].
Qed.

Lemma filter_map_none {A B} (f : B -> bool) (h : A -> B) l : (forall x, f (h x) = false) -> filter f (map h l) = [].
Proof. intros H. induction l as [|x l IH]; cbn [map filter]; [reflexivity|rewrite H; exact IH]. Qed.

Lemma filter_map_all {A B} (f : B -> bool) (h : A -> B) l : (forall x, f (h x) = true) -> filter f (map h l) = map h l.
Proof. intros H. induction l as [|x l IH]; cbn [map filter]; [reflexivity|rewrite H, IH; reflexivity]. Qed.

(* ---- filters of the shape ---- *)
Section Shape.
Variables (m t : N) (els : list elem) (k : kind) (woken : bool).

Lemma handler_shape_cases :
  handler_shape m t els k = [] \/ exists h, handler_shape m t els k = [mk m Handler h] /\ is_handler_call (mk m Handler h) = true.
Proof.
  unfold handler_shape. destruct k; [destruct (consumed els)|..]; auto; right; eexists; split; reflexivity.
Qed.

(* a class of callbacks that contains neither the task poll nor event_end: what is left of the
   shape is its part of every up_at and of the handler's call *)
Lemma filter_shape (p : entry -> bool) :
  p (mk m Task (HTask t)) = false -> (forall i, p (mk m (Elem i) HEnd) = false) ->
  filter p (shape m t els k woken) =
  flat_map (fun i => filter p (up_at m t els (kind_msg k) i)) (seq 0 (length els)) ++ filter p (handler_shape m t els k).
Proof.
  intros Ht He. unfold shape, up_shape, down_shape. rewrite !filter_app, filter_flat_map.
  assert (H3 : filter p (task_shape m t woken) = []) by (unfold task_shape; destruct woken; cbn [filter]; rewrite ?Ht; reflexivity).
  rewrite H3, (filter_map_none p _ _ He), !app_nil_r. reflexivity.
Qed.

Lemma filter_handler_shape (p : entry -> bool) :
  (forall h, is_handler_call (mk m Handler h) = true -> p (mk m Handler h) = false) -> filter p (handler_shape m t els k) = [].
Proof.
  intros Hp. destruct handler_shape_cases as [->|(h & -> & Hh)]; [reflexivity|]. cbn [filter]. rewrite (Hp h Hh). reflexivity.
Qed.

Lemma starts_of_shape :
  filter is_start (shape m t els k woken) = map (fun i => mk m (Elem i) (HStart t)) (seq 0 (length els)).
Proof.
  rewrite filter_shape, filter_handler_shape, app_nil_r by (try intros []; intros; try discriminate; reflexivity).
  rewrite <- flat_map_single. apply flat_map_ext. intros i.
  unfold up_at. cbn [filter is_start en_hook mk]. destruct (kind_msg k); [destruct (consumed (firstn i els))|]; reflexivity.
Qed.

Lemma ins_of_shape :
  filter is_in (shape m t els k woken) =
  flat_map (fun i => match kind_msg k with
                     | Some x => if consumed (firstn i els) then [] else [mk m (Elem i) (HIn (pay x (firstn i els)))]
                     | None => [] end) (seq 0 (length els)).
Proof.
  rewrite filter_shape, filter_handler_shape, app_nil_r by (try intros []; intros; try discriminate; reflexivity).
  apply flat_map_ext. intros i.
  unfold up_at. cbn [filter is_in en_hook mk]. destruct (kind_msg k); [destruct (consumed (firstn i els))|]; reflexivity.
Qed.

Lemma handlers_of_shape :
  filter is_handler_call (shape m t els k woken) = handler_shape m t els k.
Proof.
  rewrite filter_shape by reflexivity.
  assert (H1 : flat_map (fun i => filter is_handler_call (up_at m t els (kind_msg k) i)) (seq 0 (length els)) = []).
  { apply flat_map_nil. intros i _.
    unfold up_at. cbn [filter is_handler_call en_hook mk]. destruct (kind_msg k); [destruct (consumed (firstn i els))|]; reflexivity. }
  rewrite H1. destruct handler_shape_cases as [->|(h & -> & Hh)]; [reflexivity|]. cbn [app filter]. rewrite Hh. reflexivity.
Qed.

Lemma no_end_before_down :
  Forall (fun e => is_end e = false)
    (up_shape m t els (kind_msg k) ++ handler_shape m t els k ++ task_shape m t woken).
Proof.
  apply Forall_app; split; [|apply Forall_app; split].
  - unfold up_shape. apply Forall_forall. intros e He. apply in_flat_map in He. destruct He as (i & _ & Hi).
    unfold up_at in Hi. destruct Hi as [<-|Hi]; [reflexivity|].
    destruct (kind_msg k); [destruct (consumed (firstn i els))|]; cbn in Hi; try contradiction.
    destruct Hi as [<-|[]]. reflexivity.
  - destruct handler_shape_cases as [->|(h & -> & Hh)]; [constructor|]. constructor; [|constructor].
    unfold is_handler_call in Hh. unfold is_end. cbn [en_hook mk] in *. destruct h; try discriminate; reflexivity.
  - unfold task_shape. destruct woken; repeat constructor.
Qed.
End Shape.

(* ---- statements about a well-formed bracket ---- *)
Section Bracket.
Variables (c : modcfg) (b : brk).
Hypothesis Hok : brk_ok c b.
Let m := b_mod b.
Let t := b_time b.
Let els := m_stack c.

Lemma filter_log (p : entry -> bool) : (forall x, p x = true -> is_call x = true) ->
  filter p (b_log b) = filter p (shape m t els (b_kind b) (b_woken b)).
Proof. intros H. rewrite <- (filter_sub p is_call _ H). fold (calls (b_log b)). rewrite (proj1 Hok). reflexivity. Qed.

Lemma start_once_in_order :
  filter is_start (b_log b) = map (fun i => mk m (Elem i) (HStart t)) (seq 0 (length els)).
Proof.
  rewrite filter_log; [apply starts_of_shape|].
  intros x. unfold is_start, is_call. destruct (en_hook x); intros; try discriminate; reflexivity.
Qed.

Lemma incoming_until_consumed :
  filter is_in (b_log b) =
  flat_map (fun i => match kind_msg (b_kind b) with
                     | Some x => if consumed (firstn i els) then [] else [mk m (Elem i) (HIn (pay x (firstn i els)))]
                     | None => [] end) (seq 0 (length els)).
Proof.
  rewrite filter_log; [apply ins_of_shape|].
  intros x. unfold is_in, is_call. destruct (en_hook x); intros; try discriminate; reflexivity.
Qed.

Lemma handler_calls :
  filter is_handler_call (b_log b) = handler_shape m t els (b_kind b).
Proof.
  rewrite filter_log; [apply handlers_of_shape|].
  intros x. unfold is_handler_call, is_call. destruct (en_hook x); intros; try discriminate; reflexivity.
Qed.

Lemma consumed_false_iff (l : list elem) : consumed l = false <-> forall e, In e l -> el_act e <> Consume.
Proof.
  unfold consumed. split.
  - intros H e He Hc. assert (existsb is_consume l = true) as Ht; [|rewrite Ht in H; discriminate].
    apply existsb_exists. exists e. split; [exact He|]. unfold is_consume. rewrite Hc. reflexivity.
  - intros H. destruct (existsb is_consume l) eqn:E; [|reflexivity].
    apply existsb_exists in E. destruct E as (e & He & Hc). exfalso. apply (H e He).
    unfold is_consume in Hc. destruct (el_act e); try discriminate. reflexivity.
Qed.

Lemma handler_iff_not_consumed x :
  b_kind b = KMsg x ->
  (forall y t', In (mk m Handler (HHandle y t')) (b_log b) ->
     (forall e, In e els -> el_act e <> Consume) /\ y = pay x els /\ t' = t) /\
  ((forall e, In e els -> el_act e <> Consume) ->
     filter is_handler_call (b_log b) = [mk m Handler (HHandle (pay x els) t)]).
Proof.
  intros Hk. pose proof handler_calls as Hh. rewrite Hk in Hh. cbn [handler_shape] in Hh. split.
  - intros y t' Hin.
    assert (Hf : In (mk m Handler (HHandle y t')) (filter is_handler_call (b_log b)))
      by (apply filter_In; split; [exact Hin|reflexivity]).
    rewrite Hh in Hf. destruct (consumed els) eqn:Hc; [destruct Hf|].
    destruct Hf as [Heq|[]]. injection Heq as <- <-. split; [apply consumed_false_iff; exact Hc|split; reflexivity].
  - intros Hn. apply consumed_false_iff in Hn. rewrite Hn in Hh. exact Hh.
Qed.

Lemma handler_skipped_when_consumed x :
  b_kind b = KMsg x -> (exists e, In e els /\ el_act e = Consume) -> filter is_handler_call (b_log b) = [].
Proof.
  intros Hk (e & He & Hc). pose proof handler_calls as Hh. rewrite Hk in Hh. cbn [handler_shape] in Hh.
  assert (Ht : consumed els = true).
  { apply existsb_exists. exists e. split; [exact He|]. unfold is_consume. rewrite Hc. reflexivity. }
  rewrite Ht in Hh. exact Hh.
Qed.

Lemma end_once_reverse_after_handler :
  exists pre, calls (b_log b) = pre ++ map (fun i => mk m (Elem i) HEnd) (rev (seq 0 (length els))) /\
              Forall (fun e => is_end e = false) pre.
Proof.
  destruct Hok as [Hs _]. rewrite Hs. unfold shape.
  exists (up_shape m t els (kind_msg (b_kind b)) ++ handler_shape m t els (b_kind b) ++ task_shape m t (b_woken b)).
  split; [rewrite <- !app_assoc; reflexivity|apply no_end_before_down].
Qed.
End Bracket.
