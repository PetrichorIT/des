(* Two sends of one event whose arrival times satisfy t1 <= t2 stand in that order in the
   dispatch order of the event set; the event set of every reachable world is well formed. *)
From Coq Require Import List NArith Bool Lia Sorting.Sorted.
From DesVerif Require Import Common.Lists Common.Fuel Proc.Model Proc.Shape Proc.Emit Proc.Trace.
Import ListNotations.
Open Scope N_scope.

(* ---- subsequences ---- *)
Inductive Subseq {A} : list A -> list A -> Prop :=
| SS_nil l : Subseq [] l
| SS_keep x s l : Subseq s l -> Subseq (x :: s) (x :: l)
| SS_skip x s l : Subseq s l -> Subseq s (x :: l).

Lemma subseq_insert {A} (z : A) l2 : forall l1 s, Subseq s (l1 ++ l2) -> Subseq s (l1 ++ z :: l2).
Proof.
  induction l1 as [|a l1 IH]; intros s H; cbn [app] in *; [apply SS_skip, H|].
  inversion H; subst; [apply SS_nil|apply SS_keep, IH; assumption|apply SS_skip, IH; assumption].
Qed.

Lemma subseq_app_l {A} (l0 : list A) : forall s l, Subseq s l -> Subseq s (l0 ++ l).
Proof. induction l0 as [|a l0 IH]; intros s l H; cbn [app]; [exact H|apply SS_skip, IH, H]. Qed.

Lemma subseq_in2 {A} (p q : A) l2 : forall l1, In p l1 -> Subseq [p; q] (l1 ++ q :: l2).
Proof.
  induction l1 as [|a l1 IH]; intros H; [destruct H|]. cbn [app]. destruct H as [->|H].
  - apply SS_keep. apply subseq_app_l. apply SS_keep, SS_nil.
  - apply SS_skip, IH, H.
Qed.

(* ---- the sorted part of the event set ---- *)
Definition time_le (a b : N * fev) : Prop := fst a <= fst b.
Definition Sorted_t (l : list (N * fev)) : Prop := StronglySorted time_le l.

Lemma fes_ins_split t e : forall l,
  exists l1 l2, l = l1 ++ l2 /\ fes_ins t e l = l1 ++ (t, e) :: l2 /\
                Forall (fun x => fst x <= t) l1 /\ (Sorted_t l -> Forall (fun x => t < fst x) l2).
Proof.
  induction l as [|x r IH]; cbn [fes_ins].
  - exists [], []. repeat split; constructor.
  - destruct (t <? fst x) eqn:E.
    + apply N.ltb_lt in E. exists [], (x :: r). repeat split; [constructor|].
      intros Hs. inversion Hs as [|? ? _ Hf]; subst. constructor; [exact E|].
      eapply Forall_impl; [|exact Hf]. unfold time_le. intros y Hy. lia.
    + apply N.ltb_ge in E. destruct IH as (l1 & l2 & -> & Hi & F1 & F2).
      exists (x :: l1), l2. rewrite Hi. repeat split; [constructor; assumption|].
      intros Hs. apply F2. inversion Hs; assumption.
Qed.

Lemma fes_ins_in t e l y : In y (fes_ins t e l) <-> y = (t, e) \/ In y l.
Proof.
  destruct (fes_ins_split t e l) as (l1 & l2 & -> & -> & _). rewrite !in_app_iff. cbn [In].
  split; [intros [H|[<-|H]]|intros [->|[H|H]]]; auto.
Qed.

Lemma fes_ins_sorted t e l : Sorted_t l -> Sorted_t (fes_ins t e l).
Proof.
  induction 1 as [|x r Hs IH Hf]; cbn [fes_ins]; [repeat constructor|].
  destruct (t <? fst x) eqn:E.
  - apply N.ltb_lt in E. constructor; [constructor; assumption|].
    constructor; [unfold time_le; cbn [fst]; lia|].
    rewrite Forall_forall in *. intros y Hy. specialize (Hf y Hy). unfold time_le in *. cbn [fst]. lia.
  - apply N.ltb_ge in E. constructor; [exact IH|].
    rewrite Forall_forall in *. intros y Hy. apply fes_ins_in in Hy. destruct Hy as [->|Hy'].
    + unfold time_le. cbn [fst]. exact E.
    + apply Hf, Hy'.
Qed.

(* ---- dispatch order ---- *)
Definition fes_order (f : fes) : list (N * fev) := f_zero f ++ f_rest f.

(* where an event with time >= tcur sits *)
Definition Loc (p : N * fev) (f : fes) : Prop :=
  if fst p =? f_tcur f then In p (f_zero f) else In p (f_rest f).

Lemma fes_add_tcur t e f : f_tcur (fes_add t e f) = f_tcur f.
Proof. unfold fes_add. destruct (t =? f_tcur f); reflexivity. Qed.

Lemma fes_add_sorted t e f : Sorted_t (f_rest f) -> Sorted_t (f_rest (fes_add t e f)).
Proof. intros H. unfold fes_add. destruct (t =? f_tcur f); cbn [f_rest]; [exact H|apply fes_ins_sorted, H]. Qed.

Lemma fes_add_loc_self t e f : Loc (t, e) (fes_add t e f).
Proof.
  unfold Loc. rewrite fes_add_tcur. cbn [fst]. unfold fes_add. destruct (t =? f_tcur f); cbn [f_zero f_rest].
  - apply in_or_app. right. left. reflexivity.
  - apply fes_ins_in. left. reflexivity.
Qed.

Lemma fes_add_loc_keeps p t e f : Loc p f -> Loc p (fes_add t e f).
Proof.
  unfold Loc. rewrite fes_add_tcur. unfold fes_add.
  destruct (fst p =? f_tcur f); destruct (t =? f_tcur f); cbn [f_zero f_rest]; intros H; try exact H.
  - apply in_or_app. left. exact H.
  - apply fes_ins_in. right. exact H.
Qed.

Lemma fes_add_subseq s t e f : Sorted_t (f_rest f) -> Subseq s (fes_order f) -> Subseq s (fes_order (fes_add t e f)).
Proof.
  intros Hs H. unfold fes_order, fes_add in *. destruct (t =? f_tcur f); cbn [f_zero f_rest].
  - rewrite <- app_assoc. cbn [app]. apply subseq_insert, H.
  - destruct (fes_ins_split t e (f_rest f)) as (l1 & l2 & Hr & Hi & _).
    rewrite Hi, app_assoc. apply subseq_insert. rewrite <- app_assoc, <- Hr. exact H.
Qed.

(* the second of two sends lands behind the first when t1 <= t2 *)
Lemma fes_add_behind p1 t2 e2 f :
  Sorted_t (f_rest f) -> Loc p1 f -> f_tcur f <= fst p1 -> fst p1 <= t2 ->
  Subseq [p1; (t2, e2)] (fes_order (fes_add t2 e2 f)).
Proof.
  intros Hs Hl H0 H12. unfold fes_order, fes_add, Loc in *.
  destruct (t2 =? f_tcur f) eqn:E2; cbn [f_zero f_rest].
  - apply N.eqb_eq in E2. assert (E1 : fst p1 =? f_tcur f = true) by (apply N.eqb_eq; lia).
    rewrite E1 in Hl. rewrite <- app_assoc. cbn [app]. apply subseq_in2, Hl.
  - destruct (fes_ins_split t2 e2 (f_rest f)) as (l1 & l2 & Hr & Hi & F1 & F2). specialize (F2 Hs).
    rewrite Hi, app_assoc. apply subseq_in2. apply in_or_app.
    destruct (fst p1 =? f_tcur f); [left; exact Hl|right].
    rewrite Hr in Hl. apply in_app_or in Hl. destruct Hl as [Hl|Hl]; [exact Hl|].
    rewrite Forall_forall in F2. specialize (F2 p1 Hl). lia.
Qed.

(* ---- flushing a buffer ---- *)
Lemma flush_app a b f : fes_flush (a ++ b) f = fes_flush b (fes_flush a f).
Proof. apply fold_left_app. Qed.

Lemma flush_inv (P : fes -> Prop) :
  (forall t e f, P f -> P (fes_add t e f)) -> forall ps f, P f -> P (fes_flush ps f).
Proof.
  intros Hadd. induction ps as [|p ps IH]; intros f Hf; cbn; [exact Hf|]. apply IH, Hadd, Hf.
Qed.

Lemma flush_tcur ps f : f_tcur (fes_flush ps f) = f_tcur f.
Proof. apply (flush_inv (fun g => f_tcur g = f_tcur f)); [intros; rewrite fes_add_tcur; assumption|reflexivity]. Qed.

Lemma flush_sorted ps f : Sorted_t (f_rest f) -> Sorted_t (f_rest (fes_flush ps f)).
Proof. apply (flush_inv (fun g => Sorted_t (f_rest g))). intros. apply fes_add_sorted; assumption. Qed.

Lemma flush_loc p ps f : Loc p f -> Loc p (fes_flush ps f).
Proof. apply (flush_inv (Loc p)). intros. apply fes_add_loc_keeps; assumption. Qed.

Lemma flush_subseq s ps f : Sorted_t (f_rest f) -> Subseq s (fes_order f) -> Subseq s (fes_order (fes_flush ps f)).
Proof.
  intros Hs H.
  assert (G : Sorted_t (f_rest (fes_flush ps f)) /\ Subseq s (fes_order (fes_flush ps f))); [|apply G].
  apply (flush_inv (fun g => Sorted_t (f_rest g) /\ Subseq s (fes_order g))); [|split; assumption].
  intros t e g [Hg Hq]. split; [apply fes_add_sorted, Hg|apply fes_add_subseq; assumption].
Qed.

Theorem flush_order a p1 b p2 c f :
  Sorted_t (f_rest f) -> f_tcur f <= fst p1 -> fst p1 <= fst p2 ->
  Subseq [p1; p2] (fes_order (fes_flush (a ++ p1 :: b ++ p2 :: c) f)).
Proof.
  intros Hs H0 H12.
  rewrite flush_app. cbn [fes_flush fold_left]. fold (fes_flush (b ++ p2 :: c)).
  set (f1 := fes_flush a f). set (f2 := fes_add (fst p1) (snd p1) f1).
  rewrite flush_app. cbn [fes_flush fold_left]. fold (fes_flush c).
  set (f3 := fes_flush b f2).
  assert (S1 : Sorted_t (f_rest f1)) by (apply flush_sorted, Hs).
  assert (S2 : Sorted_t (f_rest f2)) by (apply fes_add_sorted, S1).
  assert (S3 : Sorted_t (f_rest f3)) by (apply flush_sorted, S2).
  assert (T3 : f_tcur f3 = f_tcur f).
  { unfold f3, f2, f1. rewrite flush_tcur, fes_add_tcur, flush_tcur. reflexivity. }
  assert (L3 : Loc p1 f3).
  { apply flush_loc. unfold f2. rewrite (surjective_pairing p1) at 1. apply fes_add_loc_self. }
  apply flush_subseq; [apply fes_add_sorted, S3|].
  rewrite (surjective_pairing p2) at 1. apply fes_add_behind; try assumption. rewrite T3. exact H0.
Qed.

(* ---- well-formed event sets, reachable worlds ---- *)
Definition fes_wf (f : fes) : Prop :=
  Sorted_t (f_rest f) /\ Forall (fun p => fst p = f_tcur f) (f_zero f).

Lemma fes_add_wf t e f : fes_wf f -> fes_wf (fes_add t e f).
Proof.
  intros [Hs Hz]. split; [apply fes_add_sorted, Hs|]. rewrite fes_add_tcur. unfold fes_add.
  destruct (t =? f_tcur f) eqn:E; cbn [f_zero]; [|exact Hz].
  apply Forall_app; split; [exact Hz|]. constructor; [|constructor]. cbn [fst]. apply N.eqb_eq, E.
Qed.

Lemma flush_wf ps f : fes_wf f -> fes_wf (fes_flush ps f).
Proof. apply (flush_inv fes_wf). intros. apply fes_add_wf; assumption. Qed.

Lemma fes_fetch_wf f t ev f' : fes_wf f -> fes_fetch f = Some (t, ev, f') -> fes_wf f' /\ f_tcur f' = t.
Proof.
  intros [Hs Hz] H. unfold fes_fetch in H. destruct (f_zero f) as [|x z] eqn:Ez.
  - destruct (f_rest f) as [|[tx ex] r] eqn:Er; [discriminate|]. injection H as <- <- <-. cbn [f_tcur f_rest f_zero fst].
    split; [|reflexivity]. split; [inversion Hs; assumption|constructor].
  - destruct x as [tx ex]. injection H as <- <- <-. cbn [f_tcur f_rest f_zero]. inversion Hz as [|? ? Hx Hz']; subst.
    split; [split; assumption|]. symmetry. exact Hx.
Qed.

Lemma finish_event_wf w m x s its wake :
  fes_wf (w_fes w) -> fes_wf (w_fes (fst (finish_event w m x s its wake))).
Proof.
  intros H. unfold finish_event.
  assert (H0 : fes_wf (match wake with Some d => fes_add d (EvWake m) (w_fes w) | None => w_fes w end))
    by (destruct wake; [apply fes_add_wf, H|exact H]).
  destruct (shut s) as [[rt|]|]; cbn [fst]; rewrite w_fes_set_mst; cbn [w_fes];
    [apply fes_add_wf|..]; apply flush_wf, H0.
Qed.

Lemma process_wf sc w t ev : fes_wf (w_fes w) -> fes_wf (w_fes (fst (process sc w t ev))).
Proof.
  intros H. destruct (ev_module ev) as [m|] eqn:Hm.
  - rewrite (process_eq sc w t ev m Hm). cbn zeta.
    destruct (is_restart ev || active (snd (activate t (mstate w m)))); [apply finish_event_wf, H|].
    cbn [fst]. rewrite w_fes_set_mst. exact H.
  - destruct ev as [chk dst x| | |]; try discriminate. cbn [process fst].
    destruct (match chk with Some src => active (mstate w src) | None => true end); [|exact H].
    cbn [set_fes w_fes]. apply fes_add_wf, H.
Qed.

Lemma start_one_wf sc stage m acc : fes_wf (w_fes (fst acc)) -> fes_wf (w_fes (fst (start_one sc stage m acc))).
Proof.
  intros H. unfold start_one. destruct acc as [w its]. cbn [fst] in H.
  destruct ((stage <? h_stages (m_handler (cfg sc m))) && active (mstate w m)); [|exact H].
  rewrite !let_pair. cbn [fst]. apply finish_event_wf, H.
Qed.

Lemma sim_start_wf sc w : fes_wf (w_fes w) -> fes_wf (w_fes (fst (sim_start sc w))).
Proof. apply (sim_start_ind sc (fun a => fes_wf (w_fes (fst a)))). intros st m a. apply start_one_wf. Qed.

Lemma init_world_wf sc : fes_wf (w_fes (init_world sc)).
Proof. unfold init_world. cbn [w_fes]. apply flush_wf. split; constructor. Qed.

(* the worlds the main loop of [run_script] goes through *)
Inductive Reach (sc : script) : world -> Prop :=
| reach_start : Reach sc (fst (sim_start sc (init_world sc)))
| reach_step w t ev f : Reach sc w -> fes_fetch (w_fes w) = Some (t, ev, f) ->
                        Reach sc (fst (process sc (set_fes w f) t ev)).

Theorem reach_wf sc w : Reach sc w -> fes_wf (w_fes w).
Proof.
  induction 1 as [|w t ev f Hr IH Hf].
  - apply sim_start_wf, init_world_wf.
  - apply process_wf. cbn [set_fes w_fes]. apply (fes_fetch_wf _ _ _ _ IH Hf).
Qed.

Theorem loop_states_reach sc k :
  match iter_nat k (loop_step sc) (fst (sim_start sc (init_world sc)), 0, snd (sim_start sc (init_world sc))) with
  | inl st | inr st => Reach sc (fst (fst st)) end.
Proof.
  apply (iter_nat_inv (fun st => Reach sc (fst (fst st))) (fun st => Reach sc (fst (fst st)))); [|cbn [fst]; apply reach_start].
  intros [[w now] its] Hr. cbn [fst] in Hr. unfold loop_step.
  destruct (fes_fetch (w_fes w)) as [[[t ev] f]|] eqn:Hf; [|exact Hr].
  pose proof (reach_step sc w t ev f Hr Hf) as Hn.
  destruct (process sc (set_fes w f) t ev) as [w' new]. exact Hn.
Qed.

(* ---- the order of two sends of one event ---- *)
Lemma pend1_times now e : Forall (fun p => now <= fst p) (pend1 now e).
Proof.
  unfold pend1. destruct (en_hook e) as [| | | | | | | |d i|d i| |]; try (constructor; fail).
  - constructor; [cbn [fst]; lia|constructor].
  - constructor; [destruct (d =? 0); cbn [fst]; lia|constructor].
Qed.

Lemma pend_from_times now : forall l dd, Forall (fun p => now <= fst p) (pend_from now dd l).
Proof.
  induction l as [|e l IH]; intros dd; cbn [pend_from]; [constructor|].
  apply Forall_app; split; [|apply IH]. destruct (dd && inline_send e); [constructor|apply pend1_times].
Qed.

Theorem sends_keep_order sc w t ev f m a p1 b p2 c :
  Reach sc w -> fes_fetch (w_fes w) = Some (t, ev, f) -> ev_module ev = Some m ->
  pend_of t (flat_map item_log (snd (process sc (set_fes w f) t ev))) = a ++ p1 :: b ++ p2 :: c ->
  fst p1 <= fst p2 ->
  Subseq [p1; p2] (fes_order (w_fes (fst (process sc (set_fes w f) t ev)))).
Proof.
  intros Hr Hf Hm Hp H12.
  destruct (fes_fetch_wf _ _ _ _ (reach_wf sc w Hr) Hf) as [[Hs _] Ht].
  rewrite (process_fes sc (set_fes w f) t ev m Hm). cbn [set_fes w_fes]. unfold fes_after. rewrite Hp.
  assert (H0 : f_tcur f <= fst p1).
  { rewrite Ht. pose proof (pend_from_times t (flat_map item_log (snd (process sc (set_fes w f) t ev))) false) as Hall. fold (pend_of t (flat_map item_log (snd (process sc (set_fes w f) t ev)))) in Hall.
    rewrite Hp in Hall. rewrite Forall_forall in Hall. apply Hall. apply in_or_app. right. left. reflexivity. }
  pose proof (flush_order a p1 b p2 c f Hs H0 H12) as Ho.
  destruct (shut_of t _ None) as [[rt|]|]; try exact Ho.
  apply fes_add_subseq; [apply flush_sorted, Hs|exact Ho].
Qed.
