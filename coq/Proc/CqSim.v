(* Forward simulation between the event loop of Proc/Model.v (over the two-list event-set
   specification [fes]) and the generic event loop of Proc/ModelCq.v over ANY event-set
   implementation whose add and fetch simulate [fes_add] / [fes_fetch] (for adds that are not
   before the set's clock -- every add of the model is of that kind, which is proved here
   along the way).  Result: both loops produce the same trace. *)
From Coq Require Import List NArith PArith Bool Lia.
From DesVerif Require Import Common.Lists Common.Fuel Proc.Model Proc.Shape Proc.Emit Proc.Trace Proc.Order Proc.ModelCq.
Import ListNotations.
Open Scope N_scope.

(* ---- every add of an event is at or after the time of that event ---- *)
Lemma shut_of_ge now l : forall init,
  (forall rt, init = Some (Some rt) -> now <= rt) ->
  forall rt, shut_of now l init = Some (Some rt) -> now <= rt.
Proof.
  unfold shut_of. induction l as [|e l IH]; intros init Hi rt H; cbn [fold_left] in H; [apply Hi, H|].
  apply (IH _) in H; [exact H|]. destruct (en_hook e); try exact Hi.
  intros rt' E. destruct restart as [d|]; [|discriminate]. injection E as <-. lia.
Qed.

Lemma Acts_bounds m now sh b0 s suf : Acts m now sh (es0 b0) s suf ->
  Forall (fun p => now <= fst p) (buf s) /\ (forall rt, shut s = Some (Some rt) -> now <= rt).
Proof.
  intros (_ & Hb & Hs & _). cbn [es0 buf shut dead app] in Hb, Hs.
  rewrite Hb, Hs. split; [apply pend_from_times|apply shut_of_ge; discriminate].
Qed.

Lemma finish_event_tcur w m x s its wake : f_tcur (w_fes (fst (finish_event w m x s its wake))) = f_tcur (w_fes w).
Proof.
  unfold finish_event. destruct (shut s) as [[rt|]|]; cbn [fst]; rewrite w_fes_set_mst; cbn [w_fes];
    rewrite ?fes_add_tcur, flush_tcur; destruct wake; rewrite ?fes_add_tcur; reflexivity.
Qed.

Section Sim.
Variable Q : Type.
Variable q_add : N -> fev -> Q -> Q.
Variable q_fetch : Q -> option (N * fev * Q).
Variable RQ : fes -> Q -> Prop.
Hypothesis H_add : forall f q t e, RQ f q -> f_tcur f <= t -> RQ (fes_add t e f) (q_add t e q).
Hypothesis H_fetch : forall f q, RQ f q -> fes_wf f ->
  match fes_fetch f with
  | Some (t, e, f') => exists q', q_fetch q = Some (t, e, q') /\ RQ f' q'
  | None => q_fetch q = None
  end.

Notation gw := (gworld Q).

Definition Rel (w : world) (g : gw) : Prop :=
  RQ (w_fes w) (g_q g) /\ w_bud w = g_bud g /\ w_m0 w = g_m0 g /\ w_m1 w = g_m1 g.

Lemma Rel_mstate w g m : Rel w g -> mstate w m = gmstate Q g m.
Proof. intros (_ & _ & E0 & E1). unfold mstate, gmstate. destruct (m =? 0); assumption. Qed.

Lemma Rel_set_mst w g m x : Rel w g -> Rel (set_mst w m x) (gset_mst Q g m x).
Proof.
  intros (HQ & Eb & E0 & E1). unfold set_mst, gset_mst, Rel. destruct (m =? 0); cbn; auto.
Qed.

Lemma flush_sim ps : forall f q, RQ f q -> Forall (fun p => f_tcur f <= fst p) ps ->
  RQ (fes_flush ps f) (q_flush Q q_add ps q).
Proof.
  induction ps as [|p ps IH]; intros f q HQ Hall; cbn [fes_flush q_flush fold_left]; [exact HQ|].
  inversion Hall as [|? ? Hp Hps]; subst. apply IH; [apply H_add; assumption|].
  rewrite fes_add_tcur. exact Hps.
Qed.

Lemma finish_event_sim w g m x s its wake :
  Rel w g ->
  (forall d, wake = Some d -> f_tcur (w_fes w) <= d) ->
  Forall (fun p => f_tcur (w_fes w) <= fst p) (buf s) ->
  (forall rt, shut s = Some (Some rt) -> f_tcur (w_fes w) <= rt) ->
  Rel (fst (finish_event w m x s its wake)) (fst (gfinish_event Q q_add g m x s its wake)) /\
  snd (finish_event w m x s its wake) = snd (gfinish_event Q q_add g m x s its wake).
Proof.
  intros (HQ & Eb & E0 & E1) Hw Hbuf Hsh. unfold finish_event, gfinish_event.
  set (f0 := match wake with Some d => fes_add d (EvWake m) (w_fes w) | None => w_fes w end).
  set (q0 := match wake with Some d => q_add d (EvWake m) (g_q g) | None => g_q g end).
  assert (H0 : RQ f0 q0 /\ f_tcur f0 = f_tcur (w_fes w)).
  { unfold f0, q0. destruct wake as [d|]; [|split; [exact HQ|reflexivity]].
    split; [apply H_add; [exact HQ|apply Hw; reflexivity]|apply fes_add_tcur]. }
  destruct H0 as [HQ0 T0].
  assert (H1 : RQ (fes_flush (buf s) f0) (q_flush Q q_add (buf s) q0)) by (apply flush_sim; [exact HQ0|rewrite T0; exact Hbuf]).
  destruct (shut s) as [[rt|]|]; cbn [fst snd]; (split; [|reflexivity]); apply Rel_set_mst; unfold Rel; cbn [w_fes w_bud w_m0 w_m1 g_q g_bud g_m0 g_m1];
    repeat split; try assumption; try reflexivity.
  apply H_add; [exact H1|]. rewrite flush_tcur, T0. apply Hsh. reflexivity.
Qed.

Lemma bounds_weaken (lo now : N) (l : list (N * fev)) :
  lo <= now -> Forall (fun p => now <= fst p) l -> Forall (fun p => lo <= fst p) l.
Proof. intros Hl. apply Forall_impl. intros p Hp. lia. Qed.

Lemma gprocess_eq sc (g : gw) t ev m : ev_module ev = Some m ->
  gprocess Q q_add sc g t ev =
  let a := activate t (gmstate Q g m) in
  if is_restart ev || active (snd a) then
    let r := run_event sc t m (fst a) ev (es0 (g_bud g)) in
    gfinish_event Q q_add g m (if is_restart ev then {| active := true; timer := timer (snd a) |} else snd a)
                  (fst r) (map IBrk (snd r)) None
  else (gset_mst Q g m (snd a), []).
Proof.
  intros Hm. destruct ev as [chk dst x|m' x|m'|m']; [discriminate|..]; injection Hm as ->;
    unfold gprocess; rewrite !let_pair; cbn [run_event is_restart orb map];
    [destruct (active (snd (activate t (gmstate Q g m))))..|]; reflexivity.
Qed.

Lemma process_sim sc w g t ev :
  Rel w g -> f_tcur (w_fes w) <= t ->
  Rel (fst (process sc w t ev)) (fst (gprocess Q q_add sc g t ev)) /\
  snd (process sc w t ev) = snd (gprocess Q q_add sc g t ev).
Proof.
  intros HRel Ht. pose proof HRel as (HQ & Eb & E0 & E1). destruct (ev_module ev) as [m|] eqn:Hm.
  - rewrite (process_eq sc w t ev m Hm), (gprocess_eq sc g t ev m Hm), <- (Rel_mstate w g m HRel), <- Eb. cbn zeta.
    destruct (is_restart ev || active (snd (activate t (mstate w m))));
      [|cbn [fst snd]; split; [apply Rel_set_mst, HRel|reflexivity]].
    destruct (Acts_bounds _ _ _ _ _ _ (proj1 (run_event_acts sc t m (fst (activate t (mstate w m))) ev (es0 (w_bud w))))) as [B1 B2].
    apply finish_event_sim; [exact HRel|discriminate|eapply bounds_weaken; eassumption|].
    intros rt Hr. specialize (B2 rt Hr). lia.
  - destruct ev as [chk dst x| | |]; try discriminate. unfold process, gprocess.
    assert (Eok : match chk with Some src => active (mstate w src) | None => true end =
                  match chk with Some src => active (gmstate Q g src) | None => true end)
      by (destruct chk; [rewrite (Rel_mstate w g _ HRel)|]; reflexivity).
    rewrite <- Eok. destruct (match chk with Some src => active (mstate w src) | None => true end); cbn [fst snd];
      (split; [|reflexivity]); [|exact HRel].
    unfold Rel. cbn [set_fes gset_q w_fes w_bud w_m0 w_m1 g_q g_bud g_m0 g_m1]. repeat split; try assumption.
    apply H_add; assumption.
Qed.

(* ---- start-up: everything happens at time 0 and the set's clock is 0 ---- *)
Definition Rel0 (a : world * list item) (b : gw * list item) : Prop :=
  Rel (fst a) (fst b) /\ snd a = snd b /\ f_tcur (w_fes (fst a)) = 0.

Lemma start_one_sim sc stage m a b : Rel0 a b -> Rel0 (start_one sc stage m a) (gstart_one Q q_add sc stage m b).
Proof.
  intros (HRel & Ei & T0). destruct a as [w its], b as [g its']. cbn [fst snd] in *. subst its'.
  pose proof HRel as (HQ & Eb & E0 & E1). unfold start_one, gstart_one.
  rewrite <- (Rel_mstate w g m HRel), <- Eb.
  destruct ((stage <? h_stages (m_handler (cfg sc m))) && active (mstate w m)); [|split; [exact HRel|split; [reflexivity|exact T0]]].
  destruct (activate 0 (mstate w m)) as [woken ms]. unfold at_sim_start.
  destruct (Acts_bounds _ _ _ _ _ _ (proj1 (run_bracket_acts 0 m (cfg sc m) woken (KStart stage) (es0 (w_bud w))))) as [B1 B2].
  destruct (run_bracket 0 m (cfg sc m) woken (KStart stage) (es0 (w_bud w))) as [s b]. cbn [fst] in B1, B2.
  set (reg := timer_reg 0 (cfg sc m) stage).
  set (ms' := match reg with Some d => {| active := active ms; timer := Some d |} | None => ms end).
  assert (S : Rel (fst (finish_event w m ms' s [IBrk b] reg)) (fst (gfinish_event Q q_add g m ms' s [IBrk b] reg)) /\
              snd (finish_event w m ms' s [IBrk b] reg) = snd (gfinish_event Q q_add g m ms' s [IBrk b] reg)).
  { apply finish_event_sim; [exact HRel|intros; lia|rewrite T0; exact B1|intros; lia]. }
  pose proof (finish_event_tcur w m ms' s [IBrk b] reg) as Tc.
  destruct (finish_event w m ms' s [IBrk b] reg) as [w' new], (gfinish_event Q q_add g m ms' s [IBrk b] reg) as [g' new'].
  cbn [fst snd] in *. destruct S as [S1 S2]. subst new'. unfold Rel0. cbn [fst snd]. split; [exact S1|split; [reflexivity|rewrite Tc; exact T0]].
Qed.

Lemma sim_start_sim sc w g : Rel w g -> f_tcur (w_fes w) = 0 -> Rel0 (sim_start sc w) (gsim_start Q q_add sc g).
Proof.
  intros HRel T0. unfold sim_start, gsim_start.
  assert (G : forall l a b, Rel0 a b ->
    Rel0 (fold_left (fun acc stage => start_one sc stage 1 (start_one sc stage 0 acc)) l a)
         (fold_left (fun acc stage => gstart_one Q q_add sc stage 1 (gstart_one Q q_add sc stage 0 acc)) l b)).
  { induction l as [|st l IH]; intros a b H; cbn [fold_left]; [exact H|]. apply IH, start_one_sim, start_one_sim, H. }
  apply G. split; [exact HRel|split; [reflexivity|exact T0]].
Qed.

(* ---- tear-down does not touch the event set ---- *)
Lemma end_one_sim sc now m a b :
  Rel (fst a) (fst b) -> snd a = snd b ->
  Rel (fst (end_one sc now m a)) (fst (gend_one Q sc now m b)) /\ snd (end_one sc now m a) = snd (gend_one Q sc now m b).
Proof.
  destruct a as [w its], b as [g its']. cbn [fst snd]. intros HRel <-. pose proof HRel as (HQ & Eb & E0 & E1).
  unfold end_one, gend_one. rewrite <- (Rel_mstate w g m HRel), <- Eb.
  destruct (activate now (mstate w m)) as [woken ms].
  destruct (at_sim_end now m (cfg sc m) woken (es0 (w_bud w))) as [s b]. cbn [fst snd]. split; [|reflexivity].
  apply Rel_set_mst. unfold Rel. cbn. auto.
Qed.

Lemma sim_end_sim sc now w g : Rel w g -> snd (sim_end sc now w) = snd (gsim_end Q sc now g).
Proof.
  intros HRel. unfold sim_end, gsim_end.
  destruct (end_one_sim sc now 0 (w, []) (g, []) HRel eq_refl) as [H1 H2].
  apply (end_one_sim sc now 1 _ _ H1 H2).
Qed.

(* ---- the main loop ---- *)
Definition RelL (a : lstate) (b : glstate Q) : Prop :=
  Rel (fst (fst a)) (fst (fst b)) /\ snd (fst a) = snd (fst b) /\ snd a = snd b /\ fes_wf (w_fes (fst (fst a))).

Lemma loop_step_sim sc a b : RelL a b -> sum_rel RelL RelL (loop_step sc a) (gloop_step Q q_add q_fetch sc b).
Proof.
  destruct a as [[w now] its], b as [[g now'] its']. unfold RelL. cbn [fst snd]. intros (HRel & <- & <- & Hwf).
  pose proof HRel as (HQ & Eb & E0 & E1). unfold loop_step, gloop_step.
  pose proof (H_fetch _ _ HQ Hwf) as HF.
  destruct (fes_fetch (w_fes w)) as [[[t ev] f]|] eqn:Ef.
  - destruct HF as (q' & -> & HQ'). destruct (fes_fetch_wf _ _ _ _ Hwf Ef) as [Hwf' Tc].
    assert (HRel' : Rel (set_fes w f) (gset_q Q g q')) by (unfold Rel; cbn; auto).
    destruct (process_sim sc (set_fes w f) (gset_q Q g q') t ev HRel') as [P1 P2]; [cbn [set_fes w_fes]; lia|].
    pose proof (process_wf sc (set_fes w f) t ev Hwf') as Hw2.
    destruct (process sc (set_fes w f) t ev) as [w' new], (gprocess Q q_add sc (gset_q Q g q') t ev) as [g' new'].
    cbn [fst snd sum_rel] in *. subst new'. unfold RelL. cbn [fst snd]. auto.
  - rewrite HF. cbn [sum_rel]. unfold RelL. cbn [fst snd]. auto.
Qed.

Lemma iter_sim sc k a b : RelL a b ->
  sum_rel RelL RelL (iter_nat k (loop_step sc) a) (iter_nat k (gloop_step Q q_add q_fetch sc) b).
Proof. exact (iter_nat_sim RelL RelL _ _ (loop_step_sim sc) k a b). Qed.

Theorem run_script_sim q0 sc :
  RQ {| f_tcur := 0; f_zero := []; f_rest := [] |} q0 ->
  grun_script Q q_add q_fetch q0 sc = run_script sc.
Proof.
  intros H0. unfold grun_script, run_script.
  assert (HRel : Rel (init_world sc) (ginit_world Q q_add q0 sc)).
  { unfold Rel, init_world, ginit_world. cbn [w_fes w_bud w_m0 w_m1 g_q g_bud g_m0 g_m1]. repeat split.
    apply flush_sim; [exact H0|]. cbn [f_tcur]. apply Forall_forall. intros; lia. }
  assert (T0 : f_tcur (w_fes (init_world sc)) = 0) by (unfold init_world; cbn [w_fes]; apply flush_tcur).
  destruct (sim_start_sim sc _ _ HRel T0) as (S1 & S2 & _).
  pose proof (sim_start_wf sc (init_world sc) (init_world_wf sc)) as Hwf.
  destruct (sim_start sc (init_world sc)) as [w0 its0], (gsim_start Q q_add sc (ginit_world Q q_add q0 sc)) as [g0 its0'].
  cbn [fst snd] in *. subst its0'. rewrite !iter_until_nat.
  pose proof (iter_sim sc (Pos.to_nat (fuel sc)) (w0, 0, its0) (g0, 0, its0)) as HI.
  assert (HL : RelL (w0, 0, its0) (g0, 0, its0)) by (unfold RelL; cbn [fst snd]; auto).
  specialize (HI HL).
  destruct (iter_nat (Pos.to_nat (fuel sc)) (loop_step sc) (w0, 0, its0)) as [[[w now] its]|[[w now] its]],
           (iter_nat (Pos.to_nat (fuel sc)) (gloop_step Q q_add q_fetch sc) (g0, 0, its0)) as [[[g now'] its']|[[g now'] its']];
    cbn [sum_rel] in HI; try contradiction; unfold RelL in HI; cbn [fst snd] in HI; destruct HI as (R1 & <- & <- & _).
  - reflexivity.
  - rewrite (sim_end_sim sc now w g R1). reflexivity.
Qed.
End Sim.
