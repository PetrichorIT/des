(* Termination of the model's event loop: every iteration lowers the potential
   3 * (remaining send budget) + (sum of the weights of the pending events), so the fuel of
   [run_script] is never exhausted. *)
From Coq Require Import List NArith PArith Bool Lia.
From DesVerif Require Import Common.Lists Common.Fuel Proc.Model Proc.Shape Proc.Emit.
Import ListNotations.
Open Scope N_scope.

Definition wt (e : fev) : N :=
  match e with EvExit _ _ _ => 3 | EvDeliver _ _ => 2 | EvWake _ => 1 | EvRestart _ => 1 end.
Fixpoint wl (l : list (N * fev)) : N := match l with [] => 0 | p :: r => wt (snd p) + wl r end.
Definition wsum (f : fes) : N := wl (f_zero f) + wl (f_rest f).
Definition mu (w : world) : N := 3 * w_bud w + wsum (w_fes w).

Lemma wt_le3 e : wt e <= 3.
Proof. destruct e; cbn; lia. Qed.

Lemma wt_ge1 e : 1 <= wt e.
Proof. destruct e; cbn; lia. Qed.

Lemma wl_app a b : wl (a ++ b) = wl a + wl b.
Proof. induction a as [|x a IH]; cbn [wl app]; [reflexivity|]. rewrite IH. lia. Qed.

Lemma wl_ins t e l : wl (fes_ins t e l) = wt e + wl l.
Proof.
  induction l as [|x r IH]; cbn [fes_ins]; [reflexivity|]. destruct (t <? fst x); [reflexivity|].
  cbn [wl]. rewrite IH. lia.
Qed.

Lemma wsum_add t e f : wsum (fes_add t e f) = wt e + wsum f.
Proof.
  unfold wsum, fes_add. destruct (t =? f_tcur f); cbn [f_zero f_rest].
  - rewrite wl_app. cbn [wl snd]. lia.
  - rewrite wl_ins. lia.
Qed.

Lemma wsum_flush ps : forall f, wsum (fes_flush ps f) = wl ps + wsum f.
Proof.
  induction ps as [|p ps IH]; intros f; cbn [fes_flush fold_left]; [reflexivity|].
  fold (fes_flush ps). rewrite IH, wsum_add. cbn [wl]. lia.
Qed.

Lemma wsum_fetch f t ev f' : fes_fetch f = Some (t, ev, f') -> wsum f = wt ev + wsum f'.
Proof.
  unfold fes_fetch, wsum. destruct (f_zero f) as [|[tx ex] z].
  - destruct (f_rest f) as [|[tx ex] r]; [discriminate|]. intros H. injection H as <- <- <-. cbn. reflexivity.
  - intros H. injection H as <- <- <-. cbn [f_zero f_rest wl snd]. lia.
Qed.

(* ---- what one bracket does to budget, buffer and shutdown request ---- *)
Definition phi (s : es) : N := 3 * bud s + wl (buf s).

(* a send record buffers at most one event, of weight at most 3, and costs one unit of budget *)
Lemma wl_pend now : forall l d, wl (pend_from now d l) <= 3 * nsend l.
Proof.
  induction l as [|e l IH]; intros d; cbn [pend_from]; [cbn; lia|].
  rewrite wl_app. change (e :: l) with ([e] ++ l). rewrite nsend_app. specialize (IH (d || is_panic_e e)).
  assert (wl (if d && inline_send e then [] else pend1 now e) <= 3 * nsend [e]).
  { destruct (d && inline_send e); [cbn; lia|]. unfold pend1, nsend. cbn [filter]. unfold is_send.
    destruct (en_hook e) as [| | | | | | | |dl i|dl i| |]; cbn; try lia. destruct (dl =? 0); cbn; lia. }
  lia.
Qed.

Lemma Acts_pot m now sh s s' suf : Acts m now sh s s' suf -> phi s' <= phi s /\ (sh = false -> shut s' = shut s).
Proof.
  intros (Hf & Hb & Hs & _ & Hn). unfold phi. split.
  - rewrite Hb, wl_app. pose proof (wl_pend now suf (dead s)). lia.
  - intros ->. rewrite Hs. eapply shut_of_keep, Hf.
Qed.

(* ---- the potential of the world ---- *)
Lemma mu_set_mst w m x : mu (set_mst w m x) = mu w.
Proof. unfold mu, set_mst. destruct (m =? 0); reflexivity. Qed.

Lemma finish_event_mu w m x s its wake :
  mu (fst (finish_event w m x s its wake)) <=
  phi s + wsum (w_fes w) + (match wake with Some _ => 1 | None => 0 end) + (match shut s with Some _ => 1 | None => 0 end).
Proof.
  unfold finish_event.
  set (f0 := match wake with Some d => fes_add d (EvWake m) (w_fes w) | None => w_fes w end).
  assert (H0 : wsum f0 = wsum (w_fes w) + match wake with Some _ => 1 | None => 0 end)
    by (unfold f0; destruct wake; [rewrite wsum_add; cbn [wt]; lia|lia]).
  destruct (shut s) as [[rt|]|]; cbn [fst]; rewrite mu_set_mst; unfold mu, phi; cbn [w_bud w_fes];
    rewrite ?wsum_add, wsum_flush, H0; cbn [wt]; lia.
Qed.

Lemma process_mu sc w t ev : mu (fst (process sc w t ev)) + 1 <= mu w + wt ev.
Proof.
  pose proof (wt_ge1 ev) as Hw. destruct (ev_module ev) as [m|] eqn:Hm.
  - rewrite (process_eq sc w t ev m Hm). cbn zeta.
    destruct (is_restart ev || active (snd (activate t (mstate w m)))); [|cbn [fst]; rewrite mu_set_mst; lia].
    destruct (run_event_acts sc t m (fst (activate t (mstate w m))) ev (es0 (w_bud w))) as [A _].
    apply Acts_pot in A. destruct A as [P S].
    set (r := run_event sc t m (fst (activate t (mstate w m))) ev (es0 (w_bud w))) in *.
    pose proof (finish_event_mu w m (if is_restart ev then {| active := true; timer := timer (snd (activate t (mstate w m))) |}
                                     else snd (activate t (mstate w m))) (fst r) (map IBrk (snd r)) None) as H.
    unfold phi, mu in *. cbn [es0 bud buf shut wl] in P, S.
    (* only a message handler can request a shutdown; a message event weighs 2 *)
    destruct ev; cbn [wt is_deliver] in *; [discriminate|destruct (shut (fst r)); lia|rewrite (S eq_refl) in H; lia..].
  - destruct ev as [chk dst x| | |]; try discriminate. cbn [process fst wt].
    destruct (match chk with Some src => active (mstate w src) | None => true end); [|lia].
    unfold mu. cbn [set_fes w_bud w_fes]. rewrite wsum_add. cbn [wt]. lia.
Qed.

Lemma start_one_mu sc stage m acc : mu (fst (start_one sc stage m acc)) <= mu (fst acc) + 1.
Proof.
  unfold start_one. destruct acc as [w its]. cbn [fst].
  destruct ((stage <? h_stages (m_handler (cfg sc m))) && active (mstate w m)); [|cbn [fst]; lia].
  rewrite !let_pair. cbn [fst]. unfold at_sim_start.
  destruct (run_bracket_acts 0 m (cfg sc m) (fst (activate 0 (mstate w m))) (KStart stage) (es0 (w_bud w))) as [A _].
  apply Acts_pot in A. destruct A as [P S]. specialize (S eq_refl).
  set (r := run_bracket 0 m (cfg sc m) (fst (activate 0 (mstate w m))) (KStart stage) (es0 (w_bud w))) in *.
  match goal with |- context [finish_event ?a ?b ?c ?d ?e ?f] => pose proof (finish_event_mu a b c d e f) as H end.
  unfold phi, mu in *. cbn [es0 bud buf shut wl] in P, S. rewrite S in H.
  destruct (timer_reg 0 (cfg sc m) stage); lia.
Qed.

Lemma sim_start_mu sc w : mu (fst (sim_start sc w)) <= mu w + 2 * max_stage sc.
Proof.
  unfold sim_start, stage_list.
  assert (G : forall l acc, mu (fst (fold_left (fun acc stage => start_one sc stage 1 (start_one sc stage 0 acc)) l acc))
                            <= mu (fst acc) + 2 * N.of_nat (length l)).
  { induction l as [|st l IH]; intros acc; cbn [fold_left length]; [lia|].
    specialize (IH (start_one sc st 1 (start_one sc st 0 acc))).
    pose proof (start_one_mu sc st 1 (start_one sc st 0 acc)). pose proof (start_one_mu sc st 0 acc). lia. }
  specialize (G (map N.of_nat (seq 0 (N.to_nat (max_stage sc)))) (w, [])).
  rewrite map_length, seq_length, N2Nat.id in G. exact G.
Qed.

Lemma init_world_mu sc : mu (init_world sc) <= 3 * (s_bud sc + N.of_nat (length (s_inj sc))).
Proof.
  unfold mu, init_world. cbn [w_bud w_fes]. rewrite wsum_flush. unfold wsum. cbn [f_zero f_rest wl].
  assert (H : wl (s_inj sc) <= 3 * N.of_nat (length (s_inj sc))).
  { induction (s_inj sc) as [|p l IH]; cbn [wl length]; [lia|]. pose proof (wt_le3 (snd p)). lia. }
  lia.
Qed.

(* ---- the loop ---- *)
Definition st_mu (st : lstate) : N := mu (fst (fst st)).

Lemma loop_step_mu sc st st' : loop_step sc st = inl st' -> st_mu st' + 1 <= st_mu st.
Proof.
  unfold loop_step, st_mu. destruct st as [[w now] its]. cbn [fst].
  destruct (fes_fetch (w_fes w)) as [[[t ev] f]|] eqn:Hf; [|discriminate].
  pose proof (process_mu sc (set_fes w f) t ev) as H.
  destruct (process sc (set_fes w f) t ev) as [w' new]. intros E. injection E as <-. cbn [fst] in *.
  apply wsum_fetch in Hf. unfold mu in *. cbn [set_fes w_bud w_fes] in H. lia.
Qed.

Lemma loop_terminates sc : forall k st, (N.to_nat (st_mu st) < k)%nat -> exists r, iter_nat k (loop_step sc) st = inr r.
Proof.
  induction k as [|k IH]; intros st Hk; [lia|]. cbn [iter_nat].
  destruct (loop_step sc st) as [st'|r] eqn:E; [|exists r; reflexivity].
  apply loop_step_mu in E. apply IH. lia.
Qed.

Lemma fuel_nat sc :
  Pos.to_nat (fuel sc) = S (N.to_nat (3 * (s_bud sc + N.of_nat (length (s_inj sc))) + 2 * max_stage sc)).
Proof. unfold fuel. generalize (3 * (s_bud sc + N.of_nat (length (s_inj sc))) + 2 * max_stage sc). intros x. destruct x; cbn; lia. Qed.

Theorem run_terminates sc : snd (run_script sc) = true.
Proof.
  unfold run_script.
  pose proof (sim_start_mu sc (init_world sc)) as H1. pose proof (init_world_mu sc) as H0.
  destruct (sim_start sc (init_world sc)) as [w0 its0]. cbn [fst] in H1.
  rewrite iter_until_nat.
  destruct (loop_terminates sc (Pos.to_nat (fuel sc)) (w0, 0, its0)) as [[[w now] its] Hr].
  - rewrite fuel_nat. unfold st_mu. cbn [fst]. lia.
  - rewrite Hr. reflexivity.
Qed.
