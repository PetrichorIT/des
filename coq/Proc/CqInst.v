(* The event-set instances of the generic event loop (Proc/ModelCq.v):
     - the two-list specification of des-cqueue (CQueue/Spec.v [sp]) with an event store,
     - the concrete calendar queue (CQueue/Model.v [cq]) with an event store,
   both simulate the event set [fes] of Proc/Model.v (for the calendar queue through the
   refinement relation of C01, CQueue/Client.v).  Hence the run over the calendar
   queue prints what the run over the specification prints, for all n, t >= 1, and the
   ordering clauses of C14 / C03-net hold for the calendar queue itself. *)
From Coq Require Import List Arith NArith Bool Lia.
From DesVerif Require Import Common.Fuel CQueue.Model CQueue.Spec CQueue.Refine CQueue.Client
  Proc.Model Proc.Shape Proc.Emit Proc.Trace Proc.Order Proc.ModelCq Proc.CqSim.
Import ListNotations.
Open Scope N_scope.

(* ---- instance 1: the specification of des-cqueue with an event store (CQueue/Client.v at the
   events of this model; [fes_ins] is [tins] and [spq_add], [spq_fetch], [cq_add], [cq_fetch] are
   its operations, by conversion) ---- *)
Definition sps := (sp * list fev)%type.
Definition spq_add (t : N) (e : fev) (qs : sps) : sps :=
  (fst (fst (sp_add (fst qs) t (N.of_nat (length (snd qs))))), snd qs ++ [e]).
Definition spq_fetch (qs : sps) : option (N * fev * sps) :=
  if sp_len (fst qs) =? 0 then None
  else match sp_fetch (fst qs) with
       | (s', OFetched p t) => Some (t, nth (N.to_nat p) (snd qs) (EvWake 0), (s', snd qs))
       | _ => None
       end.
Definition RQs (f : fes) (qs : sps) : Prop := Client.RQs fev (EvWake 0) (f_tcur f) (f_zero f) (f_rest f) qs.

Lemma spq_add_sim f qs t e : RQs f qs -> f_tcur f <= t -> RQs (fes_add t e f) (spq_add t e qs).
Proof.
  intros HR Hge. generalize (sp_store_add_sim fev (EvWake 0) _ _ _ qs t e HR Hge). unfold RQs, fes_add.
  destruct (t =? f_tcur f); intros H; exact H.
Qed.

Lemma spq_fetch_sim f qs : RQs f qs -> fes_wf f ->
  match fes_fetch f with
  | Some (t, e, f') => exists q', spq_fetch qs = Some (t, e, q') /\ RQs f' q'
  | None => spq_fetch qs = None
  end.
Proof.
  intros HR _. generalize (sp_store_fetch_sim fev (EvWake 0) _ _ _ qs HR). unfold fetch_sim, fes_fetch.
  destruct (f_zero f) as [|[t e] z]; [destruct (f_rest f) as [|[t e] r]|]; intros H; exact H.
Qed.

Definition run_script_sp (sc : script) : list item * bool := grun_script sps spq_add spq_fetch (sp_new_at 0, []) sc.

Theorem run_over_sp_eq sc : run_script_sp sc = run_script sc.
Proof. apply (run_script_sim sps spq_add spq_fetch RQs spq_add_sim spq_fetch_sim). exact (SpRel_new fev (EvWake 0)). Qed.

(* ---- instance 2: the calendar queue, through the refinement relation of C01 ---- *)
Definition RQc (f : fes) (qs : cqs) : Prop := Client.RQc fev (EvWake 0) (f_tcur f) (f_zero f) (f_rest f) qs.

Lemma cq_add_sim f qs t e : RQc f qs -> f_tcur f <= t -> RQc (fes_add t e f) (cq_add t e qs).
Proof.
  intros HR Hge. generalize (cq_store_add_sim fev (EvWake 0) _ _ _ qs t e HR Hge). unfold RQc, fes_add.
  destruct (t =? f_tcur f); intros H; exact H.
Qed.

Lemma cq_fetch_sim f qs : RQc f qs -> fes_wf f ->
  match fes_fetch f with
  | Some (t, e, f') => exists q', cq_fetch qs = Some (t, e, q') /\ RQc f' q'
  | None => cq_fetch qs = None
  end.
Proof.
  intros HR _. generalize (cq_store_fetch_sim fev (EvWake 0) _ _ _ qs HR). unfold fetch_sim, fes_fetch.
  destruct (f_zero f) as [|[t e] z]; [destruct (f_rest f) as [|[t e] r]|]; intros H; exact H.
Qed.

Lemma RQc_init n t : n <> 0 -> t <> 0 -> RQc {| f_tcur := 0; f_zero := []; f_rest := [] |} (cq_init n t).
Proof. exact (Client.RQc_init fev (EvWake 0) n t). Qed.

(* every trace, and the termination flag, whatever calendar-queue parameters are chosen *)
Theorem run_script_over_cqueue n t sc : n <> 0 -> t <> 0 -> run_script_cq n t sc = run_script sc.
Proof.
  intros Hn Ht. apply (run_script_sim cqs cq_add cq_fetch RQc cq_add_sim cq_fetch_sim). apply RQc_init; assumption.
Qed.

Theorem run_over_cqueue n t input : n <> 0 -> t <> 0 -> run_cq n t input = Proc.Model.run input.
Proof. intros Hn Ht. unfold run_cq, Proc.Model.run. rewrite run_script_over_cqueue by assumption. reflexivity. Qed.

Theorem flat_log_over_cqueue n t sc : n <> 0 -> t <> 0 -> flat_log_cq n t sc = flat_log sc.
Proof. intros Hn Ht. unfold flat_log_cq, flat_log, trace_cq, trace. rewrite run_script_over_cqueue by assumption. reflexivity. Qed.

(* ---- what an event adds to the event set, for any implementation (no simulation needed) ---- *)
Section GenEmit.
Variable Q : Type.
Variable q_add : N -> fev -> Q -> Q.

Definition q_after (now m : N) (l : list entry) (q : Q) : Q :=
  match shut_of now l None with
  | Some (Some rt) => q_add rt (EvRestart m) (q_flush Q q_add (pend_of now l) q)
  | _ => q_flush Q q_add (pend_of now l) q
  end.

Lemma g_q_set_mst (w : gworld Q) m x : g_q (gset_mst Q w m x) = g_q w.
Proof. unfold gset_mst. destruct (m =? 0); reflexivity. Qed.

Lemma gfinish_event_q w m x s its :
  g_q (fst (gfinish_event Q q_add w m x s its None)) =
  match shut s with
  | Some (Some rt) => q_add rt (EvRestart m) (q_flush Q q_add (buf s) (g_q w))
  | _ => q_flush Q q_add (buf s) (g_q w)
  end.
Proof. unfold gfinish_event. destruct (shut s) as [[rt|]|]; cbn [fst]; rewrite g_q_set_mst; reflexivity. Qed.

Lemma gfinish_event_log w m x s its :
  flat_map item_log (snd (gfinish_event Q q_add w m x s its None)) =
  flat_map item_log its ++ match shut s with Some _ => [mk m Handler HReset] | None => [] end.
Proof.
  unfold gfinish_event. destruct (shut s); cbn [snd]; [|rewrite app_nil_r; reflexivity].
  rewrite flat_map_app. reflexivity.
Qed.

Theorem gprocess_q sc (w : gworld Q) t ev m :
  ev_module ev = Some m ->
  g_q (fst (gprocess Q q_add sc w t ev)) = q_after t m (flat_map item_log (snd (gprocess Q q_add sc w t ev))) (g_q w).
Proof.
  intros Hm. rewrite (gprocess_eq Q q_add sc w t ev m Hm). cbn zeta. unfold q_after.
  destruct (is_restart ev || active (snd (activate t (gmstate Q w m))));
    [|cbn [fst snd flat_map]; rewrite g_q_set_mst; reflexivity].
  destruct (run_event_acts sc t m (fst (activate t (gmstate Q w m))) ev (es0 (g_bud w))) as [(_ & Hb & Hs & _) _].
  destruct (run_event sc t m (fst (activate t (gmstate Q w m))) ev (es0 (g_bud w))) as [s bs].
  cbn [fst snd es0 buf shut dead app] in *. fold (pend_of t (brks_log bs)) in Hb.
  rewrite gfinish_event_q, gfinish_event_log, flat_map_map_IBrk.
  destruct (pend_shut_reset t m (brks_log bs) (shut s)) as [-> ->]. rewrite <- Hb, <- Hs. reflexivity.
Qed.
End GenEmit.

Definition cq_after := q_after cqs cq_add.

(* ---- the dispatch order of the calendar queue: what draining it with fetch_next yields ---- *)
Fixpoint drain_cq (k : nat) (qs : cqs) : list (N * fev) :=
  match k with
  | O => []
  | S k' => match cq_fetch qs with Some (t, e, qs') => (t, e) :: drain_cq k' qs' | None => [] end
  end.
Definition dispatch_order_cq (qs : cqs) : list (N * fev) := drain_cq (N.to_nat (qlen (fst qs))) qs.

Lemma fes_fetch_order f t e f' : fes_fetch f = Some (t, e, f') -> fes_order f = (t, e) :: fes_order f'.
Proof.
  unfold fes_fetch, fes_order. destruct (f_zero f) as [|x z].
  - destruct (f_rest f) as [|x r]; [discriminate|]. intros H. injection H as <- <-. destruct x; reflexivity.
  - intros H. injection H as <- <-. destruct x; reflexivity.
Qed.

Lemma drain_order k : forall f qs, RQc f qs -> fes_wf f -> length (fes_order f) = k -> drain_cq k qs = fes_order f.
Proof.
  induction k as [|k IH]; intros f qs HR Hwf Hl; cbn [drain_cq].
  - destruct (fes_order f); [reflexivity|discriminate].
  - pose proof (cq_fetch_sim f qs HR Hwf) as H. destruct (fes_fetch f) as [[[t e] f']|] eqn:Ef.
    + destruct H as (q' & -> & HR'). rewrite (fes_fetch_order _ _ _ _ Ef) in *. cbn [length] in Hl.
      rewrite (IH f' q' HR' (proj1 (fes_fetch_wf _ _ _ _ Hwf Ef))) by lia. reflexivity.
    + unfold fes_fetch, fes_order in *. destruct (f_zero f); [destruct (f_rest f)|]; discriminate.
Qed.

Lemma dispatch_order_spec f qs : RQc f qs -> fes_wf f -> dispatch_order_cq qs = fes_order f.
Proof.
  intros HR Hwf. unfold dispatch_order_cq. apply drain_order; try assumption.
  destruct HR as (s & HR & HS). rewrite (Rq_len _ _ HR). unfold sp_len, fes_order.
  rewrite Nat2N.id, app_length, <- (SR_zero _ _ _ _ _ _ _ HS), <- (SR_rest _ _ _ _ _ _ _ HS), !map_length. reflexivity.
Qed.

(* ---- worlds the main loop over the calendar queue goes through ---- *)
Inductive ReachCq (n t : N) (sc : script) : cworld -> Prop :=
| rc_start : ReachCq n t sc (fst (sim_start_cq sc (init_world_cq n t sc)))
| rc_step g now ev q' : ReachCq n t sc g -> cq_fetch (g_q g) = Some (now, ev, q') ->
                        ReachCq n t sc (fst (process_cq sc (gset_q cqs g q') now ev)).

Definition RelC := Rel cqs RQc.

Lemma reach_cq_rel n t sc g : n <> 0 -> t <> 0 -> ReachCq n t sc g -> exists w, Reach sc w /\ RelC w g.
Proof.
  intros Hn Ht. induction 1 as [|g now ev q' Hr IH Hf].
  - exists (fst (sim_start sc (init_world sc))). split; [apply reach_start|].
    assert (HRel : RelC (init_world sc) (init_world_cq n t sc)).
    { unfold RelC, Rel, init_world, init_world_cq, ginit_world. cbn [w_fes w_bud w_m0 w_m1 g_q g_bud g_m0 g_m1]. repeat split.
      apply (flush_sim cqs cq_add RQc cq_add_sim); [apply RQc_init; assumption|]. cbn [f_tcur]. apply Forall_forall. intros; lia. }
    assert (T0 : f_tcur (w_fes (init_world sc)) = 0) by (unfold init_world; cbn [w_fes]; apply flush_tcur).
    exact (proj1 (sim_start_sim cqs cq_add RQc cq_add_sim sc _ _ HRel T0)).
  - destruct IH as (w & Hw & HRel). pose proof (reach_wf sc w Hw) as Hwf. pose proof HRel as (HQ & Eb & E0 & E1).
    pose proof (cq_fetch_sim _ _ HQ Hwf) as F. destruct (fes_fetch (w_fes w)) as [[[t' e'] f']|] eqn:Ef.
    + destruct F as (q'' & Hf' & HQ'). rewrite Hf in Hf'. injection Hf' as <- <- <-.
      exists (fst (process sc (set_fes w f') now ev)). split; [apply (reach_step sc w now ev f' Hw Ef)|].
      destruct (fes_fetch_wf _ _ _ _ Hwf Ef) as [_ Tc].
      assert (HRel' : RelC (set_fes w f') (gset_q cqs g q')) by (unfold RelC, Rel; cbn; auto).
      apply (process_sim cqs cq_add RQc cq_add_sim sc _ _ now ev HRel'). cbn [set_fes w_fes]. lia.
    + rewrite Hf in F. discriminate.
Qed.

(* two sends of one event with arrival times t1 <= t2 leave the calendar queue in that order *)
Theorem sends_keep_order_cq n t sc g now ev q' m a p1 b p2 c :
  n <> 0 -> t <> 0 ->
  ReachCq n t sc g -> cq_fetch (g_q g) = Some (now, ev, q') -> ev_module ev = Some m ->
  pend_of now (flat_map item_log (snd (process_cq sc (gset_q cqs g q') now ev))) = a ++ p1 :: b ++ p2 :: c ->
  fst p1 <= fst p2 ->
  Subseq [p1; p2] (dispatch_order_cq (g_q (fst (process_cq sc (gset_q cqs g q') now ev)))).
Proof.
  intros Hn Ht Hr Hf Hm Hp H12.
  destruct (reach_cq_rel n t sc g Hn Ht Hr) as (w & Hw & HRel).
  pose proof (reach_wf sc w Hw) as Hwf. pose proof HRel as (HQ & Eb & E0 & E1).
  pose proof (cq_fetch_sim _ _ HQ Hwf) as F. destruct (fes_fetch (w_fes w)) as [[[t' e'] f']|] eqn:Ef; [|rewrite Hf in F; discriminate].
  destruct F as (q'' & Hf' & HQ'). rewrite Hf in Hf'. injection Hf' as <- <- <-.
  destruct (fes_fetch_wf _ _ _ _ Hwf Ef) as [Hwf' Tc].
  assert (HRel' : RelC (set_fes w f') (gset_q cqs g q')) by (unfold RelC, Rel; cbn; auto).
  destruct (process_sim cqs cq_add RQc cq_add_sim sc _ _ now ev HRel') as [P1 P2]; [cbn [set_fes w_fes]; lia|].
  unfold process_cq in *. rewrite <- P2 in Hp.
  rewrite (dispatch_order_spec _ _ (proj1 P1) (process_wf sc (set_fes w f') now ev Hwf')).
  exact (sends_keep_order sc w now ev f' m a p1 b p2 c Hw Ef Hm Hp H12).
Qed.

(* [ReachCq] is what the main loop of [run_script_cq] goes through *)
Theorem loop_states_reach_cq n t sc k :
  match iter_nat k (loop_step_cq sc) (fst (sim_start_cq sc (init_world_cq n t sc)), 0, snd (sim_start_cq sc (init_world_cq n t sc))) with
  | inl st | inr st => ReachCq n t sc (fst (fst st)) end.
Proof.
  apply (iter_nat_inv (fun st => ReachCq n t sc (fst (fst st))) (fun st => ReachCq n t sc (fst (fst st)))); [|cbn [fst]; apply rc_start].
  intros [[g now] its] Hr. cbn [fst] in Hr. unfold loop_step_cq, gloop_step.
  destruct (cq_fetch (g_q g)) as [[[t' ev] q']|] eqn:Hf; [|exact Hr].
  pose proof (rc_step n t sc g t' ev q' Hr Hf) as Hn. unfold process_cq in Hn.
  destruct (gprocess cqs cq_add sc (gset_q cqs g q') t' ev) as [g' new]. exact Hn.
Qed.
