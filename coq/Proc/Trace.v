(* Every bracket of every run is well formed, and the flat call log of a run is a
   concatenation of single-module brackets (with Module::reset records between them). *)
From Coq Require Import List NArith PArith Bool.
From DesVerif Require Import Common.Lists Common.Fuel Proc.Model Proc.Shape Proc.Emit.
Import ListNotations.
Open Scope N_scope.

Definition item_ok (sc : script) (it : item) : Prop :=
  match it with IBrk b => brk_ok (cfg sc (b_mod b)) b | IReset _ => True end.

Definition items_ok (sc : script) (its : list item) : Prop := Forall (item_ok sc) its.

Lemma run_bracket_item sc now m woken k s :
  item_ok sc (IBrk (snd (run_bracket now m (cfg sc m) woken k s))).
Proof.
  cbn [item_ok]. pose proof (run_bracket_ok now m (cfg sc m) woken k s) as H.
  unfold run_bracket in *. cbn [snd b_mod] in *. exact H.
Qed.

Lemma finish_event_items sc w m x s its wake :
  items_ok sc its -> items_ok sc (snd (finish_event w m x s its wake)).
Proof.
  intros H. unfold finish_event. destruct (shut s); cbn [snd]; [|exact H].
  apply Forall_app; split; [exact H|constructor; [exact I|constructor]].
Qed.

Lemma process_items sc w t ev : items_ok sc (snd (process sc w t ev)).
Proof.
  destruct (ev_module ev) as [m|] eqn:Hm; [|destruct ev; try discriminate; constructor].
  rewrite (process_eq sc w t ev m Hm). cbn zeta.
  destruct (is_restart ev || active (snd (activate t (mstate w m)))); [|constructor].
  apply finish_event_items. unfold items_ok. rewrite Forall_map.
  eapply Forall_impl; [|apply run_event_acts]. intros b [<- Hk]. exact Hk.
Qed.

Lemma start_one_items sc stage m acc : items_ok sc (snd acc) -> items_ok sc (snd (start_one sc stage m acc)).
Proof.
  intros H. unfold start_one. destruct acc as [w its]. cbn [snd] in H.
  destruct ((stage <? h_stages (m_handler (cfg sc m))) && active (mstate w m)); [|exact H].
  rewrite !let_pair. cbn [snd]. apply Forall_app; split; [exact H|].
  apply finish_event_items. constructor; [apply run_bracket_item|constructor].
Qed.

Lemma sim_start_ind sc (P : world * list item -> Prop) :
  (forall stage m a, P a -> P (start_one sc stage m a)) -> forall w, P (w, []) -> P (sim_start sc w).
Proof.
  intros Hs w. unfold sim_start. generalize (stage_list (max_stage sc)) (w, @nil item).
  induction l as [|st l IH]; intros a Ha; cbn [fold_left]; [exact Ha|]. apply IH, Hs, Hs, Ha.
Qed.

Lemma sim_start_items sc w : items_ok sc (snd (sim_start sc w)).
Proof. apply (sim_start_ind sc (fun a => items_ok sc (snd a))); [intros st m a; apply start_one_items|constructor]. Qed.

Lemma end_one_items sc now m acc : items_ok sc (snd acc) -> items_ok sc (snd (end_one sc now m acc)).
Proof.
  intros H. unfold end_one. destruct acc as [w its]. rewrite !let_pair. cbn [snd] in *.
  apply Forall_app; split; [exact H|constructor; [apply run_bracket_item|constructor]].
Qed.

Lemma sim_end_items sc now w : items_ok sc (snd (sim_end sc now w)).
Proof. unfold sim_end. apply end_one_items, end_one_items. constructor. Qed.

(* ---- the main loop ---- *)
Definition st_items (st : lstate) : list item := snd st.

Lemma loop_step_items sc st :
  items_ok sc (st_items st) ->
  match loop_step sc st with inl st' => items_ok sc (st_items st') | inr st' => items_ok sc (st_items st') end.
Proof.
  intros H. unfold loop_step. destruct st as [[w now] its]. unfold st_items in *. cbn [snd] in H.
  destruct (fes_fetch (w_fes w)) as [[[t ev] f]|]; [|exact H].
  pose proof (process_items sc (set_fes w f) t ev) as Hp.
  destruct (process sc (set_fes w f) t ev) as [w' new]. cbn [snd] in *.
  apply Forall_app; split; assumption.
Qed.

Theorem trace_ok sc : items_ok sc (trace sc).
Proof.
  unfold trace, run_script.
  pose proof (sim_start_items sc (init_world sc)) as H0.
  destruct (sim_start sc (init_world sc)) as [w0 its0]. cbn [snd] in H0.
  rewrite iter_until_nat.
  pose proof (iter_nat_inv (fun st => items_ok sc (st_items st)) (fun st => items_ok sc (st_items st)) (loop_step sc) (loop_step_items sc)
                (Pos.to_nat (fuel sc)) (w0, 0, its0) H0) as H.
  destruct (iter_nat (Pos.to_nat (fuel sc)) (loop_step sc) (w0, 0, its0)) as [[[w now] its]|[[w now] its]];
    unfold st_items in H; cbn [snd fst] in *; [exact H|].
  apply Forall_app; split; [exact H|apply sim_end_items].
Qed.

(* ---- the flat log is a sequence of brackets ---- *)
Inductive Brackets (sc : script) : list entry -> Prop :=
| Br_nil : Brackets sc []
| Br_brk b rest : brk_ok (cfg sc (b_mod b)) b -> Brackets sc rest -> Brackets sc (b_log b ++ rest)
| Br_reset m rest : Brackets sc rest -> Brackets sc (mk m Handler HReset :: rest).

Lemma items_brackets sc its : items_ok sc its -> Brackets sc (flat_map item_log its).
Proof.
  induction 1 as [|it its Hit _ IH]; cbn [flat_map]; [constructor|].
  destruct it as [b|m]; cbn [item_log].
  - apply Br_brk; assumption.
  - apply Br_reset. exact IH.
Qed.

Theorem flat_log_brackets sc : Brackets sc (flat_log sc).
Proof. apply items_brackets, trace_ok. Qed.

Theorem bracket_in_trace sc b : In (IBrk b) (trace sc) -> brk_ok (cfg sc (b_mod b)) b.
Proof. intros H. exact (proj1 (Forall_forall _ _) (trace_ok sc) _ H). Qed.
