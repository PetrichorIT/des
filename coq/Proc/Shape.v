(* The bracket grammar of C14 in closed form: the shape every bracket produced by the entry
   points of the model (Proc/Model.v [bracket]) has, for every stack, every event kind and
   every script of sends.  That the model's brackets have it is Proc/Emit.v [run_bracket_ok]. *)
From Coq Require Import List NArith Bool.
From DesVerif Require Import Proc.Model.
Import ListNotations.
Open Scope N_scope.

Definition mk (m : N) (w : who) (h : hook) : entry := {| en_mod := m; en_who := w; en_hook := h |}.

(* the callbacks (everything except the records of sends, of the shutdown request and of
   the callback's panic) *)
Definition is_call (e : entry) : bool :=
  match en_hook e with HSched _ _ | HSend _ _ | HShut _ | HPanic => false | _ => true end.
Definition calls (l : list entry) : list entry := filter is_call l.

(* ---- the specification of one bracket ---- *)
Definition is_consume (e : elem) : bool := match el_act e with Consume => true | _ => false end.
Definition modk (e : elem) : N := match el_act e with Modify k => k | _ => 0 end.
(* some element of [pre] consumes *)
Definition consumed (pre : list elem) : bool := existsb is_consume pre.
(* the payload after it passed through [pre] *)
Definition pay (x : N) (pre : list elem) : N := fold_left (fun a e => a + modk e) pre x.

Definition kind_msg (k : kind) : option N := match k with KMsg x => Some x | _ => None end.

(* element i: event_start, then incoming iff the event carries a message and none of the
   elements 0..i-1 consumes *)
Definition up_at (m t : N) (els : list elem) (x0 : option N) (i : nat) : list entry :=
  mk m (Elem i) (HStart t) ::
  match x0 with
  | Some x => if consumed (firstn i els) then [] else [mk m (Elem i) (HIn (pay x (firstn i els)))]
  | None => []
  end.

Definition up_shape (m t : N) (els : list elem) (x0 : option N) : list entry :=
  flat_map (up_at m t els x0) (seq 0 (length els)).

Definition handler_shape (m t : N) (els : list elem) (k : kind) : list entry :=
  match k with
  | KMsg x => if consumed els then [] else [mk m Handler (HHandle (pay x els) t)]
  | KWake => []
  | KStart st => [mk m Handler (HSimStart st t)]
  | KEnd => [mk m Handler (HSimEnd t)]
  end.

Definition task_shape (m t : N) (woken : bool) : list entry := if woken then [mk m Task (HTask t)] else [].

Definition down_shape (m : N) (els : list elem) : list entry :=
  map (fun i => mk m (Elem i) HEnd) (rev (seq 0 (length els))).

Definition shape (m t : N) (els : list elem) (k : kind) (woken : bool) : list entry :=
  up_shape m t els (kind_msg k) ++ handler_shape m t els k ++ task_shape m t woken ++ down_shape m els.

(* the message still travelling after the elements [pre] *)
Definition cur_msg (x0 : option N) (pre : list elem) : option N :=
  match x0 with Some x => if consumed pre then None else Some (pay x pre) | None => None end.

(* the callback of this bracket ends in a (caught) panic *)
Definition brk_panics (c : modcfg) (b : brk) : bool :=
  panics (b_time b) (m_handler c) (b_kind b) (cur_msg (kind_msg (b_kind b)) (m_stack c)).

(* a bracket is well formed for a module with configuration [c]: its callbacks have the
   shape above, all its entries belong to one module, and when the callback panics (caught)
   the bracket is closed all the same: what follows the panic is the poll of a woken task
   and event_end of every element in reverse order *)
Definition brk_ok (c : modcfg) (b : brk) : Prop :=
  calls (b_log b) = shape (b_mod b) (b_time b) (m_stack c) (b_kind b) (b_woken b) /\
  Forall (fun e => en_mod e = b_mod b) (b_log b) /\
  (brk_panics c b = true ->
   exists pre post, b_log b = pre ++ mk (b_mod b) Handler HPanic :: post /\
     calls post = task_shape (b_mod b) (b_time b) (b_woken b) ++ down_shape (b_mod b) (m_stack c)).

(* ---- log extension ---- *)
Definition Ext (m : N) (s s' : es) (sk : list entry) : Prop :=
  exists suf, lg s' = lg s ++ suf /\ calls suf = sk /\ Forall (fun e => en_mod e = m) suf.

Lemma calls_app a b : calls (a ++ b) = calls a ++ calls b.
Proof. apply filter_app. Qed.

Lemma Ext_say_nocall m w h s : is_call (mk m w h) = false -> Ext m s (say m w h s) [].
Proof.
  intros Hc. exists [mk m w h]. repeat split.
  - unfold calls. cbn [filter]. rewrite Hc. reflexivity.
  - repeat constructor.
Qed.

Lemma firstn_length_app {A} (a b : list A) : firstn (length a) (a ++ b) = a.
Proof. induction a as [|x a IH]; cbn [length app firstn]; [destruct b; reflexivity|rewrite IH; reflexivity]. Qed.

Lemma consumed_snoc pre e : consumed (pre ++ [e]) = consumed pre || is_consume e.
Proof. unfold consumed. rewrite existsb_app. cbn [existsb]. rewrite orb_false_r. reflexivity. Qed.

Lemma pay_snoc x pre e : pay x (pre ++ [e]) = pay x pre + modk e.
Proof. unfold pay. rewrite fold_left_app. reflexivity. Qed.

Lemma cur_msg_snoc x0 pre e :
  cur_msg x0 (pre ++ [e]) = match cur_msg x0 pre with Some x => apply_act (el_act e) x | None => None end.
Proof.
  unfold cur_msg. destruct x0 as [x|]; [|reflexivity].
  rewrite consumed_snoc, pay_snoc. destruct (consumed pre); [reflexivity|].
  cbn [orb]. unfold is_consume, modk, apply_act. destruct (el_act e); try reflexivity.
  rewrite N.add_0_r. reflexivity.
Qed.
