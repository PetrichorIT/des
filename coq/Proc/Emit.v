(* Messages sent during an event enter the event set in program order: the events that
   [process] adds to the event set are exactly the images of the send records of the
   event's call log, added in log order (followed by the restart event when the handler
   asked for a shutdown with restart).
   One walk through [bracket] ([bracket_grow]) gives the log suffix a bracket writes, the shape
   of its callbacks (Proc/Shape.v) and the rest of the event-local state as a function of it. *)
From Coq Require Import List NArith Bool Lia.
From DesVerif Require Import Common.Lists Proc.Model Proc.Shape.
Import ListNotations.
Open Scope N_scope.

(* the event a send record stands for, when the send happens at time [now] *)
Definition pend1 (now : N) (e : entry) : list (N * fev) :=
  match en_hook e with
  | HSched d i => [(now + d, EvDeliver (en_mod e) i)]
  | HSend d i => [if d =? 0 then (now, EvDeliver (peer (en_mod e)) i)
                  else (now + d, EvExit (Some (en_mod e)) (peer (en_mod e)) i)]
  | _ => []
  end.
(* After a caught panic the module is inactive: what it still sends to the peer without delay
   is dropped at its own gate (MessageExitingConnection::handle_with_sink), everything else
   is buffered as before. *)
Definition is_panic_e (e : entry) : bool := match en_hook e with HPanic => true | _ => false end.
Definition inline_send (e : entry) : bool := match en_hook e with HSend d _ => d =? 0 | _ => false end.
Definition has_panic (l : list entry) : bool := existsb is_panic_e l.

Fixpoint pend_from (now : N) (dd : bool) (l : list entry) : list (N * fev) :=
  match l with
  | [] => []
  | e :: r => (if dd && inline_send e then [] else pend1 now e) ++ pend_from now (dd || is_panic_e e) r
  end.
Definition pend_of (now : N) (l : list entry) : list (N * fev) := pend_from now false l.

(* the shutdown request standing at the end of a log (the last one wins) *)
Definition shut_of (now : N) (l : list entry) (init : option (option N)) : option (option N) :=
  fold_left (fun acc e => match en_hook e with
                          | HShut r => Some (match r with Some d => Some (now + d) | None => None end)
                          | _ => acc end) l init.

Lemma pend_from_app now : forall a b dd,
  pend_from now dd (a ++ b) = pend_from now dd a ++ pend_from now (dd || has_panic a) b.
Proof.
  induction a as [|e a IH]; intros b dd; cbn [app pend_from has_panic existsb].
  - rewrite orb_false_r. reflexivity.
  - rewrite IH, <- app_assoc, orb_assoc. reflexivity.
Qed.

Lemma has_panic_app a b : has_panic (a ++ b) = has_panic a || has_panic b.
Proof. apply existsb_app. Qed.

Lemma shut_of_app now a b i : shut_of now (a ++ b) i = shut_of now b (shut_of now a i).
Proof. apply fold_left_app. Qed.

(* ---- what a piece of a bracket does to the event-local state, given the log suffix it writes ----
   Everything but the log is a function of that suffix: the buffered events are the images of its
   send records, the shutdown request is its last HShut, the module is dead once it holds a HPanic,
   every send record costs one unit of budget.  [sh]: shutdown requests may occur. *)
Definition is_send (e : entry) : bool := match en_hook e with HSched _ _ | HSend _ _ => true | _ => false end.
Definition is_shut (e : entry) : bool := match en_hook e with HShut _ => true | _ => false end.
Definition nsend (l : list entry) : N := N.of_nat (length (filter is_send l)).

Definition kind_is_msg (k : kind) : bool := match k with KMsg _ => true | _ => false end.

Definition Acts (m now : N) (sh : bool) (s s' : es) (suf : list entry) : Prop :=
  Forall (fun e => en_mod e = m /\ implb (is_shut e) sh = true) suf /\
  buf s' = buf s ++ pend_from now (dead s) suf /\ shut s' = shut_of now suf (shut s) /\
  dead s' = dead s || has_panic suf /\ bud s' + nsend suf = bud s.

Definition Grow (m now : N) (sh : bool) (s s' : es) (suf : list entry) : Prop :=
  lg s' = lg s ++ suf /\ Acts m now sh s s' suf.

Definition Grows (m now : N) (sh : bool) (s s' : es) (sk : list entry) : Prop :=
  exists suf, Grow m now sh s s' suf /\ calls suf = sk.

Lemma nsend_app a b : nsend (a ++ b) = nsend a + nsend b.
Proof. unfold nsend. rewrite filter_app, app_length. lia. Qed.

Lemma Acts_refl m now sh s : Acts m now sh s s [].
Proof. unfold Acts. cbn. rewrite !app_nil_r, orb_false_r, N.add_0_r. auto 6. Qed.

Lemma Acts_trans m now sh s1 s2 s3 a b : Acts m now sh s1 s2 a -> Acts m now sh s2 s3 b -> Acts m now sh s1 s3 (a ++ b).
Proof.
  intros (Fa & Ba & Sa & Da & Na) (Fb & Bb & Sb & Db & Nb). unfold Acts.
  split; [apply Forall_app; split; assumption|].
  split; [rewrite Bb, Ba, Da, pend_from_app, app_assoc; reflexivity|].
  split; [rewrite Sb, Sa, shut_of_app; reflexivity|].
  split; [rewrite Db, Da, has_panic_app, orb_assoc; reflexivity|].
  rewrite nsend_app. clear - Na Nb. lia.
Qed.

Lemma Grow_refl m now sh s : Grow m now sh s s [].
Proof. split; [rewrite app_nil_r; reflexivity|apply Acts_refl]. Qed.

Lemma Grow_trans m now sh s1 s2 s3 a b : Grow m now sh s1 s2 a -> Grow m now sh s2 s3 b -> Grow m now sh s1 s3 (a ++ b).
Proof.
  intros [La Aa] [Lb Ab]. split; [rewrite Lb, La, app_assoc; reflexivity|eapply Acts_trans; eassumption].
Qed.

Lemma shut_of_keep now m l : forall i,
  Forall (fun e => en_mod e = m /\ implb (is_shut e) false = true) l -> shut_of now l i = i.
Proof.
  unfold shut_of. induction l as [|e l IH]; intros i H; cbn [fold_left]; [reflexivity|].
  inversion H as [|? ? [_ Hs] Hl]; subst. rewrite IH by assumption.
  unfold is_shut in Hs. destruct (en_hook e); try reflexivity; discriminate.
Qed.

Lemma Grows_refl m now sh s : Grows m now sh s s [].
Proof. exists []. split; [apply Grow_refl|reflexivity]. Qed.

Lemma Grows_trans m now sh s1 s2 s3 k1 k2 k :
  Grows m now sh s1 s2 k1 -> Grows m now sh s2 s3 k2 -> k = k1 ++ k2 -> Grows m now sh s1 s3 k.
Proof.
  intros (a & Ga & Ka) (b & Gb & Kb) ->. exists (a ++ b).
  split; [eapply Grow_trans; eassumption|rewrite calls_app, Ka, Kb; reflexivity].
Qed.

Lemma Grow_say m now sh w h s : is_call (mk m w h) = true -> Grow m now sh s (say m w h s) [mk m w h].
Proof.
  intros Hc. unfold Grow, Acts, nsend, is_call in *. cbn [say lg buf shut dead bud en_hook mk] in *.
  cbn [pend_from]. unfold has_panic, is_panic_e, inline_send, pend1, shut_of, is_send, is_shut.
  cbn [existsb fold_left filter en_hook mk].
  destruct h; try discriminate; cbn; rewrite ?andb_false_r, ?app_nil_r, ?orb_false_r, N.add_0_r; auto 8.
Qed.

Lemma Grows_emit1 now m sh w e s : Grows m now sh s (emit1 now m w e s) [].
Proof.
  unfold emit1. destruct (bud s =? 0) eqn:Eb; [apply Grows_refl|]. apply N.eqb_neq in Eb.
  eexists. unfold Grow, Acts, nsend. cbn [lg buf shut dead bud]. split; [split; [reflexivity|]|].
  - cbn [pend_from]. unfold has_panic, is_panic_e, inline_send, pend1, shut_of, pending, is_send, is_shut.
    cbn [existsb fold_left filter en_hook en_mod].
    destruct (e_peer e), (dead s), (e_delay e =? 0); cbn; rewrite ?app_nil_r, ?orb_false_r;
      (repeat split; [repeat constructor|lia]).
  - unfold calls. cbn [filter is_call en_hook]. destruct (e_peer e); reflexivity.
Qed.

Lemma Grows_emits now m sh w l : forall s, Grows m now sh s (emits now m w l s) [].
Proof.
  unfold emits. induction l as [|e l IH]; intros s; cbn [fold_left]; [apply Grows_refl|].
  eapply Grows_trans; [apply Grows_emit1|apply IH|reflexivity].
Qed.

Lemma Grows_say_emits now m sh w h l s :
  is_call (mk m w h) = true -> Grows m now sh s (emits now m w l (say m w h s)) [mk m w h].
Proof.
  intros Hc. apply (Grows_trans m now sh s (say m w h s) _ [mk m w h] []); [|apply Grows_emits|reflexivity].
  exists [mk m w h]. split; [apply Grow_say, Hc|]. unfold calls. cbn [filter]. rewrite Hc. reflexivity.
Qed.

Lemma upstream_grows now m sh x0 : forall r pre s,
  Grows m now sh s (snd (incoming_upstream now m (length pre) r (cur_msg x0 pre) s))
      (flat_map (up_at m now (pre ++ r) x0) (seq (length pre) (length r))) /\
  fst (incoming_upstream now m (length pre) r (cur_msg x0 pre) s) = cur_msg x0 (pre ++ r).
Proof.
  induction r as [|e r IH]; intros pre s.
  - cbn [incoming_upstream length seq flat_map fst snd]. rewrite app_nil_r. split; [apply Grows_refl|reflexivity].
  - cbn [incoming_upstream length seq flat_map].
    replace (pre ++ e :: r) with ((pre ++ [e]) ++ r) by (rewrite <- app_assoc; reflexivity).
    assert (Hlen : S (length pre) = length (pre ++ [e])) by (rewrite app_length; cbn [length]; lia).
    assert (Hfn : firstn (length pre) ((pre ++ [e]) ++ r) = pre)
      by (rewrite <- app_assoc; apply firstn_length_app).
    unfold up_at at 1. rewrite Hfn.
    set (s1 := emits now m (Elem (length pre)) (el_start e) (say m (Elem (length pre)) (HStart now) s)).
    assert (E1 : Grows m now sh s s1 [mk m (Elem (length pre)) (HStart now)]) by (apply Grows_say_emits; reflexivity).
    pose proof (cur_msg_snoc x0 pre e) as Hsn.
    destruct (cur_msg x0 pre) as [x|] eqn:Hcur.
    + set (s2 := emits now m (Elem (length pre)) (el_in e) (say m (Elem (length pre)) (HIn x) s1)).
      assert (E2 : Grows m now sh s1 s2 [mk m (Elem (length pre)) (HIn x)]) by (apply Grows_say_emits; reflexivity).
      rewrite <- Hsn, Hlen. destruct (IH (pre ++ [e]) s2) as [E3 M3]. split; [|exact M3].
      unfold cur_msg in Hcur. destruct x0 as [x0'|]; [|discriminate].
      destruct (consumed pre); [discriminate|]. injection Hcur as <-.
      eapply Grows_trans; [exact E1| |reflexivity]. eapply Grows_trans; [exact E2|exact E3|reflexivity].
    + rewrite <- Hsn, Hlen. destruct (IH (pre ++ [e]) s1) as [E3 M3]. split; [|exact M3].
      assert (Hnil : match x0 with Some x => if consumed pre then [] else [mk m (Elem (length pre)) (HIn (pay x pre))] | None => [] end = [])
        by (unfold cur_msg in Hcur; destruct x0; [destruct (consumed pre); [reflexivity|discriminate]|reflexivity]).
      rewrite Hnil.
      eapply Grows_trans; [exact E1|exact E3|reflexivity].
Qed.

Lemma downstream_grows now m sh : forall els i s,
  Grows m now sh s (incoming_downstream now m i els s) (map (fun j => mk m (Elem j) HEnd) (rev (seq i (length els)))).
Proof.
  induction els as [|e r IH]; intros i s.
  - cbn. apply Grows_refl.
  - cbn [incoming_downstream length seq rev]. rewrite map_app. cbn [map].
    eapply Grows_trans; [apply IH|apply Grows_say_emits; reflexivity|reflexivity].
Qed.

Lemma poll_tasks_grows now m sh h woken s : Grows m now sh s (poll_tasks now m h woken s) (task_shape m now woken).
Proof. unfold poll_tasks, task_shape. destruct woken; [apply Grows_say_emits; reflexivity|apply Grows_refl]. Qed.

Definition panic_rec (m : N) (b : bool) : list entry := if b then [mk m Handler HPanic] else [].

Lemma Grow_panic_if m now sh b s : Grow m now sh s (panic_if b m s) (panic_rec m b).
Proof.
  unfold panic_if, panic_rec. destruct b; [|apply Grow_refl].
  unfold Grow, Acts, nsend. cbn. rewrite andb_false_r, app_nil_r, orb_true_r, N.add_0_r. auto 8.
Qed.

Lemma callback_grow now m sh h l b s : is_call (mk m Handler h) = true ->
  exists pre, Grow m now sh s (panic_if b m (emits now m Handler l (say m Handler h s))) (pre ++ panic_rec m b) /\
              calls pre = [mk m Handler h].
Proof.
  intros Hc. destruct (Grows_say_emits now m sh Handler h l s Hc) as (pre & G & K).
  exists pre. split; [eapply Grow_trans; [exact G|apply Grow_panic_if]|exact K].
Qed.

Lemma panics_no_msg now h k : kind_msg k <> None \/ k = KWake -> panics now h k None = false.
Proof.
  intros Hk. unfold panics. destruct (h_extra h) as [| |? ? [[? ?]|]|]; try reflexivity;
    destruct k; try reflexivity; rewrite ?andb_false_r; try reflexivity; destruct Hk as [Hk|Hk]; try discriminate; contradiction.
Qed.

Lemma handler_part_grow now m h els k s :
  let msg := cur_msg (kind_msg k) els in
  exists pre, Grow m now (kind_is_msg k) s (handler_part now m h k msg s)
                   (pre ++ panic_rec m (panics now h k msg)) /\
              calls pre = handler_shape m now els k.
Proof.
  cbn zeta. destruct k as [x| |st|]; cbn [handler_part handler_shape kind_msg cur_msg];
    [|exists []; rewrite panics_no_msg by auto; split; [apply Grow_refl|reflexivity]
     |apply callback_grow; reflexivity..].
  destruct (consumed els);
    [exists []; rewrite panics_no_msg by (left; discriminate); split; [apply Grow_refl|reflexivity]|].
  destruct (h_extra h) as [|d|trig r pan|site trig since] eqn:Hx; try (apply callback_grow; reflexivity).
  assert (Hp : panics now h (KMsg x) (Some (pay x els)) = false) by (unfold panics; rewrite Hx; destruct pan as [[? ?]|]; reflexivity).
  rewrite Hp. destruct (Grows_say_emits now m true Handler (HHandle (pay x els) now) (h_msg h) s eq_refl) as (pre & G & K).
  destruct (pay x els =? trig); [|exists pre; rewrite app_nil_r; auto].
  exists (pre ++ [mk m Handler (HShut r)]). rewrite app_nil_r, calls_app, K. split; [|reflexivity].
  eapply Grow_trans; [exact G|]. unfold Grow, Acts, nsend. cbn. rewrite andb_false_r, app_nil_r, orb_false_r, N.add_0_r. auto 8.
Qed.

Lemma bracket_grow now m c woken k s :
  exists u pre post,
    Grow m now (kind_is_msg k) s (bracket now m c woken k s)
         (u ++ (pre ++ panic_rec m (panics now (m_handler c) k (cur_msg (kind_msg k) (m_stack c)))) ++ post) /\
    calls u = up_shape m now (m_stack c) (kind_msg k) /\ calls pre = handler_shape m now (m_stack c) k /\
    calls post = task_shape m now woken ++ down_shape m (m_stack c).
Proof.
  unfold bracket. set (sh := kind_is_msg k).
  destruct (upstream_grows now m sh (kind_msg k) (m_stack c) [] s) as [(u & G1 & K1) M1]. cbn [length app] in G1, M1.
  assert (Hc : cur_msg (kind_msg k) [] = kind_msg k) by (destruct (kind_msg k); reflexivity). rewrite Hc in G1, M1.
  change (match k with KMsg x => Some x | _ => None end) with (kind_msg k).
  destruct (incoming_upstream now m 0 (m_stack c) (kind_msg k) s) as [msg s1]. cbn [fst snd] in G1, M1. subst msg.
  destruct (handler_part_grow now m (m_handler c) (m_stack c) k s1) as (pre & G2 & K2). cbn zeta in G2. fold sh in G2.
  set (s2 := handler_part now m (m_handler c) k (cur_msg (kind_msg k) (m_stack c)) s1) in *.
  assert (G3 : Grows m now sh s2 (incoming_downstream now m 0 (m_stack c) (poll_tasks now m (m_handler c) woken s2))
                     (task_shape m now woken ++ down_shape m (m_stack c)))
    by (eapply Grows_trans; [apply poll_tasks_grows|apply downstream_grows|reflexivity]).
  destruct G3 as (post & G3 & K3). exists u, pre, post.
  split; [eapply Grow_trans; [exact G1|eapply Grow_trans; [exact G2|exact G3]]|auto].
Qed.

Lemma calls_panic_rec m b : calls (panic_rec m b) = [].
Proof. destruct b; reflexivity. Qed.

Theorem run_bracket_ok now m c woken k s : brk_ok c (snd (run_bracket now m c woken k s)).
Proof.
  unfold run_bracket, brk_ok, brk_panics. cbn [snd b_log b_mod b_time b_kind b_woken].
  destruct (bracket_grow now m c woken k {| lg := []; buf := buf s; bud := bud s; shut := shut s; dead := dead s |})
    as (u & pre & post & (Hl & Hf & _) & K1 & K2 & K3).
  cbn [lg app] in Hl. rewrite Hl. split; [|split].
  - unfold shape. rewrite !calls_app, calls_panic_rec, app_nil_r, K1, K2, K3. reflexivity.
  - eapply Forall_impl; [|exact Hf]. intros e He. apply He.
  - intros Hp. rewrite Hp. exists (u ++ pre), post. split; [|exact K3]. cbn [panic_rec]. rewrite <- !app_assoc. reflexivity.
Qed.

Lemma run_bracket_acts now m c woken k s :
  let r := run_bracket now m c woken k s in
  Acts m now (kind_is_msg k) s (fst r) (b_log (snd r)) /\ b_mod (snd r) = m /\ brk_ok c (snd r).
Proof.
  split; [|split; [reflexivity|apply run_bracket_ok]]. unfold run_bracket. cbn [fst snd b_log].
  destruct (bracket_grow now m c woken k {| lg := []; buf := buf s; bud := bud s; shut := shut s; dead := dead s |})
    as (u & pre & post & (Hl & HA) & _).
  cbn [lg app] in Hl. rewrite Hl. exact HA.
Qed.

Definition brks_log (bs : list brk) : list entry := flat_map b_log bs.

Definition run_event (sc : script) (t m : N) (woken : bool) (ev : fev) (s : es) : es * list brk :=
  match ev with
  | EvDeliver _ x => (fst (handle_message t m (cfg sc m) woken x s), [snd (handle_message t m (cfg sc m) woken x s)])
  | EvWake _ => (fst (async_wakeup t m (cfg sc m) woken s), [snd (async_wakeup t m (cfg sc m) woken s)])
  | _ => module_restart t m (cfg sc m) s
  end.

Definition is_restart (ev : fev) : bool := match ev with EvRestart _ => true | _ => false end.
Definition is_deliver (ev : fev) : bool := match ev with EvDeliver _ _ => true | _ => false end.

Lemma module_restart_acts now m c : forall l s acc,
  let r := fold_left (fun acc stage => if dead (fst acc) then acc else
                        let '(s1, b) := at_sim_start now m c false stage (fst acc) in (s1, snd acc ++ [b])) l (s, acc) in
  exists new, snd r = acc ++ new /\ Acts m now false s (fst r) (brks_log new) /\
              Forall (fun b => b_mod b = m /\ brk_ok c b) new.
Proof.
  induction l as [|st l IH]; intros s acc; cbn [fold_left].
  - exists []. rewrite app_nil_r. split; [reflexivity|split; [apply Acts_refl|constructor]].
  - cbn [fst snd]. destruct (dead s); [apply IH|].
    change (at_sim_start now m c false st s) with (run_bracket now m c false (KStart st) s).
    destruct (run_bracket_acts now m c false (KStart st) s) as (A1 & Hm & Hk). rewrite let_pair.
    destruct (IH (fst (run_bracket now m c false (KStart st) s)) (acc ++ [snd (run_bracket now m c false (KStart st) s)]))
      as (new & Hn & A2 & Hf).
    exists (snd (run_bracket now m c false (KStart st) s) :: new).
    split; [rewrite Hn, <- app_assoc; reflexivity|]. split; [exact (Acts_trans _ _ _ _ _ _ _ _ A1 A2)|].
    constructor; [split; assumption|exact Hf].
Qed.

Lemma run_event_acts sc t m woken ev s :
  Acts m t (is_deliver ev) s (fst (run_event sc t m woken ev s)) (brks_log (snd (run_event sc t m woken ev s))) /\
  Forall (fun b => b_mod b = m /\ brk_ok (cfg sc m) b) (snd (run_event sc t m woken ev s)).
Proof.
  assert (One : forall k, kind_is_msg k = is_deliver ev ->
    let r := run_bracket t m (cfg sc m) woken k s in
    Acts m t (is_deliver ev) s (fst r) (brks_log [snd r]) /\ Forall (fun b => b_mod b = m /\ brk_ok (cfg sc m) b) [snd r]).
  { intros k <-. destruct (run_bracket_acts t m (cfg sc m) woken k s) as (A & Hm & Hk).
    unfold brks_log. cbn [flat_map]. rewrite app_nil_r. split; [exact A|constructor; [split; assumption|constructor]]. }
  destruct ev as [chk dst x|m' x|m'|m']; cbn [run_event]; try (apply One; reflexivity);
    unfold module_restart;
    destruct (module_restart_acts t m (cfg sc m) (stage_list (h_stages (m_handler (cfg sc m)))) s []) as (new & Hn & A & Hf);
    cbn [app] in Hn; rewrite Hn; split; assumption.
Qed.

(* ---- the event set after one event ---- *)
Definition ev_module (ev : fev) : option N :=
  match ev with EvDeliver m _ | EvWake m | EvRestart m => Some m | EvExit _ _ _ => None end.

Definition fes_after (now m : N) (l : list entry) (f : fes) : fes :=
  match shut_of now l None with
  | Some (Some rt) => fes_add rt (EvRestart m) (fes_flush (pend_of now l) f)
  | _ => fes_flush (pend_of now l) f
  end.

Lemma w_fes_set_mst w m x : w_fes (set_mst w m x) = w_fes w.
Proof. unfold set_mst. destruct (m =? 0); reflexivity. Qed.

Lemma finish_event_fes w m x s its :
  w_fes (fst (finish_event w m x s its None)) =
  match shut s with
  | Some (Some rt) => fes_add rt (EvRestart m) (fes_flush (buf s) (w_fes w))
  | _ => fes_flush (buf s) (w_fes w)
  end.
Proof.
  unfold finish_event. destruct (shut s) as [[rt|]|]; cbn [fst]; rewrite w_fes_set_mst; reflexivity.
Qed.

Lemma finish_event_log w m x s its :
  flat_map item_log (snd (finish_event w m x s its None)) =
  flat_map item_log its ++ match shut s with Some _ => [mk m Handler HReset] | None => [] end.
Proof.
  unfold finish_event. destruct (shut s); cbn [snd]; [|rewrite app_nil_r; reflexivity].
  rewrite flat_map_app. reflexivity.
Qed.

Lemma pend_shut_reset now m l o :
  pend_of now (l ++ match o : option (option N) with Some _ => [mk m Handler HReset] | None => [] end) = pend_of now l /\
  forall i, shut_of now (l ++ match o with Some _ => [mk m Handler HReset] | None => [] end) i = shut_of now l i.
Proof.
  destruct o; rewrite ?app_nil_r; [|auto]. split.
  - unfold pend_of. rewrite pend_from_app. cbn. rewrite andb_false_r. cbn. apply app_nil_r.
  - intros i. rewrite shut_of_app. reflexivity.
Qed.

Lemma flat_map_map_IBrk bs : flat_map item_log (map IBrk bs) = brks_log bs.
Proof. unfold brks_log. induction bs as [|b bs IH]; cbn; [reflexivity|rewrite IH; reflexivity]. Qed.

(* [process] on an event of module m, its three cases as one *)
Lemma process_eq sc w t ev m : ev_module ev = Some m ->
  process sc w t ev =
  let a := activate t (mstate w m) in
  if is_restart ev || active (snd a) then
    let r := run_event sc t m (fst a) ev (es0 (w_bud w)) in
    finish_event w m (if is_restart ev then {| active := true; timer := timer (snd a) |} else snd a)
                 (fst r) (map IBrk (snd r)) None
  else (set_mst w m (snd a), []).
Proof.
  intros Hm. destruct ev as [chk dst x|m' x|m'|m']; [discriminate|..]; injection Hm as ->;
    unfold process; rewrite !let_pair; cbn [run_event is_restart orb map];
    [destruct (active (snd (activate t (mstate w m))))..|]; reflexivity.
Qed.

Theorem process_fes sc w t ev m :
  ev_module ev = Some m ->
  w_fes (fst (process sc w t ev)) = fes_after t m (flat_map item_log (snd (process sc w t ev))) (w_fes w).
Proof.
  intros Hm. rewrite (process_eq sc w t ev m Hm). cbn zeta. unfold fes_after.
  destruct (is_restart ev || active (snd (activate t (mstate w m))));
    [|cbn [fst snd flat_map]; rewrite w_fes_set_mst; reflexivity].
  destruct (run_event_acts sc t m (fst (activate t (mstate w m))) ev (es0 (w_bud w))) as [(_ & Hb & Hs & _) _].
  destruct (run_event sc t m (fst (activate t (mstate w m))) ev (es0 (w_bud w))) as [s bs].
  cbn [fst snd es0 buf shut dead app] in *. fold (pend_of t (brks_log bs)) in Hb.
  rewrite finish_event_fes, finish_event_log, flat_map_map_IBrk.
  destruct (pend_shut_reset t m (brks_log bs) (shut s)) as [-> ->]. rewrite <- Hb, <- Hs. reflexivity.
Qed.
