(* Concrete model of the processing-element machinery of des:
     des/src/net/processing.rs      Processor::incoming_upstream / incoming_downstream
     des/src/net/runtime/events.rs  ModuleRef::{handle_message, async_wakeup, at_sim_start,
                                    at_sim_end, module_restart}, the NetEvents handlers
     des/src/net/runtime/ctx.rs     buf_send_at / buf_schedule_at / buf_process
     des/src/net/runtime/mod.rs     SimLifecycle::{at_sim_start, at_sim_end}
   Function names and branch structure follow the Rust code.  User code (processing
   elements, the module's handler, one optional sleeping task) is a script.  The world
   has two modules 0 and 1 (gate "out" of each is connected to the other without a
   channel).  No proofs in this file. *)
From Coq Require Import List NArith PArith Bool.
From DesVerif Require Import Common.Fuel Common.Codec.
Import ListNotations.
Open Scope N_scope.

(* ---- scripts of user code ---- *)
(* what ProcessingElement::incoming does with the message *)
Inductive act := Pass | Modify (k : N) | Consume.

(* one send: schedule_in(msg id, delay) to the module itself, or
   send_in(msg id, "out", delay) towards the peer *)
Record emit := { e_peer : bool; e_delay : N; e_id : N }.

Record elem := { el_act : act; el_start : list emit; el_in : list emit; el_end : list emit }.

(* The module itself.  Besides its callbacks it may do ONE of three further things:
   spawn (in at_sim_start(0)) a task that sleeps d+1 ns and then sends [h_task], or
   shut itself down (optionally restarting after r ns) when handle_message sees the
   payload [trig], or panic at the end of one callback (its stereotype has on_panic_catch,
   so Harness::catch swallows the panic and deactivates the module): [XPanic 0 x since] in
   handle_message of payload x, [XPanic 1 st since] in at_sim_start(st), [XPanic 2 _ since] in
   at_sim_end, each only from simulation time [since] on (since = 0: also in the first
   start-up; since > 0: only in a later one).  A module that shuts down and restarts may in
   addition panic in one start-up stage from time [since] on ([XShut trig r (Some (st, since))]):
   with since > 0 that is a panic in stage st of a RESTART.
   A timer excludes the other two: a shutdown drops the tokio runtime and with it the timer
   slot, and a panic skips the poll of woken tasks (subjects of C05/C09/C13, not of C14).
   Uncaught panics are outside C14. *)
Inductive extra :=
| XNone | XTimer (d : N)
| XShut (trig : N) (restart : option N) (pan : option (N * N))
| XPanic (site trig since : N).

Record handler := { h_stages : N; h_extra : extra;
  h_start : list emit; h_msg : list emit; h_end : list emit; h_task : list emit }.

Record modcfg := { m_stack : list elem; m_handler : handler }.

(* ---- the call log ---- *)
Inductive who := Handler | Task | Elem (i : nat).

Inductive hook :=
| HStart (t : N)                 (* ProcessingElement::event_start, at time t *)
| HIn (x : N)                    (* ProcessingElement::incoming(msg with payload x) *)
| HEnd                           (* ProcessingElement::event_end *)
| HHandle (x t : N)              (* Module::handle_message *)
| HSimStart (stage t : N)        (* Module::at_sim_start(stage) *)
| HSimEnd (t : N)                (* Module::at_sim_end *)
| HTask (t : N)                  (* the sleeping task resumed *)
| HReset                         (* Module::reset *)
| HSched (delay id : N)          (* schedule_in *)
| HSend (delay id : N)           (* send_in(.., "out", ..) *)
| HShut (restart : option N)     (* current().shutdown() / shutdow_and_restart_in(r) *)
| HPanic.                        (* the callback panics (caught by the stereotype) *)

Record entry := { en_mod : N; en_who : who; en_hook : hook }.

(* ---- future event set (C01, C03) ---- *)
Inductive fev :=
| EvExit (chk : option N) (dst id : N)   (* MessageExitingConnection; chk = owner of a transit gate *)
| EvDeliver (dst id : N)                 (* HandleMessageEvent *)
| EvWake (m : N)                         (* AsyncWakeupEvent *)
| EvRestart (m : N).                     (* ModuleRestartEvent *)

(* The event set is the calendar queue of des-cqueue, which C01 proves equal to the two-list
   specification of coq/CQueue/Spec.v.  [fes] restates that specification with the event itself
   as payload and without entry ids; Proc/CqInst.v [run_over_sp_eq] ties the run over [fes] to
   the run over Spec.sp and over the calendar queue.  Events scheduled for the instant of the event
   that is running join a FIFO that is served first; all others are kept sorted by time,
   FIFO among equal times.  (Every add in this model has t >= tcur: tcur is the time of the
   running event, delays are non-negative.) *)
Fixpoint fes_ins (t : N) (e : fev) (l : list (N * fev)) : list (N * fev) :=
  match l with
  | [] => [(t, e)]
  | x :: r => if t <? fst x then (t, e) :: x :: r else x :: fes_ins t e r
  end.

Record fes := { f_tcur : N; f_zero : list (N * fev); f_rest : list (N * fev) }.

Definition fes_add (t : N) (e : fev) (f : fes) : fes :=
  if t =? f_tcur f then {| f_tcur := f_tcur f; f_zero := f_zero f ++ [(t, e)]; f_rest := f_rest f |}
  else {| f_tcur := f_tcur f; f_zero := f_zero f; f_rest := fes_ins t e (f_rest f) |}.

Definition fes_fetch (f : fes) : option (N * fev * fes) :=
  match f_zero f with
  | x :: z => Some (x, {| f_tcur := f_tcur f; f_zero := z; f_rest := f_rest f |})
  | [] => match f_rest f with
          | x :: r => Some (x, {| f_tcur := fst x; f_zero := []; f_rest := r |})
          | [] => None
          end
  end.

(* ---- state local to one runtime event: call log of the current bracket, BUF_CTX.events,
   remaining send budget of the scripts, ModuleContext::shutdown_task, "Harness::catch saw a
   panic and cleared ctx.active" ---- *)
Record es := { lg : list entry; buf : list (N * fev); bud : N; shut : option (option N); dead : bool }.

Definition peer (m : N) : N := if m =? 0 then 1 else 0.

Definition say (m : N) (w : who) (h : hook) (s : es) : es :=
  {| lg := lg s ++ [{| en_mod := m; en_who := w; en_hook := h |}];
     buf := buf s; bud := bud s; shut := shut s; dead := dead s |}.

(* message/api.rs schedule_in -> buf_schedule_at: HandleMessageEvent for the current module.
   send_in -> buf_send_at: a delayed send buffers a MessageExitingConnection; an immediate one
   walks the (channel-less) gate chain inline and buffers the HandleMessageEvent of the peer.
   handle_with_sink drops the message when the owner of the first gate is inactive: for the
   inline case that happens exactly when a caught panic has just deactivated the sender (the
   other brackets whose buffers are flushed run on an active module).
   The scripts share a send budget so that every run is finite. *)
Definition pending (now m : N) (e : emit) : N * fev :=
  if e_peer e then
    if e_delay e =? 0 then (now, EvDeliver (peer m) (e_id e))
    else (now + e_delay e, EvExit (Some m) (peer m) (e_id e))
  else (now + e_delay e, EvDeliver m (e_id e)).

Definition emit1 (now m : N) (w : who) (e : emit) (s : es) : es :=
  if bud s =? 0 then s else
  {| lg := lg s ++ [{| en_mod := m; en_who := w;
                       en_hook := if e_peer e then HSend (e_delay e) (e_id e) else HSched (e_delay e) (e_id e) |}];
     buf := (if dead s && e_peer e && (e_delay e =? 0) then buf s else buf s ++ [pending now m e]);
     bud := bud s - 1; shut := shut s; dead := dead s |}.

Definition emits (now m : N) (w : who) (l : list emit) (s : es) : es :=
  fold_left (fun s e => emit1 now m w e s) l s.

(* ---- processing.rs ---- *)
Definition apply_act (a : act) (x : N) : option N :=
  match a with Pass => Some x | Modify k => Some (x + k) | Consume => None end.

(* for i in 0..n { items[i].event_start(); if let Some(m) = msg { msg = items[i].incoming(m) } } *)
Fixpoint incoming_upstream (now m : N) (i : nat) (els : list elem) (msg : option N) (s : es) : option N * es :=
  match els with
  | [] => (msg, s)
  | e :: r =>
    let s1 := emits now m (Elem i) (el_start e) (say m (Elem i) (HStart now) s) in
    match msg with
    | Some x =>
      let s2 := emits now m (Elem i) (el_in e) (say m (Elem i) (HIn x) s1) in
      incoming_upstream now m (S i) r (apply_act (el_act e) x) s2
    | None => incoming_upstream now m (S i) r None s1
    end
  end.

(* for i in (0..n).rev() { items[i].event_end() } *)
Fixpoint incoming_downstream (now m : N) (i : nat) (els : list elem) (s : es) : es :=
  match els with
  | [] => s
  | e :: r => let s1 := incoming_downstream now m (S i) r s in
              emits now m (Elem i) (el_end e) (say m (Elem i) HEnd s1)
  end.

(* ---- events.rs: the ModuleRef entry points ---- *)
Inductive kind := KMsg (x : N) | KWake | KStart (stage : N) | KEnd.

(* does the callback of this event end in a (caught) panic? *)
Definition panics (now : N) (h : handler) (k : kind) (msg : option N) : bool :=
  match h_extra h with
  | XPanic site trig since =>
    (since <=? now) &&
    match k with
    | KMsg _ => (site =? 0) && (match msg with Some y => y =? trig | None => false end)
    | KStart stage => (site =? 1) && (stage =? trig)
    | KEnd => site =? 2
    | KWake => false
    end
  | XShut _ _ (Some (st, since)) =>
    match k with KStart stage => (since <=? now) && (stage =? st) | _ => false end
  | _ => false
  end.

(* Harness::catch: the unwind is swallowed (on_panic_catch) and ctx.active is cleared *)
Definition panic_if (b : bool) (m : N) (s : es) : es :=
  if b then let s1 := say m Handler HPanic s in
            {| lg := lg s1; buf := buf s1; bud := bud s1; shut := shut s1; dead := true |}
  else s.

(* what runs inside Harness::exec: the handler callback ... *)
Definition handler_part (now m : N) (h : handler) (k : kind) (msg : option N) (s : es) : es :=
  match k with
  | KMsg _ =>
    match msg with
    | Some y =>
      let s1 := emits now m Handler (h_msg h) (say m Handler (HHandle y now) s) in
      match h_extra h with
      | XShut trig r _ =>
        if y =? trig then
          let s2 := say m Handler (HShut r) s1 in
          {| lg := lg s2; buf := buf s2; bud := bud s2;
             shut := Some (match r with Some d => Some (now + d) | None => None end); dead := dead s2 |}
        else s1
      | _ => panic_if (panics now h k msg) m s1
      end
    | None => s                                   (* Harness::exec(|| {}) *)
    end
  | KWake => s
  | KStart stage => panic_if (panics now h k msg) m (emits now m Handler (h_start h) (say m Handler (HSimStart stage now) s))
  | KEnd => panic_if (panics now h k msg) m (emits now m Handler (h_end h) (say m Handler (HSimEnd now) s))
  end.

(* ... followed by yield_now: a task woken by activate() is polled *)
Definition poll_tasks (now m : N) (h : handler) (woken : bool) (s : es) : es :=
  if woken then emits now m Task (h_task h) (say m Task (HTask now) s) else s.

(* upstream; Harness::exec(callback); downstream -- also after a caught panic *)
Definition bracket (now m : N) (c : modcfg) (woken : bool) (k : kind) (s : es) : es :=
  let '(msg, s1) := incoming_upstream now m 0 (m_stack c)
                      (match k with KMsg x => Some x | _ => None end) s in
  let s2 := handler_part now m (m_handler c) k msg s1 in
  let s3 := poll_tasks now m (m_handler c) woken s2 in
  incoming_downstream now m 0 (m_stack c) s3.

Record brk := { b_mod : N; b_kind : kind; b_time : N; b_woken : bool; b_log : list entry }.

Definition run_bracket (now m : N) (c : modcfg) (woken : bool) (k : kind) (s : es) : es * brk :=
  let s' := bracket now m c woken k {| lg := []; buf := buf s; bud := bud s; shut := shut s; dead := dead s |} in
  (s', {| b_mod := m; b_kind := k; b_time := now; b_woken := woken; b_log := lg s' |}).

Definition handle_message now m c woken (x : N) s := run_bracket now m c woken (KMsg x) s.
Definition async_wakeup now m c woken s := run_bracket now m c woken KWake s.
Definition at_sim_start now m c woken (stage : N) s := run_bracket now m c woken (KStart stage) s.
Definition at_sim_end now m c woken s := run_bracket now m c woken KEnd s.

Definition stage_list (n : N) : list N := map N.of_nat (seq 0 (N.to_nat n)).

(* for stage in 0..num_sim_start_stages() { at_sim_start(stage)?; if !active { break } } *)
Definition module_restart (now m : N) (c : modcfg) (s : es) : es * list brk :=
  fold_left (fun acc stage =>
               if dead (fst acc) then acc
               else let '(s1, b) := at_sim_start now m c false stage (fst acc) in (s1, snd acc ++ [b]))
            (stage_list (h_stages (m_handler c))) (s, []).

(* ---- the simulation ---- *)
Record mst := { active : bool; timer : option N }.   (* ctx.active; deadline of the sleeping task *)

Record world := { w_fes : fes; w_bud : N; w_m0 : mst; w_m1 : mst }.

Record script := { s_bud : N; s_m0 : modcfg; s_m1 : modcfg; s_inj : list (N * fev) }.

Definition cfg (sc : script) (m : N) : modcfg := if m =? 0 then s_m0 sc else s_m1 sc.
Definition mstate (w : world) (m : N) : mst := if m =? 0 then w_m0 w else w_m1 w.
Definition set_mst (w : world) (m : N) (x : mst) : world :=
  if m =? 0 then {| w_fes := w_fes w; w_bud := w_bud w; w_m0 := x; w_m1 := w_m1 w |}
  else {| w_fes := w_fes w; w_bud := w_bud w; w_m0 := w_m0 w; w_m1 := x |}.
Definition set_fes (w : world) (f : fes) : world :=
  {| w_fes := f; w_bud := w_bud w; w_m0 := w_m0 w; w_m1 := w_m1 w |}.

Inductive item := IBrk (b : brk) | IReset (m : N).

(* ModuleRef::activate: timer slots with deadline <= now are woken *)
Definition activate (now : N) (x : mst) : bool * mst :=
  match timer x with
  | Some d => if d <=? now then (true, {| active := active x; timer := None |}) else (false, x)
  | None => (false, x)
  end.

Definition es0 (b : N) : es := {| lg := []; buf := []; bud := b; shut := None; dead := false |}.

Definition fes_flush (ps : list (N * fev)) (f : fes) : fes := fold_left (fun f p => fes_add (fst p) (snd p) f) ps f.

(* [a caught panic has cleared ctx.active;] module.deactivate(rt) [schedules the wake-up of a newly registered timer], then buf_process:
   drain the buffered events into the event set in order, then handle a requested shutdown
   (deactivate, Module::reset, schedule the restart). *)
Definition finish_event (w : world) (m : N) (x0 : mst) (s : es) (its : list item) (wake : option N) : world * list item :=
  let x := if dead s then {| active := false; timer := timer x0 |} else x0 in
  let f0 := match wake with Some d => fes_add d (EvWake m) (w_fes w) | None => w_fes w end in
  let f1 := fes_flush (buf s) f0 in
  match shut s with
  | None => (set_mst {| w_fes := f1; w_bud := bud s; w_m0 := w_m0 w; w_m1 := w_m1 w |} m x, its)
  | Some r =>
    let f2 := match r with Some t => fes_add t (EvRestart m) f1 | None => f1 end in
    (set_mst {| w_fes := f2; w_bud := bud s; w_m0 := w_m0 w; w_m1 := w_m1 w |} m {| active := false; timer := None |},
     its ++ [IReset m])
  end.

(* the task spawned in at_sim_start(0) registers its sleep when first polled *)
Definition timer_reg (now : N) (c : modcfg) (stage : N) : option N :=
  if stage =? 0 then match h_extra (m_handler c) with XTimer d => Some (now + d + 1) | _ => None end else None.

(* NetEvents::handle for one event popped at time t *)
Definition process (sc : script) (w : world) (t : N) (ev : fev) : world * list item :=
  match ev with
  | EvExit chk dst x =>
    let ok := match chk with Some src => active (mstate w src) | None => true end in
    (if ok then set_fes w (fes_add t (EvDeliver dst x) (w_fes w)) else w, [])
  | EvDeliver m x =>
    let '(woken, ms) := activate t (mstate w m) in
    if active ms then
      let '(s, b) := handle_message t m (cfg sc m) woken x (es0 (w_bud w)) in
      finish_event w m ms s [IBrk b] None
    else (set_mst w m ms, [])
  | EvWake m =>
    let '(woken, ms) := activate t (mstate w m) in
    if active ms then
      let '(s, b) := async_wakeup t m (cfg sc m) woken (es0 (w_bud w)) in
      finish_event w m ms s [IBrk b] None
    else (set_mst w m ms, [])
  | EvRestart m =>
    let '(_, ms) := activate t (mstate w m) in
    let '(s, bs) := module_restart t m (cfg sc m) (es0 (w_bud w)) in
    finish_event w m {| active := true; timer := timer ms |} s (map IBrk bs) None
  end.

(* SimLifecycle::at_sim_start: stages outermost, modules in tree order; a module that an
   earlier stage deactivated is skipped *)
Definition start_one (sc : script) (stage m : N) (acc : world * list item) : world * list item :=
  let '(w, its) := acc in
  if (stage <? h_stages (m_handler (cfg sc m))) && active (mstate w m) then
    let '(woken, ms) := activate 0 (mstate w m) in
    let '(s, b) := at_sim_start 0 m (cfg sc m) woken stage (es0 (w_bud w)) in
    let reg := timer_reg 0 (cfg sc m) stage in
    let ms' := match reg with Some d => {| active := active ms; timer := Some d |} | None => ms end in
    let '(w', new) := finish_event w m ms' s [IBrk b] reg in
    (w', its ++ new)
  else acc.

Definition max_stage (sc : script) : N :=
  N.max 1 (N.max (h_stages (m_handler (s_m0 sc))) (h_stages (m_handler (s_m1 sc)))).

Definition sim_start (sc : script) (w : world) : world * list item :=
  fold_left (fun acc stage => start_one sc stage 1 (start_one sc stage 0 acc)) (stage_list (max_stage sc)) (w, []).

(* SimLifecycle::at_sim_end: every module, active or not; no buf_process *)
Definition end_one (sc : script) (now m : N) (acc : world * list item) : world * list item :=
  let '(w, its) := acc in
  let '(woken, ms) := activate now (mstate w m) in
  let '(s, b) := at_sim_end now m (cfg sc m) woken (es0 (w_bud w)) in
  (set_mst {| w_fes := w_fes w; w_bud := bud s; w_m0 := w_m0 w; w_m1 := w_m1 w |} m
           (if dead s then {| active := false; timer := timer ms |} else ms), its ++ [IBrk b]).

Definition sim_end (sc : script) (now : N) (w : world) : world * list item :=
  end_one sc now 1 (end_one sc now 0 (w, [])).

(* Runtime::run main loop *)
Definition lstate := (world * N * list item)%type.

Definition loop_step (sc : script) (st : lstate) : lstate + lstate :=
  let '(w, now, its) := st in
  match fes_fetch (w_fes w) with
  | None => inr st
  | Some (t, ev, f) => let '(w', new) := process sc (set_fes w f) t ev in inl (w', t, its ++ new)
  end.

Definition init_world (sc : script) : world :=
  {| w_fes := fes_flush (s_inj sc) {| f_tcur := 0; f_zero := []; f_rest := [] |}; w_bud := s_bud sc;
     w_m0 := {| active := true; timer := None |}; w_m1 := {| active := true; timer := None |} |}.

(* every loop iteration lowers  3*budget + sum of event weights  (Proc/Term.v proves that
   this fuel is never exhausted) *)
Definition fuel (sc : script) : positive :=
  N.succ_pos (3 * (s_bud sc + N.of_nat (length (s_inj sc))) + 2 * max_stage sc).

Definition run_script (sc : script) : list item * bool :=
  let '(w0, its0) := sim_start sc (init_world sc) in
  match iter_until (fuel sc) (loop_step sc) (w0, 0, its0) with
  | inr (w, now, its) => (its ++ snd (sim_end sc now w), true)
  | inl (_, _, its) => (its, false)
  end.

Definition item_log (it : item) : list entry :=
  match it with
  | IBrk b => b_log b
  | IReset m => [{| en_mod := m; en_who := Handler; en_hook := HReset |}]
  end.

Definition trace (sc : script) : list item := fst (run_script sc).
Definition flat_log (sc : script) : list entry := flat_map item_log (trace sc).

(* ---- wire format ---- *)
(* script := budget  nG blob*  mod mod  inj*
   blob   := len x1 .. xlen                           (length-prefixed)
   elem   := blob[ act k  lp(start emits) lp(in emits) lp(end emits) ]   act mod 3: 0 pass 1 modify(+k) 2 consume
   emits  := (peer delay id)*                         peer odd = send to "out", even = schedule to self
   mod    := mode nOwn blob*  blob[ handler ]         mode mod 4: 0 default stack, 1 default++own, 2 own, 3 own++default
   handler:= stages(mod 4) xkind(mod 4: 0 none 1 timer 2 shutdown 3 panic) xa xb xc  lp(start) lp(msg) lp(end) lp(task)
             timer: sleeps xa+1 ns;  shutdown: trigger payload xa, restart iff xb odd, after xc ns
             panic (caught): xb mod 3 = 0 in handle_message of payload xa, 1 in at_sim_start(xa), 2 in at_sim_end;
                             only from time xc on
             optional tail  pf pst psince  (after the four lists; used with shutdown only): pf odd = the module
             also panics (caught) in at_sim_start(pst) from time psince on
   inj    := kind dst time id                         kind odd = handle_message_on, even = add_message_onto(port) *)
Definition nxt (l : list N) : N * list N := match l with [] => (0, []) | x :: r => (x, r) end.

Fixpoint triples (l : list N) : list emit :=
  match l with
  | a :: b :: c :: r => {| e_peer := N.odd a; e_delay := b; e_id := c |} :: triples r
  | _ => []
  end.

Fixpoint take_blobs (k : nat) (l : list N) : list (list N) * list N :=
  match k with
  | O => ([], l)
  | S k' => match l with
            | [] => ([], [])
            | _ => let '(b, r) := take_lp l in let '(bs, r') := take_blobs k' r in (b :: bs, r')
            end
  end.

Definition blobs (l : list N) : list (list N) * list N :=
  let '(n, r) := nxt l in take_blobs (N.to_nat (N.min n (N.of_nat (length r)))) r.

Definition dec_elem (b : list N) : elem :=
  let '(a, r) := nxt b in let '(k, r) := nxt r in
  let '(s, r) := take_lp r in let '(i, r) := take_lp r in let '(e, _) := take_lp r in
  {| el_act := (if a mod 3 =? 0 then Pass else if a mod 3 =? 1 then Modify k else Consume);
     el_start := triples s; el_in := triples i; el_end := triples e |}.

Definition dec_handler (b : list N) : handler :=
  let '(st, r) := nxt b in let '(xk, r) := nxt r in
  let '(xa, r) := nxt r in let '(xb, r) := nxt r in let '(xc, r) := nxt r in
  let '(s, r) := take_lp r in let '(g, r) := take_lp r in let '(e, r) := take_lp r in let '(t, r) := take_lp r in
  let '(pf, r) := nxt r in let '(pst, r) := nxt r in let '(psince, _) := nxt r in
  {| h_stages := st mod 4;
     h_extra := (if xk mod 4 =? 0 then XNone else if xk mod 4 =? 1 then XTimer xa
                 else if xk mod 4 =? 2 then XShut xa (if N.odd xb then Some xc else None)
                                                  (if N.odd pf then Some (pst, psince) else None)
                 else XPanic (xb mod 3) xa xc);
     h_start := triples s; h_msg := triples g; h_end := triples e; h_task := triples t |}.

(* Module::stack(default) *)
Definition compose (mode : N) (g own : list elem) : list elem :=
  if mode mod 4 =? 0 then g else if mode mod 4 =? 1 then g ++ own else if mode mod 4 =? 2 then own else own ++ g.

Definition dec_mod (g : list elem) (l : list N) : modcfg * list N :=
  let '(mode, r) := nxt l in
  let '(own, r) := blobs r in
  let '(hb, r) := take_lp r in
  ({| m_stack := compose mode g (map dec_elem own); m_handler := dec_handler hb |}, r).

Fixpoint quads (l : list N) : list (N * fev) :=
  match l with
  | k :: d :: t :: x :: r =>
    (t, if N.odd k then EvDeliver (d mod 2) x else EvExit None (d mod 2) x) :: quads r
  | _ => []
  end.

Definition decode (l : list N) : script :=
  let '(b, r) := nxt l in
  let '(gb, r) := blobs r in
  let g := map dec_elem gb in
  let '(m0, r) := dec_mod g r in
  let '(m1, r) := dec_mod g r in
  {| s_bud := b; s_m0 := m0; s_m1 := m1; s_inj := quads r |}.

(* one log entry = 5 numbers: module who hook a b *)
Definition enc_who (w : who) : N := match w with Handler => 0 | Task => 1 | Elem i => 2 + N.of_nat i end.

Definition enc_entry (e : entry) : list N :=
  en_mod e :: enc_who (en_who e) ::
  match en_hook e with
  | HStart t => [1; t; 0]
  | HIn x => [2; x; 0]
  | HEnd => [3; 0; 0]
  | HHandle x t => [4; x; t]
  | HSimStart st t => [5; st; t]
  | HSimEnd t => [6; t; 0]
  | HTask t => [7; t; 0]
  | HReset => [8; 0; 0]
  | HSched d i => [9; d; i]
  | HSend d i => [10; d; i]
  | HShut None => [11; 0; 0]
  | HShut (Some d) => [11; 1; d]
  | HPanic => [12; 0; 0]
  end.

Definition run (input : list N) : list N :=
  let '(its, ok) := run_script (decode input) in
  flat_map enc_entry (flat_map item_log its) ++ (if ok then [] else [8]).
