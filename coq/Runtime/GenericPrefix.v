(* C11 for the runtime over ANY event set [EV : evset]: a limited run dispatches
   the longest admissible prefix of the unlimited dispatch sequence; nothing is
   lost; end time and event count; EventCount / SimTime / And / Or.
   The oracle [orc] is keyed by the dispatch number, so a run with a limit and
   the run without one ask it the same question at the same event. *)
From Coq Require Import List NArith Lia Sorting.Sorted Permutation.
From DesVerif Require Import Common.Fuel Runtime.Limit Runtime.Model Runtime.Queue Runtime.Inv Runtime.Prefix
  Runtime.Generic Runtime.EvSet Runtime.GenericProps.
Import ListNotations.
Open Scope N_scope.

Section GenericPrefix.
Variable EV : evset.
Local Notation Q := (eQ EV).
Local Notation Hint := (eHint EV).
Local Notation q_new := (e_new EV).
Local Notation q_add := (e_add EV).
Local Notation q_peek := (e_peek EV).
Local Notation q_fetch := (e_fetch EV).
Local Notation q_len := (e_len EV).
Variable orc : N -> Hint.

Local Notation rt := (grt Q).
Local Notation gacts := (gdo_actions Q q_add).
Local Notation gD := (gdispatch_event Q Hint q_add q_peek q_fetch orc).
Local Notation gall := (gdispatch_all Q Hint q_add q_peek q_fetch q_len orc).
Local Notation gbt := (gboot Q q_new q_add).
Local Notation gpre := (gpre_adds Q q_add).
Local Notation grem := (gremaining Q Hint q_fetch q_len orc).
Local Notation Inv := (GInv EV).
Local Notation mu := (gmu EV).

(* the state after dispatching the next event, whatever the limit says, and that event *)
Definition gnext (P : prog) (s : rt) : option rt :=
  match q_fetch (orc (gitr Q s)) (gfes Q s) with
  | (q, Some (tm, l)) => Some (ghandle Q q_add P l (gfetched Q s q l tm))
  | _ => None
  end.
Definition gnext_ev (s : rt) : option (N * N) :=
  match q_fetch (orc (gitr Q s)) (gfes Q s) with
  | (_, Some (tm, l)) => Some (l, tm)
  | _ => None
  end.

Lemma gD_unfold P s :
  gD P s = match q_peek (gfes Q s) with
           | None => inr s
           | Some t => if applies (glimit Q s) (gitr Q s + 1) t then inr s
                       else match gnext P s with Some s' => inl s' | None => inr s end
           end.
Proof.
  unfold gdispatch_event, gnext. destruct (q_peek (gfes Q s)); [|reflexivity].
  destruct (applies (glimit Q s) (gitr Q s + 1) n); [reflexivity|].
  destruct (q_fetch (orc (gitr Q s)) (gfes Q s)) as [q [[tm l]|]]; reflexivity.
Qed.

(* when something is pending the next event exists, has exactly the peeked time, ... *)
Lemma gnext_ok S P s t :
  Inv S s -> q_peek (gfes Q s) = Some t ->
  exists l s', gnext_ev s = Some (l, t) /\ gnext P s = Some s' /\ Inv S s' /\ (mu s' < mu s)%nat /\
               glog Q s' = glog Q s ++ [(l, t)] /\ gitr Q s' = gitr Q s + 1 /\ glimit Q s' = glimit Q s /\ gclock Q s' = t.
Proof.
  intros HI Ep. destruct (e_fetch_ok EV _ _ (orc (gitr Q s)) (G_qi _ _ _ HI) Ep) as [q' [l [F [I' [C' [Hle P']]]]]].
  destruct (GInv_fetched EV S s q' l t HI I' C' Hle P') as [HI' Hm].
  destruct (gacts_spec EV S (nth (N.to_nat l) P []) _ HI') as [A1 [A2 [A3 [A4 [A5 A6]]]]].
  exists l, (ghandle Q q_add P l (gfetched Q s q' l t)). unfold gnext_ev, gnext. rewrite F.
  split; [reflexivity|]. split; [reflexivity|]. unfold ghandle. split; [exact A1|]. split; [lia|].
  rewrite A6, A4, A5, A3. repeat split.
Qed.

(* ---- the limit is looked at by the test in dispatch_event only ---- *)
Lemma gacts_set_limit acts L : forall s, gacts acts (gset_limit Q s L) = gset_limit Q (gacts acts s) L.
Proof.
  induction acts as [|[[k x] l] acts IH]; intros s; cbn [gdo_actions]; [reflexivity|].
  change (gbudget Q (gset_limit Q s L)) with (gbudget Q s). destruct (gbudget Q s =? 0); [reflexivity|].
  destruct (k =? 0).
  - change (gadd_event_in Q q_add (gdec_budget Q (gset_limit Q s L)) x l)
      with (gset_limit Q (gadd_event_in Q q_add (gdec_budget Q s) x l) L). apply IH.
  - change (gadd_event Q q_add true (gdec_budget Q (gset_limit Q s L)) x l)
      with (gset_limit Q (gadd_event Q q_add true (gdec_budget Q s) x l) L). apply IH.
Qed.

Lemma gnext_set_limit P s L : gnext P (gset_limit Q s L) = option_map (fun x => gset_limit Q x L) (gnext P s).
Proof.
  unfold gnext. cbn [gitr gfes gset_limit]. destruct (q_fetch (orc (gitr Q s)) (gfes Q s)) as [q [[tm l]|]]; [|reflexivity].
  cbn [option_map]. f_equal. unfold ghandle. rewrite <- gacts_set_limit. reflexivity.
Qed.

Lemma gnext_ev_set_limit s L : gnext_ev (gset_limit Q s L) = gnext_ev s.
Proof. reflexivity. Qed.

(* the first k elements of the dispatch sequence of the run that ignores limits *)
Fixpoint guseq (P : prog) (k : nat) (s : rt) : list (N * N) :=
  match k with
  | O => []
  | S k' => match q_peek (gfes Q s) with
            | None => []
            | Some _ => match gnext_ev s, gnext P s with
                        | Some e, Some s' => e :: guseq P k' s'
                        | _, _ => []
                        end
            end
  end.

Lemma guseq_set_limit P L k : forall s, guseq P k (gset_limit Q s L) = guseq P k s.
Proof.
  induction k as [|k IH]; intros s; cbn [guseq]; [reflexivity|].
  change (gfes Q (gset_limit Q s L)) with (gfes Q s). destruct (q_peek (gfes Q s)); [|reflexivity].
  rewrite gnext_ev_set_limit, gnext_set_limit. destruct (gnext_ev s); [|reflexivity].
  destruct (gnext P s) as [s'|]; [|reflexivity]. cbn [option_map]. rewrite IH. reflexivity.
Qed.

Lemma grun_log S P k : forall s a,
  Inv S s -> iter_nat k (gD P) s = inr a -> glog Q a = glog Q s ++ lprefix (glimit Q s) (gitr Q s) (guseq P k s).
Proof.
  induction k as [|k IH]; intros s a HI H; cbn [iter_nat] in H; [discriminate|]. cbn [guseq].
  rewrite gD_unfold in H. destruct (q_peek (gfes Q s)) as [t|] eqn:Ep.
  - destruct (gnext_ok S P s t HI Ep) as [l [s' [Ee [En [HI' [_ [Lg [It [Li _]]]]]]]]]. rewrite Ee, En in *.
    cbn [lprefix snd]. destruct (applies (glimit Q s) (gitr Q s + 1) t).
    + injection H as <-. rewrite app_nil_r. reflexivity.
    + rewrite (IH _ _ HI' H), Lg, It, Li, <- app_assoc. reflexivity.
  - injection H as <-. cbn [lprefix]. rewrite app_nil_r. reflexivity.
Qed.

(* ---- the computed fuel; boot ---- *)
Lemma gall_iter S P s s' : Inv S s -> (gall P s = Some s' <-> iter_nat (Datatypes.S (mu s)) (gD P) s = inr s').
Proof.
  intros HI. unfold gdispatch_all. rewrite iter_until_nat, (gloop_fuel_nat EV S s HI).
  destruct (iter_nat (Datatypes.S (mu s)) (gD P) s); split; congruence.
Qed.

Lemma gpre_set_limit pre L : forall s, fst (gpre (gset_limit Q s L) pre) = gset_limit Q (fst (gpre s pre)) L.
Proof.
  induction pre as [|[t l] pre IH]; intros s; cbn [gpre_adds]; [reflexivity|].
  specialize (IH (gadd_event Q q_add false s t l)).
  change (gadd_event Q q_add false (gset_limit Q s L) t l) with (gset_limit Q (gadd_event Q q_add false s t l) L).
  destruct (gpre_adds Q q_add (gset_limit Q (gadd_event Q q_add false s t l) L) pre) as [a xa].
  destruct (gpre_adds Q q_add (gadd_event Q q_add false s t l) pre) as [b xb]. exact IH.
Qed.

Lemma gpre_fields pre : forall s,
  glog Q (fst (gpre s pre)) = glog Q s /\ gitr Q (fst (gpre s pre)) = gitr Q s /\ glimit Q (fst (gpre s pre)) = glimit Q s.
Proof.
  induction pre as [|[t l] pre IH]; intros s; cbn [gpre_adds]; [repeat split|].
  specialize (IH (gadd_event Q q_add false s t l)). destruct (gpre_adds Q q_add (gadd_event Q q_add false s t l) pre) as [a xa]. exact IH.
Qed.

Lemma gboot_limit S B L pre : gbt S B L pre = gset_limit Q (gbt S B LNone pre) L.
Proof. unfold gboot. rewrite <- gpre_set_limit. reflexivity. Qed.

Lemma gboot_fields S B L pre : glog Q (gbt S B L pre) = [] /\ gitr Q (gbt S B L pre) = 0 /\ glimit Q (gbt S B L pre) = L.
Proof. unfold gboot. destruct (gpre_fields pre (grt_new Q q_new S B L)) as [H1 [H2 H3]]. rewrite H1, H2, H3. repeat split. Qed.

Lemma gmu_set_limit s L : mu (gset_limit Q s L) = mu s.
Proof. reflexivity. Qed.

Theorem g_limited_log P S B pre L :
  exists u a, gall P (gbt S B LNone pre) = Some u /\ gall P (gbt S B L pre) = Some a /\ glog Q a = lprefix L 0 (glog Q u).
Proof.
  pose proof (gboot_inv EV S B LNone pre) as H0. pose proof (gboot_inv EV S B L pre) as HL.
  destruct (gall_total EV orc S P _ H0) as [u [Eu _]]. destruct (gall_total EV orc S P _ HL) as [a [Ea _]].
  exists u, a. split; [exact Eu|]. split; [exact Ea|].
  apply (gall_iter S P _ _ H0) in Eu. apply (gall_iter S P _ _ HL) in Ea.
  apply (grun_log S P _ _ _ H0) in Eu. apply (grun_log S P _ _ _ HL) in Ea.
  destruct (gboot_fields S B LNone pre) as [Hl0 [Hi0 HL0]]. destruct (gboot_fields S B L pre) as [Hl [Hi HLL]].
  rewrite Hl0, Hi0, HL0, lprefix_none in Eu. rewrite Hl, Hi, HLL in Ea. cbn [app] in *.
  rewrite Eu, Ea, (gboot_limit S B L pre), gmu_set_limit, guseq_set_limit. reflexivity.
Qed.

Theorem g_nothing_lost P S B pre L a :
  gall P (gbt S B L pre) = Some a ->
  Permutation (accepted (gadds Q a)) (handled (glog Q a) ++ isort (grem a)) /\
  ple_sorted (isort (grem a)) /\
  gfinish Q Hint q_fetch q_len orc a =
    OFinal (N.of_nat (length (glog Q a))) (last (map snd (glog Q a)) S) (glog Q a) (gadds Q a) (isort (grem a)) /\
  StronglySorted N.le (map snd (glog Q a)).
Proof.
  intros H. destruct (gall_total EV orc S P _ (gboot_inv EV S B L pre)) as [a' [Ea HI]]. rewrite H in Ea. injection Ea as <-.
  destruct (ggood_of_inv EV orc S a HI) as [_ [_ [G3 [_ [G5 [_ [_ [G8 _]]]]]]]].
  split; [|split; [apply isort_sorted|split]].
  - rewrite G8. apply Permutation_app_head. symmetry. apply isort_perm.
  - unfold gfinish. rewrite G3, G5. reflexivity.
  - apply (G_sorted _ _ _ HI).
Qed.

Theorem g_count_limit P S B pre n :
  exists u a, gall P (gbt S B LNone pre) = Some u /\ gall P (gbt S B (LCount n) pre) = Some a /\
              glog Q a = firstn (N.to_nat n) (glog Q u).
Proof.
  destruct (g_limited_log P S B pre (LCount n)) as [u [a [Hu [Ha E]]]]. exists u, a. repeat split; try assumption.
  rewrite E. rewrite <- (N.add_0_l n) at 1. apply lprefix_count.
Qed.

Lemma g_unlimited_sorted P S B pre u : gall P (gbt S B LNone pre) = Some u -> StronglySorted N.le (times (glog Q u)).
Proof. intros H. apply (g_nothing_lost P S B pre LNone u H). Qed.

Theorem g_time_limit P S B pre T :
  exists u a, gall P (gbt S B LNone pre) = Some u /\ gall P (gbt S B (LTime T) pre) = Some a /\
              glog Q a = filter (fun e => snd e <=? T) (glog Q u).
Proof.
  destruct (g_limited_log P S B pre (LTime T)) as [u [a [Hu [Ha E]]]]. exists u, a. repeat split; try assumption.
  rewrite E. apply lprefix_time. eapply g_unlimited_sorted; exact Hu.
Qed.

Theorem g_and_or P S B pre la lb :
  exists a b o n,
    gall P (gbt S B la pre) = Some a /\ gall P (gbt S B lb pre) = Some b /\
    gall P (gbt S B (LOr la lb) pre) = Some o /\ gall P (gbt S B (LAnd la lb) pre) = Some n /\
    length (glog Q o) = Nat.min (length (glog Q a)) (length (glog Q b)) /\
    length (glog Q n) = Nat.max (length (glog Q a)) (length (glog Q b)).
Proof.
  destruct (g_limited_log P S B pre la) as [u [a [Hu [Ha Ea]]]].
  destruct (g_limited_log P S B pre lb) as [u1 [b [Hu1 [Hb Eb]]]].
  destruct (g_limited_log P S B pre (LOr la lb)) as [u2 [o [Hu2 [Ho Eo]]]].
  destruct (g_limited_log P S B pre (LAnd la lb)) as [u3 [n [Hu3 [Hn En]]]].
  assert (u1 = u) by congruence. assert (u2 = u) by congruence. assert (u3 = u) by congruence. subst u1 u2 u3.
  exists a, b, o, n. repeat split; try assumption.
  - rewrite Eo, Ea, Eb. apply lprefix_or.
  - rewrite En, Ea, Eb. apply lprefix_and. eapply g_unlimited_sorted; exact Hu.
Qed.

(* no record of any block is the out-of-fuel record *)
Lemma gpre_no_fuel pre : forall s, ~ In OFuel (snd (gpre s pre)).
Proof.
  induction pre as [|[t l] pre IH]; intros s; cbn [gpre_adds]; [intros []|].
  specialize (IH (gadd_event Q q_add false s t l)). destruct (gpre_adds Q q_add (gadd_event Q q_add false s t l) pre) as [a xs].
  cbn [snd] in *. intros [E|H]; [discriminate|exact (IH H)].
Qed.

Theorem g_run_total sc L sched :
  ~ In OFuel (fst (grun_block Q Hint q_new q_add q_peek q_fetch q_len orc sc L sched)).
Proof.
  unfold grun_block. pose proof (gpre_no_fuel (sc_pre sc) (grt_new Q q_new (sc_start sc) (sc_budget sc) L)) as H0.
  pose proof (gboot_inv EV (sc_start sc) (sc_budget sc) L (sc_pre sc)) as HI0. unfold gboot in HI0.
  destruct (gpre_adds Q q_add (grt_new Q q_new (sc_start sc) (sc_budget sc) L) (sc_pre sc)) as [s0 o0]. cbn [fst snd] in *.
  destruct (gsched_total EV orc (sc_start sc) (sc_prog sc) sched s0 HI0) as [s1 [o1 [E1 [HI1 H1]]]]. rewrite E1.
  destruct (gall_total EV orc (sc_start sc) (sc_prog sc) s1 HI1) as [s2 [E2 _]]. rewrite E2. cbn [fst].
  intros H. apply in_app_or in H. destruct H as [H|H]; [exact (H0 H)|].
  apply in_app_or in H. destruct H as [H|[H|[]]]; [exact (H1 H)|discriminate].
Qed.

End GenericPrefix.
