(* The runtime-level statements of C02 for the runtime over ANY future event
   set [E : evset] (Runtime/EvSet.v: the operations plus six facts).
   Runtime/Instances.v builds two event sets, the specification and the
   calendar queue (every n, t >= 1); Runtime/HeapSetProps.v the BinaryHeap
   backend (every oracle). *)
From Coq Require Import List NArith ZArith.Znat Lia Sorting.Sorted Permutation.
From DesVerif Require Import Common.Fuel Runtime.Limit Runtime.Model Runtime.Inv Runtime.Generic Runtime.EvSet.
Import ListNotations.
Open Scope N_scope.

Section GenericProps.
Variable EV : evset.
Local Notation Q := (eQ EV).
Local Notation Hint := (eHint EV).
Local Notation q_new := (e_new EV).
Local Notation q_add := (e_add EV).
Local Notation q_peek := (e_peek EV).
Local Notation q_fetch := (e_fetch EV).
Local Notation q_len := (e_len EV).
Local Notation QI := (eI EV).
Local Notation q_clock := (e_clock EV).
Local Notation q_pend := (e_pend EV).
Local Notation H_new := (e_new_ok EV).
Local Notation H_add_lt := (e_add_lt EV).
Local Notation H_add_ge := (e_add_ge EV).
Local Notation H_len := (e_len_ok EV).
Local Notation H_peek_none := (e_peek_none EV).
Local Notation H_fetch := (e_fetch_ok EV).
Variable orc : N -> Hint.

Local Notation rt := (grt Q).
Local Notation gadd := (gadd_event Q q_add).
Local Notation gacts := (gdo_actions Q q_add).
Local Notation gD := (gdispatch_event Q Hint q_add q_peek q_fetch orc).
Local Notation gall := (gdispatch_all Q Hint q_add q_peek q_fetch q_len orc).
Local Notation gwith := (gwith_limit Q Hint q_add q_peek q_fetch q_len orc).
Local Notation gstp := (gstep Q Hint q_add q_peek q_fetch q_len orc).
Local Notation gsched := (gexec_sched Q Hint q_add q_peek q_fetch q_len orc).
Local Notation gpre := (gpre_adds Q q_add).
Local Notation gbt := (gboot Q q_new q_add).
Local Notation grem := (gremaining Q Hint q_fetch q_len orc).

Record GInv (S : N) (s : rt) : Prop := {
  G_qi : QI (gfes Q s);
  G_clk : q_clock (gfes Q s) = gclock Q s;
  G_sorted : StronglySorted N.le (times (glog Q s));
  G_bound : Forall (fun t => S <= t /\ t <= gclock Q s) (times (glog Q s));
  G_start : S <= gclock Q s;
  G_last : gclock Q s = last (times (glog Q s)) S;
  G_itr : gitr Q s = N.of_nat (length (glog Q s));
  G_adds : Forall rec_ok (gadds Q s);
  G_acct : Permutation (accepted (gadds Q s)) (handled (glog Q s) ++ q_pend (gfes Q s)) }.

Definition gmu (s : rt) : nat := (N.to_nat (gbudget Q s) + length (q_pend (gfes Q s)))%nat.

Lemma GInv_same S s s' :
  gfes Q s' = gfes Q s -> gclock Q s' = gclock Q s -> glog Q s' = glog Q s -> gadds Q s' = gadds Q s -> gitr Q s' = gitr Q s ->
  GInv S s -> GInv S s'.
Proof. intros E1 E2 E3 E4 E5 [H1 H2 H3 H4 H5 H6 H7 H8 H9]. constructor; rewrite ?E1, ?E2, ?E3, ?E4, ?E5; assumption. Qed.

Lemma GInv_set_limit S s L : GInv S s -> GInv S (gset_limit Q s L).
Proof. apply GInv_same; reflexivity. Qed.

Lemma GInv_new S B L : GInv S (grt_new Q q_new S B L).
Proof.
  (* an empty log, no recorded add, nothing pending: only G_qi, G_clk and G_acct look at the event set *)
  destruct (H_new S) as [H1 [H2 H3]]. constructor; cbn; [exact H1|exact H2| | | | | | |rewrite H3]; try constructor; reflexivity || lia.
Qed.

(* add_event: the verdict, and what it does to the invariant and the measure *)
Lemma gadd_spec S inh s t l :
  GInv S s ->
  GInv S (gadd inh s t l) /\ (gmu (gadd inh s t l) <= gmu s + 1)%nat /\
  glast_ok Q (gadd inh s t l) = (gclock Q s <=? t) /\
  (t < gclock Q s -> gfes Q (gadd inh s t l) = gfes Q s).
Proof.
  intros [H1 H2 H3 H4 H5 H6 H7 H8 H9]. unfold gadd_event, glast_ok, gmu. cbn [gadds gfes gbudget].
  rewrite rev_app_distr. cbn [rev app a_ok].
  destruct (N.lt_ge_cases t (q_clock (gfes Q s))) as [Hlt|Hge].
  - rewrite (H_add_lt _ _ l H1 Hlt). cbn [fst snd]. split; [|split; [lia|split; [lia|reflexivity]]].
    constructor; cbn [gfes gclock gitr glog gadds]; try assumption.
    + apply Forall_app. split; [exact H8|]. constructor; [|constructor]. unfold rec_ok. cbn. lia.
    + rewrite accepted_snoc. cbn [a_ok]. rewrite app_nil_r. exact H9.
  - destruct (H_add_ge _ _ l H1 Hge) as [q' [Ea [I' [C' P']]]]. rewrite Ea. cbn [fst snd].
    split; [|split; [rewrite (Permutation_length P'); cbn [length]; lia|split; [lia|intros; lia]]].
    constructor; cbn [gfes gclock gitr glog gadds]; try assumption.
    + congruence.
    + apply Forall_app. split; [exact H8|]. constructor; [|constructor]. unfold rec_ok. cbn. lia.
    + rewrite accepted_snoc. cbn [a_ok a_time a_label]. rewrite P', H9.
      rewrite <- app_assoc. apply Permutation_app_head. symmetry. apply Permutation_cons_append.
Qed.

Lemma gacts_spec S acts : forall s,
  GInv S s ->
  GInv S (gacts acts s) /\ (gmu (gacts acts s) <= gmu s)%nat /\
  gclock Q (gacts acts s) = gclock Q s /\ gitr Q (gacts acts s) = gitr Q s /\
  glimit Q (gacts acts s) = glimit Q s /\ glog Q (gacts acts s) = glog Q s.
Proof.
  induction acts as [|[[k x] l] acts IH]; intros s HI; cbn [gdo_actions]; [split; [exact HI|]; split; [lia|]; repeat split|].
  destruct (gbudget Q s =? 0) eqn:B; [split; [exact HI|]; split; [lia|]; repeat split|].
  (* either action is an add_event, at some time, by the state with one unit of budget less *)
  assert (Hadd : exists t, (if k =? 0 then gadd_event_in Q q_add (gdec_budget Q s) x l else gadd true (gdec_budget Q s) x l)
                           = gadd true (gdec_budget Q s) t l) by (destruct (k =? 0); eexists; reflexivity).
  destruct Hadd as [t ->].
  assert (HIb : GInv S (gdec_budget Q s)) by (revert HI; apply GInv_same; reflexivity).
  destruct (gadd_spec S true (gdec_budget Q s) t l HIb) as [A1 [A2 _]].
  destruct (IH _ A1) as [B1 [B2 [B3 [B4 [B5 B6]]]]]. split; [exact B1|]. split; [|rewrite B3, B4, B5, B6; repeat split].
  unfold gmu in *. cbn [gbudget gdec_budget gfes] in *. lia.
Qed.

(* the state right after fetch_next; itr += 1; set_now(time) *)
Lemma GInv_fetched S s q' l t :
  GInv S s -> QI q' -> q_clock q' = t -> q_clock (gfes Q s) <= t -> Permutation (q_pend (gfes Q s)) ((t, l) :: q_pend q') ->
  GInv S (gfetched Q s q' l t) /\ (gmu (gfetched Q s q' l t) < gmu s)%nat.
Proof.
  intros [H1 H2 H3 H4 H5 H6 H7 H8 H9] I' C' Hle P'. split.
  - constructor; cbn [gfetched gfes gclock gitr glog gadds]; unfold times in *; rewrite ?map_app; cbn [map snd]; try assumption.
    + apply sorted_snoc; [exact H3|]. eapply Forall_impl; [|exact H4]. cbn. intros y Hy. lia.
    + apply Forall_app. split.
      * eapply Forall_impl; [|exact H4]. cbn. intros y Hy. lia.
      * constructor; [lia|constructor].
    + lia.
    + rewrite last_last. reflexivity.
    + rewrite app_length. cbn [length]. lia.
    + rewrite H9, P'. unfold handled. rewrite map_app, <- app_assoc. reflexivity.
  - unfold gmu. cbn [gfetched gfes gbudget]. rewrite (Permutation_length P'). cbn [length]. lia.
Qed.

(* dispatch_event: the three cases.  In the third the dispatched entry (t, l)
   was pending with exactly that time, the clock becomes t before the handler
   runs, and the handler logs (l, now() = t). *)
Lemma gD_cases S P s :
  GInv S s ->
  (q_peek (gfes Q s) = None /\ gD P s = inr s) \/
  (exists t, q_peek (gfes Q s) = Some t /\ applies (glimit Q s) (gitr Q s + 1) t = true /\ gD P s = inr s) \/
  (exists t l q', q_peek (gfes Q s) = Some t /\ applies (glimit Q s) (gitr Q s + 1) t = false /\
                  In (t, l) (q_pend (gfes Q s)) /\ gclock Q s <= t /\
                  gD P s = inl (ghandle Q q_add P l (gfetched Q s q' l t)) /\
                  GInv S (gfetched Q s q' l t) /\ (gmu (gfetched Q s q' l t) < gmu s)%nat).
Proof.
  intros HI. unfold gdispatch_event. destruct (q_peek (gfes Q s)) as [t|] eqn:Ep; [|left; split; reflexivity].
  right. destruct (applies (glimit Q s) (gitr Q s + 1) t) eqn:A; [left; exists t; split; [reflexivity|]; split; [exact A|reflexivity]|].
  right. destruct (H_fetch _ _ (orc (gitr Q s)) (G_qi _ _ HI) Ep) as [q' [l [F [I' [C' [Hle P']]]]]].
  exists t, l, q'. rewrite F. split; [reflexivity|]. split; [exact A|].
  split; [apply (Permutation_in _ (Permutation_sym P')); left; reflexivity|].
  split; [rewrite <- (G_clk _ _ HI); exact Hle|]. split; [reflexivity|].
  apply GInv_fetched; assumption.
Qed.

Lemma giter S P k : forall s, GInv S s -> (gmu s < k)%nat -> exists s', iter_nat k (gD P) s = inr s' /\ GInv S s'.
Proof.
  induction k as [|k IH]; intros s HI Hk; [lia|]. cbn [iter_nat].
  destruct (gD_cases S P s HI) as [[_ E]|[[t [_ [_ E]]]|[t [l [q' [_ [_ [_ [_ [E [HI' Hm]]]]]]]]]]]; rewrite E.
  - exists s. split; [reflexivity|exact HI].
  - exists s. split; [reflexivity|exact HI].
  - unfold ghandle. destruct (gacts_spec S (nth (N.to_nat l) P []) _ HI') as [A1 [A2 _]]. apply IH; [exact A1|lia].
Qed.

Lemma gloop_fuel_nat S s : GInv S s -> Pos.to_nat (gloop_fuel Q q_len s) = Datatypes.S (gmu s).
Proof.
  intros HI. unfold gloop_fuel, gmu. rewrite (H_len _ (G_qi _ _ HI)).
  rewrite <- positive_N_nat, N.succ_pos_spec, N2Nat.inj_succ, N2Nat.inj_add, Nat2N.id. reflexivity.
Qed.

(* the event loop terminates and keeps the invariant *)
Lemma gall_total S P s : GInv S s -> exists s', gall P s = Some s' /\ GInv S s'.
Proof.
  intros HI. unfold gdispatch_all. rewrite iter_until_nat, (gloop_fuel_nat S s HI).
  destruct (giter S P (Datatypes.S (gmu s)) s HI) as [s' [E HI']]; [lia|]. rewrite E. exists s'. split; [reflexivity|exact HI'].
Qed.

Lemma gwith_total S P L s : GInv S s -> exists s', gwith P L s = Some s' /\ GInv S s'.
Proof.
  intros HI. unfold gwith_limit. destruct (gall_total S P _ (GInv_set_limit S s L HI)) as [s1 [E HI1]]. rewrite E.
  eexists. split; [reflexivity|]. apply GInv_set_limit. exact HI1.
Qed.

Lemma gstep_total S P s o : GInv S s -> exists s' x, gstp P s o = (Some s', x) /\ GInv S s' /\ x <> OFuel.
Proof.
  intros HI. destruct o as [k|T|t l]; cbn [gstep]; unfold gdispatch_n_events, gdispatch_events_until.
  - destruct (gwith_total S P (LCount (gitr Q s + k)) s HI) as [s1 [-> HI1]]. eexists _, _. split; [reflexivity|]. split; [exact HI1|discriminate].
  - destruct (gwith_total S P (LTime T) s HI) as [s1 [-> HI1]]. eexists _, _. split; [reflexivity|]. split; [exact HI1|discriminate].
  - eexists _, _. split; [reflexivity|]. split; [apply (gadd_spec S false s t l HI)|discriminate].
Qed.

Lemma gsched_total S P ops : forall s, GInv S s -> exists s' xs, gsched P s ops = (Some s', xs) /\ GInv S s' /\ ~ In OFuel xs.
Proof.
  induction ops as [|o ops IH]; intros s HI; cbn [gexec_sched].
  - exists s, []. split; [reflexivity|]. split; [exact HI|intros []].
  - destruct (gstep_total S P s o HI) as [s1 [x [-> [HI1 Hx]]]]. destruct (IH s1 HI1) as [s2 [xs [-> [HI2 Hxs]]]].
    exists s2, (x :: xs). split; [reflexivity|]. split; [exact HI2|]. intros [E|Hin]; [exact (Hx E)|exact (Hxs Hin)].
Qed.

Lemma gpre_inv S pre : forall s, GInv S s -> GInv S (fst (gpre s pre)).
Proof.
  induction pre as [|[t l] pre IH]; intros s HI; cbn [gpre_adds]; [exact HI|].
  specialize (IH (gadd false s t l) (proj1 (gadd_spec S false s t l HI))).
  destruct (gpre_adds Q q_add (gadd false s t l) pre) as [s2 xs]. exact IH.
Qed.

Lemma gboot_inv S B L pre : GInv S (gbt S B L pre).
Proof. unfold gboot. apply gpre_inv. apply GInv_new. Qed.

(* finish drains exactly the pending entries *)
Lemma gdrain_perm h k : forall q, QI q -> length (q_pend q) = k -> Permutation (gdrain Q Hint q_fetch h k q) (q_pend q).
Proof.
  induction k as [|k IH]; intros q I E; cbn [gdrain].
  - destruct (q_pend q); [constructor|discriminate].
  - destruct (q_peek q) as [t|] eqn:Ep.
    + destruct (H_fetch _ _ h I Ep) as [q' [l [F [I' [_ [_ P']]]]]]. rewrite F, P'. constructor.
      apply IH; [exact I'|]. rewrite (Permutation_length P') in E. cbn [length] in E. lia.
    + rewrite (H_peek_none _ I Ep) in E. discriminate.
Qed.

Lemma grem_perm S s : GInv S s -> Permutation (grem s) (q_pend (gfes Q s)).
Proof.
  intros HI. unfold gremaining. apply gdrain_perm; [apply (G_qi _ _ HI)|].
  rewrite (H_len _ (G_qi _ _ HI)), Nat2N.id. reflexivity.
Qed.

(* ---- what C02 says about a state of the runtime ---- *)
Definition ggood (S : N) (s : rt) : Prop :=
  S <= gclock Q s /\
  StronglySorted N.le (S :: map snd (glog Q s)) /\
  gclock Q s = last (map snd (glog Q s)) S /\
  q_clock (gfes Q s) = gclock Q s /\
  gitr Q s = N.of_nat (length (glog Q s)) /\
  q_len (gfes Q s) = N.of_nat (length (grem s)) /\
  Forall (fun r => a_ok r = (a_now r <=? a_time r)) (gadds Q s) /\
  Permutation (accepted (gadds Q s)) (handled (glog Q s) ++ grem s) /\
  (forall inh tm l, glast_ok Q (gadd inh s tm l) = (gclock Q s <=? tm) /\
                    gclock Q (gadd inh s tm l) = gclock Q s /\
                    (tm < gclock Q s -> gfes Q (gadd inh s tm l) = gfes Q s)).

Lemma ggood_of_inv S s : GInv S s -> ggood S s.
Proof.
  intros HI. pose proof HI as [H1 H2 H3 H4 H5 H6 H7 H8 H9]. pose proof (grem_perm S s HI) as Pr.
  split; [exact H5|]. split.
  { constructor; [exact H3|]. eapply Forall_impl; [|exact H4]. cbn. intros y Hy. lia. }
  split; [exact H6|]. split; [exact H2|]. split; [exact H7|].
  split; [rewrite (H_len _ H1), (Permutation_length Pr); reflexivity|].
  split; [exact H8|]. split; [rewrite H9; apply Permutation_app_head; symmetry; exact Pr|].
  intros inh tm l. destruct (gadd_spec S inh s tm l HI) as [_ [_ [A3 A4]]]. split; [exact A3|]. split; [reflexivity|exact A4].
Qed.

(* every run of every script: all loops terminate, and the booted state, the
   paused state after any step schedule and the final state are good *)
Theorem grun_good S B L pre P ops :
  exists s1 xs sf,
    gsched P (gbt S B L pre) ops = (Some s1, xs) /\ ~ In OFuel xs /\ gall P s1 = Some sf /\
    ggood S (gbt S B L pre) /\ ggood S s1 /\ ggood S sf.
Proof.
  pose proof (gboot_inv S B L pre) as H0.
  destruct (gsched_total S P ops _ H0) as [s1 [xs [E1 [H1 Hx]]]].
  destruct (gall_total S P s1 H1) as [sf [Ef Hf]].
  exists s1, xs, sf. split; [exact E1|]. split; [exact Hx|]. split; [exact Ef|].
  split; [|split]; apply ggood_of_inv; assumption.
Qed.

(* one dispatch: now() inside the handler is the timestamp the event was pending with *)
Theorem gdispatch_now S B L pre P ops s1 xs s' :
  gsched P (gbt S B L pre) ops = (Some s1, xs) -> gD P s1 = inl s' ->
  exists t l, In (t, l) (q_pend (gfes Q s1)) /\ gclock Q s1 <= t /\ gclock Q s' = t /\ glog Q s' = glog Q s1 ++ [(l, t)].
Proof.
  intros H1 HD. pose proof (gboot_inv S B L pre) as H0.
  destruct (gsched_total S P ops _ H0) as [s1' [xs' [E1 [HI1 _]]]]. rewrite H1 in E1. injection E1 as <- _.
  destruct (gD_cases S P s1 HI1) as [[_ E]|[[t [_ [_ E]]]|[t [l [q' [_ [_ [Hin [Hle [E [HI' _]]]]]]]]]]]; rewrite E in HD; try discriminate.
  injection HD as <-. exists t, l. split; [exact Hin|]. split; [exact Hle|].
  unfold ghandle. destruct (gacts_spec S (nth (N.to_nat l) P []) _ HI') as [_ [_ [C [_ [_ Lg]]]]]. rewrite C, Lg. split; reflexivity.
Qed.

End GenericProps.
