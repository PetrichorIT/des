(* The runtime of Model.v (variant [repaired]) IS the generic runtime of
   Generic.v over the specification event set (Instances.spec_evset): [to_g]
   copies the seven fields and commutes with every operation, because spq_add
   and spq_fetch are exactly the wrappers that Model.v inlines.  The theorems
   of C10 / C11 about Model.v are therefore the theorems of GenericProps /
   GenericPrefix / GenericStep read through [to_g]. *)
From Coq Require Import List NArith Lia Sorting.Sorted Permutation.
From DesVerif Require Import Common.Fuel CQueue.Spec Runtime.Limit Runtime.Model Runtime.Queue Runtime.Inv
  Runtime.Prefix Runtime.Step Runtime.Generic Runtime.EvSet Runtime.GenericProps Runtime.GenericPrefix
  Runtime.GenericStep Runtime.Instances.
Import ListNotations.
Open Scope N_scope.

Definition to_g (s : rt) : grt sp :=
  {| gfes := fes s; gclock := clock s; gitr := itr s; glimit := limit s; gbudget := budget s; glog := log s; gadds := adds s |}.
Definition of_g (g : grt sp) : rt :=
  {| fes := gfes sp g; clock := gclock sp g; itr := gitr sp g; limit := glimit sp g; budget := gbudget sp g;
     log := glog sp g; adds := gadds sp g |}.

Lemma of_to_g s : of_g (to_g s) = s.
Proof. destruct s; reflexivity. Qed.

Lemma to_of_g g : to_g (of_g g) = g.
Proof. destruct g; reflexivity. Qed.

Lemma some_of_g (o : option rt) g : option_map to_g o = Some g -> o = Some (of_g g).
Proof. destruct o as [s|]; [|discriminate]. intros H. injection H as <-. rewrite of_to_g. reflexivity. Qed.

Local Notation E := spec_evset.
Local Notation orc := (fun _ : N => tt).
Local Notation gacts := (gdo_actions (eQ E) (e_add E)).
Local Notation gD := (gdispatch_event (eQ E) (eHint E) (e_add E) (e_peek E) (e_fetch E) orc).
Local Notation gall := (gdispatch_all (eQ E) (eHint E) (e_add E) (e_peek E) (e_fetch E) (e_len E) orc).
Local Notation gwith := (gwith_limit (eQ E) (eHint E) (e_add E) (e_peek E) (e_fetch E) (e_len E) orc).
Local Notation gstp := (gstep (eQ E) (eHint E) (e_add E) (e_peek E) (e_fetch E) (e_len E) orc).
Local Notation gsched := (gexec_sched (eQ E) (eHint E) (e_add E) (e_peek E) (e_fetch E) (e_len E) orc).
Local Notation gpre := (gpre_adds (eQ E) (e_add E)).
Local Notation gbt := (gboot (eQ E) (e_new E) (e_add E)).
Local Notation grem := (gremaining (eQ E) (eHint E) (e_fetch E) (e_len E) orc).
Local Notation gfin := (gfinish (eQ E) (eHint E) (e_fetch E) (e_len E) orc).
Local Notation gblock := (grun_block (eQ E) (eHint E) (e_new E) (e_add E) (e_peek E) (e_fetch E) (e_len E) orc).

Lemma acts_eq acts : forall s, gacts acts (to_g s) = to_g (do_actions acts s).
Proof.
  induction acts as [|[[k x] l] acts IH]; intros s; cbn [do_actions gdo_actions]; [reflexivity|].
  change (gbudget _ (to_g s)) with (budget s). destruct (budget s =? 0); [reflexivity|].
  destruct (k =? 0); symmetry; rewrite <- IH; reflexivity.
Qed.

Definition smap (x : rt + rt) : grt sp + grt sp := match x with inl a => inl (to_g a) | inr b => inr (to_g b) end.

Lemma D_eq P s : gD P (to_g s) = smap (D P s).
Proof.
  unfold gdispatch_event, D, dispatch_event_peek. cbn [gfes glimit gitr to_g e_peek e_fetch spec_evset].
  destruct (peek (fes s)); [|reflexivity]. destruct (applies (limit s) (itr s + 1) n); [reflexivity|].
  unfold spq_fetch. destruct (sp_fetch (fes s)) as [q []]; try reflexivity.
  cbn [smap]. f_equal. unfold ghandle, deliver, handle. rewrite <- acts_eq. reflexivity.
Qed.

Lemma iter_eq P k : forall s, iter_nat k (gD P) (to_g s) = smap (iter_nat k (D P) s).
Proof.
  induction k as [|k IH]; intros s; cbn [iter_nat]; [reflexivity|].
  rewrite D_eq. destruct (D P s); cbn [smap]; [apply IH|reflexivity].
Qed.

Lemma all_eq P s : gall P (to_g s) = option_map to_g (dispatch_all repaired P s).
Proof.
  unfold gdispatch_all, dispatch_all, dispatch_event. cbn [v_peek repaired]. rewrite !iter_until_nat.
  change (gloop_fuel _ _ (to_g s)) with (loop_fuel s). change (fun s0 => dispatch_event_peek P s0) with (D P).
  rewrite iter_eq. destruct (iter_nat _ (D P) s); reflexivity.
Qed.

Lemma with_eq P L s : gwith P L (to_g s) = option_map to_g (with_limit repaired P L s).
Proof.
  unfold gwith_limit, with_limit. change (gset_limit _ (to_g s) L) with (to_g (set_limit s L)).
  rewrite all_eq. destruct (dispatch_all repaired P (set_limit s L)); reflexivity.
Qed.

Lemma step_eq P s o : gstp P (to_g s) o = (option_map to_g (fst (step repaired P s o)), snd (step repaired P s o)).
Proof.
  destruct o as [k|T|t l]; cbn [gstep step]; [| |reflexivity];
    unfold gdispatch_n_events, dispatch_n_events, gdispatch_events_until, dispatch_events_until; cbn [gitr to_g]; rewrite with_eq.
  - destruct (with_limit repaired P (LCount (itr s + k)) s); reflexivity.
  - destruct (with_limit repaired P (LTime T) s); reflexivity.
Qed.

Lemma sched_eq P ops : forall s,
  gsched P (to_g s) ops = (option_map to_g (fst (exec_sched repaired P s ops)), snd (exec_sched repaired P s ops)).
Proof.
  induction ops as [|o ops IH]; intros s; cbn [gexec_sched exec_sched]; [reflexivity|].
  rewrite step_eq. destruct (step repaired P s o) as [[s1|] x]; cbn [fst snd option_map]; [|reflexivity].
  rewrite IH. destruct (exec_sched repaired P s1 ops); reflexivity.
Qed.

Lemma pre_eq pre : forall s, gpre (to_g s) pre = (to_g (fst (pre_adds s pre)), snd (pre_adds s pre)).
Proof.
  induction pre as [|[t l] pre IH]; intros s; cbn [gpre_adds pre_adds]; [reflexivity|].
  change (gadd_event _ _ false (to_g s) t l) with (to_g (add_event false s t l)).
  rewrite IH. destruct (pre_adds (add_event false s t l) pre); reflexivity.
Qed.

Lemma boot_eq S B L pre : gbt S B L pre = to_g (boot S B L pre).
Proof.
  unfold gboot, boot. change (grt_new _ _ S B L) with (to_g (rt_new repaired S B L)). rewrite pre_eq. reflexivity.
Qed.

(* finish: draining the specification with fetch_next yields its pending list in order *)
Lemma drain_eq h k : forall q, length (pend q) = k -> gdrain (eQ E) (eHint E) (e_fetch E) h k q = pend q.
Proof.
  induction k as [|k IH]; intros q Hl; cbn [gdrain].
  - destruct (pend q); [reflexivity|discriminate].
  - destruct (nextev q) as [[l t]|] eqn:En.
    + destruct (nextev_fetch _ _ _ En) as [q' [F [Ep _]]]. cbn [e_fetch spec_evset]. unfold spq_fetch.
      rewrite F, Ep in *. cbn [length] in Hl. rewrite IH by lia. reflexivity.
    + destruct (nextev_none _ En) as [Ep _]. rewrite Ep in Hl. discriminate.
Qed.

Lemma rem_eq s : grem (to_g s) = pend (fes s).
Proof.
  unfold gremaining. apply drain_eq. cbn [e_len spec_evset gfes to_g]. unfold sp_len, pend.
  rewrite Nat2N.id, map_length, app_length. reflexivity.
Qed.

Lemma fin_eq s : gfin (to_g s) = finish s.
Proof. unfold gfinish, finish. rewrite rem_eq. reflexivity. Qed.

Lemma block_eq sc L sched : fst (gblock sc L sched) = run_block repaired sc L sched.
Proof.
  unfold grun_block, run_block. change (grt_new _ _ (sc_start sc) (sc_budget sc) L) with (to_g (rt_new repaired (sc_start sc) (sc_budget sc) L)).
  rewrite pre_eq. destruct (pre_adds (rt_new repaired (sc_start sc) (sc_budget sc) L) (sc_pre sc)) as [s0 o0]. cbn [fst snd].
  rewrite sched_eq. destruct (exec_sched repaired (sc_prog sc) s0 sched) as [[s1|] o1]; cbn [fst snd option_map]; [|reflexivity].
  rewrite all_eq. destruct (dispatch_all repaired (sc_prog sc) s1) as [s2|]; cbn [fst option_map]; [|reflexivity].
  rewrite fin_eq. reflexivity.
Qed.

Lemma useq_eq P k : forall s, guseq E orc P k (to_g s) = useq P k s.
Proof.
  induction k as [|k IH]; intros s; cbn [guseq useq]; [reflexivity|].
  cbn [e_peek spec_evset gfes to_g]. rewrite peek_nextev. destruct (nextev (fes s)) as [[l t]|] eqn:En; [|reflexivity].
  destruct (nextev_fetch _ _ _ En) as [q' [F _]]. unfold gnext_ev, gnext, ustep. cbn [option_map e_fetch spec_evset gfes to_g].
  unfold spq_fetch. rewrite F. f_equal. rewrite <- IH. f_equal. unfold ghandle, deliver, handle. rewrite <- acts_eq. reflexivity.
Qed.

Lemma mu_eq s : gmu E (to_g s) = mu s.
Proof. unfold gmu, mu. cbn [gbudget gfes to_g e_pend spec_evset]. unfold sp_len, pend. rewrite map_length, app_length. lia. Qed.

Lemma rest_eq P s : grest E orc P (to_g s) = rest_of P s.
Proof. unfold grest, rest_of. rewrite mu_eq, useq_eq. reflexivity. Qed.

Lemma all_of_g P s g : gall P (to_g s) = Some g -> dispatch_all repaired P s = Some (of_g g).
Proof. rewrite all_eq. apply some_of_g. Qed.

Lemma sched_to_g P s ops s1 xs : exec_sched repaired P s ops = (Some s1, xs) -> gsched P (to_g s) ops = (Some (to_g s1), xs).
Proof. intros H. rewrite sched_eq, H. reflexivity. Qed.

Lemma sched_of_g P s ops g xs : gsched P (to_g s) ops = (Some g, xs) -> exec_sched repaired P s ops = (Some (of_g g), xs).
Proof.
  rewrite sched_eq. destruct (exec_sched repaired P s ops) as [o ys]. cbn [fst snd]. intros H. injection H as H <-.
  rewrite (some_of_g _ _ H). reflexivity.
Qed.

Lemma two_runs P S B pre L (Q : list (N * N) -> list (N * N) -> Prop) :
  (exists u a, gall P (gbt S B LNone pre) = Some u /\ gall P (gbt S B L pre) = Some a /\ Q (glog _ u) (glog _ a)) ->
  exists u a, dispatch_all repaired P (boot S B LNone pre) = Some u /\ dispatch_all repaired P (boot S B L pre) = Some a /\
              Q (log u) (log a).
Proof.
  intros [u [a [Hu [Ha HQ]]]]. rewrite boot_eq in Hu, Ha. exists (of_g u), (of_g a).
  split; [apply all_of_g; exact Hu|]. split; [apply all_of_g; exact Ha|exact HQ].
Qed.

Theorem and_or_run P S B pre la lb :
  exists a b o n,
    dispatch_all repaired P (boot S B la pre) = Some a /\ dispatch_all repaired P (boot S B lb pre) = Some b /\
    dispatch_all repaired P (boot S B (LOr la lb) pre) = Some o /\
    dispatch_all repaired P (boot S B (LAnd la lb) pre) = Some n /\
    length (log o) = Nat.min (length (log a)) (length (log b)) /\
    length (log n) = Nat.max (length (log a)) (length (log b)).
Proof.
  destruct (g_and_or E orc P S B pre la lb) as [a [b [o [n [Ha [Hb [Ho [Hn [Eo En]]]]]]]]]. rewrite boot_eq in Ha, Hb, Ho, Hn.
  exists (of_g a), (of_g b), (of_g o), (of_g n). repeat split; try (apply all_of_g; assumption); assumption.
Qed.

Theorem limited_run_accounting P S B pre L a :
  dispatch_all repaired P (boot S B L pre) = Some a ->
  Permutation (accepted (adds a)) (handled (log a) ++ isort (pend (fes a))) /\
  ple_sorted (isort (pend (fes a))) /\
  finish a = OFinal (N.of_nat (length (log a))) (last (map snd (log a)) S) (log a) (adds a) (isort (pend (fes a))) /\
  StronglySorted N.le (map snd (log a)).
Proof.
  intros H. rewrite <- fin_eq, <- rem_eq. apply (g_nothing_lost E orc P S B pre L (to_g a)).
  rewrite boot_eq, all_eq, H. reflexivity.
Qed.

Theorem run_total sc : ~ In OFuel (run_script repaired sc).
Proof.
  unfold run_script. rewrite <- !block_eq. intros H. apply in_app_or in H. destruct H as [H|H]; [exact (g_run_total E orc _ _ _ H)|].
  apply in_app_or in H. destruct H as [H|H]; exact (g_run_total E orc _ _ _ H).
Qed.

Theorem stepped_eq_run P S B pre ops :
  forallb is_dispatch ops = true ->
  exists s1 xs u,
    exec_sched repaired P (boot S B LNone pre) ops = (Some s1, xs) /\
    dispatch_all repaired P s1 = Some u /\
    dispatch_all repaired P (boot S B LNone pre) = Some u.
Proof.
  intros Hd. destruct (g_stepped_eq_run E orc P S B pre ops Hd) as [s1 [xs [u [E1 [Ef Eu]]]]]. rewrite boot_eq in E1, Eu.
  exists (of_g s1), xs, (of_g u). split; [apply sched_of_g; exact E1|]. split; apply all_of_g; [rewrite to_of_g|]; assumption.
Qed.

Theorem stepped_block_eq_run_block sc sched :
  forallb is_dispatch sched = true ->
  exists o0 o1 u,
    run_block repaired sc LNone [] = o0 ++ [finish u] /\
    run_block repaired sc LNone sched = o0 ++ o1 ++ [finish u].
Proof.
  intros Hd. destruct (g_stepped_block E orc sc sched Hd) as [o0 [o1 [u [E0 E1]]]]. exists o0, o1, (of_g u).
  rewrite <- !block_eq, <- fin_eq, to_of_g. split; assumption.
Qed.

Theorem paused P S B L pre ops s xs :
  exec_sched repaired P (boot S B L pre) ops = (Some s, xs) ->
  status s = OStatus (N.of_nat (length (log s))) (N.of_nat (length (pend (fes s))))
                     (last (map snd (log s)) S) (N.of_nat (length (adds s))) /\
  Permutation (accepted (adds s)) (handled (log s) ++ pend (fes s)) /\
  s_tcur (fes s) = clock s /\
  (forall tm l, step repaired P s (SAdd tm l) = (Some (add_event false s tm l), OAddRes (clock s <=? tm))) /\
  (forall tm l, tm < clock s -> fes (add_event false s tm l) = fes s) /\
  StronglySorted N.le (map snd (rest_of P s)) /\
  (exists u, dispatch_all repaired P (set_limit s LNone) = Some u /\ log u = log s ++ rest_of P s) /\
  (forall k, exists s', dispatch_n_events repaired P s k = Some s' /\
                        log s' = log s ++ firstn (N.to_nat k) (rest_of P s) /\
                        itr s' = itr s + N.min k (N.of_nat (length (rest_of P s)))) /\
  (forall T, exists s', dispatch_events_until repaired P s T = Some s' /\
                        log s' = log s ++ filter (fun e => snd e <=? T) (rest_of P s)).
Proof.
  intros H. apply sched_to_g in H. rewrite <- boot_eq in H.
  destruct (g_paused E orc P S B L pre ops _ _ H) as [G1 [G2 [G3 [G4 [G5 [G6 [[u [Gu Gl]] [G8 G9]]]]]]]].
  rewrite rem_eq in G1, G2. rewrite rest_eq in *.
  split; [exact G1|]. split; [exact G2|]. split; [exact G3|].
  split; [intros tm l; cbn [step]; f_equal; exact (f_equal snd (G4 tm l))|]. split; [exact G5|]. split; [exact G6|].
  split; [exists (of_g u); split; [apply all_of_g; exact Gu|exact Gl]|]. split.
  - intros k. destruct (G8 k) as [s' [E1 E2]]. exists (of_g s'). split; [|exact E2].
    unfold dispatch_n_events. apply some_of_g. rewrite <- with_eq. exact E1.
  - intros T. destruct (G9 T) as [s' [E1 E2]]. exists (of_g s'). split; [|exact E2].
    unfold dispatch_events_until. apply some_of_g. rewrite <- with_eq. exact E1.
Qed.
