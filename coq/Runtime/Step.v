(* C10: the vocabulary of stepping, and what holds of any state, reachable or
   not: a run of dispatch_event keeps the limit, where it ends the unlimited run
   ends as well, and the step functions ignore the configured limit. *)
From Coq Require Import List NArith Sorting.Sorted.
From DesVerif Require Import Common.Lists Common.Fuel Runtime.Limit Runtime.Model Runtime.Queue Runtime.Inv Runtime.Prefix.
Import ListNotations.
Open Scope N_scope.

(* [u] is where the run that ignores limits ends when started in [s].  The development itself argues with
   GenericStep.gcompletes; [completes], step_back and iter_limit characterise the limit-free completion
   directly on Model.v's [dispatch_event] for whoever reasons about [step] without the generic runtime. *)
Definition completes (P : prog) (s u : rt) : Prop := exists k, iter_nat k (D P) (set_limit s LNone) = inr u.

Lemma D_none_go P s l t :
  nextev (fes s) = Some (l, t) -> D P (set_limit s LNone) = inl (set_limit (ustep P s l t) LNone).
Proof. intros E. rewrite (D_go P (set_limit s LNone) l t E eq_refl), ustep_set_limit. reflexivity. Qed.

Lemma step_back P k : forall s s1 u, iter_nat k (D P) s = inr s1 -> completes P s1 u -> completes P s u.
Proof.
  induction k as [|k IH]; intros s s1 u H C; cbn [iter_nat] in H; [discriminate|].
  destruct (D_cases P s) as [[_ E]|[[l [t [_ [_ E]]]]|[l [t [En [_ E]]]]]]; rewrite E in H.
  - injection H as <-. exact C.
  - injection H as <-. exact C.
  - destruct (IH _ _ _ H C) as [k' C']. exists (S k'). cbn [iter_nat]. rewrite (D_none_go P s l t En). exact C'.
Qed.

Lemma iter_limit P k : forall s s', iter_nat k (D P) s = inr s' -> limit s' = limit s.
Proof.
  induction k as [|k IH]; intros s s' H; cbn [iter_nat] in H; [discriminate|].
  destruct (D_cases P s) as [[_ E]|[[l [t [_ [_ E]]]]|[l [t [En [_ E]]]]]]; rewrite E in H.
  - injection H as <-. reflexivity.
  - injection H as <-. reflexivity.
  - rewrite (IH _ _ H). apply ustep_fields.
Qed.

Definition is_dispatch (o : sop) : bool := match o with SAdd _ _ => false | _ => true end.

(* the configured limit plays no role in a step *)
Theorem step_ignores_configured_limit P L' L s :
  with_limit repaired P L' (set_limit s L) = option_map (fun s' => set_limit s' L) (with_limit repaired P L' s).
Proof.
  unfold with_limit. change (set_limit (set_limit s L) L') with (set_limit s L').
  destruct (dispatch_all repaired P (set_limit s L')); reflexivity.
Qed.

(* everything the runtime would still dispatch from [s] if it ran to the end *)
Definition rest_of (P : prog) (s : rt) : list (N * N) := useq P (S (mu s)) s.

