(* Facts about the event-set specification (CQueue.Spec) as the runtime uses
   it: add, peek, fetch, the pending list, and the sort of [remaining]. *)
From Coq Require Import List NArith Lia Sorting.Sorted Permutation.
From DesVerif Require Import CQueue.Model CQueue.Spec CQueue.ListX CQueue.SpecProps Runtime.Model.
Import ListNotations.
Open Scope N_scope.

Definition evp (e : ev) : N * N := (etime e, epay e).

Lemma pend_eq q : pend q = map evp (s_zero q ++ s_rest q).
Proof. reflexivity. Qed.

(* (label, time) of the event fetch_next would return *)
Definition nextev (q : sp) : option (N * N) :=
  match s_zero q with
  | x :: _ => Some (epay x, etime x)
  | [] => match s_rest q with x :: _ => Some (epay x, etime x) | [] => None end
  end.

Lemma peek_nextev q : peek q = option_map snd (nextev q).
Proof. unfold peek, sp_peek, nextev. destruct (s_zero q); [destruct (s_rest q)|]; reflexivity. Qed.

(* ---- add ---- *)
Lemma sp_add_past q t l : t < s_tcur q -> sp_add q t l = (q, None, OPanic 1).
Proof. intros H. unfold sp_add. apply N.ltb_lt in H. rewrite H. reflexivity. Qed.

Lemma sp_add_ok q t l :
  s_tcur q <= t ->
  let q' := fst (fst (sp_add q t l)) in
  snd (sp_add q t l) = OAdded /\ s_tcur q' = s_tcur q /\
  Permutation (pend q') ((t, l) :: pend q) /\ sp_len q' = sp_len q + 1.
Proof.
  intros H. unfold sp_add. apply N.ltb_ge in H. rewrite H.
  destruct (t =? s_tcur q); cbn [fst snd s_tcur]; (split; [reflexivity|]); (split; [reflexivity|]); split.
  - unfold pend. cbn [s_zero s_rest]. rewrite <- app_assoc, !map_app. cbn [app map].
    symmetry. apply Permutation_middle.
  - unfold sp_len. cbn [s_zero s_rest]. rewrite app_length. cbn [length]. lia.
  - unfold pend. cbn [s_zero s_rest]. rewrite !map_app.
    etransitivity; [apply Permutation_app_head; apply Permutation_map; apply sins_perm|].
    cbn [map]. symmetry. apply Permutation_middle.
  - unfold sp_len. cbn [s_zero s_rest]. rewrite (Permutation_length (sins_perm _ _)). cbn [length]. lia.
Qed.

(* ---- peek / fetch ---- *)
Lemma nextev_none q : nextev q = None -> pend q = [] /\ sp_len q = 0.
Proof.
  unfold nextev, pend, sp_len. destruct (s_zero q); [|discriminate]. destruct (s_rest q); [|discriminate].
  intros _. split; reflexivity.
Qed.

Lemma nextev_fetch q l t :
  nextev q = Some (l, t) ->
  exists q', sp_fetch q = (q', OFetched l t) /\ pend q = (t, l) :: pend q' /\ sp_len q = sp_len q' + 1 /\
             s_next q' = s_next q.
Proof.
  unfold nextev, sp_fetch, pend, sp_len. destruct (s_zero q) as [|x z].
  - destruct (s_rest q) as [|x r]; [discriminate|]. intros E. injection E as <- <-.
    eexists. split; [reflexivity|]. cbn [s_zero s_rest s_next app map length]. repeat split; try reflexivity. lia.
  - intros E. injection E as <- <-. eexists. split; [reflexivity|]. cbn [s_zero s_rest s_next app map length].
    repeat split; try reflexivity. lia.
Qed.

Lemma fetch_tcur q l t q' :
  SI q -> nextev q = Some (l, t) -> sp_fetch q = (q', OFetched l t) -> s_tcur q' = t /\ s_tcur q <= t.
Proof.
  intros [Hs Hz Hr Hi Hn]. unfold nextev, sp_fetch. destruct (s_zero q) as [|x z].
  - destruct (s_rest q) as [|x r]; [discriminate|]. intros E F. injection E as <- <-. injection F as <-.
    cbn [s_tcur]. split; [reflexivity|]. apply Hr. left; reflexivity.
  - intros E F. injection E as <- <-. injection F as <-. cbn [s_tcur].
    rewrite (Hz x (or_introl eq_refl)). split; [reflexivity|lia].
Qed.

(* the next event is an earliest pending one *)
Lemma nextev_min q l t : SI q -> nextev q = Some (l, t) -> Forall (fun p => t <= fst p) (pend q).
Proof.
  intros [Hs Hz Hr Hi Hn]. unfold nextev, pend. rewrite Forall_forall.
  destruct (s_zero q) as [|x z] eqn:Ez.
  - destruct (s_rest q) as [|x r] eqn:Er; [discriminate|]. intros E. injection E as <- <-.
    intros p Hp. cbn [app] in Hp. apply in_map_iff in Hp. destruct Hp as [y [<- Hy]]. cbn [fst].
    destruct Hy as [<-|Hy]; [lia|]. inversion Hs as [|? ? _ Hall]; subst. rewrite Forall_forall in Hall.
    specialize (Hall y Hy). unfold key_lt in Hall. lia.
  - intros E. injection E as <- <-. intros p Hp. apply in_map_iff in Hp. destruct Hp as [y [<- Hy]]. cbn [fst].
    rewrite (Hz x (or_introl eq_refl)). apply in_app_or in Hy. destruct Hy as [Hy|Hy].
    + rewrite (Hz y Hy). lia.
    + apply Hr. exact Hy.
Qed.

(* ---- isort ---- *)
Lemma pins_perm a l : Permutation (pins a l) (a :: l).
Proof.
  induction l as [|x l IH]; cbn [pins]; [reflexivity|].
  destruct (ple a x); [reflexivity|]. rewrite IH. apply perm_swap.
Qed.

Lemma isort_perm l : Permutation (isort l) l.
Proof.
  induction l as [|a l IH]; cbn [isort fold_right]; [reflexivity|].
  rewrite pins_perm. constructor. exact IH.
Qed.

Definition ple_sorted (l : list (N * N)) := StronglySorted (fun a b => ple a b = true) l.

Lemma ple_total a b : ple a b = false -> ple b a = true.
Proof. unfold ple. lia. Qed.
Lemma ple_trans a b c : ple a b = true -> ple b c = true -> ple a c = true.
Proof. unfold ple. lia. Qed.

Lemma pins_sorted a l : ple_sorted l -> ple_sorted (pins a l).
Proof.
  unfold ple_sorted. induction l as [|x l IH]; intros Hs; cbn [pins].
  - repeat constructor.
  - inversion Hs as [|? ? Hs' Hall]; subst. destruct (ple a x) eqn:E.
    + constructor; [exact Hs|]. constructor; [exact E|].
      eapply Forall_impl; [|exact Hall]. intros y Hy. eapply ple_trans; eassumption.
    + constructor; [apply IH; exact Hs'|]. rewrite Forall_forall in *. intros y Hy.
      apply (Permutation_in _ (pins_perm a l)) in Hy. destruct Hy as [<-|Hy]; [apply ple_total; exact E|auto].
Qed.

Lemma isort_sorted l : ple_sorted (isort l).
Proof. induction l as [|a l IH]; cbn [isort fold_right]; [constructor|apply pins_sorted; exact IH]. Qed.
