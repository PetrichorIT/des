(* Properties of the BinaryHeap event set (Runtime/HeapSet.v), for EVERY oracle
   that resolves the choice among equal timestamps:
   A. its invariant and the six facts of Runtime/EvSet.v, hence the
      runtime-level statements of C02 for the runtime over this backend;
   B. for cancel-free operation histories: time order, exactly-once accounting,
      the len formula, peek_time = time of the next fetch, and the refinement of
      the two-list specification CQueue.Spec up to the order among equal
      timestamps of entries that are not in the zero queue. *)
From Coq Require Import List Arith NArith Lia Bool Sorting.Sorted Permutation.
From DesVerif Require Import CQueue.Model CQueue.Spec CQueue.ListX CQueue.SpecProps Runtime.Model Runtime.Queue
  Runtime.HeapSet Runtime.Generic Runtime.EvSet Runtime.GenericProps Runtime.HeapRt.
Import ListNotations.
Open Scope N_scope.

(* ---- min_time / cands / remove1 ---- *)
Lemma min_time_none l : min_time l = None -> l = [].
Proof. destruct l as [|e r]; [reflexivity|]. cbn [min_time]. destruct (min_time r); discriminate. Qed.

Lemma min_time_le l : forall m, min_time l = Some m -> Forall (fun e => m <= fst e) l.
Proof.
  induction l as [|e r IH]; intros m H; cbn [min_time] in H; [discriminate|].
  destruct (min_time r) as [m'|] eqn:E.
  - injection H as <-. constructor; [lia|]. eapply Forall_impl; [|apply (IH m' eq_refl)]. cbn. intros x Hx. lia.
  - injection H as <-. rewrite (min_time_none r E). constructor; [lia|constructor].
Qed.

Lemma min_time_in l : forall m, min_time l = Some m -> exists e, In e l /\ fst e = m.
Proof.
  induction l as [|e r IH]; intros m H; cbn [min_time] in H; [discriminate|].
  destruct (min_time r) as [m'|] eqn:E.
  - injection H as <-. destruct (N.le_gt_cases (fst e) m') as [Hle|Hgt].
    + exists e. split; [left; reflexivity|lia].
    + destruct (IH m' eq_refl) as [x [Hx Ex]]. exists x. split; [right; exact Hx|lia].
  - injection H as <-. exists e. split; [left; reflexivity|reflexivity].
Qed.

Lemma cands_spec l m : min_time l = Some m ->
  cands l <> [] /\ forall e, In e (cands l) -> In e l /\ fst e = m.
Proof.
  intros H. unfold cands. rewrite H. split.
  - destruct (min_time_in l m H) as [e [He Ee]]. intros Hn.
    assert (Hin : In e (filter (fun x => fst x =? m) l)) by (apply filter_In; split; [exact He|lia]).
    rewrite Hn in Hin. destruct Hin.
  - intros e He. apply filter_In in He. destruct He as [He Ee]. split; [exact He|lia].
Qed.

Lemma pair_eqb_eq a b : pair_eqb a b = true <-> a = b.
Proof. unfold pair_eqb. destruct a as [a1 a2], b as [b1 b2]. cbn [fst snd]. split; [intros H; f_equal; lia|intros H; injection H as -> ->; lia]. Qed.

Lemma remove1_perm e l : In e l -> Permutation l (e :: remove1 e l).
Proof.
  induction l as [|x l IH]; intros H; [destruct H|]. cbn [remove1]. destruct (pair_eqb x e) eqn:E.
  - apply pair_eqb_eq in E. subst x. reflexivity.
  - destruct H as [->|H]; [rewrite (proj2 (pair_eqb_eq e e) eq_refl) in E; discriminate|].
    rewrite (IH H) at 1. apply perm_swap.
Qed.

(* whatever index the oracle names, `pop` returns one of the candidates *)
Lemma pick_in {A} n (c : A) cs : In (nth n (c :: cs) c) (c :: cs).
Proof.
  destruct (Nat.lt_ge_cases n (length (c :: cs))) as [H|H]; [apply nth_In; exact H|].
  rewrite nth_overflow by exact H. left; reflexivity.
Qed.

(* ---- A. invariant and interface facts ---- *)
Definition HI (h : hs) : Prop :=
  Forall (fun e => fst e = hlast h) (hzero h) /\ Forall (fun e => hlast h <= fst e) (hbag h).

Definition hpend (h : hs) : list (N * N) := hzero h ++ hbag h.

Lemma heap_new S : HI (hp_new S) /\ hlast (hp_new S) = S /\ hpend (hp_new S) = [].
Proof. repeat split; constructor. Qed.

Lemma heap_add_lt h t l : HI h -> t < hlast h -> hp_add h t l = (h, false).
Proof. intros _ H. unfold hp_add. apply N.ltb_lt in H. rewrite H. reflexivity. Qed.

Lemma heap_add_ge h t l : HI h -> hlast h <= t ->
  exists h', hp_add h t l = (h', true) /\ HI h' /\ hlast h' = hlast h /\ Permutation (hpend h') ((t, l) :: hpend h).
Proof.
  intros [Hz Hb] Hle. unfold hp_add. apply N.ltb_ge in Hle. rewrite Hle. apply N.ltb_ge in Hle.
  destruct (hlast h =? t) eqn:E; eexists; (split; [reflexivity|]); unfold HI, hpend; cbn [hzero hbag hlast].
  - split; [split; [|exact Hb]|split; [reflexivity|]].
    + apply Forall_app. split; [exact Hz|]. constructor; [cbn; lia|constructor].
    + rewrite <- app_assoc. cbn [app]. symmetry. apply Permutation_middle.
  - split; [split; [exact Hz|]|split; [reflexivity|]].
    + apply Forall_app. split; [exact Hb|]. constructor; [cbn; lia|constructor].
    + rewrite app_assoc. symmetry. apply Permutation_cons_append.
Qed.

Lemma heap_len h : HI h -> hp_len h = N.of_nat (length (hpend h)).
Proof. intros _. unfold hp_len, hpend. rewrite app_length. reflexivity. Qed.

Lemma heap_peek_none h : HI h -> hp_peek h = None -> hpend h = [].
Proof.
  intros _. unfold hp_peek, hpend. destruct (hzero h); [|discriminate]. intros H. rewrite (min_time_none _ H). reflexivity.
Qed.

Lemma heap_peek_min h t : HI h -> hp_peek h = Some t -> Forall (fun e => t <= fst e) (hpend h).
Proof.
  intros [Hz Hb]. unfold hp_peek, hpend. destruct (hzero h) as [|x z]; [apply min_time_le|].
  intros E. injection E as <-. inversion Hz as [|? ? Hx Hz']; subst. apply Forall_app. split.
  - constructor; [lia|]. eapply Forall_impl; [|exact Hz']. cbn. intros y Ey. lia.
  - eapply Forall_impl; [|exact Hb]. cbn. intros y Ey. lia.
Qed.

Lemma heap_fetch' h t pick : HI h -> hp_peek h = Some t ->
  exists h' l, hp_fetch pick h = (h', Some (t, l)) /\ HI h' /\ hlast h' = t /\ hlast h <= t /\
               Permutation (hpend h) ((t, l) :: hpend h').
Proof.
  intros HIh Hp. pose proof (heap_peek_min h t HIh Hp) as Hmin. destruct HIh as [Hz Hb].
  unfold hp_peek, hp_fetch, hpend, HI in *. destruct (hzero h) as [|[tx lx] z].
  - destruct (cands_spec _ _ Hp) as [Hne Hc]. destruct (cands (hbag h)) as [|c cs]; [congruence|].
    set (e := nth (pick (c :: cs)) (c :: cs) c). destruct (Hc e (pick_in _ _ _)) as [Hb' Et].
    pose proof (remove1_perm e (hbag h) Hb') as P. rewrite P in Hmin. inversion Hmin as [|? ? _ Hmin']; subst.
    exists {| hzero := []; hbag := remove1 e (hbag h); hlast := fst e |}, (snd e). rewrite <- surjective_pairing.
    split; [reflexivity|]. cbn [hzero hbag hlast app]. split; [split; [constructor|exact Hmin']|].
    split; [reflexivity|]. split; [|exact P]. rewrite Forall_forall in Hb. apply (Hb e Hb').
  - injection Hp as <-. inversion Hz as [|? ? Hx Hz']; subst. cbn [fst] in Hx.
    exists {| hzero := z; hbag := hbag h; hlast := tx |}, lx. split; [reflexivity|]. cbn [hzero hbag hlast fst].
    split; [split|].
    + eapply Forall_impl; [|exact Hz']. cbn. intros x Ex. lia.
    + eapply Forall_impl; [|exact Hb]. cbn. intros x Ex. lia.
    + split; [reflexivity|]. split; [lia|reflexivity].
Qed.

(* the BinaryHeap backend as an event set in the sense of Runtime/EvSet.v *)
Definition heap_evset : evset :=
  {| eQ := hs; eHint := hint; e_new := hp_new; e_add := hp_add; e_peek := hp_peek; e_fetch := hp_fetch; e_len := hp_len;
     eI := HI; e_clock := hlast; e_pend := hpend;
     e_new_ok := heap_new; e_add_lt := heap_add_lt; e_add_ge := heap_add_ge; e_len_ok := heap_len;
     e_peek_none := heap_peek_none; e_fetch_ok := heap_fetch' |}.

(* the runtime over the heap backend, any oracle: every loop terminates; the
   booted, every paused and the final state satisfy the clauses of C02 *)
Definition hgood (orc : N -> hint) : N -> hrt -> Prop := ggood heap_evset orc.

Theorem heap_runtime_good (orc : N -> hint) S B L pre P ops :
  exists s1 xs sf,
    hexec_sched orc P (hboot S B L pre) ops = (Some s1, xs) /\ ~ In OFuel xs /\ hdispatch_all orc P s1 = Some sf /\
    hgood orc S (hboot S B L pre) /\ hgood orc S s1 /\ hgood orc S sf.
Proof. apply (grun_good heap_evset orc). Qed.

Theorem heap_dispatch_now (orc : N -> hint) S B L pre P ops s1 xs s' :
  hexec_sched orc P (hboot S B L pre) ops = (Some s1, xs) ->
  gdispatch_event hs hint hp_add hp_peek hp_fetch orc P s1 = inl s' ->
  exists t l, In (t, l) (hpend (gfes hs s1)) /\ gclock hs s1 <= t /\ gclock hs s' = t /\ glog hs s' = glog hs s1 ++ [(l, t)].
Proof. apply (gdispatch_now heap_evset orc). Qed.

(* ---- B. operation histories ---- *)
Definition adds_of (o : op) (x : out) : list (N * N) :=
  match o, x with Add t p, OAdded => [(p, t)] | _, _ => [] end.
Definition fetch_of (x : out) : list (N * N) := match x with OFetched p t => [(p, t)] | _ => [] end.

Fixpoint accepted_adds (ops : list op) (outs : list out) : list (N * N) :=
  match ops, outs with
  | o :: r, x :: xs => adds_of o x ++ accepted_adds r xs
  | _, _ => []
  end.

Definition hpend_pt (h : hs) : list (N * N) := map (fun e => (snd e, fst e)) (hpend h).

Lemma fetched_outs_cons x xs : fetched_outs (x :: xs) = fetch_of x ++ fetched_outs xs.
Proof. destruct x; reflexivity. Qed.

Lemma hp_step_acct pick h o :
  HI h -> HI (fst (hp_step pick h o)) /\
          Permutation (adds_of o (snd (hp_step pick h o)) ++ hpend_pt h)
                      (fetch_of (snd (hp_step pick h o)) ++ hpend_pt (fst (hp_step pick h o))).
Proof.
  intros HIh. destruct o as [t p|k| | | | |]; cbn [hp_step]; try (split; [exact HIh|reflexivity]).
  - destruct (N.lt_ge_cases t (hlast h)) as [Hlt|Hge].
    + rewrite (heap_add_lt h t p HIh Hlt). cbn [fst snd adds_of fetch_of app]. split; [exact HIh|reflexivity].
    + destruct (heap_add_ge h t p HIh Hge) as [h' [E [HI' [_ P']]]]. rewrite E. cbn [fst snd adds_of fetch_of app].
      split; [exact HI'|]. unfold hpend_pt. rewrite P'. reflexivity.
  - destruct (hp_peek h) as [t|] eqn:Ep.
    + destruct (heap_fetch' h t pick HIh Ep) as [h' [l [E [HI' [_ [_ P']]]]]]. rewrite E.
      cbn [fst snd adds_of fetch_of app]. split; [exact HI'|]. unfold hpend_pt. rewrite P'. reflexivity.
    + pose proof (heap_peek_none h HIh Ep) as En. unfold hpend in En. apply app_eq_nil in En. destruct En as [Ez Eb].
      unfold hp_fetch. rewrite Ez, Eb. cbn. split; [exact HIh|reflexivity].
Qed.

Lemma hp_run_acct orc ops : forall i h,
  HI h ->
  HI (fst (hp_run_from orc i h ops)) /\
  Permutation (accepted_adds ops (snd (hp_run_from orc i h ops)) ++ hpend_pt h)
              (fetched_outs (snd (hp_run_from orc i h ops)) ++ hpend_pt (fst (hp_run_from orc i h ops))).
Proof.
  induction ops as [|o ops IH]; intros i h HIh; cbn [hp_run_from]; [split; [exact HIh|reflexivity]|].
  destruct (hp_step_acct (orc i) h o HIh) as [HI1 P1]. destruct (hp_step (orc i) h o) as [h1 x]. cbn [fst snd] in *.
  destruct (IH (S i) h1 HI1) as [HI2 P2]. destruct (hp_run_from orc (S i) h1 ops) as [h2 xs]. cbn [fst snd] in *.
  split; [exact HI2|]. cbn [accepted_adds]. rewrite fetched_outs_cons.
  (* adds(o) ++ adds(rest) ++ pending: bring adds(o) next to pending, one step (P1); bring fetched(o) to the front, the rest (P2) *)
  rewrite <- !app_assoc, Permutation_app_swap_app, P1, Permutation_app_swap_app, P2. reflexivity.
Qed.

(* every accepted add is fetched exactly once with its timestamp, or still pending *)
Theorem heap_exactly_once (orc : oracle) ts ops :
  let r := hp_run_from orc 0 (hp_new ts) ops in
  Permutation (accepted_adds ops (snd r)) (fetched_outs (snd r) ++ hpend_pt (fst r)).
Proof.
  cbn zeta. destruct (hp_run_acct orc ops 0%nat (hp_new ts) (proj1 (heap_new ts))) as [_ P].
  unfold hpend_pt at 1 in P. cbn in P. rewrite app_nil_r in P. exact P.
Qed.

(* len = accepted - fetched *)
Theorem heap_len_formula (orc : oracle) ts ops :
  let r := hp_run_from orc 0 (hp_new ts) ops in
  (N.to_nat (hp_len (fst r)) + length (fetched_outs (snd r)) = length (accepted_adds ops (snd r)))%nat.
Proof.
  cbn zeta. pose proof (heap_exactly_once orc ts ops) as P. cbn zeta in P. apply Permutation_length in P.
  rewrite app_length in P. unfold hpend_pt in P. rewrite map_length in P.
  unfold hp_len. rewrite Nat2N.id. unfold hpend in P. rewrite app_length in P. lia.
Qed.

Lemma heap_reachable_HI (orc : oracle) ts ops : HI (fst (hp_run_from orc 0 (hp_new ts) ops)).
Proof. apply hp_run_acct. apply heap_new. Qed.

(* peek_time is the time of what fetch_next returns next (whatever the oracle),
   the earliest pending time; it is None exactly on the empty set; it changes nothing *)
Theorem heap_peek_is_next_fetch (orc : oracle) ts ops :
  let h := fst (hp_run_from orc 0 (hp_new ts) ops) in
  (hp_peek h = None <-> hp_len h = 0) /\
  (forall t, hp_peek h = Some t ->
     Forall (fun e => t <= fst e) (hpend h) /\
     forall pick, exists p h', hp_step pick h Fetch = (h', OFetched p t) /\ hlast h' = t) /\
  (forall pick, fst (hp_step pick h Peek) = h).
Proof.
  cbn zeta. pose proof (heap_reachable_HI orc ts ops) as HIh. set (h := fst (hp_run_from orc 0 (hp_new ts) ops)) in *.
  split; [|split].
  - split.
    + intros H. rewrite (heap_len h HIh), (heap_peek_none h HIh H). reflexivity.
    + intros H. unfold hp_len in H. unfold hp_peek. destruct (hzero h); [|cbn in H; lia]. destruct (hbag h); [reflexivity|cbn in H; lia].
  - intros t Ht. split.
    + apply heap_peek_min; assumption.
    + intros pick. destruct (heap_fetch' h t pick HIh Ht) as [h' [l [E [_ [C _]]]]]. exists l, h'. cbn [hp_step]. rewrite E. split; [reflexivity|exact C].
  - reflexivity.
Qed.

(* ---- refinement of the two-list specification up to ties ---- *)
Record HR (h : hs) (s : sp) : Prop := {
  HR_hi : HI h;
  HR_si : SI s;
  HR_zero : hzero h = map evp (s_zero s);                              (* the zero queues are identical *)
  HR_bag : Permutation (map fst (hbag h)) (map etime (s_rest s));       (* the rest: the same timestamps *)
  HR_last : hlast h = s_tcur s }.

Definition zflag_sp (a : sst) (o : op) : bool :=
  match o with Fetch => match s_zero (ss a) with [] => false | _ => true end | _ => false end.
Definition zflag_hp (h : hs) (o : op) : bool :=
  match o with Fetch => match hzero h with [] => false | _ => true end | _ => false end.

(* outputs paired with "this fetch was served by the zero queue" *)
Fixpoint sp_trace (a : sst) (ops : list op) : list (out * bool) :=
  match ops with
  | [] => []
  | o :: r => (snd (sp_step a o), zflag_sp a o) :: sp_trace (fst (sp_step a o)) r
  end.
Fixpoint hp_trace (orc : oracle) (i : nat) (h : hs) (ops : list op) : list (out * bool) :=
  match ops with
  | [] => []
  | o :: r => (snd (hp_step (orc i) h o), zflag_hp h o) :: hp_trace orc (S i) (fst (hp_step (orc i) h o)) r
  end.

Lemma sp_trace_outs ops : forall a, map fst (sp_trace a ops) = snd (sp_run_from a ops).
Proof.
  induction ops as [|o ops IH]; intros a; cbn [sp_trace sp_run_from map]; [reflexivity|].
  rewrite IH. destruct (sp_step a o) as [a' x]. cbn [fst snd]. destruct (sp_run_from a' ops) as [a'' xs]. reflexivity.
Qed.
Lemma hp_trace_outs orc ops : forall i h, map fst (hp_trace orc i h ops) = snd (hp_run_from orc i h ops).
Proof.
  induction ops as [|o ops IH]; intros i h; cbn [hp_trace hp_run_from map]; [reflexivity|].
  rewrite IH. destruct (hp_step (orc i) h o) as [h' x]. cbn [fst snd]. destruct (hp_run_from orc (S i) h' ops) as [h'' xs]. reflexivity.
Qed.

(* same answer, except that a fetch may return another payload with the same time *)
Definition same_time (x y : out) : Prop :=
  match x, y with
  | OFetched _ t, OFetched _ t' => t = t'
  | _, _ => x = y
  end.
(* both or neither served by the zero queue; if so the very same answer *)
Definition agree (x y : out * bool) : Prop :=
  snd x = snd y /\ if snd x then fst x = fst y else same_time (fst x) (fst y).

Lemma min_of_perm l m a rs :
  min_time l = Some m -> Permutation (map fst l) (a :: rs) -> Forall (fun x => a <= x) rs -> m = a.
Proof.
  intros Hm P Hle. pose proof (min_time_le _ _ Hm) as Hmin. destruct (min_time_in _ _ Hm) as [e [He Ee]].
  assert (H1 : In a (map fst l)) by (apply (Permutation_in _ (Permutation_sym P)); left; reflexivity).
  apply in_map_iff in H1. destruct H1 as [x [Ex Hx]]. rewrite Forall_forall in Hmin. specialize (Hmin x Hx).
  assert (H2 : In m (a :: rs)) by (apply (Permutation_in _ P); rewrite <- Ee; apply in_map; exact He).
  destruct H2 as [H2|H2]; [lia|]. rewrite Forall_forall in Hle. specialize (Hle m H2). lia.
Qed.

Lemma rest_head_min s y r : SI s -> s_rest s = y :: r -> Forall (fun x => etime y <= x) (map etime r).
Proof.
  intros [Hs _ _ _ _] E. rewrite E in Hs. inversion Hs as [|? ? _ Hall]; subst.
  rewrite Forall_forall in *. intros x Hx. apply in_map_iff in Hx. destruct Hx as [z [<- Hz]].
  specialize (Hall z Hz). unfold key_lt in Hall. lia.
Qed.

Lemma HR_rest_nil h s : HR h s -> s_rest s = [] -> hbag h = [].
Proof.
  intros R E. pose proof (HR_bag _ _ R) as Eb. rewrite E in Eb. apply Permutation_sym, Permutation_nil, map_eq_nil in Eb. exact Eb.
Qed.

Lemma HR_min h s y r : HR h s -> s_rest s = y :: r -> min_time (hbag h) = Some (etime y).
Proof.
  intros R E. pose proof (HR_bag _ _ R) as Eb. rewrite E in Eb. cbn [map] in Eb.
  destruct (min_time (hbag h)) as [m|] eqn:Em.
  - f_equal. eapply min_of_perm; [exact Em|exact Eb|]. eapply rest_head_min; [apply (HR_si _ _ R)|exact E].
  - rewrite (min_time_none _ Em) in Eb. apply Permutation_nil in Eb. discriminate.
Qed.

Lemma HR_eqs h s : HR h s ->
  hzero h = map evp (s_zero s) /\ Permutation (map fst (hbag h)) (map etime (s_rest s)) /\ hlast h = s_tcur s.
Proof. intros [_ _ Ez Eb El]. repeat split; assumption. Qed.

(* HI and SI of the successor states come from part A and CQueue.SpecProps;
   what is shown per operation is the answer and the three equations of HR *)
Lemma heap_step_sim pick h a o :
  heap_op o = true -> HR h (ss a) ->
  agree (snd (hp_step pick h o), zflag_hp h o) (snd (sp_step a o), zflag_sp a o) /\
  HR (fst (hp_step pick h o)) (ss (fst (sp_step a o))).
Proof.
  intros Ho R. pose proof R as [HIh HS Ez Eb El].
  enough (H : agree (snd (hp_step pick h o), zflag_hp h o) (snd (sp_step a o), zflag_sp a o) /\
              hzero (fst (hp_step pick h o)) = map evp (s_zero (ss (fst (sp_step a o)))) /\
              Permutation (map fst (hbag (fst (hp_step pick h o)))) (map etime (s_rest (ss (fst (sp_step a o))))) /\
              hlast (fst (hp_step pick h o)) = s_tcur (ss (fst (sp_step a o)))).
  { destruct H as [A [Z [B L]]]. split; [exact A|].
    constructor; [apply (hp_step_acct pick h o HIh)|apply SI_step; exact HS|exact Z|exact B|exact L]. }
  destruct o as [t p|k| | | | |]; try discriminate; cbn [hp_step sp_step zflag_hp zflag_sp].
  - (* add *)
    unfold hp_add, sp_add. rewrite El, (N.eqb_sym (s_tcur (ss a)) t).
    destruct (t <? s_tcur (ss a)); [cbn; split; [split; reflexivity|apply HR_eqs; exact R]|].
    destruct (t =? s_tcur (ss a)); cbn [fst snd ss hzero hbag hlast s_zero s_rest s_tcur]; (split; [split; reflexivity|]).
    + split; [rewrite Ez, map_app; reflexivity|]. split; [exact Eb|reflexivity].
    + split; [exact Ez|]. split; [|reflexivity]. rewrite map_app. cbn [map fst].
      rewrite (Permutation_map etime (sins_perm _ _)). cbn [map etime]. rewrite <- Permutation_cons_append. constructor. exact Eb.
  - (* fetch *)
    unfold hp_fetch, sp_fetch. destruct (s_zero (ss a)) as [|y z] eqn:Esz; cbn [map] in Ez; rewrite Ez.
    + destruct (s_rest (ss a)) as [|y r] eqn:Er.
      * rewrite (HR_rest_nil _ _ R Er). cbn. split; [split; reflexivity|apply HR_eqs; exact R].
      * pose proof (HR_min _ _ _ _ R Er) as Em. destruct (cands_spec _ _ Em) as [Hcn Hc].
        destruct (cands (hbag h)) as [|c cs]; [congruence|]. set (e := nth (pick (c :: cs)) (c :: cs) c).
        destruct (Hc e (pick_in _ _ _)) as [Hb' Et]. cbn [fst snd ss hzero hbag hlast s_zero s_rest s_tcur map].
        split; [split; [reflexivity|exact Et]|]. split; [reflexivity|]. split; [|exact Et].
        pose proof (Permutation_map fst (remove1_perm e (hbag h) Hb')) as P. cbn [map] in P.
        cbn [map] in Eb. rewrite P, Et in Eb. apply Permutation_cons_inv in Eb. exact Eb.
    + cbn [fst snd ss hzero hbag hlast s_zero s_rest s_tcur evp]. split; [split; reflexivity|]. split; [reflexivity|].
      split; [exact Eb|]. apply (SI_ztime _ HS). rewrite Esz. left; reflexivity.
  - (* len *)
    split; [|apply HR_eqs; exact R]. split; [reflexivity|]. cbn [fst snd same_time]. f_equal. unfold hp_len, sp_len.
    rewrite Ez, map_length. pose proof (Permutation_length Eb) as L. rewrite !map_length in L. rewrite L. reflexivity.
  - (* time *)
    split; [|apply HR_eqs; exact R]. split; [reflexivity|]. cbn. rewrite El. reflexivity.
  - (* peek *)
    split; [|apply HR_eqs; exact R]. split; [reflexivity|]. cbn [fst snd same_time]. f_equal. unfold hp_peek, sp_peek.
    destruct (s_zero (ss a)) as [|y z]; cbn [map] in Ez; rewrite Ez; [|reflexivity].
    destruct (s_rest (ss a)) as [|y r] eqn:Er; [rewrite (HR_rest_nil _ _ R Er)|rewrite (HR_min _ _ _ _ R Er)]; reflexivity.
Qed.

Lemma heap_trace_sim orc ops : forall i h a,
  forallb heap_op ops = true -> HR h (ss a) ->
  Forall2 agree (hp_trace orc i h ops) (sp_trace a ops).
Proof.
  induction ops as [|o ops IH]; intros i h a Ho R; cbn [hp_trace sp_trace]; [constructor|].
  cbn [forallb] in Ho. apply andb_true_iff in Ho. destruct Ho as [H1 H2].
  destruct (heap_step_sim (orc i) h a o H1 R) as [A R']. constructor; [exact A|]. apply IH; assumption.
Qed.

Lemma HR_new ts : HR (hp_new ts) (ss (sp_init_at ts)).
Proof. constructor; cbn; try reflexivity; [apply heap_new|apply SI_new_at]. Qed.

Lemma agree_times l1 l2 : Forall2 agree l1 l2 -> fetched_times (map fst l1) = fetched_times (map fst l2).
Proof.
  induction 1 as [|[x zx] [y zy] l1 l2 [Hz Ha] _ IH]; [reflexivity|]. cbn [map fst snd] in *.
  assert (S : same_time x y) by (destruct zx; [subst; destruct y; reflexivity|exact Ha]).
  destruct x, y; cbn [same_time] in S; try discriminate; cbn [fetched_times]; try exact IH. subst. rewrite IH. reflexivity.
Qed.

(* For every oracle and every cancel-free history, answer by answer: the heap
   backend and the specification agree on every add verdict, len, time and
   peek_time, on the TIME of every fetch, on which fetches are served by the zero
   queue and on the complete answer of those. *)
Theorem heap_refines_spec_up_to_ties (orc : oracle) ts ops :
  forallb heap_op ops = true ->
  Forall2 agree (hp_trace orc 0 (hp_new ts) ops) (sp_trace (sp_init_at ts) ops) /\
  map fst (hp_trace orc 0 (hp_new ts) ops) = hp_run_ops orc ts ops /\
  map fst (sp_trace (sp_init_at ts) ops) = sp_run_ops_at ts ops.
Proof.
  intros Ho. split; [apply heap_trace_sim; [exact Ho|apply HR_new]|]. split; [apply hp_trace_outs|apply sp_trace_outs].
Qed.

(* fetch order is non-decreasing in time *)
Theorem heap_fetch_nondecreasing (orc : oracle) ts ops :
  forallb heap_op ops = true -> StronglySorted N.le (fetched_times (hp_run_ops orc ts ops)).
Proof.
  intros Ho. destruct (heap_refines_spec_up_to_ties orc ts ops Ho) as [F [E1 E2]].
  rewrite <- E1, (agree_times _ _ F), E2. apply fetch_nondecreasing_at.
Qed.
