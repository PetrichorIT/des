(* C02: the clock is monotone and equal to the running event's timestamp;
   scheduling at/after now succeeds, before now panics.  Stated over every
   state a runtime can be in -- before the run, between events, inside a
   handler, while paused -- by means of a transition system that
   over-approximates the runtime: any add_event at any moment, any budget
   decrement, any limit swap, and the dispatch of the next event. *)
From Coq Require Import List NArith Lia Sorting.Sorted Permutation.
From DesVerif Require Import Common.Fuel CQueue.Spec CQueue.SpecProps Runtime.Limit Runtime.Model Runtime.Queue
  Runtime.Inv Runtime.Prefix Runtime.GenericProps Runtime.Instances Runtime.OverSpec.
Import ListNotations.
Open Scope N_scope.

Inductive tr : rt -> rt -> Prop :=
| T_add s inh t l : tr s (add_event inh s t l)           (* add_event / add_event_in, from anywhere *)
| T_budget s : tr s (dec_budget s)                       (* bookkeeping of the scripted handlers *)
| T_limit s L : tr s (set_limit s L)                     (* step functions swap the limit *)
| T_fetch s l t : nextev (fes s) = Some (l, t) -> tr s (fetched s l t).   (* fetch_next; itr += 1; set_now(time) *)

Inductive reachable (S B : N) : rt -> Prop :=
| R_new L : reachable S B (rt_new repaired S B L)        (* Builder::start_time(S)...build() *)
| R_tr s s' : reachable S B s -> tr s s' -> reachable S B s'.

Lemma reachable_Inv S B s : reachable S B s -> GInv spec_evset S (to_g s).
Proof.
  induction 1 as [L|s s' _ IH T]; [apply (GInv_new spec_evset)|].
  destruct T as [s inh t l|s|s L|s l t E].
  - apply (gadd_spec spec_evset S inh (to_g s) t l IH).
  - revert IH. apply GInv_same; reflexivity.
  - revert IH. apply GInv_same; reflexivity.
  - destruct (nextev_fetch _ _ _ E) as [q' [F [Ep _]]]. destruct (fetch_tcur _ _ _ _ (G_qi _ _ _ IH) E F) as [Et Hle].
    pose proof (SI_fetch (fes s) (G_qi _ _ _ IH)) as HS. unfold fetched. rewrite F in *.
    apply (GInv_fetched spec_evset S (to_g s) q' l t IH HS Et Hle).
    change (Permutation (pend (fes s)) ((t, l) :: pend q')). rewrite Ep. reflexivity.
Qed.

(* ---- everything the model does stays inside the transition system ---- *)
Lemma reach_actions S B acts : forall s, reachable S B s -> reachable S B (do_actions acts s).
Proof.
  induction acts as [|[[k x] l] acts IH]; intros s H; cbn [do_actions]; [exact H|].
  destruct (budget s =? 0); [exact H|].
  destruct (k =? 0); apply IH; [unfold add_event_in|]; (eapply R_tr; [eapply R_tr; [exact H|apply T_budget]|apply T_add]).
Qed.

Lemma reach_ustep S B P s l t : reachable S B s -> nextev (fes s) = Some (l, t) -> reachable S B (ustep P s l t).
Proof.
  intros H E. rewrite ustep_fetched. unfold handle. apply reach_actions. eapply R_tr; [exact H|apply T_fetch; exact E].
Qed.

Lemma reach_iter S B P k : forall s s', reachable S B s -> iter_nat k (D P) s = inr s' -> reachable S B s'.
Proof.
  induction k as [|k IH]; intros s s' HR H; cbn [iter_nat] in H; [discriminate|].
  destruct (D_cases P s) as [[_ E]|[[l [t [_ [_ E]]]]|[l [t [En [_ E]]]]]]; rewrite E in H.
  - injection H as <-. exact HR.
  - injection H as <-. exact HR.
  - eapply IH; [|exact H]. apply reach_ustep; assumption.
Qed.

Lemma reach_dispatch_all S B P s s' : reachable S B s -> dispatch_all repaired P s = Some s' -> reachable S B s'.
Proof. intros HR H. apply dispatch_all_inv in H. destruct H as [k H]. eapply reach_iter; eassumption. Qed.

Lemma reach_with_limit S B P L s s' : reachable S B s -> with_limit repaired P L s = Some s' -> reachable S B s'.
Proof.
  unfold with_limit. intros HR H. destruct (dispatch_all repaired P (set_limit s L)) as [s1|] eqn:E; [|discriminate].
  injection H as <-. eapply R_tr; [|apply T_limit]. eapply reach_dispatch_all; [|exact E]. eapply R_tr; [exact HR|apply T_limit].
Qed.

Lemma reach_step S B P s o s' x : reachable S B s -> step repaired P s o = (Some s', x) -> reachable S B s'.
Proof.
  intros HR. destruct o as [k|T|t l]; cbn [step]; unfold dispatch_n_events, dispatch_events_until.
  - destruct (with_limit repaired P (LCount (itr s + k)) s) as [s1|] eqn:E; intros H; [|discriminate].
    injection H as <- _. eapply reach_with_limit; eassumption.
  - destruct (with_limit repaired P (LTime T) s) as [s1|] eqn:E; intros H; [|discriminate].
    injection H as <- _. eapply reach_with_limit; eassumption.
  - intros H. injection H as <- _. eapply R_tr; [exact HR|apply T_add].
Qed.

Lemma reach_sched S B P ops : forall s s' xs, reachable S B s -> exec_sched repaired P s ops = (Some s', xs) -> reachable S B s'.
Proof.
  induction ops as [|o ops IH]; intros s s' xs HR H; cbn [exec_sched] in H.
  - injection H as <- _. exact HR.
  - destruct (step repaired P s o) as [[s1|] x] eqn:E; [|discriminate].
    destruct (exec_sched repaired P s1 ops) as [s2 ys] eqn:E2. injection H as -> _.
    eapply IH; [|exact E2]. eapply reach_step; eassumption.
Qed.

Lemma reach_pre_adds S B pre : forall s, reachable S B s -> reachable S B (fst (pre_adds s pre)).
Proof.
  induction pre as [|[t l] pre IH]; intros s HR; cbn [pre_adds]; [exact HR|].
  specialize (IH (add_event false s t l) (R_tr S B _ _ HR (T_add s false t l))).
  destruct (pre_adds (add_event false s t l) pre) as [s2 xs]. exact IH.
Qed.

(* a whole stepped run of a script: boot, schedule, dispatch_all *)
Theorem run_reachable S B L pre P ops s1 xs sf :
  exec_sched repaired P (boot S B L pre) ops = (Some s1, xs) ->
  dispatch_all repaired P s1 = Some sf ->
  reachable S B (boot S B L pre) /\ reachable S B s1 /\ reachable S B sf.
Proof.
  intros H1 H2. assert (R0 : reachable S B (boot S B L pre)) by (apply reach_pre_adds; apply R_new).
  assert (R1 : reachable S B s1) by (eapply reach_sched; eassumption).
  split; [exact R0|]. split; [exact R1|]. eapply reach_dispatch_all; eassumption.
Qed.

(* ---- the clock ---- *)
Theorem clock_monotone S B s :
  reachable S B s ->
  S <= clock s /\ (forall s', tr s s' -> clock s <= clock s') /\
  StronglySorted N.le (S :: times (log s)) /\ clock s = last (times (log s)) S.
Proof.
  intros HR. pose proof (reachable_Inv S B s HR) as HI. split; [apply (G_start _ _ _ HI)|]. split; [|split].
  - intros s' T. destruct T as [s inh t l|s|s L|s l t E]; cbn [clock add_event dec_budget set_limit fetched]; try lia.
    destruct (nextev_fetch _ _ _ E) as [q' [F _]].
    destruct (fetch_tcur _ _ _ _ (G_qi _ _ _ HI) E F) as [_ Hle]. rewrite <- (G_clk _ _ _ HI : s_tcur (fes s) = clock s). exact Hle.
  - constructor; [apply (G_sorted _ _ _ HI)|]. eapply Forall_impl; [|apply (G_bound _ _ _ HI)]. cbn. intros y Hy. lia.
  - apply (G_last _ _ _ HI).
Qed.

(* the only transition that changes the clock is the dispatch of an event; it
   sets it to the timestamp the event was scheduled with, and the handler logs
   exactly that pair *)
Theorem now_is_event_time S B s s' :
  reachable S B s -> tr s s' ->
  clock s' = clock s \/
  exists l t, nextev (fes s) = Some (l, t) /\ In (t, l) (pend (fes s)) /\ s' = fetched s l t /\
              clock s' = t /\ log s' = log s ++ [(l, t)] /\ pend (fes s) = (t, l) :: pend (fes s').
Proof.
  intros HR T. destruct T as [s inh t l|s|s L|s l t E]; try (left; reflexivity).
  right. exists l, t. destruct (nextev_fetch _ _ _ E) as [q' [F [Ep _]]].
  split; [exact E|]. split; [rewrite Ep; left; reflexivity|]. split; [reflexivity|]. split; [reflexivity|].
  split; [reflexivity|]. unfold fetched. cbn [fes]. rewrite F. exact Ep.
Qed.

(* handled in non-decreasing timestamp order, each scheduled event exactly once:
   the accepted add_event calls are, as a multiset of (time, label), the
   handled ones (logged with now() = that time) plus the still pending ones *)
Theorem dispatch_sorted_once S B s :
  reachable S B s ->
  StronglySorted N.le (times (log s)) /\
  Permutation (accepted (adds s)) (handled (log s) ++ pend (fes s)) /\
  itr s = N.of_nat (length (log s)).
Proof.
  intros HR. pose proof (reachable_Inv S B s HR) as HI.
  split; [apply (G_sorted _ _ _ HI)|]. split; [apply (G_acct _ _ _ HI)|apply (G_itr _ _ _ HI)].
Qed.

Definition last_rec (s : rt) : option add_rec := match rev (adds s) with r :: _ => Some r | [] => None end.

Lemma last_rec_add inh s t l :
  last_rec (add_event inh s t l) =
  Some {| a_time := t; a_label := l; a_now := clock s; a_ctx := if inh then itr s else 0;
          a_ok := added_ok (snd (sp_add (fes s) t l)) |}.
Proof. unfold last_rec, add_event. cbn [adds]. rewrite rev_app_distr. reflexivity. Qed.

Theorem add_at_or_after_now_ok S B s inh t l :
  reachable S B s -> clock s <= t ->
  option_map a_ok (last_rec (add_event inh s t l)) = Some true /\
  Permutation (pend (fes (add_event inh s t l))) ((t, l) :: pend (fes s)) /\
  clock (add_event inh s t l) = clock s.
Proof.
  intros HR Hle. pose proof (reachable_Inv S B s HR) as HI. rewrite <- (G_clk _ _ _ HI : s_tcur (fes s) = clock s) in Hle.
  destruct (sp_add_ok (fes s) t l Hle) as [Eo [_ [Ep _]]]. cbn zeta in *.
  rewrite last_rec_add. cbn [option_map a_ok]. rewrite Eo. split; [reflexivity|]. split; [exact Ep|reflexivity].
Qed.

Theorem add_before_now_panics S B s inh t l :
  reachable S B s -> t < clock s ->
  option_map a_ok (last_rec (add_event inh s t l)) = Some false /\
  fes (add_event inh s t l) = fes s /\ clock (add_event inh s t l) = clock s /\ log (add_event inh s t l) = log s.
Proof.
  intros HR Hlt. pose proof (reachable_Inv S B s HR) as HI. rewrite <- (G_clk _ _ _ HI : s_tcur (fes s) = clock s) in Hlt.
  rewrite last_rec_add. unfold add_event. cbn [option_map a_ok fes clock log]. rewrite (sp_add_past _ _ _ Hlt).
  repeat split.
Qed.
