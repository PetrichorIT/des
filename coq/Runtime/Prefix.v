(* C11: the longest admissible prefix [lprefix] of a dispatch sequence, and
   the dispatch sequence [useq] of the run that ignores limits. *)
From Coq Require Import List NArith Lia Bool Sorting.Sorted.
From DesVerif Require Import Common.Lists Runtime.Limit Runtime.Model Runtime.Queue Runtime.Inv.
Import ListNotations.
Open Scope N_scope.

(* the longest prefix of [sg] none of whose elements, at its 1-based position
   counted from [i], makes the limit apply *)
Fixpoint lprefix (L : lim) (i : N) (sg : list (N * N)) : list (N * N) :=
  match sg with
  | [] => []
  | e :: r => if applies L (i + 1) (snd e) then [] else e :: lprefix L (i + 1) r
  end.

(* the first k elements of the dispatch sequence of the run that ignores limits *)
Fixpoint useq (P : prog) (k : nat) (s : rt) : list (N * N) :=
  match k with
  | O => []
  | S k' => match nextev (fes s) with
            | None => []
            | Some (l, t) => (l, t) :: useq P k' (ustep P s l t)
            end
  end.

(* the limit is not looked at by anything but the test in dispatch_event (used by Step.step_back) *)
Lemma do_actions_set_limit acts L : forall s, do_actions acts (set_limit s L) = set_limit (do_actions acts s) L.
Proof.
  induction acts as [|[[k x] l] acts IH]; intros s; cbn [do_actions]; [reflexivity|].
  change (budget (set_limit s L)) with (budget s). destruct (budget s =? 0); [reflexivity|].
  destruct (k =? 0).
  - change (add_event_in (dec_budget (set_limit s L)) x l) with (set_limit (add_event_in (dec_budget s) x l) L). apply IH.
  - change (add_event true (dec_budget (set_limit s L)) x l) with (set_limit (add_event true (dec_budget s) x l) L). apply IH.
Qed.

Lemma ustep_set_limit P s L l t : ustep P (set_limit s L) l t = set_limit (ustep P s l t) L.
Proof.
  unfold ustep, deliver, handle. cbn [fes set_limit itr limit budget log adds clock].
  rewrite <- do_actions_set_limit. reflexivity.
Qed.

(* Builder::build, then the add_event calls made before the run: the start state of every
   statement of C02 / C10 / C11 *)
Definition boot (S B : N) (L : lim) (pre : list (N * N)) : rt := fst (pre_adds (rt_new repaired S B L) pre).

Lemma lprefix_none i sg : lprefix LNone i sg = sg.
Proof. revert i; induction sg as [|e r IH]; intros i; cbn [lprefix applies]; [reflexivity|]. rewrite IH. reflexivity. Qed.

(* ---- what [lprefix] is: prefix, admissible, stopped by an applying element, longest ---- *)
Definition admissible (L : lim) (i : N) (p : list (N * N)) : Prop :=
  forall k e, nth_error p k = Some e -> applies L (i + N.of_nat k + 1) (snd e) = false.

Lemma lprefix_prefix L sg : forall i,
  exists rest, sg = lprefix L i sg ++ rest /\
    match rest with
    | [] => True
    | e :: _ => applies L (i + N.of_nat (length (lprefix L i sg)) + 1) (snd e) = true
    end.
Proof.
  induction sg as [|e r IH]; intros i; cbn [lprefix].
  - exists []. split; [reflexivity|exact I].
  - destruct (applies L (i + 1) (snd e)) eqn:A.
    + exists (e :: r). split; [reflexivity|]. cbn [length]. rewrite N.add_0_r. exact A.
    + destruct (IH (i + 1)) as [rest [E Hr]]. exists rest. split; [cbn [app]; rewrite <- E; reflexivity|].
      destruct rest as [|x rest]; [exact I|]. cbn [length].
      replace (i + N.of_nat (S (length (lprefix L (i + 1) r))) + 1) with (i + 1 + N.of_nat (length (lprefix L (i + 1) r)) + 1) by lia.
      exact Hr.
Qed.

Lemma lprefix_admissible L sg : forall i, admissible L i (lprefix L i sg).
Proof.
  induction sg as [|e r IH]; intros i k x H; cbn [lprefix] in H.
  - destruct k; discriminate.
  - destruct (applies L (i + 1) (snd e)) eqn:A; [destruct k; discriminate|].
    destruct k as [|k]; cbn [nth_error] in H.
    + injection H as <-. rewrite N.add_0_r. exact A.
    + specialize (IH (i + 1) k x H). replace (i + N.of_nat (S k) + 1) with (i + 1 + N.of_nat k + 1) by lia. exact IH.
Qed.

Lemma lprefix_longest L p : forall i rest, admissible L i p -> exists r', lprefix L i (p ++ rest) = p ++ r'.
Proof.
  induction p as [|e p IH]; intros i rest Ha; cbn [app].
  - eexists; reflexivity.
  - cbn [lprefix]. pose proof (Ha 0%nat e eq_refl) as A. rewrite N.add_0_r in A. rewrite A.
    destruct (IH (i + 1) rest) as [r' E].
    { intros k x H. specialize (Ha (S k) x H). replace (i + 1 + N.of_nat k + 1) with (i + N.of_nat (S k) + 1) by lia. exact Ha. }
    exists r'. rewrite E. reflexivity.
Qed.

(* EventCount(n): exactly min(n, available) events *)
Lemma lprefix_count sg : forall i k, lprefix (LCount (i + k)) i sg = firstn (N.to_nat k) sg.
Proof.
  induction sg as [|e r IH]; intros i k; cbn [lprefix applies]; [rewrite firstn_nil; reflexivity|].
  destruct (i + k <? i + 1) eqn:E.
  - assert (k = 0) as -> by lia. reflexivity.
  - replace (i + k) with (i + 1 + (k - 1)) by lia. rewrite IH.
    replace (N.to_nat k) with (S (N.to_nat (k - 1))) by lia. reflexivity.
Qed.

Corollary lprefix_count_length n sg : length (lprefix (LCount n) 0 sg) = Nat.min (N.to_nat n) (length sg).
Proof. rewrite <- (N.add_0_l n) at 1. rewrite lprefix_count. apply firstn_length. Qed.

(* SimTime(T) on a time-ordered sequence: every event with timestamp <= T and none later *)
Lemma lprefix_time T sg : forall i,
  StronglySorted N.le (times sg) -> lprefix (LTime T) i sg = filter (fun e => snd e <=? T) sg.
Proof.
  induction sg as [|e r IH]; intros i Hs; cbn [lprefix applies filter]; [reflexivity|].
  cbn [times map] in Hs. inversion Hs as [|? ? Hs' Hall]; subst.
  destruct (T <? snd e) eqn:E.
  - replace (snd e <=? T) with false by lia.
    symmetry. apply filter_none. intros x Hx.
    rewrite Forall_forall in Hall. specialize (Hall (snd x) (in_map snd _ _ Hx)). lia.
  - replace (snd e <=? T) with true by lia. rewrite (IH (i + 1) Hs'). reflexivity.
Qed.

(* Or stops where the first of the two stops *)
Lemma lprefix_or a b sg : forall i,
  length (lprefix (LOr a b) i sg) = Nat.min (length (lprefix a i sg)) (length (lprefix b i sg)).
Proof.
  induction sg as [|e r IH]; intros i; cbn [lprefix applies]; [reflexivity|].
  destruct (applies a (i + 1) (snd e)), (applies b (i + 1) (snd e)); cbn [orb length]; try lia.
  rewrite IH. reflexivity.
Qed.

Lemma lprefix_and_left a b sg : forall i,
  (forall k e, nth_error sg k = Some e -> applies a (i + N.of_nat k + 1) (snd e) = true) ->
  lprefix (LAnd a b) i sg = lprefix b i sg.
Proof.
  induction sg as [|e r IH]; intros i H; cbn [lprefix applies]; [reflexivity|].
  pose proof (H 0%nat e eq_refl) as A. rewrite N.add_0_r in A. rewrite A. cbn [andb].
  rewrite IH; [reflexivity|]. intros k x Hk. specialize (H (S k) x Hk).
  replace (i + 1 + N.of_nat k + 1) with (i + N.of_nat (S k) + 1) by lia. exact H.
Qed.

Lemma land_swap a b sg : forall i, lprefix (LAnd a b) i sg = lprefix (LAnd b a) i sg.
Proof.
  induction sg as [|e r IH]; intros i; cbn [lprefix applies]; [reflexivity|].
  rewrite andb_comm, IH. reflexivity.
Qed.

Lemma applies_later L i e r :
  StronglySorted N.le (times (e :: r)) -> applies L (i + 1) (snd e) = true ->
  forall k x, nth_error r k = Some x -> applies L (i + 1 + N.of_nat k + 1) (snd x) = true.
Proof.
  intros Hs A k x Hk. cbn [times map] in Hs. inversion Hs as [|? ? _ Hall]; subst.
  rewrite Forall_forall in Hall. apply nth_error_In in Hk. specialize (Hall (snd x) (in_map snd _ _ Hk)).
  eapply applies_mono; [| |exact A]; lia.
Qed.

(* And stops where the later of the two stops, on a time-ordered sequence
   (limits are monotone, so a condition that held keeps holding) *)
Lemma lprefix_and a b sg : forall i,
  StronglySorted N.le (times sg) ->
  length (lprefix (LAnd a b) i sg) = Nat.max (length (lprefix a i sg)) (length (lprefix b i sg)).
Proof.
  induction sg as [|e r IH]; intros i Hs; [reflexivity|].
  assert (Hs' : StronglySorted N.le (times r)) by (cbn [times map] in Hs; inversion Hs; assumption).
  cbn [lprefix applies].
  destruct (applies a (i + 1) (snd e)) eqn:A, (applies b (i + 1) (snd e)) eqn:Bb; cbn [andb length].
  - reflexivity.
  - rewrite (lprefix_and_left a b r (i + 1) (applies_later a i e r Hs A)). lia.
  - rewrite land_swap, (lprefix_and_left b a r (i + 1) (applies_later b i e r Hs Bb)). lia.
  - rewrite (IH (i + 1) Hs'). lia.
Qed.
