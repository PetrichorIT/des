(* The headline statements of C02 / C10 / C11 for the runtime over the calendar
   queue, for every bucket count n >= 1 and width t >= 1: corollaries of the
   theorems about Model.v through the simulation of Compose.v.
   ModelCq.v is the term the extracted runner executes.  The calendar queue is
   also an event set of the generic runtime (Instances.cq_evset); no lemma
   relates ModelCq.v to that instance: the two meet only in the specification
   (Compose.Rel and Instances.cqI both rest on the refinement relation of C01). *)
From Coq Require Import List NArith Lia Sorting.Sorted Permutation.
From DesVerif Require Import Common.Lists CQueue.Model CQueue.Spec CQueue.Refine Runtime.Limit Runtime.Model Runtime.ModelCq
  Runtime.Queue Runtime.Inv Runtime.Prefix Runtime.Step Runtime.GenericProps Runtime.Instances Runtime.OverSpec
  Runtime.Mono Runtime.Compose.
Import ListNotations.
Open Scope N_scope.

(* Builder::cqueue_options(n, t)...build(), then the pre-run add_event calls *)
Definition cboot (n t S B : N) (L : lim) (pre : list (N * N)) : rtc := fst (cpre_adds (crt_new repaired n t S B L) pre).

Lemma Rel_boot n t S B L pre : n <> 0 -> t <> 0 -> Rel (cboot n t S B L pre) (boot S B L pre).
Proof. intros Hn Ht. apply Rel_pre_adds. apply Rel_new; assumption. Qed.

(* transport of results in both directions *)
Lemma Rel_opt_down a b s' : Rel_opt a b -> b = Some s' -> exists c', a = Some c' /\ Rel c' s'.
Proof. intros X ->. destruct a as [c'|]; [|destruct X]. exists c'. split; [reflexivity|exact X]. Qed.

Lemma Rel_opt_up a b c' : Rel_opt a b -> a = Some c' -> exists s', b = Some s' /\ Rel c' s'.
Proof. intros X ->. destruct b as [s'|]; [|destruct X]. exists s'. split; [reflexivity|exact X]. Qed.

Lemma dispatch_all_down P c s s' :
  Rel c s -> dispatch_all repaired P s = Some s' -> exists c', cdispatch_all repaired P c = Some c' /\ Rel c' s'.
Proof. intros HRel. apply Rel_opt_down, Rel_dispatch_all, HRel. Qed.

Lemma dispatch_all_up P c s c' :
  Rel c s -> cdispatch_all repaired P c = Some c' -> exists s', dispatch_all repaired P s = Some s' /\ Rel c' s'.
Proof. intros HRel. apply Rel_opt_up, Rel_dispatch_all, HRel. Qed.

Lemma with_limit_up P L c s c' :
  Rel c s -> cwith_limit repaired P L c = Some c' -> exists s', with_limit repaired P L s = Some s' /\ Rel c' s'.
Proof. intros HRel. apply Rel_opt_up, Rel_with_limit, HRel. Qed.

Lemma sched_up P ops c s c1 xs :
  Rel c s -> cexec_sched repaired P c ops = (Some c1, xs) -> exists s1, exec_sched repaired P s ops = (Some s1, xs) /\ Rel c1 s1.
Proof.
  intros HRel H. destruct (Rel_sched P ops c s HRel) as [X Y]. rewrite H in X, Y. cbn [fst snd] in X, Y.
  destruct (exec_sched repaired P s ops) as [[s1|] ys]; cbn [fst snd Rel_opt] in *; [|contradiction].
  subst ys. exists s1. split; [reflexivity|exact X].
Qed.

Lemma sched_down P ops c s s1 xs :
  Rel c s -> exec_sched repaired P s ops = (Some s1, xs) -> exists c1, cexec_sched repaired P c ops = (Some c1, xs) /\ Rel c1 s1.
Proof.
  intros HRel H. destruct (Rel_sched P ops c s HRel) as [X Y]. rewrite H in X, Y. cbn [fst snd] in X, Y.
  destruct (cexec_sched repaired P c ops) as [[c1|] ys]; cbn [fst snd Rel_opt] in *; [|contradiction].
  subst ys. exists c1. split; [reflexivity|exact X].
Qed.

Lemma Rel_log c s : Rel c s -> clog c = log s.
Proof. intros H. apply H. Qed.

Lemma two_runs_cq n t P S B pre L (Q : list (N * N) -> list (N * N) -> Prop) : n <> 0 -> t <> 0 ->
  (exists u a, dispatch_all repaired P (boot S B LNone pre) = Some u /\ dispatch_all repaired P (boot S B L pre) = Some a /\
               Q (log u) (log a)) ->
  exists u a, cdispatch_all repaired P (cboot n t S B LNone pre) = Some u /\ cdispatch_all repaired P (cboot n t S B L pre) = Some a /\
              Q (clog u) (clog a).
Proof.
  intros Hn Ht [u' [a' [Hu [Ha E]]]].
  destruct (dispatch_all_down P _ _ _ (Rel_boot n t S B LNone pre Hn Ht) Hu) as [u [Eu Ru]].
  destruct (dispatch_all_down P _ _ _ (Rel_boot n t S B L pre Hn Ht) Ha) as [a [Ea Ra]].
  exists u, a. split; [exact Eu|]. split; [exact Ea|]. rewrite (Rel_log _ _ Ru), (Rel_log _ _ Ra). exact E.
Qed.

Theorem nothing_lost_cq n t P S B pre L a : n <> 0 -> t <> 0 ->
  cdispatch_all repaired P (cboot n t S B L pre) = Some a ->
  Permutation (accepted (cadds a)) (handled (clog a) ++ isort (cremaining (cfes a))) /\
  ple_sorted (isort (cremaining (cfes a))) /\
  cfinish a = OFinal (N.of_nat (length (clog a))) (last (map snd (clog a)) S) (clog a) (cadds a) (isort (cremaining (cfes a))).
Proof.
  intros Hn Ht H. destruct (dispatch_all_up P _ _ _ (Rel_boot n t S B L pre Hn Ht) H) as [a' [Ha Ra]].
  destruct (limited_run_accounting P S B pre L a' Ha) as [H1 [H2 [H3 _]]].
  pose proof Ra as [[hs HR] [_ [_ [_ [_ [E5 E6]]]]]].
  rewrite (finish_sim _ _ Ra), (remaining_sim _ _ _ HR), E5, E6. split; [exact H1|]. split; [exact H2|exact H3].
Qed.

Theorem stepped_eq_run_cq n t P S B pre ops : n <> 0 -> t <> 0 ->
  forallb is_dispatch ops = true ->
  exists c1 xs cf u,
    cexec_sched repaired P (cboot n t S B LNone pre) ops = (Some c1, xs) /\
    cdispatch_all repaired P c1 = Some cf /\
    cdispatch_all repaired P (cboot n t S B LNone pre) = Some u /\
    cfinish cf = cfinish u /\ clog cf = clog u.
Proof.
  intros Hn Ht Hd. pose proof (Rel_boot n t S B LNone pre Hn Ht) as R0.
  destruct (stepped_eq_run P S B pre ops Hd) as [s1 [xs [u' [E1 [Ef Eu]]]]].
  destruct (sched_down P ops _ _ _ _ R0 E1) as [c1 [C1 R1]].
  destruct (dispatch_all_down P _ _ _ R1 Ef) as [cf [Cf Rf]].
  destruct (dispatch_all_down P _ _ _ R0 Eu) as [u [Cu Ru]].
  exists c1, xs, cf, u. repeat split; try assumption.
  - rewrite (finish_sim _ _ Rf), (finish_sim _ _ Ru). reflexivity.
  - rewrite (Rel_log _ _ Rf), (Rel_log _ _ Ru). reflexivity.
Qed.

(* a paused runtime over the calendar queue: reported values, the two step
   functions, add_event *)
Theorem paused_cq n t P S B L pre ops c xs : n <> 0 -> t <> 0 ->
  cexec_sched repaired P (cboot n t S B L pre) ops = (Some c, xs) ->
  cstatus c = OStatus (N.of_nat (length (clog c))) (N.of_nat (length (cremaining (cfes c))))
                      (last (map snd (clog c)) S) (N.of_nat (length (cadds c))) /\
  Permutation (accepted (cadds c)) (handled (clog c) ++ cremaining (cfes c)) /\
  tcur (cfes c) = cclock c /\
  (forall tm l, cstep repaired P c (SAdd tm l) = (Some (cadd_event false c tm l), OAddRes (cclock c <=? tm))) /\
  (forall k, exists c' u,
     cdispatch_n_events repaired P c k = Some c' /\ cdispatch_all repaired P (cset_limit c LNone) = Some u /\
     clog c' = clog c ++ firstn (N.to_nat k) (skipn (length (clog c)) (clog u))) /\
  (forall T, exists c' u,
     cdispatch_events_until repaired P c T = Some c' /\ cdispatch_all repaired P (cset_limit c LNone) = Some u /\
     clog c' = clog c ++ filter (fun e => snd e <=? T) (skipn (length (clog c)) (clog u))).
Proof.
  intros Hn Ht H. destruct (sched_up P ops _ _ _ _ (Rel_boot n t S B L pre Hn Ht) H) as [s [Hs Rs]].
  pose proof Rs as [[hs HR] [E1 [E2 [_ [_ [E5 E6]]]]]].
  destruct (paused P S B L pre ops s xs Hs) as [P1 [P2 [P3 [P4 [_ [_ [[u' [Eu' Erest]] [Pk PT]]]]]]]].
  destruct (dispatch_all_down P _ _ _ (Rel_set_limit c s LNone Rs) Eu') as [u [Eu Ru]].
  assert (Eskip : skipn (length (log s)) (clog u) = rest_of P s).
  { rewrite (Rel_log _ _ Ru), Erest. apply skipn_app_exact. }
  rewrite (status_sim _ _ Rs), (remaining_sim _ _ _ HR), (R_tcur _ _ _ HR), E1, E5, E6.
  split; [exact P1|]. split; [exact P2|]. split; [exact P3|]. split; [|split].
  - intros tm l. cbn [cstep]. rewrite (last_ok_sim _ _ (Rel_add false c s tm l Rs)). f_equal. exact (f_equal snd (P4 tm l)).
  - intros k. destruct (Pk k) as [s' [Es' [El _]]].
    destruct (Rel_opt_down _ _ _ (Rel_with_limit P (LCount (itr s + k)) c s Rs) Es') as [c' [Ec' Rc']].
    exists c', u. unfold cdispatch_n_events. rewrite E2, (Rel_log _ _ Rc'), Eskip. split; [exact Ec'|]. split; [exact Eu|exact El].
  - intros T. destruct (PT T) as [s' [Es' El]].
    destruct (Rel_opt_down _ _ _ (Rel_with_limit P (LTime T) c s Rs) Es') as [c' [Ec' Rc']].
    exists c', u. unfold cdispatch_events_until. rewrite (Rel_log _ _ Rc'), Eskip. split; [exact Ec'|]. split; [exact Eu|exact El].
Qed.

(* what C02 says about a state of the runtime over the calendar queue *)
Definition good (S : N) (c : rtc) : Prop :=
  S <= cclock c /\
  StronglySorted N.le (S :: map snd (clog c)) /\
  cclock c = last (map snd (clog c)) S /\
  tcur (cfes c) = cclock c /\
  Forall (fun r => a_ok r = (a_now r <=? a_time r)) (cadds c) /\
  Permutation (accepted (cadds c)) (handled (clog c) ++ cremaining (cfes c)) /\
  (forall inh tm l, clast_ok (cadd_event inh c tm l) = (cclock c <=? tm) /\
                    cclock (cadd_event inh c tm l) = cclock c /\
                    (tm < cclock c -> cfes (cadd_event inh c tm l) = cfes c)).

Lemma good_of_Rel S B c s : Rel c s -> reachable S B s -> good S c.
Proof.
  intros Rs HR. pose proof Rs as [[hs HQ] [E1 [_ [_ [_ [E5 E6]]]]]].
  destruct (ggood_of_inv spec_evset (fun _ => tt) S (to_g s) (reachable_Inv S B s HR)) as [G1 [G2 [G3 [G4 [_ [_ [G7 [G8 G9]]]]]]]].
  rewrite rem_eq in G8. unfold good. rewrite (remaining_sim _ _ _ HQ), (R_tcur _ _ _ HQ), E1, E5, E6.
  split; [exact G1|]. split; [exact G2|]. split; [exact G3|]. split; [exact G4|]. split; [exact G7|]. split; [exact G8|].
  intros inh tm l. destruct (G9 inh tm l) as [A1 _]. split; [|split].
  - rewrite (last_ok_sim _ _ (Rel_add inh c s tm l Rs)). exact A1.
  - exact E1.
  - intros Hlt. unfold cadd_event. cbn [cfes]. unfold add.
    assert (tm <? tcur (cfes c) = true) as -> by (rewrite (R_tcur _ _ _ HQ), (G4 : s_tcur (fes s) = clock s); lia).
    reflexivity.
Qed.

(* every paused state and the final state of every (stepped) run of every
   program, for every start time and every calendar-queue parameterisation *)
Theorem run_good_cq n t S B L pre P ops c1 xs cf : n <> 0 -> t <> 0 ->
  cexec_sched repaired P (cboot n t S B L pre) ops = (Some c1, xs) ->
  cdispatch_all repaired P c1 = Some cf ->
  good S (cboot n t S B L pre) /\ good S c1 /\ good S cf.
Proof.
  intros Hn Ht H1 H2. pose proof (Rel_boot n t S B L pre Hn Ht) as R0.
  destruct (sched_up P ops _ _ _ _ R0 H1) as [s1 [Hs1 R1]].
  destruct (dispatch_all_up P _ _ _ R1 H2) as [sf [Hsf Rf]].
  destruct (run_reachable S B L pre P ops s1 xs sf Hs1 Hsf) as [A0 [A1 Af]].
  split; [|split]; eapply good_of_Rel; eassumption.
Qed.

(* the loops of the runtime over the calendar queue terminate as well (this
   includes the bucket scan of fetch_next / peek_time) *)
Theorem run_total_cq n t sc : n <> 0 -> t <> 0 -> ~ In OFuel (crun_script repaired n t sc).
Proof. intros Hn Ht. rewrite run_script_over_cqueue by assumption. apply run_total. Qed.
