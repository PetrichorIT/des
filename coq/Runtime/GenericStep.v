(* C10 for the runtime over ANY event set [EV : evset]: stepping is
   indistinguishable from running.  The oracle is keyed by the dispatch number
   and sees the candidates, and peek_time cannot change the event set (its type
   returns no state): the stepped run and the uninterrupted run therefore put
   the same question to the oracle when they dispatch the same event, which is
   what a deterministic backend whose peek takes &self does. *)
From Coq Require Import List NArith ZArith.Znat Lia Bool Sorting.Sorted Permutation.
From DesVerif Require Import Common.Lists Common.Fuel Runtime.Limit Runtime.Model Runtime.Inv Runtime.Prefix Runtime.Step
  Runtime.Generic Runtime.EvSet Runtime.GenericProps Runtime.GenericPrefix.
Import ListNotations.
Open Scope N_scope.

Section GenericStep.
Variable EV : evset.
Local Notation Q := (eQ EV).
Local Notation Hint := (eHint EV).
Local Notation q_new := (e_new EV).
Local Notation q_add := (e_add EV).
Local Notation q_peek := (e_peek EV).
Local Notation q_fetch := (e_fetch EV).
Local Notation q_len := (e_len EV).
Local Notation q_clock := (e_clock EV).
Variable orc : N -> Hint.

Local Notation rt := (grt Q).
Local Notation gadd := (gadd_event Q q_add).
Local Notation gD := (gdispatch_event Q Hint q_add q_peek q_fetch orc).
Local Notation gall := (gdispatch_all Q Hint q_add q_peek q_fetch q_len orc).
Local Notation gwith := (gwith_limit Q Hint q_add q_peek q_fetch q_len orc).
Local Notation gstp := (gstep Q Hint q_add q_peek q_fetch q_len orc).
Local Notation gsched := (gexec_sched Q Hint q_add q_peek q_fetch q_len orc).
Local Notation gnsteps := (gdispatch_n_events Q Hint q_add q_peek q_fetch q_len orc).
Local Notation guntil := (gdispatch_events_until Q Hint q_add q_peek q_fetch q_len orc).
Local Notation gbt := (gboot Q q_new q_add).
Local Notation grem := (gremaining Q Hint q_fetch q_len orc).
Local Notation gblock := (grun_block Q Hint q_new q_add q_peek q_fetch q_len orc).
Local Notation Inv := (GInv EV).
Local Notation mu := (gmu EV).
Local Notation next := (gnext EV orc).
Local Notation useq := (guseq EV orc).

Definition gcompletes (P : prog) (s u : rt) : Prop := exists k, iter_nat k (gD P) (gset_limit Q s LNone) = inr u.

Lemma gset_limit_id (s : rt) : gset_limit Q s (glimit Q s) = s.
Proof. destruct s; reflexivity. Qed.

Lemma gset_limit_none (s : rt) : glimit Q s = LNone -> gset_limit Q s LNone = s.
Proof. intros E. rewrite <- E. apply gset_limit_id. Qed.

Lemma gD_none_go P s t s' :
  q_peek (gfes Q s) = Some t -> next P s = Some s' -> gD P (gset_limit Q s LNone) = inl (gset_limit Q s' LNone).
Proof.
  intros Ep En. rewrite gD_unfold. cbn [gfes glimit gitr gset_limit]. rewrite Ep. cbn [applies].
  rewrite gnext_set_limit, En. reflexivity.
Qed.

Lemma gcompletes_det P s u u' : gcompletes P s u -> gcompletes P s u' -> u = u'.
Proof.
  intros [k H] [k' H'].
  pose proof (iter_nat_mono (gD P) k (Nat.max k k') _ _ (Nat.le_max_l k k') H) as M.
  pose proof (iter_nat_mono (gD P) k' (Nat.max k k') _ _ (Nat.le_max_r k k') H') as M'.
  congruence.
Qed.

(* a limited run only walks along the unlimited one *)
Lemma gstep_fwd S P k : forall s s1 u,
  Inv S s -> iter_nat k (gD P) s = inr s1 -> gcompletes P s u -> gcompletes P s1 u /\ Inv S s1 /\ glimit Q s1 = glimit Q s.
Proof.
  induction k as [|k IH]; intros s s1 u HI H C; cbn [iter_nat] in H; [discriminate|].
  rewrite gD_unfold in H. destruct (q_peek (gfes Q s)) as [t|] eqn:Ep.
  - destruct (gnext_ok EV orc S P s t HI Ep) as [l [s' [_ [En [HI' [_ [_ [_ [Li _]]]]]]]]]. rewrite En in H.
    destruct (applies (glimit Q s) (gitr Q s + 1) t).
    + injection H as <-. split; [exact C|]. split; [exact HI|reflexivity].
    + destruct (IH s' s1 u HI' H) as [C1 [I1 L1]].
      * destruct C as [[|k'] C]; cbn [iter_nat] in C; [discriminate|].
        rewrite (gD_none_go P s t s' Ep En) in C. exists k'. exact C.
      * split; [exact C1|]. split; [exact I1|congruence].
  - injection H as <-. split; [exact C|]. split; [exact HI|reflexivity].
Qed.

Lemma gall_completes S P s u : Inv S s -> gall P (gset_limit Q s LNone) = Some u -> gcompletes P s u.
Proof.
  intros HI H. apply (gall_iter EV orc S P _ _ (GInv_set_limit EV S s LNone HI)) in H. eexists. exact H.
Qed.

Lemma gcompletes_set_limit P s L u : gcompletes P (gset_limit Q s L) u <-> gcompletes P s u.
Proof. unfold gcompletes. change (gset_limit Q (gset_limit Q s L) LNone) with (gset_limit Q s LNone). reflexivity. Qed.

Lemma gwith_spec S P L s s' :
  Inv S s -> gwith P L s = Some s' ->
  exists s1, iter_nat (Datatypes.S (mu s)) (gD P) (gset_limit Q s L) = inr s1 /\ s' = gset_limit Q s1 (glimit Q s).
Proof.
  intros HI. unfold gwith_limit. destruct (gall P (gset_limit Q s L)) as [s1|] eqn:E; [|discriminate].
  intros H. injection H as <-. exists s1. split; [|reflexivity].
  apply (gall_iter EV orc S P _ _ (GInv_set_limit EV S s L HI)) in E. exact E.
Qed.

Lemma gwith_completes S P L s s' u :
  Inv S s -> gwith P L s = Some s' -> gcompletes P s u -> gcompletes P s' u /\ Inv S s' /\ glimit Q s' = glimit Q s.
Proof.
  intros HI H C. destruct (gwith_spec S P L s s' HI H) as [s1 [I ->]].
  destruct (gstep_fwd S P _ _ _ u (GInv_set_limit EV S s L HI) I) as [C1 [I1 _]]; [apply gcompletes_set_limit; exact C|].
  split; [apply gcompletes_set_limit; exact C1|]. split; [apply GInv_set_limit; exact I1|reflexivity].
Qed.

Lemma gstp_completes S P s o s' x u :
  Inv S s -> is_dispatch o = true -> gstp P s o = (Some s', x) -> gcompletes P s u ->
  gcompletes P s' u /\ Inv S s' /\ glimit Q s' = glimit Q s.
Proof.
  intros HI. destruct o as [k|T|t l]; cbn [is_dispatch gstep]; unfold gdispatch_n_events, gdispatch_events_until; intros Hd H C.
  - destruct (gwith P (LCount (gitr Q s + k)) s) as [s1|] eqn:E; [|discriminate]. injection H as <- _.
    eapply gwith_completes; eassumption.
  - destruct (gwith P (LTime T) s) as [s1|] eqn:E; [|discriminate]. injection H as <- _.
    eapply gwith_completes; eassumption.
  - discriminate.
Qed.

Lemma gsched_completes S P ops : forall s s' xs u,
  Inv S s -> forallb is_dispatch ops = true -> gsched P s ops = (Some s', xs) -> gcompletes P s u ->
  gcompletes P s' u /\ Inv S s' /\ glimit Q s' = glimit Q s.
Proof.
  induction ops as [|o ops IH]; intros s s' xs u HI Hd H C; cbn [gexec_sched] in H.
  - injection H as <- _. split; [exact C|]. split; [exact HI|reflexivity].
  - cbn [forallb] in Hd. apply andb_true_iff in Hd. destruct Hd as [Ho Hr].
    destruct (gstp P s o) as [[s1|] x] eqn:E; [|discriminate].
    destruct (gsched P s1 ops) as [s2 ys] eqn:E2. injection H as -> _.
    destruct (gstp_completes S P _ _ _ _ u HI Ho E C) as [C1 [I1 L1]].
    destruct (IH _ _ _ u I1 Hr E2 C1) as [C2 [I2 L2]]. split; [exact C2|]. split; [exact I2|congruence].
Qed.

(* Any combination of dispatch_n_events and dispatch_events_until followed by
   dispatch_all ends in exactly the state in which the uninterrupted
   dispatch_all ends. *)
Theorem g_stepped_eq_run P S B pre ops :
  forallb is_dispatch ops = true ->
  exists s1 xs u,
    gsched P (gbt S B LNone pre) ops = (Some s1, xs) /\ gall P s1 = Some u /\ gall P (gbt S B LNone pre) = Some u.
Proof.
  intros Hd. pose proof (gboot_inv EV S B LNone pre) as H0.
  destruct (gboot_fields EV S B LNone pre) as [_ [_ HL]].
  destruct (gsched_total EV orc S P ops _ H0) as [s1 [xs [E1 [I1 _]]]].
  destruct (gall_total EV orc S P s1 I1) as [sf [Ef _]].
  destruct (gall_total EV orc S P _ H0) as [u [Eu _]].
  exists s1, xs, u. split; [exact E1|]. split; [|exact Eu]. rewrite Ef. f_equal.
  assert (C0 : gcompletes P (gbt S B LNone pre) u).
  { apply (gall_completes S P _ _ H0). rewrite (gset_limit_none _ HL). exact Eu. }
  destruct (gsched_completes S P ops _ _ _ u H0 Hd E1 C0) as [C1 [_ L1]].
  assert (Cf : gcompletes P s1 sf).
  { apply (gall_completes S P _ _ I1). rewrite gset_limit_none by congruence. exact Ef. }
  eapply gcompletes_det; eassumption.
Qed.

Theorem g_stepped_block sc sched :
  forallb is_dispatch sched = true ->
  exists o0 o1 u,
    fst (gblock sc LNone []) = o0 ++ [gfinish Q Hint q_fetch q_len orc u] /\
    fst (gblock sc LNone sched) = o0 ++ o1 ++ [gfinish Q Hint q_fetch q_len orc u].
Proof.
  intros Hd. destruct (g_stepped_eq_run (sc_prog sc) (sc_start sc) (sc_budget sc) (sc_pre sc) sched Hd) as [s1 [o1 [u [E1 [Ef Eu]]]]].
  unfold grun_block. unfold gboot in *.
  destruct (gpre_adds Q q_add (grt_new Q q_new (sc_start sc) (sc_budget sc) LNone) (sc_pre sc)) as [s0 o0]. cbn [fst] in *.
  cbn [gexec_sched]. rewrite Eu, E1, Ef. exists o0, o1, u. split; reflexivity.
Qed.

(* the configured limit plays no role in a step *)
Theorem g_step_ignores_configured_limit P L' L s :
  gwith P L' (gset_limit Q s L) = option_map (fun s' => gset_limit Q s' L) (gwith P L' s).
Proof.
  unfold gwith_limit. change (gset_limit Q (gset_limit Q s L) L') with (gset_limit Q s L').
  destruct (gall P (gset_limit Q s L')); reflexivity.
Qed.

(* ---- what one step dispatches ---- *)
Definition grest (P : prog) (s : rt) : list (N * N) := useq P (Datatypes.S (mu s)) s.

Lemma g_unlimited_rest S P s u : Inv S s -> gall P (gset_limit Q s LNone) = Some u -> glog Q u = glog Q s ++ grest P s.
Proof.
  intros HI H. pose proof (GInv_set_limit EV S s LNone HI) as HI'.
  apply (gall_iter EV orc S P _ _ HI') in H. apply (grun_log EV orc S P _ _ _ HI') in H.
  cbn [glimit gset_limit glog gitr] in H. rewrite lprefix_none, guseq_set_limit in H. exact H.
Qed.

Lemma gwith_log S P L s s' : Inv S s -> gwith P L s = Some s' -> glog Q s' = glog Q s ++ lprefix L (gitr Q s) (grest P s).
Proof.
  intros HI H. destruct (gwith_spec S P L s s' HI H) as [s1 [I ->]].
  apply (grun_log EV orc S P _ _ _ (GInv_set_limit EV S s L HI)) in I.
  cbn [glimit gset_limit glog gitr] in *. rewrite guseq_set_limit in I. exact I.
Qed.

Lemma g_rest_sorted S P s : Inv S s -> StronglySorted N.le (times (grest P s)).
Proof.
  intros HI. destruct (gall_total EV orc S P _ (GInv_set_limit EV S s LNone HI)) as [u [Eu HIu]].
  pose proof (G_sorted _ _ _ HIu) as Hs. rewrite (g_unlimited_rest S P s u HI Eu) in Hs.
  unfold times in *. rewrite map_app in Hs. eapply StronglySorted_app_r; exact Hs.
Qed.

(* everything about a paused state: any program, configured limit and schedule
   so far, external adds included *)
Theorem g_paused P S B L pre ops s xs :
  gsched P (gbt S B L pre) ops = (Some s, xs) ->
  (* the reported values *)
  gstatus Q q_len s = OStatus (N.of_nat (length (glog Q s))) (N.of_nat (length (grem s)))
                              (last (map snd (glog Q s)) S) (N.of_nat (length (gadds Q s))) /\
  Permutation (accepted (gadds Q s)) (handled (glog Q s) ++ grem s) /\
  q_clock (gfes Q s) = gclock Q s /\
  (* add_event while paused *)
  (forall tm l, gstp P s (SAdd tm l) = (Some (gadd false s tm l), OAddRes (gclock Q s <=? tm))) /\
  (forall tm l, tm < gclock Q s -> gfes Q (gadd false s tm l) = gfes Q s) /\
  (* the remaining run, and the two step functions *)
  StronglySorted N.le (map snd (grest P s)) /\
  (exists u, gall P (gset_limit Q s LNone) = Some u /\ glog Q u = glog Q s ++ grest P s) /\
  (forall k, exists s', gnsteps P s k = Some s' /\
                        glog Q s' = glog Q s ++ firstn (N.to_nat k) (grest P s) /\
                        gitr Q s' = gitr Q s + N.min k (N.of_nat (length (grest P s)))) /\
  (forall T, exists s', guntil P s T = Some s' /\
                        glog Q s' = glog Q s ++ filter (fun e => snd e <=? T) (grest P s)).
Proof.
  intros H. destruct (gsched_total EV orc S P ops _ (gboot_inv EV S B L pre)) as [s' [xs' [E [HI _]]]].
  rewrite H in E. injection E as <- _.
  destruct (ggood_of_inv EV orc S s HI) as [_ [_ [G3 [G4 [G5 [G6 [_ [G8 G9]]]]]]]].
  split; [unfold gstatus; rewrite G5, G6, G3; reflexivity|]. split; [exact G8|]. split; [exact G4|].
  split; [intros tm l; cbn [gstep]; rewrite (proj1 (G9 false tm l)); reflexivity|].
  split; [intros tm l; apply (G9 false tm l)|].
  split; [apply (g_rest_sorted S P s HI)|]. split; [|split].
  - destruct (gall_total EV orc S P _ (GInv_set_limit EV S s LNone HI)) as [u [Eu _]]. exists u. split; [exact Eu|].
    apply (g_unlimited_rest S P s u HI Eu).
  - intros k. unfold gdispatch_n_events. destruct (gwith_total EV orc S P (LCount (gitr Q s + k)) s HI) as [s' [E HI']].
    exists s'. split; [exact E|]. apply (gwith_log S P _ _ _ HI) in E. rewrite lprefix_count in E. split; [exact E|].
    rewrite (G_itr _ _ _ HI'), (G_itr _ _ _ HI), E, app_length, firstn_length. lia.
  - intros T. unfold gdispatch_events_until. destruct (gwith_total EV orc S P (LTime T) s HI) as [s' [E _]].
    exists s'. split; [exact E|]. apply (gwith_log S P _ _ _ HI) in E.
    rewrite lprefix_time in E by (apply (g_rest_sorted S P s HI)). exact E.
Qed.

End GenericStep.
