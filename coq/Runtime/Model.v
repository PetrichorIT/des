(* Executable model of des/src/runtime/mod.rs (Runtime<App>: add_event,
   add_event_in, dispatch_event, dispatch_all, dispatch_n_events,
   dispatch_events_until, run/start/finish) over the future event set.
   The event set is the two-list specification CQueue.Spec.sp, which
   C01_refines_spec proves the calendar queue agrees with for every bucket
   count and width; the payload of an event is its label.  User code is a
   script: a table label -> actions executed by the handler of an event with
   that label.  No proofs in this file.

   [variant] selects the semantics of the two places that were repaired:
     v_start = true : the event set's clock starts at Builder::start_time
                      (fix: commit d335396; false: at zero, whatever the start
                      time -- F2)
     v_peek  = true : dispatch_event decides the limit on the timestamp of the
                      next event without removing it (fix: commit f4552a6;
                      false: fetch it, and put it back with `add` when the
                      limit applies -- F7, F8)
   [run] is the code as it is now (both repairs); Refuted/C02.v and
   Refuted/C10.v instantiate the pinned behaviour. *)
From Coq Require Import List NArith PArith Bool.
From DesVerif Require Import Common.Fuel Common.Codec CQueue.Model CQueue.Spec Runtime.Limit.
Import ListNotations.
Open Scope N_scope.

Record variant := { v_start : bool; v_peek : bool }.
Definition repaired : variant := {| v_start := true; v_peek := true |}.
Definition pinned : variant := {| v_start := false; v_peek := false |}.

(* one attempt to schedule an event: requested time, label, SimTime::now() at
   the call, where the call was made (0 = from outside: before the run or
   while paused; i >= 1 = inside the handler of the i-th dispatched event),
   accepted (true) or rejected with a panic (false) *)
Record add_rec := { a_time : N; a_label : N; a_now : N; a_ctx : N; a_ok : bool }.

(* handler action: kind 0 = add_event_in(label, delay x); otherwise
   add_event(label, absolute time x) *)
Definition action := (N * N * N)%type.
Definition prog := list (list action).

Record rt := {
  fes : sp;                 (* future_event_set *)
  clock : N;                (* SIMTIME, what SimTime::now() / sim_time() return *)
  itr : N;                  (* num_events_dispatched *)
  limit : lim;
  budget : N;               (* scripted user code: handler actions still allowed *)
  log : list (N * N);       (* (label, SimTime::now()) written by each handler *)
  adds : list add_rec }.    (* every add_event / add_event_in attempt, in order *)

Definition set_limit (s : rt) (l : lim) : rt :=
  {| fes := fes s; clock := clock s; itr := itr s; limit := l; budget := budget s; log := log s; adds := adds s |}.
Definition set_fes (s : rt) (q : sp) : rt :=
  {| fes := q; clock := clock s; itr := itr s; limit := limit s; budget := budget s; log := log s; adds := adds s |}.
Definition dec_budget (s : rt) : rt :=
  {| fes := fes s; clock := clock s; itr := itr s; limit := limit s; budget := budget s - 1; log := log s; adds := adds s |}.

(* FutureEventSet::new_with: CQueue::new_at(n, t, start_time) -- an empty event
   set whose clock is [start] (Spec.sp_new_at) -- resp. CQueue::new *)
Definition new_fes (v : variant) (start : N) : sp := if v_start v then sp_new_at start else sp_new.

(* Builder::build *)
Definition rt_new (v : variant) (start bud : N) (l : lim) : rt :=
  {| fes := new_fes v start; clock := start; itr := 0; limit := l; budget := bud; log := []; adds := [] |}.

Definition added_ok (o : out) : bool := match o with OAdded => true | _ => false end.

(* Runtime::add_event(event, time), under catch_unwind: the event set asserts
   time >= its clock before it changes anything *)
Definition add_event (inh : bool) (s : rt) (time label : N) : rt :=
  let r := sp_add (fes s) time label in
  {| fes := fst (fst r); clock := clock s; itr := itr s; limit := limit s; budget := budget s; log := log s;
     adds := adds s ++ [{| a_time := time; a_label := label; a_now := clock s;
                           a_ctx := if inh then itr s else 0; a_ok := added_ok (snd r) |}] |}.

Definition last_ok (s : rt) : bool :=
  match rev (adds s) with r :: _ => a_ok r | [] => false end.

(* Runtime::add_event_in(event, dur) = add_event(event, sim_time() + dur) *)
Definition add_event_in (s : rt) (dur label : N) : rt := add_event true s (clock s + dur) label.

(* the scripted Event::handle: run the label's actions while the global action
   budget lasts (the budget makes every program finite) *)
Fixpoint do_actions (acts : list action) (s : rt) : rt :=
  match acts with
  | [] => s
  | (k, x, l) :: r =>
      if budget s =? 0 then s
      else do_actions r (if k =? 0 then add_event_in (dec_budget s) x l else add_event true (dec_budget s) x l)
  end.

Definition handle (P : prog) (label : N) (s : rt) : rt := do_actions (nth (N.to_nat label) P []) s.

(* FutureEventSet::peek_time: timestamp of the event fetch_next would return (Spec.sp_peek) *)
Definition peek (q : sp) : option N := match sp_peek q with OPeek o => o | _ => None end.

(* the part of dispatch_event after the limit test: itr += 1; set_now(time); event.handle(self) *)
Definition deliver (P : prog) (s : rt) (q : sp) (label time : N) : rt :=
  handle P label {| fes := q; clock := time; itr := itr s + 1; limit := limit s; budget := budget s;
                    log := log s ++ [(label, time)]; adds := adds s |}.

(* dispatch_event; inl = `false` (go on), inr = `true` (stop) *)
Definition dispatch_event_peek (P : prog) (s : rt) : rt + rt :=
  match peek (fes s) with
  | None => inr s
  | Some time =>
      if applies (limit s) (itr s + 1) time then inr s
      else match sp_fetch (fes s) with
           | (q, OFetched label tm) => inl (deliver P s q label tm)
           | _ => inr s
           end
  end.

Definition dispatch_event_putback (P : prog) (s : rt) : rt + rt :=
  if sp_len (fes s) =? 0 then inr s
  else match sp_fetch (fes s) with
       | (q, OFetched label tm) =>
           if applies (limit s) (itr s + 1) tm then inr (set_fes s (fst (fst (sp_add q tm label))))
           else inl (deliver P s q label tm)
       | _ => inr s
       end.

Definition dispatch_event (v : variant) (P : prog) (s : rt) : rt + rt :=
  if v_peek v then dispatch_event_peek P s else dispatch_event_putback P s.

(* every dispatched event removes one pending event and every event it
   schedules costs one unit of budget, so this many iterations always reach
   `true` (Runtime/GenericProps.v: gall_total, read for this record through
   Runtime/OverSpec.v) *)
Definition loop_fuel (s : rt) : positive := N.succ_pos (budget s + sp_len (fes s)).

(* dispatch_all: while !self.dispatch_event() {} ; None = out of fuel *)
Definition dispatch_all (v : variant) (P : prog) (s : rt) : option rt :=
  match iter_until (loop_fuel s) (dispatch_event v P) s with
  | inr s' => Some s'
  | inl _ => None
  end.

(* the step functions swap their own limit in and the configured one back *)
Definition with_limit (v : variant) (P : prog) (l : lim) (s : rt) : option rt :=
  match dispatch_all v P (set_limit s l) with
  | Some s' => Some (set_limit s' (limit s))
  | None => None
  end.
Definition dispatch_n_events (v : variant) (P : prog) (s : rt) (k : N) : option rt :=
  with_limit v P (LCount (itr s + k)) s.
Definition dispatch_events_until (v : variant) (P : prog) (s : rt) (T : N) : option rt :=
  with_limit v P (LTime T) s.

(* ---- canonical form of Profiler::remaining: sorted by (time, label) ---- *)
Definition ple (a b : N * N) : bool := (fst a <? fst b) || ((fst a =? fst b) && (snd a <=? snd b)).
Fixpoint pins (a : N * N) (l : list (N * N)) : list (N * N) :=
  match l with [] => [a] | x :: r => if ple a x then a :: x :: r else x :: pins a r end.
Definition isort (l : list (N * N)) : list (N * N) := fold_right pins [] l.

(* the undelivered events as (time, label), in the order finish drains them *)
Definition pend (q : sp) : list (N * N) := map (fun e => (etime e, epay e)) (s_zero q ++ s_rest q).

(* ---- scripts ---- *)
Inductive sop := SN (k : N) | SUntil (T : N) | SAdd (time label : N).

Inductive sout :=
| OAddRes (ok : bool)
| OStatus (dispatched remaining now nadds : N)
| OFinal (event_count end_time : N) (lg : list (N * N)) (ad : list add_rec) (rem : list (N * N))
| OFuel.

Definition status (s : rt) : sout := OStatus (itr s) (sp_len (fes s)) (clock s) (N.of_nat (length (adds s))).

Definition step (v : variant) (P : prog) (s : rt) (o : sop) : option rt * sout :=
  match o with
  | SN k => match dispatch_n_events v P s k with Some s' => (Some s', status s') | None => (None, OFuel) end
  | SUntil T => match dispatch_events_until v P s T with Some s' => (Some s', status s') | None => (None, OFuel) end
  | SAdd t l => let s' := add_event false s t l in (Some s', OAddRes (last_ok s'))
  end.

(* finish: (app, sim_time(), profiler{event_count = itr, remaining = drained set}) *)
Definition finish (s : rt) : sout := OFinal (itr s) (clock s) (log s) (adds s) (isort (pend (fes s))).

Fixpoint exec_sched (v : variant) (P : prog) (s : rt) (ops : list sop) : option rt * list sout :=
  match ops with
  | [] => (Some s, [])
  | o :: r => match step v P s o with
              | (Some s', x) => let '(s'', xs) := exec_sched v P s' r in (s'', x :: xs)
              | (None, x) => (None, [x])
              end
  end.

Fixpoint pre_adds (s : rt) (pre : list (N * N)) : rt * list sout :=
  match pre with
  | [] => (s, [])
  | (t, l) :: r => let s' := add_event false s t l in
                   let '(s'', xs) := pre_adds s' r in (s'', OAddRes (last_ok s') :: xs)
  end.

Record script := { sc_start : N; sc_budget : N; sc_calls : list bcall; sc_prog : prog;
                   sc_pre : list (N * N); sc_sched : list sop }.

(* build; add_event*; start; schedule; dispatch_all; finish *)
Definition run_block (v : variant) (sc : script) (l : lim) (sched : list sop) : list sout :=
  let '(s0, o0) := pre_adds (rt_new v (sc_start sc) (sc_budget sc) l) (sc_pre sc) in
  match exec_sched v (sc_prog sc) s0 sched with
  | (Some s1, o1) => match dispatch_all v (sc_prog sc) s1 with
                     | Some s2 => o0 ++ o1 ++ [finish s2]
                     | None => o0 ++ o1 ++ [OFuel]
                     end
  | (None, o1) => o0 ++ o1
  end.

(* three runs of the same program: without a limit; Runtime::run() with the
   configured limit; the stepped run with the configured limit *)
Definition run_script (v : variant) (sc : script) : list sout :=
  run_block v sc LNone [] ++ run_block v sc (build_limit (sc_calls sc)) []
  ++ run_block v sc (build_limit (sc_calls sc)) (sc_sched sc).

(* ---- wire format ----
   script: n t u start budget cbk cbt  nb {bcall}  K {na {action}}  np {time label}  {sop}
     bcall  = 1 n | 2 T | 3 tree      tree = 0 | 1 n | 2 T | 3 tree tree | 4 tree tree
     action = kind x label            sop  = 1 k | 2 T | 3 time label
   A missing number reads as 0 (Cur::next in harness/src/lib.rs). *)
Definition nx (l : list N) : N * list N := match l with [] => (0, []) | x :: r => (x, r) end.

Fixpoint dec_lim (fuel : nat) (l : list N) : lim * list N :=
  match fuel with
  | O => (LNone, l)
  | S f =>
      let '(tag, r) := nx l in
      match tag with
      | 1 => let '(n, r1) := nx r in (LCount n, r1)
      | 2 => let '(T, r1) := nx r in (LTime T, r1)
      | 3 => let '(a, r1) := dec_lim f r in let '(b, r2) := dec_lim f r1 in (LAnd a b, r2)
      | 4 => let '(a, r1) := dec_lim f r in let '(b, r2) := dec_lim f r1 in (LOr a b, r2)
      | _ => (LNone, r)
      end
  end.

Definition dec_bcall (l : list N) : bcall * list N :=
  let '(tag, r) := nx l in
  match tag with
  | 1 => let '(n, r1) := nx r in (MaxItr n, r1)
  | 2 => let '(T, r1) := nx r in (MaxTime T, r1)
  | _ => let '(a, r1) := dec_lim (S (length r)) r in (Limit a, r1)
  end.

(* up to k items, stopping at the end of the input *)
Fixpoint dec_many {A} (fuel : nat) (dec1 : list N -> A * list N) (k : N) (l : list N) : list A * list N :=
  match fuel with
  | O => ([], l)
  | S f =>
      if k =? 0 then ([], l)
      else match l with
           | [] => ([], [])
           | _ => let '(a, r) := dec1 l in
                  let '(xs, r') := dec_many f dec1 (k - 1) r in (a :: xs, r')
           end
  end.

Definition dec_counted {A} (dec1 : list N -> A * list N) (l : list N) : list A * list N :=
  let '(k, r) := nx l in dec_many (length r) dec1 k r.

Definition dec_action (l : list N) : action * list N :=
  let '(k, r) := nx l in let '(x, r1) := nx r in let '(lb, r2) := nx r1 in ((k, x, lb), r2).

Definition dec_pair (l : list N) : (N * N) * list N :=
  let '(a, r) := nx l in let '(b, r1) := nx r in ((a, b), r1).

Definition dec_sop (l : list N) : option (sop * list N) :=
  match l with
  | 1 :: r => let '(k, r1) := nx r in Some (SN k, r1)
  | 2 :: r => let '(T, r1) := nx r in Some (SUntil T, r1)
  | 3 :: r => let '(t, r1) := nx r in let '(lb, r2) := nx r1 in Some (SAdd t lb, r2)
  | _ => None
  end.

Definition dec_script (l : list N) : script :=
  let '(start, r) := nx l in
  let '(bud, r) := nx r in
  let '(_, r) := nx r in       (* cbk, cbt: the harness's "concurrent Builder::build" dimension; *)
  let '(_, r) := nx r in       (* nothing the runtime does depends on it *)
  let '(calls, r) := dec_counted dec_bcall r in
  let '(pr, r) := dec_counted (dec_counted dec_action) r in
  let '(pre, r) := dec_counted dec_pair r in
  {| sc_start := start; sc_budget := bud; sc_calls := calls; sc_prog := pr; sc_pre := pre;
     sc_sched := decode_all dec_sop r |}.

Definition enc_pairs (l : list (N * N)) : list N :=
  N.of_nat (length l) :: flat_map (fun p => [fst p; snd p]) l.
Definition enc_adds (l : list add_rec) : list N :=
  N.of_nat (length l) :: flat_map (fun r => [a_time r; a_label r; a_now r; a_ctx r; b2n (a_ok r)]) l.

Definition enc_sout (o : sout) : list N :=
  match o with
  | OAddRes true => [1]
  | OAddRes false => [9; 1]
  | OStatus d r t k => [3; d; r; t; k]
  | OFinal c e lg ad rm => [4; c; e] ++ enc_pairs lg ++ enc_adds ad ++ enc_pairs rm
  | OFuel => [8]
  end.

(* ---- time unit ----
   Every time on the wire (start time, limits, delays, absolute times, step
   arguments) is given in units of u nanoseconds (u = 0 means 1) and every
   printed time is divided by u again (all times of a run are multiples of u, so
   this is exact): scripts reach timestamps far beyond 2^64 ns although every
   number on the wire stays below 2^62.  The calendar-queue parameters n, t stay
   in plain nanoseconds. *)
Definition unit_of (u : N) : N := if u =? 0 then 1 else u.

Fixpoint scale_lim (u : N) (l : lim) : lim :=
  match l with
  | LTime T => LTime (T * u)
  | LAnd a b => LAnd (scale_lim u a) (scale_lim u b)
  | LOr a b => LOr (scale_lim u a) (scale_lim u b)
  | _ => l
  end.

Definition scale_bcall (u : N) (c : bcall) : bcall :=
  match c with MaxItr n => MaxItr n | MaxTime T => MaxTime (T * u) | Limit l => Limit (scale_lim u l) end.

Definition scale_sop (u : N) (o : sop) : sop :=
  match o with SN k => SN k | SUntil T => SUntil (T * u) | SAdd t l => SAdd (t * u) l end.

Definition scale_script (u : N) (sc : script) : script :=
  {| sc_start := sc_start sc * u; sc_budget := sc_budget sc;
     sc_calls := map (scale_bcall u) (sc_calls sc);
     sc_prog := map (map (fun a : action => let '(k, x, l) := a in (k, x * u, l))) (sc_prog sc);
     sc_pre := map (fun p => (fst p * u, snd p)) (sc_pre sc);
     sc_sched := map (scale_sop u) (sc_sched sc) |}.

Definition unscale_sout (u : N) (o : sout) : sout :=
  match o with
  | OStatus d r t k => OStatus d r (t / u) k
  | OFinal c e lg ad rm =>
      OFinal c (e / u) (map (fun p => (fst p, snd p / u)) lg)
             (map (fun r => {| a_time := a_time r / u; a_label := a_label r; a_now := a_now r / u;
                               a_ctx := a_ctx r; a_ok := a_ok r |}) ad)
             (map (fun p => (fst p / u, snd p)) rm)
  | _ => o
  end.

Definition run_gen (v : variant) (input : list N) : list N :=
  match input with
  | n :: t :: u0 :: r =>
      if (n =? 0) || (t =? 0) then [7]
      else let u := unit_of u0 in
           flat_map enc_sout (map (unscale_sout u) (run_script v (scale_script u (dec_script r))))
  | _ => [7]
  end.

(* n and t (the calendar-queue parameters) are only tested for zero (answer
   [7]): by C01_refines_spec the event set does not depend on them *)
Definition run (input : list N) : list N := run_gen repaired input.
