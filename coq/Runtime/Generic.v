(* The runtime model of Runtime/Model.v (variant [repaired])
   over an ABSTRACT future event set: a state type Q with new / add / peek_time /
   fetch_next / len, where fetch_next takes a hint of an abstract type (the
   oracle of a backend whose choice among equal timestamps is unspecified; a
   deterministic backend ignores it).  [orc i] is the hint used when the i-th
   event (counted from 0) is dispatched.  Runtime/GenericProps.v proves the
   runtime-level statements of C02 from the six facts of Runtime/EvSet.v;
   Runtime/HeapRt.v instantiates it with the BinaryHeap backend.
   Limit, script, wire format and output types are those of Model.v.
   No proofs in this file. *)
From Coq Require Import List NArith PArith Bool.
From DesVerif Require Import Common.Fuel Common.Codec Runtime.Limit Runtime.Model.
Import ListNotations.
Open Scope N_scope.

Section Generic.
Variables Q Hint : Type.
Variable q_new : N -> Q.                                  (* FutureEventSet::new_with (start time) *)
Variable q_add : Q -> N -> N -> Q * bool.                 (* add(time, label); false = panicked *)
Variable q_peek : Q -> option N.                          (* peek_time *)
Variable q_fetch : Hint -> Q -> Q * option (N * N).       (* fetch_next -> (time, label); None = panicked *)
Variable q_len : Q -> N.                                  (* len; is_empty = (len == 0) *)
Variable orc : N -> Hint.

Record grt := {
  gfes : Q; gclock : N; gitr : N; glimit : lim; gbudget : N; glog : list (N * N); gadds : list add_rec }.

Definition gset_limit (s : grt) (l : lim) : grt :=
  {| gfes := gfes s; gclock := gclock s; gitr := gitr s; glimit := l; gbudget := gbudget s; glog := glog s; gadds := gadds s |}.
Definition gdec_budget (s : grt) : grt :=
  {| gfes := gfes s; gclock := gclock s; gitr := gitr s; glimit := glimit s; gbudget := gbudget s - 1; glog := glog s; gadds := gadds s |}.

Definition grt_new (start bud : N) (l : lim) : grt :=
  {| gfes := q_new start; gclock := start; gitr := 0; glimit := l; gbudget := bud; glog := []; gadds := [] |}.

Definition gadd_event (inh : bool) (s : grt) (time label : N) : grt :=
  let r := q_add (gfes s) time label in
  {| gfes := fst r; gclock := gclock s; gitr := gitr s; glimit := glimit s; gbudget := gbudget s; glog := glog s;
     gadds := gadds s ++ [{| a_time := time; a_label := label; a_now := gclock s;
                             a_ctx := if inh then gitr s else 0; a_ok := snd r |}] |}.

Definition glast_ok (s : grt) : bool := match rev (gadds s) with r :: _ => a_ok r | [] => false end.

Definition gadd_event_in (s : grt) (dur label : N) : grt := gadd_event true s (gclock s + dur) label.

Fixpoint gdo_actions (acts : list action) (s : grt) : grt :=
  match acts with
  | [] => s
  | (k, x, l) :: r =>
      if gbudget s =? 0 then s
      else gdo_actions r (if k =? 0 then gadd_event_in (gdec_budget s) x l else gadd_event true (gdec_budget s) x l)
  end.

Definition ghandle (P : prog) (label : N) (s : grt) : grt := gdo_actions (nth (N.to_nat label) P []) s.

(* itr += 1; SimTime::set_now(time); (the handler logs (label, now())) *)
Definition gfetched (s : grt) (q : Q) (label time : N) : grt :=
  {| gfes := q; gclock := time; gitr := gitr s + 1; glimit := glimit s; gbudget := gbudget s;
     glog := glog s ++ [(label, time)]; gadds := gadds s |}.

(* dispatch_event: peek_time; limit test; fetch_next; set_now; handle *)
Definition gdispatch_event (P : prog) (s : grt) : grt + grt :=
  match q_peek (gfes s) with
  | None => inr s
  | Some time =>
      if applies (glimit s) (gitr s + 1) time then inr s
      else match q_fetch (orc (gitr s)) (gfes s) with
           | (q, Some (tm, label)) => inl (ghandle P label (gfetched s q label tm))
           | _ => inr s
           end
  end.

Definition gloop_fuel (s : grt) : positive := N.succ_pos (gbudget s + q_len (gfes s)).

Definition gdispatch_all (P : prog) (s : grt) : option grt :=
  match iter_until (gloop_fuel s) (gdispatch_event P) s with
  | inr s' => Some s'
  | inl _ => None
  end.

Definition gwith_limit (P : prog) (l : lim) (s : grt) : option grt :=
  match gdispatch_all P (gset_limit s l) with
  | Some s' => Some (gset_limit s' (glimit s))
  | None => None
  end.
Definition gdispatch_n_events (P : prog) (s : grt) (k : N) : option grt := gwith_limit P (LCount (gitr s + k)) s.
Definition gdispatch_events_until (P : prog) (s : grt) (T : N) : option grt := gwith_limit P (LTime T) s.

(* finish: while !is_empty { remaining.push(fetch_next()) } *)
Fixpoint gdrain (h : Hint) (k : nat) (q : Q) : list (N * N) :=
  match k with
  | O => []
  | S k' => match q_fetch h q with
            | (q', Some e) => e :: gdrain h k' q'
            | _ => []
            end
  end.
Definition gremaining (s : grt) : list (N * N) := gdrain (orc (gitr s)) (N.to_nat (q_len (gfes s))) (gfes s).

Definition gstatus (s : grt) : sout := OStatus (gitr s) (q_len (gfes s)) (gclock s) (N.of_nat (length (gadds s))).

Definition gstep (P : prog) (s : grt) (o : sop) : option grt * sout :=
  match o with
  | SN k => match gdispatch_n_events P s k with Some s' => (Some s', gstatus s') | None => (None, OFuel) end
  | SUntil T => match gdispatch_events_until P s T with Some s' => (Some s', gstatus s') | None => (None, OFuel) end
  | SAdd t l => let s' := gadd_event false s t l in (Some s', OAddRes (glast_ok s'))
  end.

Definition gfinish (s : grt) : sout := OFinal (gitr s) (gclock s) (glog s) (gadds s) (isort (gremaining s)).

Fixpoint gexec_sched (P : prog) (s : grt) (ops : list sop) : option grt * list sout :=
  match ops with
  | [] => (Some s, [])
  | o :: r => match gstep P s o with
              | (Some s', x) => let '(s'', xs) := gexec_sched P s' r in (s'', x :: xs)
              | (None, x) => (None, [x])
              end
  end.

Fixpoint gpre_adds (s : grt) (pre : list (N * N)) : grt * list sout :=
  match pre with
  | [] => (s, [])
  | (t, l) :: r => let s' := gadd_event false s t l in
                   let '(s'', xs) := gpre_adds s' r in (s'', OAddRes (glast_ok s') :: xs)
  end.

Definition gboot (S B : N) (L : lim) (pre : list (N * N)) : grt := fst (gpre_adds (grt_new S B L) pre).

(* build; add_event*; start; schedule; dispatch_all; finish.  The final state is returned as well. *)
Definition grun_block (sc : script) (l : lim) (sched : list sop) : list sout * option grt :=
  let '(s0, o0) := gpre_adds (grt_new (sc_start sc) (sc_budget sc) l) (sc_pre sc) in
  match gexec_sched (sc_prog sc) s0 sched with
  | (Some s1, o1) => match gdispatch_all (sc_prog sc) s1 with
                     | Some s2 => (o0 ++ o1 ++ [gfinish s2], Some s2)
                     | None => (o0 ++ o1 ++ [OFuel], None)
                     end
  | (None, o1) => (o0 ++ o1, None)
  end.

End Generic.
