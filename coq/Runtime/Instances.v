(* Event sets in the sense of Runtime/EvSet.v: (a) the two-list specification
   CQueue.Spec, (b) the calendar queue CQueue.Model.cq for every bucket count
   n >= 1 and width t >= 1 (its facts come from the refinement relation of C01).
   (c) the BinaryHeap backend is Runtime/HeapSetProps.heap_evset.  Every theorem
   of GenericProps / GenericPrefix / GenericStep holds for each of them.
   The generic runtime over (a) is Model.v's (OverSpec.v).  The one over (b) is
   a second model of the runtime over the calendar queue beside ModelCq.v, the
   extracted one; they are not related to each other, only each to (a). *)
From Coq Require Import List NArith Permutation.
From DesVerif Require Import CQueue.Model CQueue.Spec CQueue.Refine CQueue.SpecProps Runtime.Model Runtime.ModelCq
  Runtime.Queue Runtime.Compose Runtime.EvSet.
Import ListNotations.
Open Scope N_scope.

(* ---- (a) the specification ---- *)
Definition spq_add (q : sp) (t l : N) : sp * bool := let r := sp_add q t l in (fst (fst r), added_ok (snd r)).
Definition spq_fetch (_ : unit) (q : sp) : sp * option (N * N) :=
  match sp_fetch q with
  | (q', OFetched l t) => (q', Some (t, l))
  | (q', _) => (q', None)
  end.

Lemma spq_new_ok S : SI (sp_new_at S) /\ s_tcur (sp_new_at S) = S /\ pend (sp_new_at S) = [].
Proof. split; [apply SI_new_at|split; reflexivity]. Qed.

Lemma spq_add_lt q t l : SI q -> t < s_tcur q -> spq_add q t l = (q, false).
Proof. intros _ H. unfold spq_add. rewrite (sp_add_past q t l H). reflexivity. Qed.

Lemma spq_add_ge q t l : SI q -> s_tcur q <= t ->
  exists q', spq_add q t l = (q', true) /\ SI q' /\ s_tcur q' = s_tcur q /\ Permutation (pend q') ((t, l) :: pend q).
Proof.
  intros HS H. destruct (sp_add_ok q t l H) as [Eo [Et [Ep _]]]. cbn zeta in *.
  exists (fst (fst (sp_add q t l))). unfold spq_add. rewrite Eo. split; [reflexivity|].
  split; [apply SI_add; exact HS|]. split; assumption.
Qed.

Lemma spq_len q : SI q -> sp_len q = N.of_nat (length (pend q)).
Proof. intros _. unfold sp_len, pend. rewrite map_length, app_length. reflexivity. Qed.

Lemma peek_some_nextev q t : peek q = Some t -> exists l, nextev q = Some (l, t).
Proof. rewrite peek_nextev. destruct (nextev q) as [[l t']|]; cbn; [|discriminate]. intros E. injection E as <-. exists l. reflexivity. Qed.

Lemma spq_peek_none q : SI q -> peek q = None -> pend q = [].
Proof.
  intros _. rewrite peek_nextev. destruct (nextev q) as [[l t]|] eqn:E; cbn; [discriminate|]. intros _. apply (nextev_none q E).
Qed.

Lemma spq_fetch_ok q t h : SI q -> peek q = Some t ->
  exists q' l, spq_fetch h q = (q', Some (t, l)) /\ SI q' /\ s_tcur q' = t /\ s_tcur q <= t /\ Permutation (pend q) ((t, l) :: pend q').
Proof.
  intros HS Hp. destruct (peek_some_nextev q t Hp) as [l En]. destruct (nextev_fetch q l t En) as [q' [F [Ep _]]].
  destruct (fetch_tcur q l t q' HS En F) as [Et Hle]. exists q', l. unfold spq_fetch. rewrite F.
  split; [reflexivity|]. split; [|split; [exact Et|split; [exact Hle|rewrite Ep; reflexivity]]].
  pose proof (SI_fetch q HS) as H. rewrite F in H. exact H.
Qed.

Definition spec_evset : evset :=
  {| eQ := sp; eHint := unit; e_new := sp_new_at; e_add := spq_add; e_peek := peek; e_fetch := spq_fetch; e_len := sp_len;
     eI := SI; e_clock := s_tcur; e_pend := pend;
     e_new_ok := spq_new_ok; e_add_lt := spq_add_lt; e_add_ge := spq_add_ge; e_len_ok := spq_len;
     e_peek_none := spq_peek_none; e_fetch_ok := spq_fetch_ok |}.

(* ---- (b) the calendar queue, any n, t >= 1 ---- *)
Definition cqq_add (q : cq) (t l : N) : cq * bool := let r := add q t l in (fst (fst r), added_ok (snd r)).
Definition cqq_fetch (_ : unit) (q : cq) : cq * option (N * N) :=
  match fetch_next q with
  | (q', OFetched l t) => (q', Some (t, l))
  | (q', _) => (q', None)
  end.
(* some specification state refines to it *)
Definition cqI (q : cq) : Prop := exists s hs, R q s hs /\ SI s.
Definition cqpend (q : cq) : list (N * N) := map evp (Refine.pend q).

Lemma cqpend_rel q s hs : R q s hs -> Permutation (cqpend q) (pend s).
Proof.
  intros HR. unfold cqpend, pend, Refine.pend. rewrite (R_zero _ _ _ HR). apply Permutation_map.
  apply Permutation_app_head. apply (R_perm _ _ _ HR).
Qed.

Section CQ.
Variables n t : N.
Hypothesis Hn : n <> 0.
Hypothesis Ht : t <> 0.

Lemma cqq_new_ok S : cqI (cq_new_at n t S) /\ tcur (cq_new_at n t S) = S /\ cqpend (cq_new_at n t S) = [].
Proof.
  split; [exists (sp_new_at S), []; split; [apply R_new_at; assumption|apply SI_new_at]|]. split; [reflexivity|].
  unfold cqpend, Refine.pend. cbn [cq_new_at zero buckets app]. rewrite concat_repeat_nil. reflexivity.
Qed.

Lemma cqq_add_lt q tm l : cqI q -> tm < tcur q -> cqq_add q tm l = (q, false).
Proof. intros _ H. unfold cqq_add, add. apply N.ltb_lt in H. rewrite H. reflexivity. Qed.

Lemma cqq_add_ge q tm l : cqI q -> tcur q <= tm ->
  exists q', cqq_add q tm l = (q', true) /\ cqI q' /\ tcur q' = tcur q /\ Permutation (cqpend q') ((tm, l) :: cqpend q).
Proof.
  intros [s [hs [HR HS]]] Hge. pose proof (R_add q s hs tm l HR Hge) as A.
  assert (Hge' : s_tcur s <= tm) by (rewrite <- (R_tcur _ _ _ HR); exact Hge).
  destruct (sp_add_ok s tm l Hge') as [Eo [Et [Ep _]]]. cbn zeta in *. pose proof (SI_add s tm l HS) as HS'.
  unfold cqq_add. destruct (add q tm l) as [[q' h] o]. destruct (sp_add s tm l) as [[s' h'] o'].
  destruct A as [-> [-> [hd [-> HR']]]]. cbn [fst snd] in *. subst o'. exists q'. split; [reflexivity|].
  split; [exists s', (hs ++ [hd]); split; assumption|]. split; [rewrite (R_tcur _ _ _ HR'), (R_tcur _ _ _ HR); exact Et|].
  rewrite (cqpend_rel _ _ _ HR'), Ep. constructor. symmetry. apply (cqpend_rel _ _ _ HR).
Qed.

Lemma cqq_len q : cqI q -> qlen q = N.of_nat (length (cqpend q)).
Proof. intros [s [hs [HR _]]]. unfold cqpend. rewrite map_length. apply (R_len _ _ _ HR). Qed.

Lemma cqq_peek_none q : cqI q -> cpeek q = None -> cqpend q = [].
Proof.
  intros [s [hs [HR HS]]] H. rewrite (peek_sim _ _ _ HR) in H. pose proof (cqpend_rel _ _ _ HR) as P.
  rewrite (spq_peek_none s HS H) in P. apply Permutation_sym, Permutation_nil in P. exact P.
Qed.

Lemma cqq_fetch_ok q tm h : cqI q -> cpeek q = Some tm ->
  exists q' l, cqq_fetch h q = (q', Some (tm, l)) /\ cqI q' /\ tcur q' = tm /\ tcur q <= tm /\
               Permutation (cqpend q) ((tm, l) :: cqpend q').
Proof.
  intros [s [hs [HR HS]]] H. rewrite (peek_sim _ _ _ HR) in H.
  destruct (spq_fetch_ok s tm tt HS H) as [s' [l [F [HS' [Et [Hle Pp]]]]]]. unfold spq_fetch in F.
  pose proof (R_fetch q s hs HR) as X. unfold cqq_fetch. destruct (fetch_next q) as [q' o]. destruct (sp_fetch s) as [s1 o'].
  destruct X as [-> HR']. destruct o'; try discriminate. injection F as -> -> ->.
  exists q', l. split; [reflexivity|]. split; [exists s', hs; split; assumption|].
  split; [rewrite (R_tcur _ _ _ HR'); exact Et|]. split; [rewrite (R_tcur _ _ _ HR); exact Hle|].
  rewrite (cqpend_rel _ _ _ HR), Pp. constructor. symmetry. apply (cqpend_rel _ _ _ HR').
Qed.

Definition cq_evset : evset :=
  {| eQ := cq; eHint := unit; e_new := cq_new_at n t; e_add := cqq_add; e_peek := cpeek; e_fetch := cqq_fetch; e_len := qlen;
     eI := cqI; e_clock := tcur; e_pend := cqpend;
     e_new_ok := cqq_new_ok; e_add_lt := cqq_add_lt; e_add_ge := cqq_add_ge; e_len_ok := cqq_len;
     e_peek_none := cqq_peek_none; e_fetch_ok := cqq_fetch_ok |}.
End CQ.
