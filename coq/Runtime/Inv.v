(* One dispatch of the runtime (variant [repaired]) as a case analysis, and the
   vocabulary of the runtime invariant (Runtime/GenericProps.v: GInv).
   Everything here is about [dispatch_event_peek]. *)
From Coq Require Import List NArith Sorting.Sorted.
From DesVerif Require Import Common.Fuel CQueue.Spec Runtime.Limit Runtime.Model Runtime.Queue.
Import ListNotations.
Open Scope N_scope.

Definition D (P : prog) : rt -> rt + rt := dispatch_event_peek P.

(* the state after dispatching the next event (label l, time t), whatever the limit says *)
Definition ustep (P : prog) (s : rt) (l t : N) : rt := deliver P s (fst (sp_fetch (fes s))) l t.

Lemma D_empty P s : nextev (fes s) = None -> D P s = inr s.
Proof. intros E. unfold D, dispatch_event_peek. rewrite peek_nextev, E. reflexivity. Qed.

Lemma D_stop P s l t : nextev (fes s) = Some (l, t) -> applies (limit s) (itr s + 1) t = true -> D P s = inr s.
Proof. intros E A. unfold D, dispatch_event_peek. rewrite peek_nextev, E. cbn [option_map snd]. rewrite A. reflexivity. Qed.

Lemma D_go P s l t : nextev (fes s) = Some (l, t) -> applies (limit s) (itr s + 1) t = false -> D P s = inl (ustep P s l t).
Proof.
  intros E A. unfold D, dispatch_event_peek, ustep. rewrite peek_nextev, E. cbn [option_map snd]. rewrite A.
  destruct (nextev_fetch _ _ _ E) as [q' [F _]]. rewrite F. reflexivity.
Qed.

(* the three cases, as an inversion principle *)
Lemma D_cases P s :
  (nextev (fes s) = None /\ D P s = inr s) \/
  (exists l t, nextev (fes s) = Some (l, t) /\ applies (limit s) (itr s + 1) t = true /\ D P s = inr s) \/
  (exists l t, nextev (fes s) = Some (l, t) /\ applies (limit s) (itr s + 1) t = false /\ D P s = inl (ustep P s l t)).
Proof.
  destruct (nextev (fes s)) as [[l t]|] eqn:E.
  - destruct (applies (limit s) (itr s + 1) t) eqn:A.
    + right; left. exists l, t. repeat split; try assumption. eapply D_stop; eassumption.
    + right; right. exists l, t. repeat split; try assumption. eapply D_go; eassumption.
  - left. split; [reflexivity|apply D_empty; exact E].
Qed.

(* add_event_fields and the rest of this block serve Step.iter_limit only *)
Lemma add_event_fields inh s t l :
  clock (add_event inh s t l) = clock s /\ itr (add_event inh s t l) = itr s /\
  limit (add_event inh s t l) = limit s /\ budget (add_event inh s t l) = budget s /\
  log (add_event inh s t l) = log s.
Proof. repeat split. Qed.

Lemma do_actions_fields acts : forall s,
  clock (do_actions acts s) = clock s /\ itr (do_actions acts s) = itr s /\
  limit (do_actions acts s) = limit s /\ log (do_actions acts s) = log s.
Proof.
  induction acts as [|[[k x] l] acts IH]; intros s; cbn [do_actions]; [repeat split|].
  destruct (budget s =? 0); [repeat split|]. destruct (k =? 0).
  - destruct (IH (add_event_in (dec_budget s) x l)) as [H1 [H2 [H3 H4]]]. rewrite H1, H2, H3, H4. repeat split.
  - destruct (IH (add_event true (dec_budget s) x l)) as [H1 [H2 [H3 H4]]]. rewrite H1, H2, H3, H4. repeat split.
Qed.

Lemma ustep_fields P s l t :
  clock (ustep P s l t) = t /\ itr (ustep P s l t) = itr s + 1 /\ limit (ustep P s l t) = limit s /\
  log (ustep P s l t) = log s ++ [(l, t)].
Proof.
  unfold ustep, deliver, handle.
  match goal with |- context [do_actions ?a ?x] => destruct (do_actions_fields a x) as [H1 [H2 [H3 H4]]] end.
  rewrite H1, H2, H3, H4. repeat split.
Qed.

(* the fuel dispatch_all computes (Model.loop_fuel) is S (mu s) *)
Definition mu (s : rt) : nat := N.to_nat (budget s + sp_len (fes s)).

Lemma dispatch_all_inv P s s' : dispatch_all repaired P s = Some s' -> exists k, iter_nat k (D P) s = inr s'.
Proof.
  unfold dispatch_all, dispatch_event. cbn [v_peek repaired]. rewrite iter_until_nat.
  change (fun s0 => dispatch_event_peek P s0) with (D P). exists (Pos.to_nat (loop_fuel s)).
  destruct (iter_nat (Pos.to_nat (loop_fuel s)) (D P) s); congruence.
Qed.

Definition times (lg : list (N * N)) : list N := map snd lg.
Definition handled (lg : list (N * N)) : list (N * N) := map (fun x => (snd x, fst x)) lg.
Definition accepted (a : list add_rec) : list (N * N) := map (fun r => (a_time r, a_label r)) (filter a_ok a).
Definition rec_ok (r : add_rec) : Prop := a_ok r = (a_now r <=? a_time r).

Lemma accepted_snoc a r :
  accepted (a ++ [r]) = accepted a ++ (if a_ok r then [(a_time r, a_label r)] else []).
Proof.
  unfold accepted. rewrite filter_app, map_app. cbn [filter]. destruct (a_ok r); reflexivity.
Qed.

Lemma sorted_snoc l x : StronglySorted N.le l -> Forall (fun y => y <= x) l -> StronglySorted N.le (l ++ [x]).
Proof.
  induction 1 as [|y l Hs IH Hall]; intros Hle; cbn [app]; [repeat constructor|].
  inversion Hle as [|? ? Hy Hl]; subst. constructor; [apply IH; exact Hl|].
  apply Forall_app. split; [exact Hall|]. constructor; [exact Hy|constructor].
Qed.

(* the state right after `itr += 1; SimTime::set_now(time)`, before the handler runs *)
Definition fetched (s : rt) (l t : N) : rt :=
  {| fes := fst (sp_fetch (fes s)); clock := t; itr := itr s + 1; limit := limit s; budget := budget s;
     log := log s ++ [(l, t)]; adds := adds s |}.

Lemma ustep_fetched P s l t : ustep P s l t = handle P l (fetched s l t).
Proof. reflexivity. Qed.
