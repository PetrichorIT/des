(* The runtime over the calendar queue (ModelCq.v) prints exactly what the
   runtime over the event-set specification (Model.v) prints, for every bucket
   count n >= 1 and bucket width t >= 1: a forward simulation whose queue part
   is CQueue.Refine.R, used through CQueue/Client.v. *)
From Coq Require Import List NArith Lia.
From DesVerif Require Import Common.Fuel Common.Codec CQueue.Model CQueue.Spec CQueue.ListX CQueue.Refine CQueue.Client CQueue.SpecProps
  Runtime.Limit Runtime.Model Runtime.ModelCq Runtime.Queue Runtime.Inv.
Import ListNotations.
Open Scope N_scope.

(* same runtime fields, queues related by the refinement relation of C01 (the
   runtime never cancels: the handle list is only carried along).  The first conjunct
   is [Rq (cfes c) (fes s)] of CQueue/Client.v and is used through the Rq_* lemmas;
   peek_sim and remaining_sim are the two statements with the handle list exposed. *)
Definition Rel (c : rtc) (s : rt) : Prop :=
  (exists hs, R (cfes c) (fes s) hs) /\
  cclock c = clock s /\ citr c = itr s /\ climit c = limit s /\ cbudget c = budget s /\
  clog c = log s /\ cadds c = adds s.

Lemma Rel_new n t S B L : n <> 0 -> t <> 0 -> Rel (crt_new repaired n t S B L) (rt_new repaired S B L).
Proof.
  intros Hn Ht. split; [|repeat split]. apply Rq_new_at; assumption.
Qed.

Lemma Rel_set_limit c s L : Rel c s -> Rel (cset_limit c L) (set_limit s L).
Proof. intros [HR [E1 [E2 [E3 [E4 [E5 E6]]]]]]. split; [exact HR|]. cbn. repeat split; assumption. Qed.

Lemma Rel_dec_budget c s : Rel c s -> Rel (cdec_budget c) (dec_budget s).
Proof. intros [HR [E1 [E2 [E3 [E4 [E5 E6]]]]]]. split; [exact HR|]. cbn. rewrite E4. repeat split; assumption. Qed.

Lemma Rel_add inh c s t l : Rel c s -> Rel (cadd_event inh c t l) (add_event inh s t l).
Proof.
  intros [HR [E1 [E2 [E3 [E4 [E5 E6]]]]]]. destruct (Rq_add _ _ t l HR) as [Ho [_ HR']].
  unfold cadd_event, add_event. split; [exact HR'|]. cbn. rewrite Ho, E1, E2, E6. repeat split; assumption.
Qed.

Lemma Rel_actions acts : forall c s, Rel c s -> Rel (cdo_actions acts c) (do_actions acts s).
Proof.
  induction acts as [|[[k x] l] acts IH]; intros c s HRel; cbn [cdo_actions do_actions]; [exact HRel|].
  pose proof HRel as [_ [E1 [_ [_ [E4 _]]]]]. rewrite E4. destruct (budget s =? 0); [exact HRel|].
  destruct (k =? 0); apply IH.
  - unfold cadd_event_in, add_event_in. cbn [cclock cdec_budget clock dec_budget]. rewrite E1.
    apply Rel_add. apply Rel_dec_budget. exact HRel.
  - apply Rel_add. apply Rel_dec_budget. exact HRel.
Qed.

Lemma peek_sim q s hs : R q s hs -> cpeek q = peek s.
Proof. intros HR. unfold cpeek, peek. rewrite (Rq_peek q s (ex_intro _ hs HR)). reflexivity. Qed.

(* [sum_rel Rel Rel] of Common/Fuel.v, spelled out *)
Definition Rel_sum (a : rtc + rtc) (b : rt + rt) : Prop :=
  match a, b with
  | inl c, inl s => Rel c s
  | inr c, inr s => Rel c s
  | _, _ => False
  end.

Lemma Rel_dispatch P c s : Rel c s -> Rel_sum (cdispatch_event_peek P c) (dispatch_event_peek P s).
Proof.
  intros HRel. pose proof HRel as [HR [E1 [E2 [E3 [E4 [E5 E6]]]]]].
  unfold cdispatch_event_peek, dispatch_event_peek, cpeek, peek. rewrite (Rq_peek _ _ HR), E2, E3.
  destruct (match sp_peek (fes s) with OPeek o => o | _ => None end) as [time|]; [|exact HRel].
  destruct (applies (limit s) (itr s + 1) time); [exact HRel|].
  destruct (Rq_fetch _ _ HR) as [Ho HR'].
  destruct (fetch_next (cfes c)) as [q' o]. destruct (sp_fetch (fes s)) as [s' o']. cbn [fst snd] in Ho, HR'. subst o.
  destruct o'; try exact HRel.
  cbn [Rel_sum]. unfold cdeliver, deliver, chandle, handle. apply Rel_actions.
  split; [exact HR'|]. cbn. rewrite E2, E5. repeat split; assumption.
Qed.

Lemma iter_sim P k c s :
  Rel c s -> Rel_sum (iter_nat k (cdispatch_event_peek P) c) (iter_nat k (dispatch_event_peek P) s).
Proof. exact (iter_nat_sim Rel Rel _ _ (Rel_dispatch P) k c s). Qed.

Definition Rel_opt (a : option rtc) (b : option rt) : Prop :=
  match a, b with
  | Some c, Some s => Rel c s
  | None, None => True
  | _, _ => False
  end.

Lemma Rel_dispatch_all P c s : Rel c s -> Rel_opt (cdispatch_all repaired P c) (dispatch_all repaired P s).
Proof.
  intros HRel. pose proof HRel as [HR [_ [_ [_ [E4 _]]]]].
  unfold cdispatch_all, dispatch_all, cdispatch_event, dispatch_event. cbn [v_peek repaired].
  assert (Ef : cloop_fuel c = loop_fuel s).
  { unfold cloop_fuel, loop_fuel. rewrite E4, (Rq_len _ _ HR). reflexivity. }
  rewrite Ef, !iter_until_nat.
  pose proof (iter_sim P (Pos.to_nat (loop_fuel s)) c s HRel) as H.
  change (fun c0 : rtc => cdispatch_event_peek P c0) with (cdispatch_event_peek P).
  change (fun s0 : rt => dispatch_event_peek P s0) with (dispatch_event_peek P).
  destruct (iter_nat _ (cdispatch_event_peek P) c), (iter_nat _ (dispatch_event_peek P) s); cbn [Rel_sum] in H;
    try contradiction; cbn [Rel_opt]; [exact I|exact H].
Qed.

Lemma Rel_with_limit P L c s : Rel c s -> Rel_opt (cwith_limit repaired P L c) (with_limit repaired P L s).
Proof.
  intros HRel. pose proof HRel as [_ [_ [_ [E3 _]]]]. unfold cwith_limit, with_limit.
  pose proof (Rel_dispatch_all P _ _ (Rel_set_limit c s L HRel)) as H.
  destruct (cdispatch_all repaired P (cset_limit c L)), (dispatch_all repaired P (set_limit s L)); cbn [Rel_opt] in *;
    try contradiction; [|exact I].
  rewrite E3. apply Rel_set_limit. exact H.
Qed.

Lemma status_sim c s : Rel c s -> cstatus c = status s.
Proof.
  intros [HR [E1 [E2 [_ [_ [_ E6]]]]]]. unfold cstatus, status. rewrite E1, E2, E6, (Rq_len _ _ HR). reflexivity.
Qed.

Lemma last_ok_sim c s : Rel c s -> clast_ok c = last_ok s.
Proof. intros [_ [_ [_ [_ [_ [_ E6]]]]]]. unfold clast_ok, last_ok. rewrite E6. reflexivity. Qed.

Lemma Rel_step P c s o :
  Rel c s -> Rel_opt (fst (cstep repaired P c o)) (fst (step repaired P s o)) /\
             snd (cstep repaired P c o) = snd (step repaired P s o).
Proof.
  intros HRel. pose proof HRel as [_ [_ [E2 _]]].
  destruct o as [k|T|t l]; cbn [cstep step]; unfold cdispatch_n_events, dispatch_n_events, cdispatch_events_until, dispatch_events_until.
  - rewrite E2. pose proof (Rel_with_limit P (LCount (itr s + k)) c s HRel) as H.
    destruct (cwith_limit repaired P (LCount (itr s + k)) c), (with_limit repaired P (LCount (itr s + k)) s);
      cbn [Rel_opt fst snd] in *; try contradiction; split; try exact H; try reflexivity. apply status_sim; exact H.
  - pose proof (Rel_with_limit P (LTime T) c s HRel) as H.
    destruct (cwith_limit repaired P (LTime T) c), (with_limit repaired P (LTime T) s);
      cbn [Rel_opt fst snd] in *; try contradiction; split; try exact H; try reflexivity. apply status_sim; exact H.
  - cbn [fst snd Rel_opt]. pose proof (Rel_add false c s t l HRel) as H. split; [exact H|].
    rewrite (last_ok_sim _ _ H). reflexivity.
Qed.

Lemma Rel_sched P ops : forall c s,
  Rel c s -> Rel_opt (fst (cexec_sched repaired P c ops)) (fst (exec_sched repaired P s ops)) /\
             snd (cexec_sched repaired P c ops) = snd (exec_sched repaired P s ops).
Proof.
  induction ops as [|o ops IH]; intros c s HRel; cbn [cexec_sched exec_sched].
  - split; [exact HRel|reflexivity].
  - destruct (Rel_step P c s o HRel) as [H1 H2].
    destruct (cstep repaired P c o) as [[c1|] x], (step repaired P s o) as [[s1|] y]; cbn [fst snd Rel_opt] in *;
      try contradiction; subst y.
    + destruct (IH c1 s1 H1) as [H3 H4].
      destruct (cexec_sched repaired P c1 ops) as [c2 xs], (exec_sched repaired P s1 ops) as [s2 ys]; cbn [fst snd] in *.
      split; [exact H3|]. rewrite H4. reflexivity.
    + split; [exact I|reflexivity].
Qed.

Lemma Rel_pre_adds pre : forall c s,
  Rel c s -> Rel (fst (cpre_adds c pre)) (fst (pre_adds s pre)) /\ snd (cpre_adds c pre) = snd (pre_adds s pre).
Proof.
  induction pre as [|[t l] pre IH]; intros c s HRel; cbn [cpre_adds pre_adds]; [split; [exact HRel|reflexivity]|].
  pose proof (Rel_add false c s t l HRel) as H. destruct (IH _ _ H) as [H1 H2].
  destruct (cpre_adds (cadd_event false c t l) pre) as [c2 xs], (pre_adds (add_event false s t l) pre) as [s2 ys]; cbn [fst snd] in *.
  split; [exact H1|]. rewrite H2, (last_ok_sim _ _ H). reflexivity.
Qed.

(* finish: draining with fetch_next yields the pending list *)
Lemma drain_sim k : forall q s, Rq q s -> length (pend s) = k -> cdrain k q = pend s.
Proof.
  induction k as [|k IH]; intros q s HR Hl; cbn [cdrain].
  - destruct (pend s); [reflexivity|discriminate].
  - destruct (nextev s) as [[l t]|] eqn:En.
    + destruct (nextev_fetch _ _ _ En) as [s' [F [Ep _]]].
      destruct (Rq_fetch q s HR) as [Ho HR']. destruct (fetch_next q) as [q' o]. rewrite F in Ho, HR'. cbn [fst snd] in Ho, HR'. subst o.
      rewrite Ep in *. cbn [length] in Hl. rewrite (IH q' s' HR') by lia. reflexivity.
    + destruct (nextev_none _ En) as [Ep _]. rewrite Ep in Hl. discriminate.
Qed.

Lemma remaining_Rq q s : Rq q s -> cremaining q = pend s.
Proof.
  intros HR. unfold cremaining. apply (drain_sim _ q s HR).
  rewrite (Rq_len _ _ HR). unfold sp_len, pend. rewrite Nat2N.id, map_length, app_length. reflexivity.
Qed.

Lemma remaining_sim q s hs : R q s hs -> cremaining q = pend s.
Proof. intros HR. apply remaining_Rq. exists hs. exact HR. Qed.

Lemma finish_sim c s : Rel c s -> cfinish c = finish s.
Proof.
  intros [HR [E1 [E2 [_ [_ [E5 E6]]]]]]. unfold cfinish, finish.
  rewrite E1, E2, E5, E6, (remaining_Rq _ _ HR). reflexivity.
Qed.

Theorem run_block_over_cqueue n t sc L sched :
  n <> 0 -> t <> 0 -> crun_block repaired n t sc L sched = run_block repaired sc L sched.
Proof.
  intros Hn Ht. unfold crun_block, run_block.
  destruct (Rel_pre_adds (sc_pre sc) _ _ (Rel_new n t (sc_start sc) (sc_budget sc) L Hn Ht)) as [H0 O0].
  destruct (cpre_adds (crt_new repaired n t (sc_start sc) (sc_budget sc) L) (sc_pre sc)) as [c0 o0].
  destruct (pre_adds (rt_new repaired (sc_start sc) (sc_budget sc) L) (sc_pre sc)) as [s0 p0]. cbn [fst snd] in *. subst p0.
  destruct (Rel_sched (sc_prog sc) sched c0 s0 H0) as [H1 O1].
  destruct (cexec_sched repaired (sc_prog sc) c0 sched) as [[c1|] o1], (exec_sched repaired (sc_prog sc) s0 sched) as [[s1|] p1];
    cbn [fst snd Rel_opt] in *; try contradiction; subst p1; [|reflexivity].
  pose proof (Rel_dispatch_all (sc_prog sc) c1 s1 H1) as H2.
  destruct (cdispatch_all repaired (sc_prog sc) c1) as [c2|], (dispatch_all repaired (sc_prog sc) s1) as [s2|];
    cbn [Rel_opt] in H2; try contradiction; [|reflexivity].
  rewrite (finish_sim _ _ H2). reflexivity.
Qed.

Theorem run_script_over_cqueue n t sc : n <> 0 -> t <> 0 -> crun_script repaired n t sc = run_script repaired sc.
Proof. intros Hn Ht. unfold crun_script, run_script. rewrite !run_block_over_cqueue by assumption. reflexivity. Qed.

(* every output of every script: logs, step records, add verdicts, remaining,
   end time -- whatever calendar-queue parameters the script names *)
Theorem run_over_cqueue_eq_run_over_spec input : run_gen_cq repaired input = run_gen repaired input.
Proof.
  unfold run_gen_cq, run_gen. destruct input as [|n [|t [|u0 r]]]; try reflexivity.
  destruct (n =? 0) eqn:En; [reflexivity|]. destruct (t =? 0) eqn:Et; [reflexivity|]. cbn [orb].
  apply N.eqb_neq in En, Et. rewrite run_script_over_cqueue by assumption. reflexivity.
Qed.
