(* Binary-positive fuel iterator: [iter_until p f a] applies the step function
   [f] at most [p] times, stopping at the first [inr].  It is structural on the
   binary representation of [p], so astronomically large fuel costs nothing to
   write down, and it is proved equal to the naive unary iterator. *)
From Coq Require Import List NArith PArith Lia.

Fixpoint iter_until {A B} (p : positive) (f : A -> A + B) (a : A) : A + B :=
  match p with
  | xH => f a
  | xO p' => match iter_until p' f a with inl a' => iter_until p' f a' | r => r end
  | xI p' => match f a with
             | inl a' => match iter_until p' f a' with inl a'' => iter_until p' f a'' | r => r end
             | r => r end
  end.

Fixpoint iter_nat {A B} (k : nat) (f : A -> A + B) (a : A) : A + B :=
  match k with
  | O => inl a
  | S k' => match f a with inl a' => iter_nat k' f a' | r => r end
  end.

Lemma iter_nat_add {A B} (f : A -> A + B) a k1 k2 :
  iter_nat (k1 + k2) f a = match iter_nat k1 f a with inl a' => iter_nat k2 f a' | r => r end.
Proof.
  revert a; induction k1 as [|k1 IH]; intros a; cbn [iter_nat Nat.add]; [reflexivity|].
  destruct (f a) as [a'|b]; [apply IH|reflexivity].
Qed.

Lemma iter_until_nat {A B} (f : A -> A + B) p a :
  iter_until p f a = iter_nat (Pos.to_nat p) f a.
Proof.
  revert a; induction p as [p IH|p IH|]; intros a; cbn [iter_until].
  - rewrite Pos2Nat.inj_xI. change (S (2 * Pos.to_nat p)) with (1 + (2 * Pos.to_nat p))%nat.
    rewrite iter_nat_add. cbn [iter_nat]. destruct (f a) as [a'|b]; [|reflexivity].
    replace (2 * Pos.to_nat p)%nat with (Pos.to_nat p + Pos.to_nat p)%nat by lia.
    rewrite iter_nat_add, <- IH. destruct (iter_until p f a'); [apply IH|reflexivity].
  - rewrite Pos2Nat.inj_xO. replace (2 * Pos.to_nat p)%nat with (Pos.to_nat p + Pos.to_nat p)%nat by lia.
    rewrite iter_nat_add, <- IH. destruct (iter_until p f a); [apply IH|reflexivity].
  - rewrite Pos2Nat.inj_1. cbn [iter_nat]. destruct (f a); reflexivity.
Qed.

Lemma iter_nat_mono {A B} (f : A -> A + B) k1 k2 a r :
  (k1 <= k2)%nat -> iter_nat k1 f a = inr r -> iter_nat k2 f a = inr r.
Proof.
  intros Hle H. replace k2 with (k1 + (k2 - k1))%nat by lia. rewrite iter_nat_add, H. reflexivity.
Qed.

Lemma iter_nat_inv {A B} (P : A -> Prop) (Q : B -> Prop) (f : A -> A + B) :
  (forall a, P a -> match f a with inl a' => P a' | inr b => Q b end) ->
  forall k a, P a -> match iter_nat k f a with inl a' => P a' | inr b => Q b end.
Proof.
  intros Hstep k. induction k as [|k IH]; intros a Ha; cbn [iter_nat]; [exact Ha|].
  specialize (Hstep a Ha). destruct (f a) as [a'|b]; [exact (IH a' Hstep)|exact Hstep].
Qed.

Definition sum_rel {A A' B B'} (RA : A -> A' -> Prop) (RB : B -> B' -> Prop) (x : A + B) (y : A' + B') : Prop :=
  match x, y with inl a, inl a' => RA a a' | inr b, inr b' => RB b b' | _, _ => False end.

Lemma iter_nat_sim {A A' B B'} (RA : A -> A' -> Prop) (RB : B -> B' -> Prop) (f : A -> A + B) (f' : A' -> A' + B') :
  (forall a a', RA a a' -> sum_rel RA RB (f a) (f' a')) ->
  forall k a a', RA a a' -> sum_rel RA RB (iter_nat k f a) (iter_nat k f' a').
Proof.
  intros Hstep k. induction k as [|k IH]; intros a a' H; cbn [iter_nat]; [exact H|].
  specialize (Hstep a a' H). destruct (f a) as [a1|b], (f' a') as [a1'|b']; try contradiction;
    [exact (IH _ _ Hstep)|exact Hstep].
Qed.
