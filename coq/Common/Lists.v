(* Facts about the standard library's list functions, over arbitrary element types, that several directories use. *)
From Coq Require Import List Arith Sorting.Sorted.
Import ListNotations.

(* a destructuring let in projection form, to reason about a call without destructing it *)
Lemma let_pair {A B C} (p : A * B) (f : A -> B -> C) : (let '(a, b) := p in f a b) = f (fst p) (snd p).
Proof. destruct p; reflexivity. Qed.

Lemma snoc_app {A} (l : list A) x r : (l ++ [x]) ++ r = l ++ x :: r.
Proof. rewrite <- app_assoc. reflexivity. Qed.

Lemma NoDup_app_snoc {A} (l : list A) x : NoDup l -> ~ In x l -> NoDup (l ++ [x]).
Proof. intros ND Hn. apply (NoDup_Add (Add_app x l [])). rewrite app_nil_r. split; assumption. Qed.

Lemma NoDup_app_intro {A} (l1 l2 : list A) :
  NoDup l1 -> NoDup l2 -> (forall x, In x l1 -> ~ In x l2) -> NoDup (l1 ++ l2).
Proof.
  induction l1 as [|a r IH]; intros H1 H2 Hd; cbn [app]; [exact H2|]. inversion H1 as [|? ? Ha Hr]; subst. constructor.
  - rewrite in_app_iff. intros [H|H]; [exact (Ha H)|exact (Hd a (or_introl eq_refl) H)].
  - apply IH; [exact Hr|exact H2|]. intros x Hx. apply Hd. right. exact Hx.
Qed.

Lemma StronglySorted_app_r {A} (R : A -> A -> Prop) l r : StronglySorted R (l ++ r) -> StronglySorted R r.
Proof. induction l as [|x l IH]; cbn [app]; intros H; [exact H|]. inversion H; subst. auto. Qed.

Lemma nth_nth_error {A} i (l : list A) d : nth i l d = match nth_error l i with Some x => x | None => d end.
Proof. revert i; induction l as [|x l IH]; intros [|i]; cbn [nth nth_error]; auto. Qed.

Lemma skipn_app_exact {A} (l r : list A) : skipn (length l) (l ++ r) = r.
Proof. induction l as [|x l IH]; [reflexivity|exact IH]. Qed.

Lemma filter_all {A} (p : A -> bool) l : (forall x, In x l -> p x = true) -> filter p l = l.
Proof.
  induction l as [|x l IH]; intros H; [reflexivity|]. cbn [filter].
  rewrite (H x (or_introl eq_refl)), IH; [reflexivity|]. intros y Hy. apply H. right. exact Hy.
Qed.

Lemma filter_none {A} (p : A -> bool) l : (forall x, In x l -> p x = false) -> filter p l = [].
Proof.
  induction l as [|x l IH]; intros H; [reflexivity|]. cbn [filter].
  rewrite (H x (or_introl eq_refl)). apply IH. intros y Hy. apply H. right. exact Hy.
Qed.

Lemma flat_map_ext_in {A B} (f g : A -> list B) l : (forall a, In a l -> f a = g a) -> flat_map f l = flat_map g l.
Proof.
  induction l as [|a l IH]; intros H; [reflexivity|]. cbn [flat_map].
  rewrite (H a (or_introl eq_refl)), IH; [reflexivity|]. intros b Hb. apply H. right. exact Hb.
Qed.

Lemma flat_map_nil {A B} (g : A -> list B) l : (forall x, In x l -> g x = []) -> flat_map g l = [].
Proof.
  induction l as [|x l IH]; intros H; [reflexivity|]. cbn [flat_map].
  rewrite (H x (or_introl eq_refl)). apply IH. intros y Hy. apply H. right. exact Hy.
Qed.

Lemma filter_flat_map {A B} (p : B -> bool) (g : A -> list B) l :
  filter p (flat_map g l) = flat_map (fun x => filter p (g x)) l.
Proof.
  induction l as [|x l IH]; [reflexivity|]. cbn [flat_map]. rewrite filter_app, IH. reflexivity.
Qed.

Lemma find_app_some {A} (f : A -> bool) l r x : find f l = Some x -> find f (l ++ r) = Some x.
Proof. induction l as [|a l IH]; cbn [find app]; [discriminate|]. destruct (f a); auto. Qed.

Lemma existsb_eqb x l : existsb (Nat.eqb x) l = true <-> In x l.
Proof.
  rewrite existsb_exists. split.
  - intros (y & Hy & E). apply Nat.eqb_eq in E. subst y. exact Hy.
  - intros H. exists x. split; [assumption|apply Nat.eqb_refl].
Qed.
