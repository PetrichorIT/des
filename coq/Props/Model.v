(* Concrete model of des-net-utils/src/props/{yaml,store,mod}.rs and of the two
   places of des/src/net/runtime/mod.rs that hand configurations to modules.
   Function names and branch structure follow the Rust code.  Strings are UTF-8
   byte lists, so starts_with / slicing / the '.' separator mean what they mean
   in Rust.  serde_yml::Mapping (an indexmap) is an association list in insertion
   order; `remove` is swap_remove.  No proofs in this file. *)
From Coq Require Import List NArith Bool.
From DesVerif Require Import Common.Codec Props.Spec.
Import ListNotations.
Open Scope N_scope.

(* serde_yml::Value restricted to what a flat configuration and its
   compartmentalised form contain *)
Inductive value := Scalar (v : N) | Mapping (m : list (str * value)).
Definition mapping := list (str * value).

(* ---------------- byte strings ---------------- *)
Fixpoint prefixb (p s : str) : bool :=            (* s.starts_with(p) *)
  match p, s with
  | [], _ => true
  | x :: p', y :: s' => (x =? y) && prefixb p' s'
  | _ :: _, [] => false
  end.

Fixpoint contains_any (s : str) : bool :=         (* s.contains("<any>") *)
  prefixb ANY s || match s with [] => false | _ :: s' => contains_any s' end.

Fixpoint split_once_any (s : str) : option (str * str) :=   (* s.split_once("<any>") *)
  if prefixb ANY s then Some ([], skipn 5 s)
  else match s with
       | [] => None
       | c :: s' => match split_once_any s' with
                    | Some (a, b) => Some (c :: a, b)
                    | None => None
                    end
       end.

Fixpoint trim_start_dots (s : str) : str :=       (* trim_start_matches('.') *)
  match s with
  | c :: s' => if c =? DOT then trim_start_dots s' else s
  | [] => []
  end.
Definition trim_end_dots (s : str) : str := rev (trim_start_dots (rev s)).

(* ---------------- serde_yml::Mapping ---------------- *)
Fixpoint m_get (k : str) (m : mapping) : option value :=
  match m with
  | [] => None
  | (k', v) :: r => if str_eqb k k' then Some v else m_get k r
  end.
Definition m_has (k : str) (m : mapping) : bool := match m_get k m with Some _ => true | None => false end.

(* overwrite the value stored under an existing key, position kept *)
Fixpoint m_set (k : str) (v : value) (m : mapping) : mapping :=
  match m with
  | [] => []
  | (k', v') :: r => if str_eqb k k' then (k', v) :: r else (k', v') :: m_set k v r
  end.
(* Mapping::insert: replace in place, or append *)
Definition m_insert (k : str) (v : value) (m : mapping) : mapping :=
  if m_has k m then m_set k v m else m ++ [(k, v)].

Fixpoint replace_first (k : str) (e : str * value) (m : mapping) : mapping :=
  match m with
  | [] => []
  | (k', v') :: r => if str_eqb k k' then e :: r else (k', v') :: replace_first k e r
  end.
(* Mapping::remove = swap_remove: the last entry moves into the hole *)
Definition swap_out (k : str) (m : mapping) : mapping :=
  match rev m with
  | [] => []
  | lst :: rb => let body := rev rb in
                 if m_has k body then replace_first k lst body else body
  end.
Definition m_swap_remove (k : str) (m : mapping) : option (value * mapping) :=
  match m_get k m with
  | Some v => Some (v, swap_out k m)
  | None => None
  end.

(* ---------------- yaml.rs: compartmentalize ---------------- *)
(* One iteration of the `for key in keys` loop of compartmentalize_map; [rec] is
   the recursive call on the '<any>' sub-mapping. *)
Definition sub_insert (rec : mapping -> mapping) (bot : str) (val : value) (entry : mapping) : option mapping :=
  (* entry.entry("<any>").or_insert(Mapping::new()); as_mapping_mut else continue;
     subentry.insert(bot, value); compartmentalize_map(subentry) *)
  match m_get ANY entry with
  | Some (Scalar _) => None
  | Some (Mapping s) => Some (m_set ANY (Mapping (rec (m_insert bot val s))) entry)
  | None => Some (entry ++ [(ANY, Mapping (rec (m_insert bot val [])))])
  end.

(* the loop body after `let value = map.remove(&key).unwrap()` *)
Definition route (rec : mapping -> mapping) (top bot : str) (val : value) (m1 : mapping) : mapping :=
  let bot' := trim_start_dots bot in
  match top with
  | [] => match sub_insert rec bot' val m1 with Some m2 => m2 | None => m1 end
  | _ => let top' := trim_end_dots top in
         match m_get top' m1 with
         | Some (Scalar _) => m1                     (* not a mapping: continue, the value is lost *)
         | Some (Mapping e) => match sub_insert rec bot' val e with
                               | Some e' => m_set top' (Mapping e') m1
                               | None => m1
                               end
         | None => match sub_insert rec bot' val [] with
                   | Some e' => m1 ++ [(top', Mapping e')]
                   | None => m1 ++ [(top', Mapping [])]
                   end
         end
  end.

Definition cstep (rec : mapping -> mapping) (m : mapping) (key : str) : mapping :=
  match split_once_any key with
  | None => m                                            (* continue *)
  | Some (top, bot) =>
    match m_swap_remove key m with
    | None => m                                          (* unwrap(): keys are those of the map itself *)
    | Some (val, m1) => route rec top bot val m1
    end
  end.

(* keys to rewrite: contain '<any>' but are not the bare address node '<any>'
   (fix: commit 47d42fd) *)
Definition is_flat_any_key (k : str) : bool := contains_any k && negb (str_eqb k ANY).

Fixpoint compartmentalize_map (fuel : nat) (m : mapping) : mapping :=
  match fuel with
  | O => m
  | S f => fold_left (cstep (compartmentalize_map f)) (filter is_flat_any_key (map fst m)) m
  end.

Definition compartmentalize (fuel : nat) (base : value) : value :=
  match base with
  | Mapping m => Mapping (compartmentalize_map fuel m)
  | other => other
  end.

(* ---------------- yaml.rs: without_any, store.rs: Props::set ---------------- *)
Definition without_any (v : value) : option value :=
  match v with
  | Mapping m => if m_has ANY m
                 then match swap_out ANY m with
                      | [] => None
                      | m' => Some (Mapping m')
                      end
                 else Some v
  | other => Some other
  end.

(* ---------------- mod.rs / store.rs: entries and the property store ---------------- *)
Inductive entry := ENone | EYaml (v : value) | ESome (ty n : N).   (* ty: 0 u64, 1 i64, 2 String, 3 bool *)
Definition store := list (str * entry).            (* Props: FxHashMap<String, Entry>, in insertion order *)

Fixpoint s_get (k : str) (st : store) : option entry :=
  match st with
  | [] => None
  | (k', e) :: r => if str_eqb k k' then Some e else s_get k r
  end.
Fixpoint s_put (k : str) (e : entry) (st : store) : store :=
  match st with
  | [] => [(k, e)]
  | (k', e') :: r => if str_eqb k k' then (k', e) :: r else (k', e') :: s_put k e r
  end.
(* Props::set: entry(key).or_insert(Entry::Yaml(val)) - an existing slot, whatever its state
   (configured, typed, or the empty slot left by a lookup), is kept *)
Definition s_set (k : str) (v : value) (st : store) : store :=
  match s_get k st with
  | Some _ => st
  | None => st ++ [(k, EYaml v)]
  end.
(* get_raw: entry(key).or_insert(Entry::None) *)
Definition get_raw (k : str) (st : store) : entry := match s_get k st with Some e => e | None => ENone end.

(* ---------------- yaml.rs: Props::update_from ---------------- *)
(* written over an arbitrary store type T with its `set`, instantiated with [store]/[s_set] below *)
Section UpdateFrom.
  Variable T : Type.
  Variable set : str -> value -> T -> T.

  (* a loop `for (k, v) in map { if let Some((name, value)) = g(k, v) { self.set(name, value) } }` *)
  Definition pfold (g : str * value -> option (str * value)) (m : mapping) (ps : T) : T :=
    fold_left (fun ps e => match g e with Some kv => set (fst kv) (snd kv) ps | None => ps end) m ps.

  (* path.is_empty() branch *)
  Definition take_all (ps : T) (m : mapping) : T :=
    pfold (fun e => if contains_any (fst e) then None
                    else match without_any (snd e) with
                         | Some v => Some (fst e, v)
                         | None => None
                         end) m ps.

  (* `for i in 0..path.len()`: key grows by one segment per round, an exact hit
     recurses with the remaining path; returns the full joined path as well *)
  Fixpoint prefix_loop (upd : T -> value -> list str -> T) (m : mapping)
           (ps : T) (key : str) (first : bool) (path : list str) : T * str :=
    match path with
    | [] => (ps, key)
    | s :: rest =>
        let key' := (if first then key else key ++ [DOT]) ++ s in
        let ps' := match m_get key' m with
                   | Some e => upd ps e rest
                   | None => ps
                   end in
        prefix_loop upd m ps' key' false rest
    end.

  (* "extract direct prefixes, a prefix must end at a segment boundary" *)
  Definition direct (key : str) (ps : T) (m : mapping) : T :=
    pfold (fun e => if prefixb (key ++ [DOT]) (fst e)
                    then match without_any (snd e) with
                         | Some v => Some (skipn (length key + 1) (fst e), v)
                         | None => None
                         end
                    else None) m ps.

  Fixpoint update_from (fuel : nat) (ps : T) (base : value) (path : list str) : T :=
    match path with
    | [] => match base with Mapping m => take_all ps m | Scalar _ => ps end
    | _ :: rest =>
      match fuel with
      | O => ps
      | S f =>
        match base with
        | Scalar _ => ps
        | Mapping m =>
            let ps1 := match m_get ANY m with
                       | Some v => update_from f ps v rest
                       | None => ps
                       end in
            let '(ps2, key) := prefix_loop (update_from f) m ps1 [] true path in
            direct key ps2 m
        end
      end
    end.
End UpdateFrom.

(* ---------------- Cfg ---------------- *)
Definition cfg := value.
Definition cfg_fuel (entries : list (str * N)) : nat := S (length (concat (map fst entries))).
(* serde_yml::from_str of the flat text + Cfg::new *)
Definition cfg_new (entries : list (str * N)) : cfg :=
  compartmentalize (cfg_fuel entries) (Mapping (map (fun e => (fst e, Scalar (snd e))) entries)).
(* an entry's value as the user writes it: a number, or a hand-nested one-level mapping of numbers
   (`lan.alice: { mtu: 1500 }`, flow or block form) *)
Inductive eval := VNum (v : N) | VMap (m : list (str * N)).
Definition value_of (e : eval) : value :=
  match e with
  | VNum v => Scalar v
  | VMap m => Mapping (map (fun x => (fst x, Scalar (snd x))) m)
  end.
Definition cfg_new_v (entries : list (str * eval)) : cfg :=
  compartmentalize (S (length (concat (map fst entries)))) (Mapping (map (fun e => (fst e, value_of (snd e))) entries)).
Definition capture_for (c : cfg) (path : list str) (st : store) : store :=
  update_from store s_set (length path) st c path.
Definition capture_for_into (c : cfg) (path : list str) : store := capture_for c path [].

(* ---------------- runtime/mod.rs ---------------- *)
Record sim := { cfgs : list cfg; modules : list (list str * store) }.
Definition sim_new : sim := {| cfgs := []; modules := [] |}.
(* include_cfg: existing modules capture first, then the cfg is stored *)
Definition include_cfg (s : sim) (c : cfg) : sim :=
  {| cfgs := cfgs s ++ [c];
     modules := map (fun mp => (fst mp, capture_for c (fst mp) (snd mp))) (modules s) |}.
(* raw(): a new module captures from every stored cfg *)
Definition node (s : sim) (path : list str) : sim :=
  {| cfgs := cfgs s;
     modules := modules s ++ [(path, fold_left (fun ps c => capture_for c path ps) (cfgs s) [])] |}.

(* Several configurations, each to be included once [fst] of the modules exist: the modules are created
   in order; before module i the pending configurations scheduled for i are included (in their order),
   what is left is included after the last module. *)
Definition at_now (i : nat) (x : nat * cfg) : bool := Nat.eqb (fst x) i.
Definition include_all (s : sim) (l : list (nat * cfg)) : sim := fold_left (fun s x => include_cfg s (snd x)) l s.
Fixpoint build (s : sim) (pending : list (nat * cfg)) (i : nat) (paths : list (list str)) : sim :=
  match paths with
  | [] => include_all s pending
  | p :: r => build (node (include_all s (filter (at_now i) pending)) p)
                    (filter (fun x => negb (at_now i x)) pending) (S i) r
  end.
(* the order in which that schedule issues the includes, for [k] modules starting with number [i] *)
Fixpoint time_order (pending : list (nat * cfg)) (i k : nat) : list (nat * cfg) :=
  match k with
  | O => pending
  | S k' => filter (at_now i) pending ++ time_order (filter (fun x => negb (at_now i x)) pending) (S i) k'
  end.
(* Cfg::capture_for of several configurations in turn (first set wins) *)
Definition capture_all (cs : list cfg) (path : list str) : store :=
  fold_left (fun st c => capture_for c path st) cs [].

(* ---------------- mod.rs: typed access ---------------- *)
Inductive terr := TInvalidInput | TOther.

(* T::from_value: unsigned YAML numbers deserialise as u64 / i64 only *)
Definition from_value (ty : N) (v : value) : option N :=
  match v with
  | Scalar n => if ty <? 2 then Some n else None
  | Mapping _ => None
  end.
(* RawProp::is::<T> *)
Definition is_ty (ty : N) (e : entry) : bool :=
  match e with ESome t _ => t =? ty | _ => true end.
(* RawProp::typed::<T> *)
Definition typed (ty : N) (e : entry) : entry * option terr :=
  if is_ty ty e then
    match e with
    | EYaml v => match from_value ty v with
                 | Some n => (ESome ty n, None)
                 | None => (e, Some TOther)
                 end
    | _ => (e, None)
    end
  else (e, Some TInvalidInput).

Definition norm_val (ty v : N) : N := if ty =? 3 then v mod 2 else v.

Inductive top := TRead (m : N) (name : str) (ty : N) | TWrite (m : N) (name : str) (ty v : N) | TRaw (m : N) (name : str).

Definition enc_str (s : str) : list N := N.of_nat (length s) :: s.
Fixpoint enc_value (v : value) : list N :=
  match v with
  | Scalar n => [0; n]
  | Mapping m => 1 :: N.of_nat (length m) ::
                 (fix go (m : mapping) : list N :=
                    match m with
                    | [] => []
                    | (k, x) :: r => enc_str k ++ enc_value x ++ go r
                    end) m
  end.
Definition enc_entry (e : entry) : list N :=
  match e with
  | ENone => [6]
  | EYaml v => enc_value v
  | ESome ty n => if ty <? 2 then [0; n] else if ty =? 2 then [2; n] else [3; n]
  end.
Definition err_code (e : terr) : N := match e with TInvalidInput => 2 | TOther => 3 end.

Definition top_step (st : store) (name : str) (o : top) : store * list N :=
  match o with
  | TRead _ _ ty =>
      let '(e, r) := typed ty (get_raw name st) in
      (s_put name e st,
       match r with
       | Some er => [3; err_code er]
       | None => match e with ESome _ n => [3; 1; n] | _ => [3; 0] end
       end)
  | TWrite _ _ ty v =>
      let '(e, r) := typed ty (get_raw name st) in
      match r with
      | Some er => (s_put name e st, [4; err_code er])
      | None => (s_put name (ESome ty (norm_val ty v)) st, [4; 0])
      end
  | TRaw _ _ => let e := get_raw name st in (s_put name e st, 5 :: enc_entry e)
  end.

Fixpoint upd_nth {A} (i : nat) (f : A -> A) (l : list A) : list A :=
  match l, i with
  | [], _ => []
  | x :: r, O => f x :: r
  | x :: r, S i' => x :: upd_nth i' f r
  end.

Definition top_mod (o : top) : N := match o with TRead m _ _ | TWrite m _ _ _ | TRaw m _ => m end.
Definition top_name (o : top) : str := match o with TRead _ n _ | TWrite _ n _ _ | TRaw _ n => n end.
Definition top_norm (o : top) : top :=
  match o with
  | TRead m n t => TRead m n (t mod 4)
  | TWrite m n t v => TWrite m n (t mod 4) v
  | TRaw m n => o
  end.

(* ---------------- mod.rs: long-lived typed handles (Prop<T>) ---------------- *)
(* Prop::<T>::set through a handle: `assert!(slot.as_option().is_none_or(|prev| prev.is::<T>()))` - a slot that
   holds a value of another type makes the call panic (record 9 4) before anything is written; otherwise the
   slot becomes Entry::Some(value) *)
Definition h_set (st : store) (name : str) (ty v : N) : store * list N :=
  match get_raw name st with
  | ESome t _ => if t =? ty then (s_put name (ESome ty (norm_val ty v)) st, [13; 0]) else (st, [9; 4])
  | _ => (s_put name (ESome ty (norm_val ty v)) st, [13; 0])
  end.
(* Prop::<T>::get through a handle: `downcast_ref().expect("prop-type has changed, this handle is invalid")` *)
Definition h_get (st : store) (name : str) (ty : N) : list N :=
  match get_raw name st with
  | ESome t n => if t =? ty then [14; 1; n] else [9; 5]
  | _ => [14; 0]
  end.
(* creating a handle = RawProp::typed::<T>() *)
Definition h_new (st : store) (name : str) (ty : N) : store * option terr :=
  let '(e, r) := typed ty (get_raw name st) in (s_put name e st, r).

(* what happens to the modules once they all exist: typed accesses through fresh lookups, further
   configurations (one entry each) included while the nodes already carry typed properties, typed handles
   that are kept and used later, RawProp::clear *)
Inductive late :=
| LTyped (t : top) | LInclude (k : str) (v : N)
| LHandle (m : N) (name : str) (ty : N)      (* h = prop::<T>(name), kept *)
| LHset (h v : N)                            (* handles[h].set(v) *)
| LHget (h : N)                              (* handles[h].get() *)
| LClear (m : N) (name : str).               (* prop_raw(name).clear() *)

Definition handle := option (nat * str * N).       (* module index, property, type; None: creation failed *)
Definition mod_store (mods : list (list str * store)) (i : nat) : store := snd (nth i mods ([], [])).
Definition set_store (mods : list (list str * store)) (i : nat) (st : store) := upd_nth i (fun mp => (fst mp, st)) mods.

Fixpoint run_late (mods : list (list str * store)) (hs : list handle) (ops : list late)
  : list (list str * store) * list N :=
  match ops with
  | [] => (mods, [])
  | LTyped o :: r =>
      let i := N.to_nat (top_mod o mod N.of_nat (length mods)) in
      let '(st', out) := top_step (mod_store mods i) (top_name o) (top_norm o) in
      let '(mods', outs) := run_late (set_store mods i st') hs r in
      (mods', out ++ outs)
  | LInclude k v :: r =>
      let c := cfg_new [(k, v)] in
      run_late (map (fun mp => (fst mp, capture_for c (fst mp) (snd mp))) mods) hs r
  | LHandle m name ty :: r =>
      let i := N.to_nat (m mod N.of_nat (length mods)) in
      let '(st', res) := h_new (mod_store mods i) name (ty mod 4) in
      let '(mods', outs) := run_late (set_store mods i st')
                                     (hs ++ [match res with None => Some (i, name, ty mod 4) | Some _ => None end]) r in
      (mods', [8; match res with None => 0 | Some er => err_code er end] ++ outs)
  | LHset h v :: r =>
      match nth (N.to_nat (h mod N.of_nat (length hs))) hs None with
      | Some (i, name, ty) =>
          let '(st', out) := h_set (mod_store mods i) name ty v in
          let '(mods', outs) := run_late (set_store mods i st') hs r in
          (mods', out ++ outs)
      | None => let '(mods', outs) := run_late mods hs r in (mods', [13; 7] ++ outs)
      end
  | LHget h :: r =>
      let out := match nth (N.to_nat (h mod N.of_nat (length hs))) hs None with
                 | Some (i, name, ty) => h_get (mod_store mods i) name ty
                 | None => [14; 7]
                 end in
      let '(mods', outs) := run_late mods hs r in (mods', out ++ outs)
  | LClear m name :: r =>
      let i := N.to_nat (m mod N.of_nat (length mods)) in
      let '(mods', outs) := run_late (set_store mods i (s_put name ENone (mod_store mods i))) hs r in
      (mods', [15] ++ outs)
  end.

(* ---------------- canonical output ---------------- *)
Fixpoint str_ltb (a b : str) : bool :=             (* Rust String Ord: bytewise lexicographic *)
  match a, b with
  | _, [] => false
  | [], _ :: _ => true
  | x :: a', y :: b' => (x <? y) || ((x =? y) && str_ltb a' b')
  end.
Fixpoint ins_sorted (e : str * entry) (l : store) : store :=
  match l with
  | [] => [e]
  | x :: r => if str_ltb (fst e) (fst x) then e :: x :: r else x :: ins_sorted e r
  end.
Definition sort_props (ps : store) : store := fold_right ins_sorted [] ps.
Definition dump (tag : N) (ps : store) : list N :=
  tag :: N.of_nat (length ps) :: flat_map (fun e => enc_str (fst e) ++ enc_entry (snd e)) (sort_props ps).

(* ---------------- wire format ---------------- *)
Inductive op := OEntry (k : str) (v : eval) | OModule (p : str) | OLate (l : late) | OGroup (at_ : N).

Definition take1 (l : list N) : N * list N := match l with [] => (0, []) | x :: r => (x, r) end.

(* `n (<sub-key> val)*n`, truncated at the end of input *)
Fixpoint take_pairs (n : nat) (l : list N) : list (str * N) * list N :=
  match n with
  | O => ([], l)
  | S n' => match l with
            | [] => ([], [])
            | _ => let '(k, r1) := take_lp l in let '(v, r2) := take1 r1 in
                   let '(ps, r3) := take_pairs n' r2 in ((k, v) :: ps, r3)
            end
  end.

Definition dec_op (l : list N) : option (op * list N) :=
  match l with
  | 1 :: r => let '(k, r1) := take_lp r in let '(v, r2) := take1 r1 in Some (OEntry k (VNum v), r2)
  | 12 :: r => let '(k, r1) := take_lp r in let '(form, r2) := take1 r1 in let '(n, r3) := take1 r2 in
               let '(ps, r4) := take_pairs (N.to_nat n) r3 in Some (OEntry k (VMap ps), r4)
  | 2 :: r => let '(p, r1) := take_lp r in Some (OModule p, r1)
  | 3 :: r => let '(m, r0) := take1 r in let '(n, r1) := take_lp r0 in let '(t, r2) := take1 r1 in
              Some (OLate (LTyped (TRead m n t)), r2)
  | 4 :: r => let '(m, r0) := take1 r in let '(n, r1) := take_lp r0 in let '(t, r2) := take1 r1 in
              let '(v, r3) := take1 r2 in Some (OLate (LTyped (TWrite m n t v)), r3)
  | 5 :: r => let '(m, r0) := take1 r in let '(n, r1) := take_lp r0 in Some (OLate (LTyped (TRaw m n)), r1)
  | 6 :: r => let '(k, r1) := take_lp r in let '(v, r2) := take1 r1 in Some (OLate (LInclude k v), r2)
  | 7 :: r => let '(a, r1) := take1 r in Some (OGroup a, r1)
  | 8 :: r => let '(m, r0) := take1 r in let '(n, r1) := take_lp r0 in let '(t, r2) := take1 r1 in
              Some (OLate (LHandle m n t), r2)
  | 9 :: r => let '(h, r0) := take1 r in let '(v, r1) := take1 r0 in Some (OLate (LHset h v), r1)
  | 10 :: r => let '(h, r0) := take1 r in Some (OLate (LHget h), r0)
  | 11 :: r => let '(m, r0) := take1 r in let '(n, r1) := take_lp r0 in Some (OLate (LClear m n), r1)
  | _ => None
  end.

(* printable ASCII or a two-byte UTF-8 sequence with lead C3..DF *)
Fixpoint valid_text_aux (fuel : nat) (s : str) : bool :=
  match fuel with
  | O => true
  | S f => match s with
           | [] => true
           | x :: r => if (32 <=? x) && (x <=? 126) then valid_text_aux f r
                       else match r with
                            | y :: r' => (195 <=? x) && (x <=? 223) && (128 <=? y) && (y <=? 191) && valid_text_aux f r'
                            | [] => false
                            end
           end
  end.
Definition valid_text (s : str) : bool := valid_text_aux (length s) s.

Definition is_nil (s : str) : bool := match s with [] => true | _ => false end.
Fixpoint nodupb (l : list str) : bool :=
  match l with
  | [] => true
  | x :: r => negb (existsb (str_eqb x) r) && nodupb r
  end.

Definition entries_of (ops : list op) : list (str * eval) :=
  flat_map (fun o => match o with OEntry k v => [(k, v)] | _ => [] end) ops.
(* the entries are partitioned into separate includes: `7 at` closes the current one and opens the next,
   to be included once [at] modules exist (the first one uses the script's header) *)
Fixpoint groups_of (ops : list op) (cur_at : N) (cur : list (str * eval)) : list (N * list (str * eval)) :=
  match ops with
  | [] => [(cur_at, cur)]
  | OEntry k v :: r => groups_of r cur_at (cur ++ [(k, v)])
  | OGroup a :: r => (cur_at, cur) :: groups_of r a []
  | _ :: r => groups_of r cur_at cur
  end.
Definition paths_of (ops : list op) : list str :=
  flat_map (fun o => match o with OModule p => [p] | _ => [] end) ops.
Definition lates_of (ops : list op) : list late :=
  flat_map (fun o => match o with OLate l => [l] | _ => [] end) ops.
Definition late_text (l : late) : str :=
  match l with
  | LTyped t => top_name t
  | LInclude k _ => k
  | LHandle _ n _ | LClear _ n => n
  | LHset _ _ | LHget _ => []
  end.

Definition valid_script (ops : list op) : bool :=
  forallb (fun e => valid_text (fst e) &&
                    match snd e with VNum _ => true | VMap m => forallb (fun x => valid_text (fst x)) m end) (entries_of ops) &&
  forallb (fun p => valid_text p && negb (existsb is_nil (split_dot p))) (paths_of ops) &&
  nodupb (paths_of ops) &&
  forallb (fun l => valid_text (late_text l)) (lates_of ops).

(* the YAML parser rejects a mapping with a repeated key *)
Definition yaml_ok (entries : list (str * eval)) : bool :=
  nodupb (map fst entries) &&
  forallb (fun e => match snd e with VNum _ => true | VMap m => nodupb (map fst m) end) entries.

(* first dump, late operations, final dump *)
Definition level_out (mods : list (list str * store)) (lates : list late) : list N :=
  flat_map (fun mp => dump 10 (snd mp)) mods ++
  match mods with
  | [] => []
  | _ => let '(mods', outs) := run_late mods [] lates in
         outs ++ flat_map (fun mp => dump 12 (snd mp)) mods'
  end.

Definition run (input : list N) : list N :=
  match input with
  | [] => [7]
  | inc_at :: r =>
      let ops := decode_all dec_op r in
      if negb (valid_script ops) then [7]
      else
        let groups := groups_of ops inc_at [] in
        let paths := map split_dot (paths_of ops) in
        let lates := lates_of ops in
        let n := N.of_nat (length paths) in
        (* include_cfg ignores a text the YAML parser rejects *)
        let sched := flat_map (fun g => if yaml_ok (snd g) then [(N.to_nat (N.min (fst g) n), cfg_new_v (snd g))] else []) groups in
        let flags := map (fun g => if yaml_ok (snd g) then 0 else 5) groups in
        let cs := map snd (time_order sched 0 (length paths)) in
        let s := build sim_new sched 0 paths in
        [100; N.of_nat (length groups)] ++ flags ++ level_out (map (fun p => (p, capture_all cs p)) paths) lates ++
        [200] ++ level_out (modules s) lates
  end.
