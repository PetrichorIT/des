(* What a (compartmentalised) mapping denotes: the flat segment-keyed entries
   obtained by concatenating the key segments along the way down to each scalar;
   the shape of mappings that compartmentalize produces; association-list facts. *)
From Coq Require Import List NArith Bool Permutation.
From DesVerif Require Import Props.Spec Props.Model Props.Bytes.
Import ListNotations.
Open Scope N_scope.

Definition sentry := (list str * N)%type.
Definition pre (q : list str) (e : sentry) : sentry := (q ++ fst e, snd e).

(* (the inner fix is there for the termination checker only: den (Mapping m) is flat_map den_e m, denm_flat_map) *)
Fixpoint den (v : value) : list sentry :=
  match v with
  | Scalar _ => []
  | Mapping m =>
      (fix go (m : mapping) : list sentry :=
         match m with
         | [] => []
         | (k, x) :: r => match x with
                          | Scalar n => [(split_dot k, n)]
                          | Mapping _ => map (pre (split_dot k)) (den x)
                          end ++ go r
         end) m
  end.

Definition den_e (e : str * value) : list sentry :=
  match snd e with
  | Scalar n => [(split_dot (fst e), n)]
  | Mapping _ => map (pre (split_dot (fst e))) (den (snd e))
  end.
Definition denm (m : mapping) : list sentry := den (Mapping m).

Lemma denm_flat_map m : denm m = flat_map den_e m.
Proof.
  unfold denm. induction m as [|[k x] m IH]; [reflexivity|].
  cbn [den flat_map]. cbn [den] in IH. rewrite IH. destruct x; reflexivity.
Qed.

Lemma denm_app a b : denm (a ++ b) = denm a ++ denm b.
Proof. rewrite !denm_flat_map. apply flat_map_app. Qed.
Lemma denm_cons e m : denm (e :: m) = den_e e ++ denm m.
Proof. rewrite !denm_flat_map. reflexivity. Qed.
Lemma denm_nil : denm [] = [].
Proof. reflexivity. Qed.

Lemma in_denm x m : In x (denm m) <-> exists e, In e m /\ In x (den_e e).
Proof. rewrite denm_flat_map. apply in_flat_map. Qed.

Lemma in_denm_scalar k n m : In (k, Scalar n) m -> In (split_dot k, n) (denm m).
Proof. intros H. apply in_denm. exists (k, Scalar n). split; [exact H|left; reflexivity]. Qed.

Lemma denm_perm a b : Permutation a b -> Permutation (denm a) (denm b).
Proof. rewrite !denm_flat_map. apply Permutation_flat_map. Qed.

Lemma den_e_mapping k s : den_e (k, Mapping s) = map (pre (split_dot k)) (denm s).
Proof. reflexivity. Qed.
Lemma split_dot_ANY : split_dot ANY = [ANY].
Proof. reflexivity. Qed.
Lemma den_e_any s : den_e (ANY, Mapping s) = map (pre [ANY]) (denm s).
Proof. reflexivity. Qed.
Lemma pre_pre a b e : pre a (pre b e) = pre (a ++ b) e.
Proof. unfold pre. cbn [fst snd]. rewrite app_assoc. reflexivity. Qed.

Lemma den_e_chunk k s : den_e (k, Mapping [(ANY, Mapping s)]) = map (pre (split_dot k ++ [ANY])) (denm s).
Proof.
  rewrite den_e_mapping, denm_cons, den_e_any, denm_nil, app_nil_r, map_map. apply map_ext. intros e. apply pre_pre.
Qed.

Lemma in_pre q e v D : In (e, v) (map (pre q) D) <-> exists e', e = q ++ e' /\ In (e', v) D.
Proof.
  rewrite in_map_iff. split.
  - intros [[e' v'] [E H]]. injection E as <- <-. exists e'. split; [reflexivity|exact H].
  - intros [e' [-> H]]. exists (e', v). split; [reflexivity|exact H].
Qed.

Lemma in_den_any e v s : In (e, v) (den_e (ANY, Mapping s)) <-> exists e', e = ANY :: e' /\ In (e', v) (denm s).
Proof. rewrite den_e_any. apply (in_pre [ANY]). Qed.

Lemma in_den_chunk e v k s :
  In (e, v) (den_e (k, Mapping [(ANY, Mapping s)])) <-> exists e', e = split_dot k ++ ANY :: e' /\ In (e', v) (denm s).
Proof.
  rewrite den_e_chunk, in_pre.
  split; intros [e' [-> H]]; exists e'; (split; [|exact H]); rewrite <- app_assoc; reflexivity.
Qed.

(* ---- shape of compartmentalised mappings ---- *)

Inductive WS : mapping -> Prop :=
| WS_intro m : NoDup (map fst m) -> (forall e, In e m -> WSe e) -> WS m
with WSe : str * value -> Prop :=
| WSe_flat k n : contains_any k = false -> WSe (k, Scalar n)
(* (a sub-mapping denotes something: otherwise an entry could sit in the node without showing in denm,
   and compat_fresh could not tell that its key is taken) *)
| WSe_chunk k s : contains_any k = false -> WS s -> denm s <> [] -> WSe (k, Mapping [(ANY, Mapping s)])
| WSe_any s : WS s -> denm s <> [] -> WSe (ANY, Mapping s).

(* a mapping some of whose flat keys (those in U) still await rewriting *)
Definition node_ok (U : str -> Prop) (m : mapping) : Prop :=
  NoDup (map fst m) /\
  forall e, In e m -> WSe e \/ (exists n, e = (fst e, Scalar n) /\ U (fst e)).

Definition none : str -> Prop := fun _ => False.

Lemma WS_node_ok m : WS m <-> node_ok none m.
Proof.
  split.
  - intros H. inversion H as [? N0 F]; subst. split; [exact N0|]. intros e He. left. exact (F e He).
  - intros [N0 F]. constructor; [exact N0|]. intros e He. destruct (F e He) as [W|[n [_ []]]]. exact W.
Qed.

Lemma node_ok_mono (U U' : str -> Prop) m : (forall k, U k -> U' k) -> node_ok U m -> node_ok U' m.
Proof.
  intros HU [N0 F]. split; [exact N0|]. intros e He.
  destruct (F e He) as [W|[n [E Uk]]]; [left; exact W|right; exists n; split; [exact E|exact (HU _ Uk)]].
Qed.

Lemma WS_nil : WS [].
Proof. constructor; [constructor|intros e []]. Qed.

Lemma plain_not_ANY k : contains_any k = false -> k <> ANY.
Proof. intros H E. subst k. rewrite contains_any_ANY in H. discriminate. Qed.

(* the three kinds of entries of a well-shaped mapping *)
Lemma WS_entry m k v : WS m -> In (k, v) m ->
  (exists n, v = Scalar n /\ contains_any k = false) \/
  (exists s, v = Mapping [(ANY, Mapping s)] /\ contains_any k = false /\ WS s /\ denm s <> []) \/
  (exists s, k = ANY /\ v = Mapping s /\ WS s /\ denm s <> []).
Proof.
  intros W H. inversion W as [? _ F]; subst. specialize (F _ H).
  inversion F as [k' n K|k' s K Ws Ds|s Ws Ds]; subst.
  - left. exists n. split; [reflexivity|exact K].
  - right. left. exists s. split; [reflexivity|]. split; [exact K|]. split; [exact Ws|exact Ds].
  - right. right. exists s. split; [reflexivity|]. split; [reflexivity|]. split; [exact Ws|exact Ds].
Qed.

Lemma WS_nodup m : WS m -> NoDup (map fst m).
Proof. intros W. inversion W; assumption. Qed.

(* ---- association lists ---- *)
Lemma m_get_in k v m : m_get k m = Some v -> In (k, v) m.
Proof.
  induction m as [|[k' v'] m IH]; cbn [m_get]; [discriminate|].
  destruct (str_eqb k k') eqn:E.
  - apply str_eqb_eq in E. subst. intros H. injection H as ->. left. reflexivity.
  - intros H. right. exact (IH H).
Qed.

Lemma m_get_none k m : m_get k m = None <-> ~ In k (map fst m).
Proof.
  induction m as [|[k' v'] m IH]; cbn [m_get map fst In].
  - split; [intros _ []|reflexivity].
  - destruct (str_eqb k k') eqn:E.
    + apply str_eqb_eq in E. subst. split; [discriminate|]. intros H. exfalso. apply H. left. reflexivity.
    + apply str_eqb_neq in E. rewrite IH. split.
      * intros H [X|X]; [congruence|exact (H X)].
      * intros H X. apply H. right. exact X.
Qed.

Lemma in_m_get k v m : NoDup (map fst m) -> In (k, v) m -> m_get k m = Some v.
Proof.
  induction m as [|[k' v'] m IH]; intros N0 H; [destruct H|].
  cbn [map fst] in N0. inversion N0 as [|? ? Hn N1]; subst. cbn [m_get].
  destruct H as [H|H].
  - injection H as -> ->. rewrite str_eqb_refl. reflexivity.
  - destruct (str_eqb k k') eqn:E.
    + apply str_eqb_eq in E. subst. exfalso. apply Hn. apply in_map_iff. exists (k', v). split; [reflexivity|exact H].
    + exact (IH N1 H).
Qed.

Lemma m_get_split k v m : m_get k m = Some v ->
  exists a b, m = a ++ (k, v) :: b /\ ~ In k (map fst a).
Proof.
  induction m as [|[k' v'] m IH]; cbn [m_get]; [discriminate|].
  destruct (str_eqb k k') eqn:E.
  - apply str_eqb_eq in E. subst. intros H. injection H as ->. exists [], m. split; [reflexivity|intros []].
  - intros H. destruct (IH H) as [a [b [-> Ha]]]. exists ((k', v') :: a), b. split; [reflexivity|].
    apply str_eqb_neq in E. intros [X|X]; [cbn in X; congruence|exact (Ha X)].
Qed.

Lemma m_has_true k m : m_has k m = true <-> In k (map fst m).
Proof.
  unfold m_has. destruct (m_get k m) eqn:E.
  - split; [|reflexivity]. intros _. apply m_get_in in E. apply in_map_iff. exists (k, v). split; [reflexivity|exact E].
  - split; [discriminate|]. intros H. apply m_get_none in E. contradiction.
Qed.
Lemma m_has_false k m : m_has k m = false <-> ~ In k (map fst m).
Proof.
  rewrite <- m_has_true. destruct (m_has k m); split; congruence.
Qed.

Lemma m_set_split k v a old b : ~ In k (map fst a) -> m_set k v (a ++ (k, old) :: b) = a ++ (k, v) :: b.
Proof.
  induction a as [|[k' v'] a IH]; intros H; cbn [app m_set].
  - rewrite str_eqb_refl. reflexivity.
  - destruct (str_eqb k k') eqn:E.
    + apply str_eqb_eq in E. subst. exfalso. apply H. left. reflexivity.
    + rewrite IH; [reflexivity|]. intros X. apply H. right. exact X.
Qed.

Lemma replace_first_split k e a old b : ~ In k (map fst a) -> replace_first k e (a ++ (k, old) :: b) = a ++ e :: b.
Proof.
  induction a as [|[k' v'] a IH]; intros H; cbn [app replace_first].
  - rewrite str_eqb_refl. reflexivity.
  - destruct (str_eqb k k') eqn:E.
    + apply str_eqb_eq in E. subst. exfalso. apply H. left. reflexivity.
    + rewrite IH; [reflexivity|]. intros X. apply H. right. exact X.
Qed.

Lemma m_insert_new k v m : ~ In k (map fst m) -> m_insert k v m = m ++ [(k, v)].
Proof. intros H. unfold m_insert. apply m_has_false in H. rewrite H. reflexivity. Qed.

(* swap_remove takes out exactly the entry of the key *)
Lemma swap_out_perm k v m : NoDup (map fst m) -> In (k, v) m -> Permutation ((k, v) :: swap_out k m) m.
Proof.
  intros N0 H. destruct (m_get_split _ _ _ (in_m_get _ _ _ N0 H)) as [a [b [-> Ha]]].
  apply Permutation_trans with ((k, v) :: a ++ b); [|apply Permutation_middle]. constructor.
  rewrite map_app in N0. apply NoDup_remove_2 in N0.
  assert (~ In k (map fst b)) as Hb by (intros X; apply N0; apply in_or_app; right; exact X).
  clear N0 H. unfold swap_out. destruct b as [|x b] using rev_ind.
  - rewrite rev_app_distr. cbn [rev app]. rewrite rev_involutive.
    apply m_has_false in Ha. rewrite Ha, app_nil_r. apply Permutation_refl.
  - clear IHb. rewrite app_comm_cons, app_assoc, rev_app_distr. cbn [rev app]. rewrite rev_involutive.
    assert (m_has k (a ++ (k, v) :: b) = true) as Hh.
    { apply m_has_true. rewrite map_app. apply in_or_app. right. left. reflexivity. }
    rewrite Hh, replace_first_split by exact Ha.
    rewrite app_assoc. apply Permutation_sym. apply Permutation_trans with (x :: a ++ b).
    + apply Permutation_sym. apply Permutation_cons_append.
    + apply Permutation_middle.
Qed.
