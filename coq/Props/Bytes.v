(* Byte-string facts: split/join on '.', prefixes, the "<any>" search. *)
From Coq Require Import List NArith Bool Lia.
From DesVerif Require Import Common.Lists Props.Spec Props.Model.
Import ListNotations.
Open Scope N_scope.

Definition dotfree (s : str) : Prop := ~ In DOT s.

(* ---- equality ---- *)
Lemma str_eqb_eq a b : str_eqb a b = true <-> a = b.
Proof.
  revert b; induction a as [|x a IH]; intros [|y b]; cbn [str_eqb]; try (split; [discriminate|discriminate]).
  - split; reflexivity.
  - rewrite andb_true_iff, N.eqb_eq, IH. split; [intros [-> ->]; reflexivity|intros H; injection H as -> ->; split; reflexivity].
Qed.
Lemma str_eqb_refl a : str_eqb a a = true.
Proof. apply str_eqb_eq; reflexivity. Qed.
Lemma str_eqb_neq a b : str_eqb a b = false <-> a <> b.
Proof.
  split.
  - intros H E. apply str_eqb_eq in E. congruence.
  - intros H. destruct (str_eqb a b) eqn:E; [apply str_eqb_eq in E; contradiction|reflexivity].
Qed.
Lemma str_eqb_sym a b : str_eqb a b = str_eqb b a.
Proof.
  destruct (str_eqb a b) eqn:E.
  - apply str_eqb_eq in E. subst. symmetry. apply str_eqb_refl.
  - symmetry. apply str_eqb_neq. apply str_eqb_neq in E. congruence.
Qed.

Lemma existsb_eqb_false {A} (eqb : A -> A -> bool) (Heq : forall a b, eqb a b = true <-> a = b) x l :
  existsb (eqb x) l = false <-> ~ In x l.
Proof.
  rewrite <- not_true_iff_false, existsb_exists. split; intros H X; apply H.
  - exists x. split; [exact X|apply Heq; reflexivity].
  - destruct X as [y [Hy E]]. apply Heq in E. subst. exact Hy.
Qed.

(* ---- prefixes ---- *)
Lemma prefixb_spec p s : prefixb p s = true <-> exists t, s = p ++ t.
Proof.
  revert s; induction p as [|x p IH]; intros s; cbn [prefixb].
  - split; [intros _; exists s; reflexivity|reflexivity].
  - destruct s as [|y s].
    + split; [discriminate|intros [t H]; discriminate].
    + rewrite andb_true_iff, N.eqb_eq, IH. split.
      * intros [-> [t ->]]. exists t. reflexivity.
      * intros [t H]. injection H as -> ->. split; [reflexivity|exists t; reflexivity].
Qed.

Lemma prefixb_app p t : prefixb p (p ++ t) = true.
Proof. apply prefixb_spec. exists t. reflexivity. Qed.

Lemma skipn_key (key rem : str) : skipn (length key + 1) ((key ++ [DOT]) ++ rem) = rem.
Proof. replace (length key + 1)%nat with (length (key ++ [DOT])) by (rewrite app_length; reflexivity). apply skipn_app_exact. Qed.

(* ---- split / join ---- *)
Lemma split_dot_nonnil s : split_dot s <> [].
Proof.
  destruct s as [|c r]; cbn [split_dot]; [discriminate|].
  destruct (c =? DOT); [discriminate|]. destruct (split_dot r); discriminate.
Qed.

Lemma split_dot_cons_nodot c r : c <> DOT ->
  split_dot (c :: r) = match split_dot r with [] => [[c]] | h :: t => (c :: h) :: t end.
Proof. intros H. cbn [split_dot]. apply N.eqb_neq in H. rewrite H. reflexivity. Qed.

Lemma split_dot_dotfree s : dotfree s -> split_dot s = [s].
Proof.
  induction s as [|c r IH]; intros H; [reflexivity|].
  rewrite split_dot_cons_nodot by (intros E; apply H; left; exact E).
  rewrite IH by (intros E; apply H; right; exact E). reflexivity.
Qed.

Lemma split_dot_segs_dotfree s : Forall dotfree (split_dot s).
Proof.
  induction s as [|c r IH]; cbn [split_dot].
  - constructor; [intros []|constructor].
  - destruct (c =? DOT) eqn:E.
    + constructor; [intros []|exact IH].
    + apply N.eqb_neq in E. destruct (split_dot r) as [|h t].
      * constructor; [|constructor]. intros [X|[]]. congruence.
      * inversion IH as [|? ? Hh Ht]; subst. constructor; [|exact Ht].
        intros [X|X]; [congruence|exact (Hh X)].
Qed.

Lemma join_dot_cons2 h x L : join_dot (h :: x :: L) = h ++ DOT :: join_dot (x :: L).
Proof. reflexivity. Qed.

Lemma join_split s : join_dot (split_dot s) = s.
Proof.
  induction s as [|c r IH]; [reflexivity|]. cbn [split_dot].
  destruct (c =? DOT) eqn:E.
  - apply N.eqb_eq in E. subst c. pose proof (split_dot_nonnil r) as N0.
    destruct (split_dot r) as [|h t]; [contradiction|]. rewrite join_dot_cons2, IH. reflexivity.
  - pose proof (split_dot_nonnil r) as N0. destruct (split_dot r) as [|h t]; [contradiction|].
    destruct t as [|x t].
    + cbn [join_dot] in *. rewrite IH. reflexivity.
    + rewrite join_dot_cons2. rewrite join_dot_cons2 in IH. rewrite <- IH. reflexivity.
Qed.

Lemma split_dot_app_gen a b : split_dot (a ++ DOT :: b) = split_dot a ++ split_dot b.
Proof.
  induction a as [|c a IH].
  - cbn [app split_dot]. rewrite N.eqb_refl. reflexivity.
  - cbn [app split_dot]. destruct (c =? DOT) eqn:E.
    + rewrite IH. reflexivity.
    + rewrite IH. pose proof (split_dot_nonnil a) as N0.
      destruct (split_dot a) as [|h t]; [contradiction|]. reflexivity.
Qed.

Lemma split_join L : L <> [] -> Forall dotfree L -> split_dot (join_dot L) = L.
Proof.
  induction L as [|h L IH]; intros N0 F; [contradiction|].
  inversion F as [|? ? Hh Ht]; subst. destruct L as [|x L].
  - cbn [join_dot]. apply split_dot_dotfree; exact Hh.
  - rewrite join_dot_cons2, split_dot_app_gen, (split_dot_dotfree h Hh), IH; [reflexivity|discriminate|exact Ht].
Qed.

Lemma join_dot_app A B : A <> [] -> B <> [] -> join_dot (A ++ B) = join_dot A ++ DOT :: join_dot B.
Proof.
  induction A as [|h A IH]; intros NA NB; [contradiction|].
  destruct A as [|x A].
  - cbn [app]. destruct B as [|y B]; [contradiction|]. rewrite join_dot_cons2. reflexivity.
  - cbn [app]. rewrite !join_dot_cons2. cbn [app] in IH. rewrite IH by (discriminate || exact NB).
    rewrite <- app_assoc. reflexivity.
Qed.

Lemma join_inj A B : A <> [] -> B <> [] -> Forall dotfree A -> Forall dotfree B -> join_dot A = join_dot B -> A = B.
Proof. intros NA NB FA FB E. rewrite <- (split_join A NA FA), <- (split_join B NB FB), E. reflexivity. Qed.

Lemma split_dot_inj a b : split_dot a = split_dot b -> a = b.
Proof. intros E. rewrite <- (join_split a), <- (join_split b), E. reflexivity. Qed.

(* ---- "<any>" ---- *)
Lemma any_dotfree : dotfree ANY.
Proof. unfold dotfree, ANY, DOT. cbn. intros [H|[H|[H|[H|[H|[]]]]]]; discriminate. Qed.

Lemma prefix_any_dot u w : prefixb ANY (u ++ DOT :: w) = true -> prefixb ANY u = true.
Proof.
  intros H. apply prefixb_spec in H. destruct H as [t H]. apply prefixb_spec.
  assert (forall (p u t w : str), ~ In DOT p -> u ++ DOT :: w = p ++ t -> exists t', u = p ++ t') as G.
  { clear. induction p as [|x p IH]; intros u t w Hp E.
    - exists u. reflexivity.
    - destruct u as [|y u].
      + cbn in E. injection E as E1 E2. exfalso. apply Hp. left. symmetry. exact E1.
      + cbn in E. injection E as -> E2. destruct (IH u t w) as [t' ->]; [intros X; apply Hp; right; exact X|exact E2|].
        exists t'. reflexivity. }
  exact (G ANY u t w any_dotfree H).
Qed.

Lemma contains_any_app_dot h b : contains_any (h ++ DOT :: b) = contains_any h || contains_any b.
Proof.
  induction h as [|c h IH].
  - cbn [app]. change (contains_any (DOT :: b)) with (prefixb ANY (DOT :: b) || contains_any b). reflexivity.
  - cbn [app]. change (contains_any (c :: h ++ DOT :: b)) with (prefixb ANY ((c :: h) ++ DOT :: b) || contains_any (h ++ DOT :: b)).
    change (contains_any (c :: h)) with (prefixb ANY (c :: h) || contains_any h).
    rewrite IH. destruct (prefixb ANY ((c :: h) ++ DOT :: b)) eqn:E.
    + apply prefix_any_dot in E. rewrite E. reflexivity.
    + destruct (prefixb ANY (c :: h)) eqn:E2.
      * apply prefixb_spec in E2. destruct E2 as [t E2]. rewrite E2, <- app_assoc, prefixb_app in E. discriminate.
      * rewrite orb_assoc. reflexivity.
Qed.

Lemma contains_any_nil : contains_any [] = false.
Proof. reflexivity. Qed.

Lemma contains_any_join L : contains_any (join_dot L) = existsb contains_any L.
Proof.
  induction L as [|h L IH]; [reflexivity|]. destruct L as [|x L].
  - cbn [join_dot existsb]. rewrite orb_false_r. reflexivity.
  - rewrite join_dot_cons2, contains_any_app_dot, IH. reflexivity.
Qed.

Lemma contains_any_split k : contains_any k = existsb contains_any (split_dot k).
Proof. rewrite <- contains_any_join, join_split. reflexivity. Qed.

Lemma contains_any_ANY : contains_any ANY = true.
Proof. reflexivity. Qed.

Lemma any_seg_contains k : In ANY (split_dot k) -> contains_any k = true.
Proof.
  intros H. rewrite contains_any_split. apply existsb_exists. exists ANY. split; [exact H|reflexivity].
Qed.

Lemma soa_none s : contains_any s = false -> split_once_any s = None.
Proof.
  induction s as [|c s IH]; intros H.
  - reflexivity.
  - change (contains_any (c :: s)) with (prefixb ANY (c :: s) || contains_any s) in H.
    apply orb_false_iff in H. destruct H as [H1 H2]. cbn [split_once_any]. rewrite H1, (IH H2). reflexivity.
Qed.

Definition pre_opt (h : str) (o : option (str * str)) : option (str * str) :=
  match o with Some (a, b) => Some (h ++ a, b) | None => None end.

Lemma soa_step h b : contains_any h = false ->
  split_once_any (h ++ DOT :: b) = pre_opt (h ++ [DOT]) (split_once_any b).
Proof.
  induction h as [|c h IH]; intros H.
  - cbn [app]. cbn [split_once_any]. change (prefixb ANY (DOT :: b)) with false. cbv iota.
    destruct (split_once_any b) as [[a b']|]; reflexivity.
  - change (contains_any (c :: h)) with (prefixb ANY (c :: h) || contains_any h) in H.
    apply orb_false_iff in H. destruct H as [H1 H2].
    cbn [app]. cbn [split_once_any].
    destruct (prefixb ANY (c :: h ++ DOT :: b)) eqn:E.
    + apply (prefix_any_dot (c :: h) b) in E. congruence.
    + rewrite (IH H2). destruct (split_once_any b) as [[a b']|]; reflexivity.
Qed.

(* text in front of the first wildcard segment, as split_once leaves it *)
Definition pre_text (c : list str) : str := match c with [] => [] | _ => join_dot c ++ [DOT] end.

Lemma soa_segs c rest : Forall (fun s => contains_any s = false) c -> rest <> [] ->
  split_once_any (join_dot (c ++ ANY :: rest)) = Some (pre_text c, DOT :: join_dot rest).
Proof.
  intros F NR. induction c as [|h c IH].
  - cbn [app pre_text]. destruct rest as [|x rest]; [contradiction|]. rewrite join_dot_cons2. reflexivity.
  - inversion F as [|? ? Hh Ht]; subst. cbn [app].
    destruct (c ++ ANY :: rest) as [|x L] eqn:E; [destruct c; discriminate|].
    rewrite join_dot_cons2, soa_step by exact Hh. rewrite (IH Ht). cbn [pre_opt].
    f_equal. f_equal. unfold pre_text. destruct c as [|y c].
    + cbn [join_dot]. rewrite app_nil_r. reflexivity.
    + rewrite join_dot_cons2, <- !app_assoc. reflexivity.
Qed.

(* ---- trims ---- *)
Lemma trim_start_nodot c s : c <> DOT -> trim_start_dots (c :: s) = c :: s.
Proof. intros H. cbn [trim_start_dots]. apply N.eqb_neq in H. rewrite H. reflexivity. Qed.

Lemma trim_start_dot s : trim_start_dots (DOT :: s) = trim_start_dots s.
Proof. cbn [trim_start_dots]. rewrite N.eqb_refl. reflexivity. Qed.

(* a non-empty dot-free first segment: the text does not start with '.' *)
Lemma trim_start_join x rest : x <> [] -> dotfree x -> trim_start_dots (DOT :: join_dot (x :: rest)) = join_dot (x :: rest).
Proof.
  intros N0 D. rewrite trim_start_dot. destruct x as [|c h]; [contradiction|].
  assert (c <> DOT) as Hc by (intros X; apply D; left; exact X).
  destruct rest as [|y T]; [cbn [join_dot]|rewrite join_dot_cons2]; apply trim_start_nodot; exact Hc.
Qed.

Lemma join_last c l : l <> [] -> dotfree l -> exists s z, join_dot (c ++ [l]) = s ++ [z] /\ z <> DOT.
Proof.
  intros N0 D. destruct (exists_last N0) as [l' [z ->]].
  assert (z <> DOT) as Hz. { intros X. apply D. apply in_or_app. right. left. exact X. }
  destruct c as [|h c].
  - exists l', z. split; [reflexivity|exact Hz].
  - rewrite join_dot_app by discriminate. cbn [join_dot].
    exists (join_dot (h :: c) ++ DOT :: l'), z. split; [|exact Hz].
    rewrite <- app_assoc. reflexivity.
Qed.

Lemma trim_end_join c l : l <> [] -> dotfree l -> trim_end_dots (join_dot (c ++ [l]) ++ [DOT]) = join_dot (c ++ [l]).
Proof.
  intros N0 D. destruct (join_last c l N0 D) as [s [z [E Hz]]]. rewrite E. unfold trim_end_dots.
  rewrite rev_app_distr. cbn [rev app]. rewrite trim_start_dot, rev_app_distr. cbn [rev app].
  rewrite trim_start_nodot by exact Hz. cbn [rev]. rewrite rev_involutive. reflexivity.
Qed.

Lemma split_dot_length s : (length (split_dot s) <= S (length s))%nat.
Proof.
  induction s as [|c r IH]; [cbn; lia|]. cbn [split_dot]. destruct (c =? DOT).
  - cbn [length]. lia.
  - pose proof (split_dot_nonnil r). destruct (split_dot r); [contradiction|]. cbn [length] in *. lia.
Qed.
