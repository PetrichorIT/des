(* Cfg::new: compartmentalising a well-formed flat configuration yields a well-shaped
   mapping whose denotation is the configuration itself.  First one iteration of
   compartmentalize_map's loop (after the key was removed): routing a well-formed key through a
   node keeps the node well-shaped and adds exactly that key to the node's denotation. *)
From Coq Require Import List NArith Bool Lia Permutation.
From DesVerif Require Import Common.Lists Props.Spec Props.Model Props.Bytes Props.Den.
Import ListNotations.
Open Scope N_scope.

Definition wf_kseg (s : str) : Prop := s <> [] /\ (s = ANY \/ contains_any s = false).
Definition wf_key (k : str) : Prop := Forall wf_kseg (split_dot k) /\ last (split_dot k) [] <> ANY.

(* no clash between the entries D of a node and a new key with segments L *)
Definition compatD (D : list sentry) (L : list str) : Prop :=
  (forall n, ~ In (L, n) D) /\
  (forall e n r, In (e, n) D -> e <> L ++ ANY :: r) /\
  (forall e n r, In (e, n) D -> L <> e ++ ANY :: r).

(* what the loop needs of the recursive call on a sub-mapping: correct for every key of at most d segments
   (d is the fuel left in compartmentalize_map; each level strips at least the wildcard segment) *)
Definition good_rec (rec : mapping -> mapping) (d : nat) : Prop :=
  forall t b n, WS t -> wf_key b -> (length (split_dot b) <= d)%nat -> compatD (denm t) (split_dot b) ->
    WS (rec (m_insert b (Scalar n) t)) /\
    Permutation (denm (rec (m_insert b (Scalar n) t))) ((split_dot b, n) :: denm t).

Lemma last_app_ne {A} (a r : list A) d : r <> [] -> last (a ++ r) d = last r d.
Proof.
  intros N0. induction a as [|x a IH]; [reflexivity|]. cbn [app]. rewrite <- IH.
  destruct (a ++ r) eqn:E; [destruct a; [contradiction|discriminate]|reflexivity].
Qed.

Lemma first_any L : Forall wf_kseg L -> existsb contains_any L = true ->
  exists c rest, L = c ++ ANY :: rest /\ Forall (fun s => contains_any s = false) c.
Proof.
  induction L as [|h L IH]; intros F E; [discriminate|].
  inversion F as [|? ? [_ [Hh|Hh]] Ft]; subst.
  - exists [], L. split; [reflexivity|constructor].
  - cbn [existsb] in E. rewrite Hh in E. cbn [orb] in E. destruct (IH Ft E) as [c [rest [-> Fc]]].
    exists (h :: c), rest. split; [reflexivity|]. constructor; assumption.
Qed.

(* all that cstep and route compute on a well-formed key b cut at its first wildcard, c ++ ANY :: rest:
   what split_once_any returns, what the two trims leave, and that the rest is again a well-formed key;
   d_top speaks of the text in front of the wildcard, which exists only when c is not empty *)
Record decomp (b : str) (c rest : list str) : Prop := {
  d_split : split_dot b = c ++ ANY :: rest;
  d_c : Forall (fun s => contains_any s = false) c;
  d_rest : rest <> [];
  d_wf : wf_key (join_dot rest);
  d_rsplit : split_dot (join_dot rest) = rest;
  d_soa : split_once_any b = Some (pre_text c, DOT :: join_dot rest);
  d_bot : trim_start_dots (DOT :: join_dot rest) = join_dot rest;
  d_top : c <> [] -> trim_end_dots (pre_text c) = join_dot c /\ contains_any (join_dot c) = false /\ split_dot (join_dot c) = c }.

Lemma wf_decomp b : wf_key b -> contains_any b = true -> exists c rest, decomp b c rest.
Proof.
  intros [F La] C. rewrite contains_any_split in C. destruct (first_any _ F C) as [c [rest [E Fc]]].
  pose proof (split_dot_segs_dotfree b) as D. rewrite E in D, F.
  apply Forall_app in D. destruct D as [Dc Dr]. inversion Dr as [|? ? _ Drest]; subst.
  apply Forall_app in F. destruct F as [Fkc Fr]. inversion Fr as [|? ? _ Fkrest]; subst.
  assert (rest <> []) as Nr.
  { intros ->. apply La. rewrite E. rewrite last_app_ne by discriminate. reflexivity. }
  exists c, rest. constructor; try assumption.
  - split; rewrite split_join by assumption; [exact Fkrest|].
    rewrite E in La. replace (c ++ ANY :: rest) with ((c ++ [ANY]) ++ rest) in La by (rewrite <- app_assoc; reflexivity).
    rewrite last_app_ne in La by exact Nr. exact La.
  - apply split_join; assumption.
  - rewrite <- (join_split b), E. apply soa_segs; assumption.
  - destruct rest as [|x rest]; [contradiction|]. inversion Fkrest as [|? ? [Nx _] _]; subst.
    inversion Drest; subst. apply trim_start_join; assumption.
  - intros Nc. destruct (exists_last Nc) as [c' [l ->]].
    apply Forall_app in Fkc. destruct Fkc as [_ Fl]. inversion Fl as [|? ? [Nl _] _]; subst.
    pose proof Dc as Dc'. apply Forall_app in Dc'. destruct Dc' as [_ Dl]. inversion Dl; subst.
    split; [|split].
    + unfold pre_text. destruct (c' ++ [l]) eqn:X; [destruct c'; discriminate|]. rewrite <- X.
      apply trim_end_join; assumption.
    + rewrite contains_any_join. apply not_true_is_false. intros X.
      apply existsb_exists in X. destruct X as [s0 [Hs0 Cs0]]. rewrite Forall_forall in Fc. rewrite (Fc s0 Hs0) in Cs0. discriminate.
    + apply split_join; [destruct c'; discriminate|exact Dc].
Qed.

Lemma wf_key_not_any b : wf_key b -> b <> ANY.
Proof. intros [_ La] ->. apply La. reflexivity. Qed.

Lemma perm_mid {A} (X Y P Q : list A) x : Permutation X (x :: Y) -> Permutation (P ++ X ++ Q) (x :: P ++ Y ++ Q).
Proof.
  intros H. apply Permutation_trans with (P ++ (x :: Y) ++ Q).
  - apply Permutation_app_head. apply Permutation_app_tail. exact H.
  - cbn [app]. apply Permutation_sym. apply Permutation_middle.
Qed.

Lemma perm_nonnil {A} (X Y : list A) x : Permutation X (x :: Y) -> X <> [].
Proof. intros H ->. apply Permutation_nil in H. discriminate. Qed.

Lemma compat_sub D D' q L : compatD D (q ++ L) -> (forall x, In x D' -> In (pre q x) D) -> compatD D' L.
Proof.
  intros [C1 [C2 C3]] H. split; [|split].
  - intros n X. apply (C1 n). exact (H _ X).
  - intros e n r X E. apply (C2 (q ++ e) n r (H _ X)). rewrite E, app_assoc. reflexivity.
  - intros e n r X E. apply (C3 (q ++ e) n r (H _ X)). rewrite E, <- app_assoc. reflexivity.
Qed.

Lemma compat_nil L : compatD [] L.
Proof. split; [intros ? []|split; intros ? ? ? []]. Qed.

Lemma node_ok_replace U a1 a2 k old new :
  node_ok U (a1 ++ (k, old) :: a2) -> WSe (k, new) -> node_ok U (a1 ++ (k, new) :: a2).
Proof.
  intros [N0 F] W. split.
  - rewrite map_app in *. exact N0.
  - intros e He. apply in_app_or in He. destruct He as [He|[<-|He]].
    + apply F. apply in_or_app. left. exact He.
    + left. exact W.
    + apply F. apply in_or_app. right. right. exact He.
Qed.

Lemma node_ok_append U s k new : node_ok U s -> ~ In k (map fst s) ->
  WSe (k, new) \/ (exists n, new = Scalar n /\ U k) -> node_ok U (s ++ [(k, new)]).
Proof.
  intros [N0 F] Hk W. split.
  - rewrite map_app. cbn [map fst].
    apply (Permutation_NoDup (l := k :: map fst s)); [apply Permutation_cons_append|]. constructor; assumption.
  - intros e He. apply in_app_or in He. destruct He as [He|[<-|[]]]; [apply F; exact He|].
    destruct W as [W|[n [-> Uk]]]; [left; exact W|right; exists n; split; [reflexivity|exact Uk]].
Qed.

Lemma node_entry_mapping U s k e : node_ok U s -> In (k, Mapping e) s ->
  (exists t, e = [(ANY, Mapping t)] /\ contains_any k = false /\ WS t) \/ (k = ANY /\ WS e).
Proof.
  intros [_ F] H. destruct (F _ H) as [W|[n [X _]]]; [|discriminate].
  inversion W as [| ? t K Wt _ | t Wt _]; subst.
  - left. exists t. split; [reflexivity|split; assumption].
  - right. split; [reflexivity|exact Wt].
Qed.

Lemma in_replace_other (a1 a2 : mapping) k old new k' v' :
  In (k', v') (a1 ++ (k, old) :: a2) -> k' <> k -> In (k', v') (a1 ++ (k, new) :: a2).
Proof.
  intros H N0. apply in_app_or in H. apply in_or_app. destruct H as [H|[H|H]]; [left; exact H| |right; right; exact H].
  injection H as -> _. contradiction.
Qed.

Section Route.
  Variable rec : mapping -> mapping.
  Variable d : nat.
  Hypothesis Hrec : good_rec rec d.
  Variable U : str -> Prop.
  Hypothesis HU : forall k, U k -> contains_any k = true /\ k <> ANY.

  (* The sub-mapping that takes the rest of the key sits under key K, wrapped by [wrap] (the '<any>' node
     itself, or the '<any>' node inside a chunk); q are the segments on the way down to it.  Replacing it
     by the recursive result, or appending a fresh one, adds exactly (q ++ rest, n) to the node. *)
  Lemma route_at s K (wrap : mapping -> value) q rest n :
    (forall t, den_e (K, wrap t) = map (pre q) (denm t)) ->
    (forall t, WS t -> denm t <> [] -> WSe (K, wrap t)) ->
    wf_key (join_dot rest) -> split_dot (join_dot rest) = rest -> (length rest <= d)%nat ->
    node_ok U s -> compatD (denm s) (q ++ rest) ->
    (forall k', contains_any k' = true -> k' <> ANY -> k' <> K) ->
    let R := fun t => rec (m_insert (join_dot rest) (Scalar n) t) in
    (* third conjunct: entries whose keys still await rewriting stay in the node (loop_ok needs them there) *)
    let good := fun s' => node_ok U s' /\ Permutation (denm s') ((q ++ rest, n) :: denm s) /\
                          forall k' v', In (k', v') s -> contains_any k' = true -> k' <> ANY -> In (k', v') s' in
    (forall t, m_get K s = Some (wrap t) -> WS t -> good (m_set K (wrap (R t)) s)) /\
    (m_get K s = None -> good (s ++ [(K, wrap (R []))])).
  Proof.
    intros Hd Hw Wr Er Ld Ns Cp NK R good.
    assert (forall t, WS t -> compatD (denm t) rest ->
                      WS (R t) /\ Permutation (denm (R t)) ((rest, n) :: denm t)) as HR.
    { intros t Wt Ct. unfold R. pose proof (Hrec t (join_dot rest) n Wt Wr) as Hr. rewrite Er in Hr. exact (Hr Ld Ct). }
    split.
    - intros t G Wt. destruct (m_get_split _ _ _ G) as [a1 [a2 [-> Ha1]]]. rewrite m_set_split by exact Ha1.
      assert (compatD (denm t) rest) as Ct.
      { apply (compat_sub _ _ q _ Cp). intros x Hx. rewrite denm_app, denm_cons, Hd.
        apply in_or_app. right. apply in_or_app. left. apply in_map. exact Hx. }
      destruct (HR t Wt Ct) as [WR PR]. split; [|split].
      + eapply node_ok_replace; [exact Ns|]. apply Hw; [exact WR|eapply perm_nonnil; exact PR].
      + rewrite !denm_app, !denm_cons, !Hd. apply (perm_mid _ _ _ _ (pre q (rest, n))).
        apply (Permutation_map (pre q)) in PR. exact PR.
      + intros k' v' Hk Ck Nk. eapply in_replace_other; [exact Hk|exact (NK k' Ck Nk)].
    - intros G. apply m_get_none in G.
      destruct (HR [] WS_nil (compat_nil rest)) as [WR0 PR0]. rewrite denm_nil in PR0. split; [|split].
      + apply node_ok_append; [exact Ns|exact G|]. left. apply Hw; [exact WR0|eapply perm_nonnil; exact PR0].
      + rewrite denm_app, denm_cons, Hd, denm_nil, app_nil_r. apply Permutation_sym.
        apply Permutation_trans with (denm s ++ [pre q (rest, n)]); [apply Permutation_cons_append|].
        apply Permutation_app_head. apply (Permutation_map (pre q)) in PR0. apply Permutation_sym. exact PR0.
      + intros k' v' Hk _ _. apply in_or_app. left. exact Hk.
  Qed.

  Lemma route_ok s b n c rest :
    node_ok U s -> wf_key b -> decomp b c rest -> (length rest <= d)%nat ->
    compatD (denm s) (split_dot b) ->
    let s' := route rec (pre_text c) (DOT :: join_dot rest) (Scalar n) s in
    node_ok U s' /\ Permutation (denm s') ((split_dot b, n) :: denm s) /\
    (forall k' v', In (k', v') s -> contains_any k' = true -> k' <> ANY -> In (k', v') s').
  Proof.
    intros Ns Wb Dc Ld Cp. destruct Dc as [Es Fc Nr Wr Er _ Eb Et].
    unfold route. cbv zeta. rewrite Eb. rewrite Es in *.
    destruct c as [|c0 c1].
    - (* the wildcard is the first segment: the sub-mapping is the node's own '<any>' entry *)
      cbn [pre_text app] in *. unfold sub_insert.
      destruct (route_at s ANY Mapping [ANY] rest n den_e_any (fun t => WSe_any t) Wr Er Ld Ns Cp (fun k' _ N0 => N0))
        as [Hset Happ].
      destruct (m_get ANY s) as [[n'|t]|] eqn:G.
      + exfalso. apply m_get_in in G. destruct Ns as [_ F]. destruct (F _ G) as [W|[n0 [_ X]]].
        * inversion W as [? ? K| |]; subst. exact (plain_not_ANY ANY K eq_refl).
        * exact (proj2 (HU _ X) eq_refl).
      + destruct (node_entry_mapping U s ANY t Ns (m_get_in _ _ _ G)) as [[t' [_ [K _]]]|[_ Wt]];
          [exfalso; exact (plain_not_ANY ANY K eq_refl)|].
        exact (Hset t eq_refl Wt).
      + exact (Happ eq_refl).
    - (* a chunk of specific segments precedes the wildcard: the sub-mapping is the '<any>' entry of the chunk *)
      destruct (Et ltac:(discriminate)) as [Etop [Ktop Stop]].
      set (cc := c0 :: c1) in *.
      destruct (pre_text cc) as [|x y] eqn:Ept; [unfold pre_text, cc in Ept; destruct (join_dot (c0 :: c1)); discriminate|].
      rewrite Etop. set (tk := join_dot cc) in *.
      destruct (route_at s tk (fun t => Mapping [(ANY, Mapping t)]) (cc ++ [ANY]) rest n) as [Hset Happ];
        [intros t; rewrite den_e_chunk, Stop; reflexivity|intros t; apply WSe_chunk; exact Ktop|exact Wr|exact Er|exact Ld|exact Ns
        |rewrite <- app_assoc; exact Cp|intros k' Ck _ ->; congruence|].
      rewrite <- app_assoc in Hset, Happ.
      destruct (m_get tk s) as [[n'|e]|] eqn:G.
      + exfalso. apply m_get_in in G. apply in_denm_scalar in G. rewrite Stop in G.
        destruct Cp as [_ [_ C3]]. exact (C3 _ _ rest G eq_refl).
      + destruct (node_entry_mapping U s tk e Ns (m_get_in _ _ _ G)) as [[t [-> [_ Wt]]]|[X _]];
          [|exfalso; exact (plain_not_ANY tk Ktop X)].
        exact (Hset t eq_refl Wt).
      + exact (Happ eq_refl).
  Qed.
End Route.

(* ---- guards on whole configurations ---- *)
Definition wf_cfg (cfg : list (str * N)) : Prop := NoDup (map fst cfg) /\ Forall wf_key (map fst cfg).
(* known finding: an entry keyed exactly by the text in front of another entry's wildcard *)
Definition KnownClass (cfg : list (str * N)) : Prop :=
  exists k1 k2 r, In k1 (map fst cfg) /\ In k2 (map fst cfg) /\ split_dot k2 = split_dot k1 ++ ANY :: r.

Definition flat (cfg : list (str * N)) : mapping := map (fun e => (fst e, Scalar (snd e))) cfg.
Definition D0 (cfg : list (str * N)) : list sentry := map (fun e => (split_dot (fst e), snd e)) cfg.

Lemma denm_flat cfg : denm (flat cfg) = D0 cfg.
Proof.
  induction cfg as [|[k v] cfg IH]; [reflexivity|]. unfold flat, D0 in *. cbn [map].
  rewrite denm_cons, IH. reflexivity.
Qed.
Lemma flat_keys cfg : map fst (flat cfg) = map fst cfg.
Proof. unfold flat. rewrite map_map. reflexivity. Qed.

Lemma flat_any_key k : wf_key k -> is_flat_any_key k = contains_any k.
Proof. intros W. unfold is_flat_any_key. apply wf_key_not_any, str_eqb_neq in W. rewrite W. apply andb_true_r. Qed.

Lemma ws_keys_not_flat t : WS t -> filter is_flat_any_key (map fst t) = [].
Proof.
  intros W. apply filter_none. intros k Hk. apply in_map_iff in Hk. destruct Hk as [[k' v] [<- Hin]]. cbn [fst].
  unfold is_flat_any_key.
  destruct (WS_entry t k' v W Hin) as [[n [_ K]]|[[s [_ [K _]]]|[s [-> _]]]];
    [rewrite K; reflexivity|rewrite K; reflexivity|].
  rewrite str_eqb_refl, andb_false_r. reflexivity.
Qed.

(* a key compatible with a well-shaped node is not yet a key of it *)
Lemma compat_fresh t b : WS t -> wf_key b -> compatD (denm t) (split_dot b) -> ~ In b (map fst t).
Proof.
  intros W Wb [C1 [C2 _]] H. apply in_map_iff in H. destruct H as [[k v] [E Hin]]. cbn [fst] in E. subst k.
  destruct (WS_entry t b v W Hin) as [[n [-> _]]|[[s [-> [_ [_ Ds]]]]|[s [X _]]]].
  - apply (C1 n). apply in_denm_scalar. exact Hin.
  - destruct (denm s) as [|[e n] D] eqn:E; [contradiction|].
    apply (C2 (split_dot b ++ ANY :: e) n e); [|reflexivity].
    apply in_denm. exists (b, Mapping [(ANY, Mapping s)]). split; [exact Hin|]. apply in_den_chunk.
    exists e. split; [reflexivity|rewrite E; left; reflexivity].
  - exact (wf_key_not_any b Wb X).
Qed.

Lemma compatD_perm D D' L : Permutation D' D -> compatD D L -> compatD D' L.
Proof.
  intros P [C1 [C2 C3]]. split; [|split].
  - intros n X. exact (C1 n (Permutation_in _ P X)).
  - intros e n r X. exact (C2 e n r (Permutation_in _ P X)).
  - intros e n r X. exact (C3 e n r (Permutation_in _ P X)).
Qed.

(* D is what the mapping has to denote in the end *)
Section Loop.
  Variable rec : mapping -> mapping.
  Variable d : nat.
  Hypothesis Hrec : good_rec rec d.
  Variable D : list sentry.

  Definition pending (m : mapping) (k : str) : Prop :=
    wf_key k /\ contains_any k = true /\ (length (split_dot k) <= S d)%nat /\
    exists n, In (k, Scalar n) m /\
              forall D', Permutation ((split_dot k, n) :: D') D -> compatD D' (split_dot k).

  Lemma loop_ok : forall R m,
    NoDup R -> (forall k, In k R -> pending m k) ->
    node_ok (fun k => In k R) m -> Permutation (denm m) D ->
    WS (fold_left (cstep rec) R m) /\ Permutation (denm (fold_left (cstep rec) R m)) D.
  Proof.
    induction R as [|k R IH]; intros m NR HR Nm P.
    - cbn [fold_left]. split; [|exact P]. apply WS_node_ok. exact (node_ok_mono _ none m (fun k X => X) Nm).
    - cbn [fold_left]. inversion NR as [|? ? Hnk NR']; subst.
      destruct (HR k (or_introl eq_refl)) as [Wk [C [Lk [n [Hin Hc]]]]].
      destruct (wf_decomp k Wk C) as [c [rest Dc]].
      destruct Nm as [N0 Fm]. pose proof (swap_out_perm k (Scalar n) m N0 Hin) as PS.
      unfold cstep. rewrite (d_soa _ _ _ Dc). unfold m_swap_remove. rewrite (in_m_get _ _ _ N0 Hin).
      set (m1 := swap_out k m) in *.
      assert (NoDup (k :: map fst m1)) as N1
        by (apply (Permutation_NoDup (Permutation_sym (Permutation_map fst PS))); exact N0).
      inversion N1 as [|? ? Hk1 N1']; subst.
      assert (node_ok (fun k' => In k' R) m1) as Nm1.
      { split; [exact N1'|]. intros e He.
        destruct (Fm e (Permutation_in _ PS (or_intror He))) as [W|[n' [E [X|X]]]].
        - left. exact W.
        - exfalso. apply Hk1. rewrite X. apply in_map. exact He.
        - right. exists n'. split; assumption. }
      assert (Permutation ((split_dot k, n) :: denm m1) D) as P1
        by (eapply Permutation_trans; [exact (denm_perm _ _ PS)|exact P]).
      rewrite (d_split _ _ _ Dc), app_length in Lk. cbn [length] in Lk.
      destruct (route_ok rec d Hrec (fun k' => In k' R)) with (s := m1) (b := k) (n := n) (c := c) (rest := rest)
        as [Ns [Pn Keep]].
      + intros k' Hk'. destruct (HR k' (or_intror Hk')) as [Wk' [C' _]]. split; [exact C'|apply wf_key_not_any; exact Wk'].
      + exact Nm1.
      + exact Wk.
      + exact Dc.
      + lia.
      + exact (Hc _ P1).
      + apply IH.
        * exact NR'.
        * intros k' Hk'. destruct (HR k' (or_intror Hk')) as [Wk' [C' [L' [n' [Hin' Hc']]]]].
          split; [exact Wk'|]. split; [exact C'|]. split; [exact L'|]. exists n'. split; [|exact Hc'].
          apply Keep; [|exact C'|apply wf_key_not_any; exact Wk'].
          apply (Permutation_in _ (Permutation_sym PS)) in Hin'. destruct Hin' as [X|X]; [|exact X].
          injection X as X _. exfalso. apply Hnk. rewrite X. exact Hk'.
        * exact Ns.
        * eapply Permutation_trans; [exact Pn|exact P1].
  Qed.
End Loop.

Lemma cmap_good : forall f, good_rec (compartmentalize_map f) f.
Proof.
  induction f as [|f IH]; intros t b n Wt Wb Lb Cp.
  - pose proof (split_dot_nonnil b). destruct (split_dot b); [contradiction|cbn [length] in Lb; lia].
  - pose proof (compat_fresh t b Wt Wb Cp) as Hb. rewrite m_insert_new by exact Hb.
    assert (Permutation (denm (t ++ [(b, Scalar n)])) ((split_dot b, n) :: denm t)) as P.
    { rewrite denm_app, denm_cons, denm_nil, app_nil_r. apply Permutation_sym. apply Permutation_cons_append. }
    cbn [compartmentalize_map]. rewrite map_app, filter_app, (ws_keys_not_flat t Wt). cbn [map fst filter app].
    rewrite (flat_any_key b Wb). destruct (contains_any b) eqn:C.
    + apply (loop_ok _ f IH); [constructor; [intros []|constructor]| | |exact P].
      * intros k [<-|[]]. split; [exact Wb|]. split; [exact C|]. split; [exact Lb|]. exists n.
        split; [apply in_or_app; right; left; reflexivity|].
        intros D' PD. apply Permutation_cons_inv in PD. exact (compatD_perm _ _ _ PD Cp).
      * apply node_ok_append; [| exact Hb|right; exists n; split; [reflexivity|left; reflexivity]].
        apply (node_ok_mono none); [intros k []|apply WS_node_ok; exact Wt].
    + cbn [fold_left]. split; [|exact P].
      apply WS_node_ok. apply node_ok_append; [apply WS_node_ok; exact Wt|exact Hb|]. left. constructor. exact C.
Qed.

(* ---- the top-level call ---- *)
Section Top.
  Variable cfg : list (str * N).
  Hypothesis Hwf : wf_cfg cfg.
  Hypothesis Hk : ~ KnownClass cfg.

  Lemma D0_in e n : In (e, n) (D0 cfg) -> exists k, In k (map fst cfg) /\ e = split_dot k.
  Proof.
    intros H. apply in_map_iff in H. destruct H as [[k v] [E Hin]]. cbn [fst snd] in E. injection E as <- <-.
    exists k. split; [apply in_map_iff; exists (k, v); split; [reflexivity|exact Hin]|reflexivity].
  Qed.

  Lemma D0_nodup : NoDup (map fst (D0 cfg)).
  Proof.
    destruct Hwf as [N0 _]. unfold D0. rewrite map_map. cbn [fst].
    rewrite <- (map_map fst split_dot). apply FinFun.Injective_map_NoDup; [|exact N0].
    intros a b. apply split_dot_inj.
  Qed.

  Lemma top_compat k n D : In k (map fst cfg) -> Permutation ((split_dot k, n) :: D) (D0 cfg) -> compatD D (split_dot k).
  Proof.
    intros Hin P. split; [|split].
    - intros n' X. pose proof D0_nodup as N0.
      apply (Permutation_NoDup (Permutation_map fst (Permutation_sym P))) in N0. cbn [map fst] in N0.
      inversion N0 as [|? ? Hn _]; subst. apply Hn. apply in_map_iff. exists (split_dot k, n'). split; [reflexivity|exact X].
    - intros e n' r X E. assert (In (e, n') (D0 cfg)) as Y by (eapply Permutation_in; [exact P|right; exact X]).
      destruct (D0_in _ _ Y) as [k2 [Hk2 ->]]. apply Hk. exists k, k2, r. repeat split; assumption.
    - intros e n' r X E. assert (In (e, n') (D0 cfg)) as Y by (eapply Permutation_in; [exact P|right; exact X]).
      destruct (D0_in _ _ Y) as [k1 [Hk1 ->]]. apply Hk. exists k1, k, r. repeat split; assumption.
  Qed.
End Top.

Lemma key_len_bound (cfg : list (str * N)) k : In k (map fst cfg) -> (length k <= length (concat (map fst cfg)))%nat.
Proof.
  induction cfg as [|[k' v] cfg IH]; intros H; [destruct H|]. cbn [map fst concat]. rewrite app_length.
  cbn [map fst In] in H. destruct H as [->|H]; [lia|]. specialize (IH H). lia.
Qed.

(* the model's fuel, S (total key bytes), suffices: a key has at most one segment more than bytes, and
   each level of recursion strips at least the wildcard segment (key_len_bound, split_dot_length) *)
Theorem cfg_new_ok cfg : wf_cfg cfg -> ~ KnownClass cfg ->
  exists m, cfg_new cfg = Mapping m /\ WS m /\ Permutation (denm m) (D0 cfg).
Proof.
  intros Hwf Hk. unfold cfg_new, cfg_fuel, compartmentalize. cbn [compartmentalize_map].
  fold (flat cfg). set (F := length (concat (map fst cfg))).
  exists (fold_left (cstep (compartmentalize_map F)) (filter is_flat_any_key (map fst (flat cfg))) (flat cfg)).
  split; [reflexivity|].
  pose proof Hwf as [N0 Fw]. rewrite Forall_forall in Fw.
  assert (forall k, In k (filter is_flat_any_key (map fst (flat cfg))) <-> In k (map fst cfg) /\ contains_any k = true) as HF.
  { intros k. rewrite filter_In, flat_keys. split; intros [H1 H2]; (split; [exact H1|]); rewrite (flat_any_key k (Fw k H1)) in *; exact H2. }
  apply (loop_ok (compartmentalize_map F) F (cmap_good F) (D0 cfg)).
  - apply NoDup_filter. rewrite flat_keys. exact N0.
  - intros k H. apply HF in H. destruct H as [H1 C]. split; [exact (Fw k H1)|]. split; [exact C|]. split.
    + pose proof (split_dot_length k). pose proof (key_len_bound cfg k H1). unfold F. lia.
    + pose proof H1 as H2. apply in_map_iff in H2. destruct H2 as [[k' v] [E Hin]]. cbn [fst] in E. subst k'. exists v.
      split; [unfold flat; apply in_map_iff; exists (k, v); split; [reflexivity|exact Hin]|].
      intros D'. apply (top_compat cfg Hwf Hk k v D' H1).
  - split; [rewrite flat_keys; exact N0|]. intros [k x] He. unfold flat in He. apply in_map_iff in He.
    destruct He as [[k' v] [E Hin]]. cbn [fst snd] in E. injection E as <- <-.
    assert (In k' (map fst cfg)) as Hkc by (apply in_map_iff; exists (k', v); split; [reflexivity|exact Hin]).
    destruct (contains_any k') eqn:Ck.
    + right. exists v. split; [reflexivity|]. apply HF. split; assumption.
    + left. constructor. exact Ck.
  - rewrite denm_flat. apply Permutation_refl.
Qed.
