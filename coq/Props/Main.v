(* C17 assembled: the executable guards and their meaning; capturing a guarded configuration into any
   store = specification (capture_sound / capture_complete, behind the capture, foreign-entry and
   multi-include theorems of Properties/C17.v); a slot is never touched by a later include; include
   order (the node-creation schedule); the executable form of the specification. *)
From Coq Require Import List NArith Bool Permutation.
From DesVerif Require Import Props.Spec Props.Model Props.Bytes Props.Den Props.Capture Props.Comp.
Import ListNotations.
Open Scope N_scope.

(* ---- executable guards ---- *)
Definition wf_ksegb (s : str) : bool := negb (is_nil s) && (str_eqb s ANY || negb (contains_any s)).
Definition wf_keyb (k : str) : bool :=
  forallb wf_ksegb (split_dot k) && negb (str_eqb (last (split_dot k) []) ANY).
Definition wf_cfgb (cfg : list (str * N)) : bool := nodupb (map fst cfg) && forallb wf_keyb (map fst cfg).

Fixpoint lprefixb (a b : list str) : bool :=
  match a, b with
  | [], _ => true
  | x :: a', y :: b' => str_eqb x y && lprefixb a' b'
  | _ :: _, [] => false
  end.
Definition known_pairb (k1 k2 : str) : bool := lprefixb (split_dot k1 ++ [ANY]) (split_dot k2).
Definition known_classb (cfg : list (str * N)) : bool :=
  existsb (fun k1 => existsb (known_pairb k1) (map fst cfg)) (map fst cfg).

Definition dotfreeb (s : str) : bool := negb (existsb (N.eqb DOT) s).
Definition wf_segb (s : str) : bool := dotfreeb s && negb (str_eqb s ANY).
Definition wf_pathb (p : list str) : bool := forallb wf_segb p.

Lemma is_nil_true s : is_nil s = true <-> s = [].
Proof. destruct s; split; (reflexivity || discriminate). Qed.

Lemma forallb_Forall {A} (f : A -> bool) (P : A -> Prop) l :
  (forall x, f x = true <-> P x) -> (forallb f l = true <-> Forall P l).
Proof. intros H. rewrite forallb_forall, Forall_forall. split; intros G x Hx; apply H; apply G; exact Hx. Qed.

Lemma wf_ksegb_ok s : wf_ksegb s = true <-> wf_kseg s.
Proof.
  unfold wf_ksegb, wf_kseg. rewrite andb_true_iff, negb_true_iff, orb_true_iff, str_eqb_eq, negb_true_iff. split.
  - intros [A B]. split; [|exact B]. intros ->. discriminate.
  - intros [A B]. split; [|exact B]. destruct s; [contradiction|reflexivity].
Qed.

Lemma wf_keyb_ok k : wf_keyb k = true <-> wf_key k.
Proof.
  unfold wf_keyb, wf_key. rewrite andb_true_iff, (forallb_Forall _ _ _ wf_ksegb_ok), negb_true_iff, str_eqb_neq.
  reflexivity.
Qed.

Lemma nodupb_ok l : nodupb l = true <-> NoDup l.
Proof.
  induction l as [|x l IH]; cbn [nodupb].
  - split; [constructor|reflexivity].
  - rewrite andb_true_iff, negb_true_iff, IH, (existsb_eqb_false str_eqb str_eqb_eq). split.
    + intros [A B]. constructor; assumption.
    + intros H. inversion H; subst. split; assumption.
Qed.

Lemma wf_cfgb_ok cfg : wf_cfgb cfg = true <-> wf_cfg cfg.
Proof.
  unfold wf_cfgb, wf_cfg. rewrite andb_true_iff, nodupb_ok, (forallb_Forall _ _ _ wf_keyb_ok). reflexivity.
Qed.

Lemma lprefixb_ok a b : lprefixb a b = true <-> exists r, b = a ++ r.
Proof.
  revert b; induction a as [|x a IH]; intros b; cbn [lprefixb].
  - split; [intros _; exists b; reflexivity|reflexivity].
  - destruct b as [|y b]; [split; [discriminate|intros [r E]; discriminate]|].
    rewrite andb_true_iff, str_eqb_eq, IH. split.
    + intros [-> [r ->]]. exists r. reflexivity.
    + intros [r E]. injection E as -> ->. split; [reflexivity|exists r; reflexivity].
Qed.

Lemma known_classb_ok cfg : known_classb cfg = true <-> KnownClass cfg.
Proof.
  unfold known_classb, KnownClass. rewrite existsb_exists. split.
  - intros [k1 [H1 E]]. apply existsb_exists in E. destruct E as [k2 [H2 E]].
    apply lprefixb_ok in E. destruct E as [r E]. exists k1, k2, r. rewrite <- app_assoc in E. repeat split; assumption.
  - intros [k1 [k2 [r [H1 [H2 E]]]]]. exists k1. split; [exact H1|]. apply existsb_exists. exists k2. split; [exact H2|].
    apply lprefixb_ok. exists r. rewrite <- app_assoc. exact E.
Qed.

Lemma known_classb_false cfg : known_classb cfg = false <-> ~ KnownClass cfg.
Proof. rewrite <- known_classb_ok. destruct (known_classb cfg); split; congruence. Qed.

Lemma dotfreeb_ok s : dotfreeb s = true <-> dotfree s.
Proof. unfold dotfreeb, dotfree. rewrite negb_true_iff. apply (existsb_eqb_false N.eqb N.eqb_eq). Qed.

Lemma wf_pathb_ok p : wf_pathb p = true <-> wf_path p.
Proof.
  apply forallb_Forall. intros s. unfold wf_segb, wf_seg.
  rewrite andb_true_iff, negb_true_iff, dotfreeb_ok, str_eqb_neq. reflexivity.
Qed.

(* ---- capture = specification ---- *)
Lemma J_receives cfg m p x : Permutation (denm m) (D0 cfg) ->
  (J (denm m) p x <-> exists v, snd x = EYaml (Scalar v) /\ receives cfg p (fst x) v).
Proof.
  intros P. split.
  - intros [e [v [r [He [A ->]]]]]. exists v. split; [reflexivity|]. cbn [fst].
    apply (Permutation_in _ P) in He. apply in_map_iff in He. destruct He as [[k v'] [E Hin]].
    cbn [fst snd] in E. injection E as <- <-. exists k, r. split; [exact Hin|]. split; [exact A|reflexivity].
  - intros [v [Ex [k [r [Hin [A En]]]]]]. destruct x as [name val]. cbn [fst snd] in *. subst.
    exists (split_dot k), v, r. split; [|split; [exact A|reflexivity]].
    apply (Permutation_in _ (Permutation_sym P)). apply in_map_iff. exists (k, v). split; [reflexivity|exact Hin].
Qed.

Definition hasS (name : str) (st : store) : Prop := exists e, In (name, e) st.

Section Guarded.
  Variable cfg : list (str * N).
  Variable p : list str.
  Hypothesis Hwf : wf_cfgb cfg = true.
  Hypothesis Hk : known_classb cfg = false.
  Hypothesis Hp : wf_pathb p = true.

  Lemma capture_sound st name e : In (name, e) (capture_for (cfg_new cfg) p st) ->
    In (name, e) st \/ exists v, e = EYaml (Scalar v) /\ receives cfg p name v.
  Proof.
    destruct (cfg_new_ok cfg (proj1 (wf_cfgb_ok cfg) Hwf) (proj1 (known_classb_false cfg) Hk)) as [m [E [W P]]].
    rewrite E. intros H. apply upd_sound in H; [|exact W|apply wf_pathb_ok; exact Hp].
    destruct H as [H|H]; [left; exact H|right]. exact (proj1 (J_receives cfg m p (name, e) P) H).
  Qed.

  Lemma capture_complete st name v : receives cfg p name v -> hasS name (capture_for (cfg_new cfg) p st).
  Proof.
    intros R.
    destruct (cfg_new_ok cfg (proj1 (wf_cfgb_ok cfg) Hwf) (proj1 (known_classb_false cfg) Hk)) as [m [E [W P]]].
    rewrite E. apply (upd_complete p m st (name, EYaml (Scalar v)) W (proj1 (wf_pathb_ok p) Hp)).
    apply (J_receives cfg m p _ P). exists v. split; [reflexivity|exact R].
  Qed.
End Guarded.

Lemma capture_names cfg1 cfg2 p :
  wf_cfgb cfg1 = true -> known_classb cfg1 = false -> wf_cfgb cfg2 = true -> known_classb cfg2 = false ->
  wf_pathb p = true -> (forall name v, receives cfg1 p name v -> receives cfg2 p name v) ->
  forall name, hasS name (capture_for_into (cfg_new cfg1) p) -> hasS name (capture_for_into (cfg_new cfg2) p).
Proof.
  intros W1 K1 W2 K2 Wp H name [e Hin]. destruct (capture_sound cfg1 p W1 K1 Wp [] name e Hin) as [[]|[v [_ R]]].
  exact (capture_complete cfg2 p W2 K2 Wp [] name v (H name v R)).
Qed.

Lemma F2_length (q p : list str) : Forall2 seg_match q p -> length q = length p.
Proof. induction 1; [reflexivity|cbn [length]; congruence]. Qed.

Lemma app_eq_length {A} (q q' r r' : list A) : q ++ r = q' ++ r' -> length q = length q' -> q = q'.
Proof.
  revert q'. induction q as [|x q IH]; intros [|y q'] E L; try discriminate; [reflexivity|].
  injection E as -> E. injection L as L. f_equal. exact (IH q' E L).
Qed.

(* ---- a later include never touches a property that already has a slot ---- *)
Lemma s_get_app_some k e st t : s_get k st = Some e -> s_get k (st ++ t) = Some e.
Proof.
  induction st as [|[k' e'] st IH]; cbn [s_get app]; [discriminate|]. destruct (str_eqb k k'); [intros H; exact H|exact IH].
Qed.

Lemma s_set_keeps name e k v st : s_get name st = Some e -> s_get name (s_set k v st) = Some e.
Proof. intros H. unfold s_set. destruct (s_get k st); [exact H|apply s_get_app_some; exact H]. Qed.

(* whatever its state - configured, typed, or the empty slot left by a lookup *)
Theorem include_keeps_slot (c : cfg) (path : list str) (st : store) name e :
  s_get name st = Some e -> s_get name (capture_for c path st) = Some e.
Proof.
  intros H. apply (upd_inv (fun s => s_get name s = Some e)); [|exact H].
  intros k v a Ha. apply s_set_keeps. exact Ha.
Qed.

(* ---- several includes, at arbitrary points of the node-creation sequence ---- *)
(* every module holds what capturing all configurations included so far, in the order of their
   inclusion, gives for its path *)
Definition sim_ok (s : sim) (done : list (list str)) : Prop :=
  modules s = map (fun q => (q, capture_all (cfgs s) q)) done.

Lemma include_ok s c done : sim_ok s done -> sim_ok (include_cfg s c) done /\ cfgs (include_cfg s c) = cfgs s ++ [c].
Proof.
  unfold sim_ok. intros H. split; [|reflexivity]. unfold include_cfg. cbn [modules cfgs]. rewrite H, map_map.
  apply map_ext. intros q. cbn [fst snd]. unfold capture_all. rewrite fold_left_app. reflexivity.
Qed.

Lemma include_all_ok l : forall s done, sim_ok s done ->
  sim_ok (include_all s l) done /\ cfgs (include_all s l) = cfgs s ++ map snd l.
Proof.
  induction l as [|x l IH]; intros s done H.
  - cbn. rewrite app_nil_r. split; [exact H|reflexivity].
  - unfold include_all. cbn [fold_left]. destruct (include_ok s (snd x) done H) as [H1 E1].
    destruct (IH _ done H1) as [H2 E2]. split; [exact H2|]. unfold include_all in E2. rewrite E2, E1, <- app_assoc. reflexivity.
Qed.

Lemma node_sim_ok s q done : sim_ok s done -> sim_ok (node s q) (done ++ [q]) /\ cfgs (node s q) = cfgs s.
Proof.
  unfold sim_ok. intros H. split; [|reflexivity]. unfold node. cbn [modules cfgs]. rewrite H, map_app. reflexivity.
Qed.

Lemma build_ok : forall paths s pending i done, sim_ok s done ->
  sim_ok (build s pending i paths) (done ++ paths) /\
  cfgs (build s pending i paths) = cfgs s ++ map snd (time_order pending i (length paths)).
Proof.
  induction paths as [|q r IH]; intros s pending i done H.
  - cbn [build time_order length]. rewrite app_nil_r. apply include_all_ok. exact H.
  - cbn [build time_order length].
    destruct (include_all_ok (filter (at_now i) pending) s done H) as [H1 E1].
    destruct (node_sim_ok _ q done H1) as [H2 E2].
    destruct (IH _ (filter (fun x => negb (at_now i x)) pending) (S i) _ H2) as [H3 E3].
    split; [rewrite <- app_assoc in H3; exact H3|]. rewrite E3, E2, E1, map_app, <- app_assoc. reflexivity.
Qed.

(* However the configurations are scheduled - each before, between or after the node creations - every module
   ends up with exactly the capture, in turn, of all of them in the order they were included. *)
Theorem include_order_irrelevant (sched : list (nat * cfg)) (paths : list (list str)) :
  modules (build sim_new sched 0 paths) =
  map (fun q => (q, capture_all (map snd (time_order sched 0 (length paths))) q)) paths.
Proof.
  assert (sim_ok sim_new []) as H0 by reflexivity.
  destruct (build_ok paths sim_new sched 0 [] H0) as [H E]. unfold sim_ok in H. cbn [app cfgs sim_new] in H, E.
  rewrite H, E. reflexivity.
Qed.

Lemma filter_split_perm {A} (f : A -> bool) l : Permutation (filter f l ++ filter (fun x => negb (f x)) l) l.
Proof.
  induction l as [|x l IH]; [constructor|]. cbn [filter]. destruct (f x); cbn [negb app].
  - constructor. exact IH.
  - apply Permutation_sym. apply Permutation_cons_app. apply Permutation_sym. exact IH.
Qed.

Definition guarded (g : list (str * N)) : Prop := wf_cfgb g = true /\ known_classb g = false.

Lemma receives_concat groups p name v :
  receives (concat groups) p name v <-> exists g, In g groups /\ receives g p name v.
Proof.
  unfold receives. split.
  - intros [k [r [Hin HA]]]. apply in_concat in Hin. destruct Hin as [g [Hg Hk]]. exists g. split; [exact Hg|].
    exists k, r. split; [exact Hk|exact HA].
  - intros [g [Hg [k [r [Hk HA]]]]]. exists k, r. split; [apply in_concat; exists g; split; assumption|exact HA].
Qed.

Lemma match_path_ok p : forall ks r, match_path ks p = Some r <-> exists q, ks = q ++ r /\ Forall2 seg_match q p.
Proof.
  induction p as [|s p IH]; intros ks r; cbn [match_path].
  - split.
    + intros H. injection H as ->. exists []. split; [reflexivity|constructor].
    + intros [q [-> F]]. inversion F; subst. reflexivity.
  - destruct ks as [|k ks].
    + split; [discriminate|]. intros [q [E F]]. inversion F; subst. discriminate.
    + destruct (str_eqb k ANY || str_eqb k s) eqn:M.
      * rewrite IH. split.
        -- intros [q [-> F]]. exists (k :: q). split; [reflexivity|]. constructor; [|exact F].
           apply orb_true_iff in M. destruct M as [M|M]; apply str_eqb_eq in M; [left|right]; exact M.
        -- intros [q [E F]]. inversion F as [|a b q' p' Hab F']; subst. cbn [app] in E. injection E as -> ->.
           exists q'. split; [reflexivity|exact F'].
      * split; [discriminate|]. intros [q [E F]]. inversion F as [|a b q' p' Hab F']; subst.
        cbn [app] in E. injection E as -> _. apply orb_false_iff in M. destruct M as [M1 M2].
        apply str_eqb_neq in M1, M2. destruct Hab; contradiction.
Qed.

Lemma addressed_name_ok k p n : addressed_name k p = Some n <-> exists r, addresses k p r /\ n = join_dot r.
Proof.
  unfold addressed_name, addresses. split.
  - destruct (match_path (split_dot k) p) as [[|x r]|] eqn:M; try discriminate.
    destruct (existsb (str_eqb ANY) (x :: r)) eqn:E; [discriminate|]. intros H. injection H as <-.
    apply match_path_ok in M. destruct M as [q [E1 F]]. exists (x :: r). split; [|reflexivity].
    exists q. split; [exact E1|]. split; [exact F|]. split; [discriminate|apply (existsb_eqb_false _ str_eqb_eq); exact E].
  - intros [r [[q [E [F [Nr Na]]]] ->]]. assert (match_path (split_dot k) p = Some r) as M by (apply match_path_ok; exists q; split; assumption).
    rewrite M. destruct r as [|x r]; [contradiction|]. apply (existsb_eqb_false _ str_eqb_eq) in Na. rewrite Na. reflexivity.
Qed.

Lemma in_spec_capture cfg p name v :
  In (name, v) (spec_capture cfg p) <-> exists k, In (k, v) cfg /\ addressed_name k p = Some name.
Proof.
  induction cfg as [|[k w] cfg IH]; cbn [spec_capture].
  - split; [intros []|intros [k [[] _]]].
  - destruct (addressed_name k p) as [n|] eqn:A; cbn [In]; rewrite IH; split.
    + intros [H|[k' [Hin A']]].
      * injection H as -> ->. exists k. split; [left; reflexivity|exact A].
      * exists k'. split; [right; exact Hin|exact A'].
    + intros [k' [[H|Hin] A']].
      * injection H as -> ->. left. congruence.
      * right. exists k'. split; assumption.
    + intros [k' [Hin A']]. exists k'. split; [right; exact Hin|exact A'].
    + intros [k' [[H|Hin] A']]; [injection H as -> ->; congruence|]. exists k'. split; assumption.
Qed.

Theorem spec_capture_ok cfg p name v : In (name, v) (spec_capture cfg p) <-> receives cfg p name v.
Proof.
  rewrite in_spec_capture. unfold receives. split.
  - intros [k [Hin A]]. apply addressed_name_ok in A. destruct A as [r [A ->]].
    exists k, r. split; [exact Hin|split; [exact A|reflexivity]].
  - intros [k [r [Hin [A ->]]]]. exists k. split; [exact Hin|].
    apply addressed_name_ok. exists r. split; [exact A|reflexivity].
Qed.
