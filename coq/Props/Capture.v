(* Props::update_from.  First what does not depend on the shape of the mapping: Props::set, the
   `for (k, v) in map` folds, the path-prefix loop.  Then, on a well-shaped (compartmentalised)
   mapping: it captures exactly the entries of the denotation that address the module path. *)
From Coq Require Import List NArith Bool Lia.
From DesVerif Require Import Props.Spec Props.Model Props.Bytes Props.Den.
Import ListNotations.
Open Scope N_scope.

Notation pfold := (Model.pfold store s_set).
Notation take_all := (Model.take_all store s_set).
Notation prefix_loop := (Model.prefix_loop store).
Notation direct := (Model.direct store s_set).
Notation update_from := (Model.update_from store s_set).

Section Fold.
  Context {T X : Type} (f : T -> X -> T).

  Lemma fold_inv (P : T -> Prop) l :
    (forall a x, In x l -> P a -> P (f a x)) -> forall a, P a -> P (fold_left f l a).
  Proof.
    induction l as [|x l IH]; intros H a Ha; [exact Ha|]. cbn [fold_left]. apply IH.
    - intros b y Hy. apply H. right. exact Hy.
    - apply H; [left; reflexivity|exact Ha].
  Qed.

  Lemma fold_id l a : (forall b x, In x l -> f b x = b) -> fold_left f l a = a.
  Proof. intros H. apply (fold_inv (fun b => b = a)); [|reflexivity]. intros b x Hx ->. apply H. exact Hx. Qed.

  Lemma fold_reach (P : T -> Prop) l x :
    (forall a y, P a -> P (f a y)) -> In x l -> (forall a, P (f a x)) -> forall a, P (fold_left f l a).
  Proof.
    intros Hk Hx Hp. induction l as [|y l IH]; intros a; [destruct Hx|]. cbn [fold_left].
    destruct Hx as [->|Hx]; [|apply IH; exact Hx].
    apply fold_inv; [intros b z _; apply Hk|apply Hp].
  Qed.

  Lemma fold_sound (P : T -> Prop) (Q : X -> Prop) l :
    (forall a x, In x l -> P (f a x) -> P a \/ Q x) ->
    forall a, P (fold_left f l a) -> P a \/ exists x, In x l /\ Q x.
  Proof.
    induction l as [|x l IH]; intros H a Ha; [left; exact Ha|]. cbn [fold_left] in Ha.
    destruct (IH (fun b y Hy => H b y (or_intror Hy)) _ Ha) as [H1|[y [Hy Qy]]].
    - destruct (H a x (or_introl eq_refl) H1) as [H2|H2]; [left; exact H2|].
      right. exists x. split; [left; reflexivity|exact H2].
    - right. exists y. split; [right; exact Hy|exact Qy].
  Qed.
End Fold.

Lemma s_get_in k e st : s_get k st = Some e -> In (k, e) st.
Proof.
  induction st as [|[k' e'] st IH]; cbn [s_get]; [discriminate|]. destruct (str_eqb k k') eqn:E.
  - apply str_eqb_eq in E. subst. intros H. injection H as ->. left. reflexivity.
  - intros H. right. exact (IH H).
Qed.

Lemma s_set_mono k v st x : In x st -> In x (s_set k v st).
Proof. intros H. unfold s_set. destruct (s_get k st); [exact H|apply in_or_app; left; exact H]. Qed.

Lemma s_set_sound k v st x : In x (s_set k v st) -> In x st \/ x = (k, EYaml v).
Proof.
  unfold s_set. destruct (s_get k st); [left; assumption|].
  intros H. apply in_app_or in H. destruct H as [H|[H|[]]]; [left; exact H|right; symmetry; exact H].
Qed.

Lemma s_set_has k v st : exists e, In (k, e) (s_set k v st).
Proof.
  unfold s_set. destruct (s_get k st) as [e|] eqn:E.
  - exists e. apply s_get_in. exact E.
  - exists (EYaml v). apply in_or_app. right. left. reflexivity.
Qed.

Lemma has_mono (st st' : store) name :
  (forall x, In x st -> In x st') -> (exists e, In (name, e) st) -> exists e, In (name, e) st'.
Proof. intros H [e He]. exists e. apply H. exact He. Qed.

Lemma pfold_inv (P : store -> Prop) g m ps :
  (forall k v st, P st -> P (s_set k v st)) -> P ps -> P (pfold g m ps).
Proof. intros Hs. apply fold_inv. intros st e _ H. destruct (g e); [apply Hs|]; exact H. Qed.

Lemma pfold_sound g m ps x : In x (pfold g m ps) ->
  In x ps \/ exists e, In e m /\ exists k v, g e = Some (k, v) /\ x = (k, EYaml v).
Proof.
  apply (fold_sound _ (fun st => In x st)). intros st e _ H.
  destruct (g e) as [[k v]|]; [|left; exact H].
  apply s_set_sound in H. destruct H as [H|H]; [left; exact H|]. right. exists k, v. split; [reflexivity|exact H].
Qed.

Lemma pfold_complete g m ps e k v : In e m -> g e = Some (k, v) -> exists e', In (k, e') (pfold g m ps).
Proof.
  intros H G. apply (fold_reach _ (fun st => exists e', In (k, e') st) m e); [|exact H|].
  - intros st y. apply has_mono. intros x Hx. destruct (g y); [apply s_set_mono|]; exact Hx.
  - intros st. rewrite G. apply s_set_has.
Qed.

Definition isnil {A} (l : list A) : bool := match l with [] => true | _ => false end.

(* proof-side forms of the model's prefix_loop: its rounds as a list, one round as a function *)
Fixpoint splits (done todo : list str) : list (list str * list str) :=
  match todo with
  | [] => []
  | s :: rest => (done ++ [s], rest) :: splits (done ++ [s]) rest
  end.

Definition hit (upd : store -> value -> list str -> store) (m : mapping) (ps : store) (x : list str * list str) :=
  match m_get (join_dot (fst x)) m with Some e => upd ps e (snd x) | None => ps end.

Lemma ploop_fold upd m todo : forall ps done,
  prefix_loop upd m ps (join_dot done) (isnil done) todo =
  (fold_left (hit upd m) (splits done todo) ps, join_dot (done ++ todo)).
Proof.
  induction todo as [|s rest IH]; intros ps done; [rewrite app_nil_r; reflexivity|].
  cbn [Model.prefix_loop splits fold_left].
  assert ((if isnil done then join_dot done else join_dot done ++ [DOT]) ++ s = join_dot (done ++ [s])) as E.
  { destruct done as [|h d]; [reflexivity|]. cbn [isnil]. rewrite join_dot_app by discriminate.
    cbn [join_dot]. rewrite <- app_assoc. reflexivity. }
  rewrite E. replace false with (isnil (done ++ [s])) by (destruct done; reflexivity).
  rewrite IH, <- app_assoc. reflexivity.
Qed.

Lemma in_splits a b todo : forall done,
  In (a, b) (splits done todo) <-> exists c, c <> [] /\ a = done ++ c /\ todo = c ++ b.
Proof.
  induction todo as [|s rest IH]; intros done; cbn [splits In].
  - split; [intros []|]. intros [c [N0 [_ E]]]. destruct c; [exact (N0 eq_refl)|discriminate].
  - rewrite IH. split.
    + intros [H|[c [_ [-> ->]]]].
      * injection H as <- <-. exists [s]. split; [discriminate|split; reflexivity].
      * exists (s :: c). split; [discriminate|]. rewrite <- app_assoc. split; reflexivity.
    + intros [c [N0 [-> E]]]. destruct c as [|x c]; [contradiction|]. injection E as <- ->.
      destruct c as [|y c]; [left; reflexivity|]. right. exists (y :: c).
      split; [discriminate|]. rewrite <- app_assoc. split; reflexivity.
Qed.

Lemma upd_nil f ps m : update_from f ps (Mapping m) [] = take_all ps m.
Proof. destruct f; reflexivity. Qed.
Lemma upd_scalar f ps n p : update_from f ps (Scalar n) p = ps.
Proof. destruct p; [destruct f; reflexivity|]. destruct f; reflexivity. Qed.

Lemma upd_cons f ps m s rest :
  update_from (S f) ps (Mapping m) (s :: rest) =
  direct (join_dot (s :: rest))
         (fold_left (hit (update_from f) m) (splits [] (s :: rest))
                    (match m_get ANY m with Some v => update_from f ps v rest | None => ps end)) m.
Proof.
  pose proof (ploop_fold (update_from f) m (s :: rest)
     (match m_get ANY m with Some v => update_from f ps v rest | None => ps end) []) as E.
  cbn [join_dot isnil app] in E. cbn [Model.update_from]. rewrite E. reflexivity.
Qed.

Lemma upd_inv (P : store -> Prop) : (forall k v st, P st -> P (s_set k v st)) ->
  forall f ps base p, P ps -> P (update_from f ps base p).
Proof.
  intros Hs. induction f as [|f IH]; intros ps base p H.
  - destruct p; [|exact H]. destruct base; [exact H|]. apply (pfold_inv P); assumption.
  - destruct base as [n|m]; [rewrite upd_scalar; exact H|].
    destruct p as [|s rest]; [rewrite upd_nil; apply (pfold_inv P); assumption|].
    rewrite upd_cons. apply (pfold_inv P); [exact Hs|]. apply fold_inv.
    + intros st x _ Hst. unfold hit. destruct (m_get _ m); [apply IH|]; exact Hst.
    + destruct (m_get ANY m); [apply IH|]; exact H.
Qed.

Lemma upd_mono f ps base p x : In x ps -> In x (update_from f ps base p).
Proof. apply (upd_inv (fun st => In x st)). intros k v st. apply s_set_mono. Qed.

Lemma direct_has key ps m name : (exists e, In (name, e) ps) -> exists e, In (name, e) (direct key ps m).
Proof. apply (pfold_inv (fun st => exists e, In (name, e) st)). intros k v st. apply has_mono. intros x. apply s_set_mono. Qed.

Lemma upd_has_mono f ps base p name : (exists e, In (name, e) ps) -> exists e, In (name, e) (update_from f ps base p).
Proof. apply has_mono. intros x. apply upd_mono. Qed.

(* module path segments: no '.', not the wildcard itself *)
Definition wf_seg (s : str) : Prop := dotfree s /\ s <> ANY.
Definition wf_path (p : list str) : Prop := Forall wf_seg p.

(* Spec.addresses on segment lists: addresses k p r is seg_addr (split_dot k) p r by definition *)
Definition seg_addr (e p r : list str) : Prop :=
  exists q, e = q ++ r /\ Forall2 seg_match q p /\ r <> [] /\ ~ In ANY r.
(* (name, value) is justified by an entry of D addressing p *)
Definition J (D : list sentry) (p : list str) (x : str * entry) : Prop :=
  exists e v r, In (e, v) D /\ seg_addr e p r /\ x = (join_dot r, EYaml (Scalar v)).

Lemma J_intro D p e v q r : In (e, v) D -> e = q ++ r -> Forall2 seg_match q p -> r <> [] -> ~ In ANY r ->
  J D p (join_dot r, EYaml (Scalar v)).
Proof.
  intros H E F Nr Na. exists e, v, r. split; [exact H|]. split; [|reflexivity].
  exists q. split; [exact E|]. split; [exact F|]. split; assumption.
Qed.

Lemma wf_path_dotfree p : wf_path p -> Forall dotfree p.
Proof. intros H. eapply Forall_impl; [|exact H]. intros s [D _]. exact D. Qed.

Lemma wf_path_noany p : wf_path p -> ~ In ANY p.
Proof.
  intros H X. unfold wf_path in H. rewrite Forall_forall in H. destruct (H ANY X) as [_ C]. exact (C eq_refl).
Qed.

Lemma wf_path_app a b : wf_path (a ++ b) -> wf_path a /\ wf_path b.
Proof. intros H. apply Forall_app in H. exact H. Qed.

Lemma F2_refl p : Forall2 seg_match p p.
Proof. induction p; constructor; [right; reflexivity|assumption]. Qed.

Lemma F2_noany q p : Forall2 seg_match q p -> ~ In ANY q -> q = p.
Proof.
  induction 1 as [|a b q p [Ha|Ha] F IH]; intros N0; [reflexivity| |].
  - exfalso. apply N0. left. exact Ha.
  - subst. f_equal. apply IH. intros X. apply N0. right. exact X.
Qed.

Lemma key_noany k : contains_any k = false -> ~ In ANY (split_dot k).
Proof. intros H X. apply any_seg_contains in X. congruence. Qed.

Lemma app_split_any (a b q r : list str) :
  a ++ ANY :: b = q ++ r -> ~ In ANY r -> exists q', q = a ++ ANY :: q' /\ b = q' ++ r.
Proof.
  revert q; induction a as [|y a IH]; intros q E N0.
  - destruct q as [|x q].
    + cbn [app] in E. exfalso. apply N0. rewrite <- E. left. reflexivity.
    + cbn [app] in E. injection E as <- E. exists q. split; [reflexivity|exact E].
  - destruct q as [|x q].
    + cbn [app] in E. exfalso. apply N0. rewrite <- E. right. apply in_or_app. right. left. reflexivity.
    + cbn [app] in E. injection E as <- E. destruct (IH q E N0) as [q' [-> ->]]. exists q'. split; reflexivity.
Qed.

Lemma without_any_scalar n : without_any (Scalar n) = Some (Scalar n).
Proof. reflexivity. Qed.
Lemma without_any_chunk x : without_any (Mapping [(ANY, x)]) = None.
Proof. reflexivity. Qed.

Lemma prefix_dot_any key : prefixb (key ++ [DOT]) ANY = false.
Proof.
  destruct (prefixb (key ++ [DOT]) ANY) eqn:E; [|reflexivity].
  apply prefixb_spec in E. destruct E as [t E]. exfalso. apply any_dotfree. rewrite E.
  apply in_or_app. left. apply in_or_app. right. left. reflexivity.
Qed.

Lemma join_not_any q : wf_path q -> q <> [] -> join_dot q <> ANY.
Proof.
  intros W N0 X. assert (q = [ANY]) as E.
  { apply join_inj; [exact N0|discriminate|apply wf_path_dotfree; exact W|
                     constructor; [exact any_dotfree|constructor]|exact X]. }
  apply (wf_path_noany _ W). rewrite E. left. reflexivity.
Qed.

(* the mapping below a chunk key holds the '<any>' node only *)
Lemma chunk_upd f ps s a t3 : wf_path (a :: t3) ->
  update_from (S f) ps (Mapping [(ANY, Mapping s)]) (a :: t3) = update_from f ps (Mapping s) t3.
Proof.
  intros W. rewrite upd_cons. change (m_get ANY [(ANY, Mapping s)]) with (Some (Mapping s)). rewrite fold_id.
  - apply fold_id. intros st e [<-|[]]. cbn [fst]. rewrite prefix_dot_any. reflexivity.
  - intros st [c b] Hx. apply in_splits in Hx. destruct Hx as [c' [N0 [-> E]]]. unfold hit. cbn [fst app].
    replace (m_get (join_dot c') [(ANY, Mapping s)]) with (@None value); [reflexivity|].
    symmetry. apply m_get_none. cbn [map fst]. intros [X|[]]. rewrite E in W.
    apply (join_not_any c'); [exact (proj1 (wf_path_app _ _ W))|exact N0|]. symmetry. exact X.
Qed.

Lemma chunk_upd_nil f ps s : update_from f ps (Mapping [(ANY, Mapping s)]) [] = ps.
Proof. rewrite upd_nil. apply fold_id. intros st e [<-|[]]. reflexivity. Qed.

(* ---- soundness ---- *)
Lemma J_any m s p a x : In (ANY, Mapping s) m -> J (denm s) p x -> J (denm m) (a :: p) x.
Proof.
  intros H [e [v [r [He [[q [-> [F [Nr Na]]]] ->]]]]].
  apply (J_intro _ _ (ANY :: q ++ r) v (ANY :: q)); [|reflexivity|constructor; [left; reflexivity|exact F]|exact Nr|exact Na].
  apply in_denm. exists (ANY, Mapping s). split; [exact H|]. apply in_den_any.
  exists (q ++ r). split; [reflexivity|exact He].
Qed.

Lemma J_chunk m k s t a p x : In (k, Mapping [(ANY, Mapping s)]) m -> split_dot k = t ->
  J (denm s) p x -> J (denm m) (t ++ a :: p) x.
Proof.
  intros H Ek [e [v [r [He [[q [-> [F [Nr Na]]]] ->]]]]].
  apply (J_intro _ _ (t ++ ANY :: q ++ r) v (t ++ ANY :: q)); [|rewrite <- app_assoc; reflexivity| |exact Nr|exact Na].
  - apply in_denm. exists (k, Mapping [(ANY, Mapping s)]). split; [exact H|]. apply in_den_chunk.
    exists (q ++ r). rewrite Ek. split; [reflexivity|exact He].
  - apply Forall2_app; [apply F2_refl|]. constructor; [left; reflexivity|exact F].
Qed.

Lemma take_all_sound m ps x : WS m -> In x (take_all ps m) -> In x ps \/ J (denm m) [] x.
Proof.
  intros W H. apply pfold_sound in H. destruct H as [H|[[k v] [He [name [val [G ->]]]]]]; [left; exact H|]. right.
  cbn [fst snd] in G. destruct (contains_any k) eqn:C; [discriminate|].
  destruct (WS_entry m k v W He) as [[n [-> K]]|[[s [-> _]]|[s [-> _]]]].
  - rewrite without_any_scalar in G. injection G as <- <-.
    rewrite <- (join_split k).
    apply (J_intro _ _ (split_dot k) n []);
      [apply in_denm_scalar; exact He|reflexivity|apply Forall2_nil|apply split_dot_nonnil|apply key_noany; exact C].
  - rewrite without_any_chunk in G. discriminate.
  - rewrite contains_any_ANY in C. discriminate.
Qed.

Lemma direct_sound m p ps x : WS m -> wf_path p -> p <> [] ->
  In x (direct (join_dot p) ps m) -> In x ps \/ J (denm m) p x.
Proof.
  intros W Wp Np H. apply pfold_sound in H. destruct H as [H|[[k v] [He [name [val [G ->]]]]]]; [left; exact H|]. right.
  cbn [fst snd] in G. destruct (prefixb (join_dot p ++ [DOT]) k) eqn:P; [|discriminate].
  apply prefixb_spec in P. destruct P as [rem P].
  destruct (WS_entry m k v W He) as [[n [-> K]]|[[s [-> _]]|[s [-> _]]]].
  - rewrite without_any_scalar in G. injection G as <- <-.
    assert (split_dot k = p ++ split_dot rem) as Ek.
    { rewrite P, <- app_assoc. cbn [app]. rewrite split_dot_app_gen, split_join; [reflexivity|exact Np|apply wf_path_dotfree; exact Wp]. }
    rewrite P, skipn_key.
    rewrite <- (join_split rem).
    apply (J_intro _ _ (split_dot k) n p); [apply in_denm_scalar; exact He|exact Ek|apply F2_refl|apply split_dot_nonnil|].
    intros X. apply (key_noany k K). rewrite Ek. apply in_or_app. right. exact X.
  - rewrite without_any_chunk in G. discriminate.
  - exfalso. pose proof (prefix_dot_any (join_dot p)) as Q. rewrite P, prefixb_app in Q. discriminate.
Qed.

(* Two measures: f is the fuel of the model; n bounds the length of the path and carries the induction,
   which is a strong one because a chunk key consumes several path segments at once (the call below
   it runs on a path shorter by at least two, with the fuel down by two as well). *)
Lemma upd_sound_n n : forall f p m ps x, WS m -> wf_path p -> (length p < n)%nat -> (length p <= f)%nat ->
  In x (update_from f ps (Mapping m) p) -> In x ps \/ J (denm m) p x.
Proof.
  induction n as [|n IH]; intros f p m ps x W Wp Ln L H; [lia|].
  - destruct p as [|s0 rest0]; [rewrite upd_nil in H; apply take_all_sound; assumption|].
    destruct f as [|f]; [cbn [length] in L; lia|].
    rewrite upd_cons in H.
    apply direct_sound in H; [|exact W|exact Wp|discriminate]. destruct H as [H|H]; [|right; exact H].
    inversion Wp as [|? ? Ws0 Wrest]; subst.
    apply (fold_sound _ (fun st => In x st) (fun _ => J (denm m) (s0 :: rest0) x)) in H.
    + destruct H as [H|[_ [_ HJ]]]; [|right; exact HJ].
      destruct (m_get ANY m) as [v|] eqn:G; [|left; exact H].
      apply m_get_in in G. destruct (WS_entry m ANY v W G) as [[n0 [-> K]]|[[s [-> [K _]]]|[s [_ [-> [Ws _]]]]]].
      * rewrite upd_scalar in H. left. exact H.
      * exfalso. exact (plain_not_ANY ANY K eq_refl).
      * apply IH in H; [|exact Ws|exact Wrest|cbn [length] in Ln; lia|cbn [length] in L; lia].
        destruct H as [H|H]; [left; exact H|right]. eapply J_any; eassumption.
    + (* what one exact hit contributes: a chunk key equal to a proper prefix of the path *)
      intros ps' [c t2] Hy H'. apply in_splits in Hy. destruct Hy as [c' [N0 [-> E]]].
      unfold hit in H'. cbn [fst snd app] in H' |- *.
      destruct (m_get (join_dot c') m) as [e|] eqn:G; [|left; exact H']. apply m_get_in in G.
      rewrite E in Wp. destruct (wf_path_app _ _ Wp) as [W1 W2].
      destruct (WS_entry m _ e W G) as [[n0 [-> K]]|[[s' [-> [K [Ws' _]]]]|[s' [X _]]]].
      * rewrite upd_scalar in H'. left. exact H'.
      * destruct t2 as [|a t3]; [rewrite chunk_upd_nil in H'; left; exact H'|].
        rewrite E, app_length in L, Ln. destruct c' as [|s1 c']; [contradiction|]. cbn [length] in L, Ln.
        destruct f as [|f']; [lia|]. rewrite chunk_upd in H' by exact W2.
        apply (IH f' t3 s' ps' x Ws') in H'.
        -- destruct H' as [H'|H']; [left; exact H'|right]. rewrite E. eapply J_chunk; [exact G| |exact H'].
           rewrite split_join; [reflexivity|discriminate|apply wf_path_dotfree; exact W1].
        -- inversion W2; assumption.
        -- lia.
        -- lia.
      * exfalso. apply (join_not_any c'); [exact W1|exact N0|exact X].
Qed.

(* the model's fuel, length path, suffices: each level of recursion strips at least one path segment *)
Lemma upd_sound p m ps x : WS m -> wf_path p ->
  In x (capture_for (Mapping m) p ps) -> In x ps \/ J (denm m) p x.
Proof. intros W Wp. apply (upd_sound_n (S (length p))); auto. Qed.

Lemma F2_cons_inv a q p : Forall2 seg_match (a :: q) p -> exists b t, p = b :: t /\ Forall2 seg_match q t.
Proof. intros H. inversion H as [|? b ? t _ F]; subst. exists b, t. split; [reflexivity|exact F]. Qed.

Lemma take_all_complete m ps k n : In (k, Scalar n) m -> contains_any k = false -> exists e, In (k, e) (take_all ps m).
Proof.
  intros H K. unfold Model.take_all. eapply pfold_complete; [exact H|]. cbn [fst snd]. rewrite K. reflexivity.
Qed.

Lemma direct_complete m ps p r k n : In (k, Scalar n) m -> p <> [] -> r <> [] -> split_dot k = p ++ r ->
  exists e, In (join_dot r, e) (direct (join_dot p) ps m).
Proof.
  intros H Np Nr Ek. unfold Model.direct. eapply pfold_complete; [exact H|]. cbn [fst snd].
  assert (k = (join_dot p ++ [DOT]) ++ join_dot r) as E.
  { rewrite <- (join_split k), Ek, join_dot_app by assumption. rewrite <- app_assoc. reflexivity. }
  rewrite E, prefixb_app. cbn [without_any]. f_equal. f_equal. apply skipn_key.
Qed.

Lemma upd_complete_n n : forall f p m ps x, WS m -> wf_path p -> (length p < n)%nat -> (length p <= f)%nat ->
  J (denm m) p x -> exists e, In (fst x, e) (update_from f ps (Mapping m) p).
Proof.
  induction n as [|n IH]; intros f p m ps x W Wp Ln L HJ; [lia|].
  destruct HJ as [e [v [r [He [[q [Eq [F [Nr Na]]]] ->]]]]]. cbn [fst].
  apply in_denm in He. destruct He as [[k xv] [Hin Hd]].
  destruct (WS_entry m k xv W Hin) as [[n0 [-> K]]|[[s' [-> [K [Ws' _]]]]|[s' [-> [-> [Ws' _]]]]]].
  - (* flat key *)
    destruct Hd as [Hd|[]]. injection Hd as <- <-.
    assert (q = p) as ->. { apply F2_noany; [exact F|]. intros X. apply (key_noany k K). rewrite Eq. apply in_or_app. left. exact X. }
    destruct p as [|s0 rest0].
    + cbn [app] in Eq. rewrite <- Eq, join_split, upd_nil. eapply take_all_complete; eassumption.
    + destruct f as [|f]; [cbn [length] in L; lia|]. rewrite upd_cons.
      eapply direct_complete; [exact Hin|discriminate|exact Nr|exact Eq].
  - (* chunk key *)
    apply in_den_chunk in Hd. destruct Hd as [e2 [-> Hd]].
    destruct (app_split_any _ _ _ _ Eq Na) as [q' [-> Ee2]].
    apply Forall2_app_inv_l in F. destruct F as [pa [pb [Fa [Fb ->]]]].
    apply F2_cons_inv in Fb. destruct Fb as [a [t3 [-> Fq]]].
    assert (split_dot k = pa) as <- by (apply F2_noany; [exact Fa|apply key_noany; exact K]).
    destruct (wf_path_app _ _ Wp) as [_ W2]. rewrite app_length in Ln, L.
    destruct (split_dot k) as [|s1 c] eqn:Ek; [exfalso; exact (split_dot_nonnil k Ek)|]. cbn [app length] in Ln, L |- *.
    destruct f as [|[|f']]; [lia|lia|]. rewrite upd_cons. apply direct_has.
    apply (fold_reach _ (fun st => exists e, In (join_dot r, e) st) _ (s1 :: c, a :: t3)).
    + intros st y. unfold hit. destruct (m_get _ m); [apply upd_has_mono|intros H; exact H].
    + apply in_splits. exists (s1 :: c). split; [discriminate|]. split; reflexivity.
    + intros ps'. unfold hit. cbn [fst snd app]. rewrite <- Ek, join_split, (in_m_get _ _ m (WS_nodup m W) Hin).
      rewrite chunk_upd by exact W2.
      apply (IH f' t3 s' ps' (join_dot r, EYaml (Scalar v))); [exact Ws'|inversion W2; assumption|lia|lia|].
      apply (J_intro _ _ e2 v q'); assumption.
  - (* '<any>' node *)
    apply in_den_any in Hd. destruct Hd as [e1 [-> Hd]].
    destruct (app_split_any [] _ _ _ Eq Na) as [q' [-> Ee1]]. cbn [app] in F.
    apply F2_cons_inv in F. destruct F as [a [rest0 [-> Fq]]].
    destruct f as [|f]; [cbn [length] in L; lia|]. rewrite upd_cons.
    apply direct_has.
    apply (fold_inv _ (fun st => exists e, In (join_dot r, e) st)).
    + intros st y _. unfold hit. destruct (m_get _ m); [apply upd_has_mono|intros H; exact H].
    + rewrite (in_m_get ANY (Mapping s') m (WS_nodup m W) Hin).
      apply (IH f rest0 s' ps (join_dot r, EYaml (Scalar v))); [exact Ws'|inversion Wp; assumption|cbn [length] in Ln; lia|cbn [length] in L; lia|].
      apply (J_intro _ _ e1 v q'); assumption.
Qed.

Lemma upd_complete p m ps x : WS m -> wf_path p -> J (denm m) p x ->
  exists e, In (fst x, e) (capture_for (Mapping m) p ps).
Proof. intros W Wp. apply (upd_complete_n (S (length p))); auto. Qed.
