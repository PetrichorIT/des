(* The fragment {sleep, sleep_until, log, reset / drop of a pinned sleep, timeout(d, sleep x),
   select over two sleeps, interval new / tick / drop, keep-alive select (step 13)} of the task
   scripts of coq/Timer/Model.v, and its extension by channels {hand-over of an elapsed boxed
   Sleep (a token), timeout(d, receive)}: what the property demands of a task (exp_run), and
   what one poll of such a task does (step_cases, run_steps_spec, poll_ok).
   Outside the fragment (frag_step2 is False): timeout around the flip future (STimeout _ IFlip), SRecvAwait, SSelRecv,
   SWrap, SRelay, and a hand-over of a Sleep that has not elapsed (SHandOver _ d with d > 0).
   A further step kind enters by: its line in frag_step2 and step_log/step_time/step_iv/step_arr, its await state (if it
   can block) in aw_kind/aw_wake/aw_end/aw_rec/aw_arr/aw_held and in aw_done (with its cases in run_steps_woken and
   E2EPoll.woken_done), its case in step_cases, and its weight in E2EPoll.wt if it can block twice; run_steps_spec,
   E2EPoll.poll_cases and ps_minv do not mention individual steps. *)
From Coq Require Import List Arith NArith Bool Lia ZifyBool.
From DesVerif Require Import Common.Codec CQueue.Spec Timer.Driver Timer.QueueLemmas Timer.Inv Timer.Futures Timer.FutureLaws Timer.TempOps Timer.Model.
Import ListNotations.
Open Scope N_scope.

(* finite durations: a duration >= FARK stands for Duration::MAX (coq/Timer/Model.v [dl]) *)
Definition frag_step (s : step) : Prop :=
  match s with
  | SSleep _ | SSleepUntil _ | SLog => True
  | SReset _ d1 d2 => d1 < FARK /\ d2 < FARK
  | SDropSleep d => d < FARK
  | STimeout d (ISleep x) => d < FARK /\ x < FARK
  | SSelect _ a b => a < FARK /\ b < FARK
  | SIvNew p _ => 0 < p
  | SIvTick | SIvDrop => True
  | SKeep _ _ d2 x d3 => d2 < FARK /\ x < FARK /\ d3 < FARK
  | _ => False
  end.

(* ... with channels.  A task is either a receiver ([rcv = true]: it may await timeout(d, receive
   from ch)) or not (it may send: the boxed Sleep it hands over is sleep(0), polled once -- it has
   elapsed, is never registered, and serves as a mere token) *)
Definition frag_step2 (rcv : bool) (s : step) : Prop :=
  match s with
  | STimeoutRecv d _ => rcv = true /\ d < FARK
  | SHandOver _ d => rcv = false /\ d = 0
  | _ => frag_step s
  end.

(* select! over sleep(a) and sleep(b): the branch that is reported; an unbiased select whose branches
   are due at the same instant may take either, which the scripts log as 2 *)
Definition sel_code (biased : bool) (a b : N) : N :=
  if a <=? b then (if biased || negb (a =? b) then 0 else 2) else 1.

(* what the log depends on of an interval: (deadline of the next tick, period, behaviour) *)
Definition ivs := option (N * N * behaviour).

Definition iv_abs (iv : option interval) : ivs :=
  match iv with Some i => Some (deadline (iv_delay i), iv_period i, iv_beh i) | None => None end.

(* ... and of the channels of the task's module: for every channel the instants at which the
   messages the task has not yet received are (or will be) sent, in order *)
Definition arrs := N -> list N.
(* naming: [arr], [arr'] : arrs are the arrivals of one module (before / after a poll); [A0], [A], [A'] : N -> arrs give
   them per module (as scripted / now / after a poll); LA (below) and E2EInv.Arr are the invariants that tie them to the
   channels *)
Definition noarr : arrs := fun _ => [].
Definition arr_pop (arr : arrs) (ch : N) : arrs := fun c => if c =? ch then tl (arr c) else arr c.

(* timeout(d, receive) begun at [now] when the next message arrives at the head of [l]: the
   message is received iff it arrives before the deadline now + d *)
Definition recv_hit (now d : N) (l : list N) : option N :=
  match l with a :: _ => if a <? now + d then Some a else None | [] => None end.

(* the log the property demands of a task that is at instant [now] with [steps] to go, step by
   step: what the step logs, and the instant / interval / arrivals after it.
   Every await returns at exactly its deadline; a reset Sleep at its NEW deadline; polling and
   dropping a Sleep takes no time.  tick() of an interval whose next tick is due at [nx]
   returns at max(now, nx) -- at once if the tick was missed -- with the value nx, and the
   following tick is due at tick_next (Burst: nx + period always; Delay: now + period and
   Skip: the next multiple of the period after now, both only when the tick was taken more
   than 5 ms late); tick() without an interval is logged as [now; 0].
   select! { biased; the kept timer (armed for now + d2) => 0, sleep(x) => 1 }: the kept timer
   wins a tie; on 1 it is re-armed for d3 more and awaited (rearm) or dropped.
   timeout(d, receive): Ok (1) at max(now, arrival) if the message arrives before now + d,
   Elapsed (0) at now + d otherwise, the message staying for the next receive. *)
Definition step_log (now : N) (iv : ivs) (arr : arrs) (st : step) : list N :=
  match st with
  | SSleep d => [now + d]
  | SSleepUntil t => [N.max now t]
  | SReset _ _ d2 => [now + d2]
  | STimeout d (ISleep x) => [now + N.min x d; b2n (x <=? d)]
  | SSelect biased a b => [now + N.min a b; sel_code biased a b]
  | SIvNew _ _ => []
  | SIvTick => match iv with Some (nx, _, _) => [N.max now nx; nx] | None => [now; 0] end
  | SIvDrop => []
  | SKeep rearm _ d2 x d3 => if d2 <=? x then [now + d2; 0] else [now + x; 1; now + x + (if rearm then d3 else 0)]
  | STimeoutRecv d ch => match recv_hit now d (arr ch) with Some a => [N.max now a; 1] | None => [now + d; 0] end
  | _ => [now]
  end.

Definition step_time (now : N) (iv : ivs) (arr : arrs) (st : step) : N :=
  match st with
  | SSleep d => now + d
  | SSleepUntil t => N.max now t
  | SReset _ _ d2 => now + d2
  | STimeout d (ISleep x) => now + N.min x d
  | SSelect _ a b => now + N.min a b
  | SIvTick => match iv with Some (nx, _, _) => N.max now nx | None => now end
  | SKeep rearm _ d2 x d3 => if d2 <=? x then now + d2 else now + x + (if rearm then d3 else 0)
  | STimeoutRecv d ch => match recv_hit now d (arr ch) with Some a => N.max now a | None => now + d end
  | _ => now
  end.

Definition step_iv (now : N) (iv : ivs) (st : step) : ivs :=
  match st with
  | SIvNew p b => Some (now, p, b)
  | SIvTick => match iv with Some (nx, p, b) => Some (tick_next b nx (N.max now nx) p, p, b) | None => None end
  | SIvDrop => None
  | _ => iv
  end.

Definition step_arr (now : N) (arr : arrs) (st : step) : arrs :=
  match st with
  | STimeoutRecv d ch => match recv_hit now d (arr ch) with Some _ => arr_pop arr ch | None => arr end
  | _ => arr
  end.

Fixpoint exp_run (now : N) (iv : ivs) (arr : arrs) (steps : list step) : list N :=
  match steps with
  | [] => []
  | st :: r => step_log now iv arr st ++ exp_run (step_time now iv arr st) (step_iv now iv st) (step_arr now arr st) r
  end.

(* the closed form above does not say what happens when a message arrives at the very instant
   the timeout elapses: then the result is decided by the order in which the executor polls
   the sender and the receiver within that instant.  [recv_ok]: no receive of the task is
   such a tie (and its deadline is finite) *)
Definition step_ok (now : N) (arr : arrs) (st : step) : Prop :=
  match st with
  | STimeoutRecv d ch => now + d < TMAX /\ match arr ch with a :: _ => a <> now + d | [] => True end
  | _ => True
  end.

Fixpoint recv_ok (now : N) (iv : ivs) (arr : arrs) (steps : list step) : Prop :=
  match steps with
  | [] => True
  | st :: r => step_ok now arr st /\ recv_ok (step_time now iv arr st) (step_iv now iv st) (step_arr now arr st) r
  end.

(* the messages a task that does not receive will send: (channel, instant) *)
Fixpoint exp_sends (now : N) (iv : ivs) (steps : list step) : list (N * N) :=
  match steps with
  | [] => []
  | st :: r => (match st with SHandOver ch _ => [(ch, now)] | _ => [] end) ++
               exp_sends (step_time now iv noarr st) (step_iv now iv st) r
  end.

(* outside of tick().await the Sleep of the interval is not registered *)
Definition iv_idle (iv : option interval) : Prop :=
  match iv with Some i => handle (iv_delay i) = None | None => True end.

(* the await states of the fragment: the Sleeps they hold (all registered while the task is
   blocked), the instant of their first timer wake-up, the instant they complete, what the
   task logs then, and the interval / arrivals afterwards *)
Definition aw_held (a : aw) (iv : option interval) : list sleep := held_sleeps (Some a) iv.

Definition aw_kind (a : aw) (iv : option interval) : Prop :=
  match a with
  | AwSleep _ => iv_idle iv
  | AwTimeout (VSleep _) _ => iv_idle iv
  | AwTimeout (VRecv _) _ => iv_idle iv
  | AwSelect _ tie sa sb => iv_idle iv /\ tie = (deadline sa =? deadline sb)
  | AwTick => iv <> None
  | AwKeep _ d3 _ _ => iv_idle iv /\ d3 < FARK
  | AwThen _ _ => iv_idle iv
  | _ => False
  end.

Definition aw_wake (a : aw) (iv : option interval) : N :=
  match a with
  | AwSleep s => deadline s
  | AwTimeout (VSleep s) dl => N.min (deadline s) (deadline dl)
  | AwTimeout (VRecv _) dl => deadline dl
  | AwSelect _ _ sa sb => N.min (deadline sa) (deadline sb)
  | AwTick => match iv with Some i => deadline (iv_delay i) | None => 0 end
  | AwKeep _ _ s sx => N.min (deadline s) (deadline sx)
  | AwThen _ s => deadline s
  | _ => 0
  end.

(* recv_hit now d is aw_hit (now + d), by computation *)
Definition aw_hit (D : N) (l : list N) : option N :=
  match l with a :: _ => if a <? D then Some a else None | [] => None end.

(* the instant the await completes: the first wake-up, except for the re-armed kept timer and
   for a receive that gets its message *)
Definition aw_end (a : aw) (iv : option interval) (arr : arrs) : N :=
  match a with
  | AwKeep rearm d3 s sx => if deadline s <=? deadline sx then deadline s else deadline sx + (if rearm then d3 else 0)
  | AwTimeout (VRecv ch) dl => match aw_hit (deadline dl) (arr ch) with Some a0 => a0 | None => deadline dl end
  | _ => aw_wake a iv
  end.

Definition aw_rec (a : aw) (iv : option interval) (arr : arrs) : list N :=
  match a with
  | AwSleep s => [deadline s]
  | AwTimeout (VSleep s) dl => [N.min (deadline s) (deadline dl); b2n (deadline s <=? deadline dl)]
  | AwTimeout (VRecv ch) dl => match aw_hit (deadline dl) (arr ch) with Some a0 => [a0; 1] | None => [deadline dl; 0] end
  | AwSelect biased _ sa sb => [N.min (deadline sa) (deadline sb); sel_code biased (deadline sa) (deadline sb)]
  | AwTick => match iv with Some i => [deadline (iv_delay i); deadline (iv_delay i)] | None => [] end
  | AwKeep rearm d3 s sx =>
    if deadline s <=? deadline sx then [deadline s; 0] else [deadline sx; 1; deadline sx + (if rearm then d3 else 0)]
  | AwThen pre s => pre ++ [deadline s]
  | _ => []
  end.

Definition aw_arr (a : aw) (arr : arrs) : arrs :=
  match a with
  | AwTimeout (VRecv ch) dl => match aw_hit (deadline dl) (arr ch) with Some _ => arr_pop arr ch | None => arr end
  | _ => arr
  end.

(* the blocked receive is not a tie, and its deadline is finite *)
Definition aw_ok (a : aw) (arr : arrs) : Prop :=
  match a with
  | AwTimeout (VRecv ch) dl => deadline dl < TMAX /\ match arr ch with a0 :: _ => a0 <> deadline dl | [] => True end
  | _ => True
  end.

Lemma aw_noarr a iv arr arr' : waits_on (Some a) = None ->
  aw_rec a iv arr = aw_rec a iv arr' /\ aw_end a iv arr = aw_end a iv arr' /\ aw_arr a arr = arr /\ aw_arr a arr' = arr' /\ aw_ok a arr'.
Proof.
  destruct a as [s|v dl|biased tie sa sb| | | | |rearm d3 s sx|pre s|kr chi cho]; try (cbn [waits_on]; discriminate); try (intros _; repeat split; reflexivity).
  destruct v; cbn [waits_on]; intros H; try discriminate; repeat split; reflexivity.
Qed.

Lemma min2 (s1 s2 : sleep) : (exists s, In s [s1; s2] /\ deadline s = N.min (deadline s1) (deadline s2)) /\
  forall s, In s [s1; s2] -> N.min (deadline s1) (deadline s2) <= deadline s.
Proof.
  split.
  - destruct (N.min_spec (deadline s1) (deadline s2)) as [[_ E]|[_ E]]; rewrite E;
      [exists s1; split; [left; reflexivity|reflexivity]|exists s2; split; [right; left; reflexivity|reflexivity]].
  - intros s' [<-|[<-|[]]]; lia.
Qed.

Lemma aw_wake_held a iv : aw_kind a iv ->
  (exists s, In s (aw_held a iv) /\ deadline s = aw_wake a iv) /\ forall s, In s (aw_held a iv) -> aw_wake a iv <= deadline s.
Proof.
  assert (H1 : forall s : sleep, (exists s', In s' [s] /\ deadline s' = deadline s) /\ forall s', In s' [s] -> deadline s <= deadline s').
  { intros s. split; [exists s; split; [left; reflexivity|reflexivity]|intros s' [<-|[]]; lia]. }
  destruct a as [s|v dl|biased tie sa sb| | | | |rearm d3 s sx|pre s|kr chi cho]; try contradiction.
  - intros _. apply H1.
  - destruct v as [s| |ch|]; try contradiction; intros _; cbn [aw_held held_sleeps aw_wake]; [apply min2|apply H1].
  - intros _. cbn [aw_held held_sleeps aw_wake]. apply min2.
  - destruct iv as [i|]; [|intros H; contradiction H; reflexivity]. intros _. cbn [aw_held held_sleeps aw_wake]. apply H1.
  - intros _. cbn [aw_held held_sleeps aw_wake]. apply min2.
  - intros _. apply H1.
Qed.

Definition iv_next (i : interval) (d : N) : interval :=
  {| iv_delay := {| deadline := d; sid := sid (iv_delay i); handle := None |}; iv_period := iv_period i; iv_beh := iv_beh i |}.

Definition iv_after (a : aw) (iv : option interval) : option interval :=
  match a, iv with
  | AwTick, Some i => Some (iv_next i (deadline (iv_delay i) + iv_period i))
  | _, _ => iv
  end.

(* ids of the held Sleeps registered under deadline x, in registration order *)
Definition new_at (a : aw) (iv : option interval) (x : N) : list N :=
  map sid (filter (fun s => deadline s =? x) (aw_held a iv)).

Definition reg (id d : N) : sleep := {| deadline := d; sid := id; handle := Some d |}.

(* the driver after the preparations of a step: reset = the pinned Sleep is created, polled
   (registered) if asked, and reset -- which removes the entry again; drop = created, polled, dropped *)
Definition prep_drv (now nid : N) (st : step) (dr : driver) : driver :=
  match st with
  | SReset polled d1 d2 => snd (reset_prep now polled (dl now d1) (dl now d2) nid dr)
  | SDropSleep d => let '(_, s1, dr1) := sleep_poll now (sleep_new (dl now d) nid) dr in sleep_drop s1 dr1
  | SKeep rearm d0 d2 x d3 =>
    (* the kept timer is created, polled, reset to now + d2; if then sleep(x) is due at once (x = 0) while the
       kept timer is not, the kept timer -- registered by the select -- is reset again or dropped *)
    let dr2 := snd (reset_prep now true (dl now d0) (dl now d2) nid dr) in
    if (now <? dl now d2) && negb (now <? now + x) then
      if rearm then reset_entry nid (dl now d2) (dl now d3) (register nid (dl now d2) dr2)
      else drop_entry nid (dl now d2) (register nid (dl now d2) dr2)
    else dr2
  | _ => dr
  end.

(* the boxed Sleep that is handed over: sleep(d) created at [now] with id [nid] and polled once;
   in the fragment d = 0: it has elapsed *)
Definition token (now d nid : N) : sleep := {| deadline := now + d; sid := nid; handle := None |}.

Definition fr_steps (b : option (aw * option interval * list step)) : list step := match b with Some (_, _, l) => l | None => [] end.
Definition fr_cur (b : option (aw * option interval * list step)) : option aw := match b with Some (a, _, _) => Some a | None => None end.
Definition fr_iv (b : option (aw * option interval * list step)) : option interval := match b with Some (_, iv, _) => iv | None => None end.

Lemma dl_fin now d : d < FARK -> dl now d = now + d.
Proof. intros H. unfold dl. replace (FARK <=? d) with false by lia. reflexivity. Qed.

Lemma iv_drop_idle iv dr : iv_idle iv -> iv_drop iv dr = dr.
Proof. destruct iv as [i|]; [|reflexivity]. cbn [iv_idle iv_drop]. unfold sleep_drop. intros ->. reflexivity. Qed.

Lemma frag_step_any_rcv rcv st : frag_step st -> frag_step2 rcv st.
Proof. destruct st; cbn [frag_step frag_step2]; try (intros H; exact H); contradiction. Qed.

(* the task is polled when the future it awaits completes: at its wake instant *)
Definition aw_done (t : N) (a : aw) (dr : driver) : driver :=
  match a with
  | AwTimeout (VSleep s) dl =>
    if deadline s <=? t then drop_entry (sid dl) (deadline dl) dr else drop_entry (sid s) (deadline s) dr
  | AwTimeout (VRecv _) dl =>
    (* woken by a message before the deadline: the delay is dropped; woken at the deadline: it was popped *)
    if t <? deadline dl then drop_entry (sid dl) (deadline dl) dr else dr
  | AwSelect _ _ sa sb =>
    if deadline sa <=? t then drop_entry (sid sb) (deadline sb) dr else drop_entry (sid sa) (deadline sa) dr
  | AwKeep rearm d3 s sx =>
    if deadline s <=? t then drop_entry (sid sx) (deadline sx) dr
    else if rearm then reset_entry (sid s) (deadline s) (dl t d3) dr
         else drop_entry (sid s) (deadline s) dr
  | _ => dr
  end.

(* ... except when sleep(x) wins against the kept timer and that is re-armed for a later
   instant: the task stays blocked, now on the kept timer alone *)
Definition aw_reblock (t : N) (a : aw) : option aw :=
  match a with
  | AwKeep true d3 s sx =>
    if deadline s <=? t then None
    else if t <? dl t d3 then Some (AwThen [t; 1] (reg (sid s) (dl t d3))) else None
  | _ => None
  end.

Lemma min_cases a b :
  ((a <=? b) = true /\ (a <=? N.min a b) = true /\ (N.min a b <? a) = false) \/
  ((a <=? b) = false /\ (a <=? N.min a b) = false /\ (N.min a b <? a) = true /\ (N.min a b <? b) = false).
Proof.
  destruct (N.leb_spec a b) as [H|H]; [left|right].
  - rewrite (N.min_l _ _ H), N.leb_refl, N.ltb_irrefl. repeat split.
  - rewrite (N.min_r _ _ (N.lt_le_incl _ _ H)), N.ltb_irrefl, (proj2 (N.leb_gt a b) H), (proj2 (N.ltb_lt b a) H). repeat split.
Qed.

Lemma run_steps_woken now m k st r a iv arr dr nid lg mail :
  aw_kind a iv -> Forall (fun s => handle s = Some (deadline s)) (aw_held a iv) -> aw_wake a iv = now ->
  aw_reblock now a = None -> waits_on (Some a) = None ->
  run_steps now m k (st :: r) (Some a) iv dr nid lg mail =
  run_steps now m k r None (iv_after a iv) (aw_done now a dr) nid (lg ++ aw_rec a iv arr) mail.
Proof.
  intros Hk Hh Hw Hrb Hnw. destruct a as [s|v dl|biased tie sa sb| | | | |rearm d3 s sx|pre s|kr chi cho]; try contradiction.
  - cbn [aw_wake] in Hw. cbn [run_steps poll_aw poll_aw0 fst snd aw_done aw_rec iv_after]. unfold sleep_poll.
    replace (now <? deadline s) with false by lia. rewrite Hw. reflexivity.
  - destruct v as [s| |ch|]; try contradiction; [|discriminate Hnw]. cbn [aw_wake] in Hw. cbn [aw_held held_sleeps] in Hh.
    inversion Hh as [|? ? Hs Hh']; subst. inversion Hh' as [|? ? Hd _]; subst.
    cbn [run_steps poll_aw fst snd aw_done aw_rec iv_after]. unfold timeout_poll, vpoll_m. cbn [fst snd vpoll]. unfold sleep_poll.
    destruct (min_cases (deadline s) (deadline dl)) as [(E1 & E2 & E3)|(E1 & E2 & E3 & E4)]; rewrite E1, E2, E3.
    + cbn [fst snd vdrop]. unfold sleep_drop. cbn [handle sid]. rewrite Hd. reflexivity.
    + rewrite Hs. cbn [fst snd]. rewrite E4. cbn [fst snd vdrop]. unfold sleep_drop. cbn [handle sid]. rewrite Hs. reflexivity.
  - (* select over two sleeps *)
    destruct Hk as [_ ->]. cbn [aw_wake] in Hw. cbn [aw_held held_sleeps] in Hh.
    inversion Hh as [|? ? Hsa Hh']; subst. inversion Hh' as [|? ? Hsb _]; subst.
    cbn [run_steps poll_aw poll_aw0 fst snd aw_done aw_rec iv_after]. unfold sleep_poll, sel_code.
    destruct (min_cases (deadline sa) (deadline sb)) as [(E1 & E2 & E3)|(E1 & E2 & E3 & E4)]; rewrite E1, E2, E3.
    + cbn [fst snd]. unfold sleep_drop. cbn [handle sid]. rewrite Hsb. reflexivity.
    + rewrite Hsa. cbn [fst snd]. rewrite E4. cbn [fst snd]. unfold sleep_drop. cbn [handle sid]. rewrite Hsa.
      replace (deadline sa =? deadline sb) with false by lia. rewrite orb_true_r. reflexivity.
  - (* the tick that was waited for: taken at exactly its instant, so it is not a missed one *)
    destruct iv as [[[dd ii hh] pp bb]|]; [|contradiction Hk; reflexivity].
    cbn [aw_wake iv_delay deadline] in Hw. subst dd.
    cbn [run_steps poll_aw poll_aw0 fst snd aw_done aw_rec iv_after iv_delay iv_period deadline]. unfold poll_tick, sleep_poll.
    cbn [iv_delay iv_period iv_beh deadline handle sid]. rewrite N.ltb_irrefl.
    unfold sleep_reset, tick_next. cbn [deadline handle sid fst snd].
    replace (now + GRACE <? now) with false by lia. reflexivity.
  - (* the keep-alive select *)
    destruct Hk as [_ Hd3]. cbn [aw_wake] in Hw. cbn [aw_held held_sleeps] in Hh.
    inversion Hh as [|? ? Hs Hh']; subst. inversion Hh' as [|? ? Hx _]; subst.
    cbn [run_steps poll_aw poll_aw0 fst snd aw_done aw_rec iv_after]. unfold sleep_poll.
    destruct (min_cases (deadline s) (deadline sx)) as [(E1 & E2 & E3)|(E1 & E2 & E3 & E4)]; rewrite E1, E2, E3.
    + cbn [fst snd]. unfold sleep_drop. cbn [handle sid]. rewrite Hx.
      replace (N.min (deadline s) (deadline sx)) with (deadline s) by lia. reflexivity.
    + rewrite Hs. cbn [fst snd]. rewrite E4. cbn [fst snd].
      assert (Emin : N.min (deadline s) (deadline sx) = deadline sx) by lia. rewrite Emin in *.
      destruct rearm.
      * cbn [aw_reblock] in Hrb. rewrite E1 in Hrb. rewrite (dl_fin _ _ Hd3) in *.
        destruct (deadline sx <? deadline sx + d3) eqn:Ed3; [discriminate|].
        unfold sleep_reset, sleep_drop. cbn [deadline handle sid fst snd]. rewrite Hs. unfold sleep_poll. cbn [deadline handle sid].
        rewrite Ed3. cbn [fst snd]. replace (deadline sx + d3) with (deadline sx) by lia. reflexivity.
      * unfold sleep_drop. cbn [deadline handle sid fst snd]. rewrite Hs. rewrite N.add_0_r. reflexivity.
  - (* the re-armed kept timer *)
    cbn [aw_wake] in Hw. cbn [run_steps poll_aw poll_aw0 fst snd aw_done aw_rec iv_after]. unfold sleep_poll.
    replace (now <? deadline s) with false by lia. rewrite Hw. reflexivity.
Qed.

Lemma run_steps_reblock now m k st r a a' iv dr nid lg mail :
  aw_kind a iv -> Forall (fun s => handle s = Some (deadline s)) (aw_held a iv) -> aw_wake a iv = now ->
  aw_reblock now a = Some a' ->
  exists pre s', a' = AwThen pre s' /\
  run_steps now m k (st :: r) (Some a) iv dr nid lg mail =
  (st :: r, Some a', iv, register (sid s') (deadline s') (aw_done now a dr), nid, lg, false, mail).
Proof.
  intros Hk Hh Hw Hrb. destruct a as [s|v dl| | | | | |rearm d3 s sx|pre s|kr chi cho]; try discriminate.
  destruct rearm; [|discriminate]. cbn [aw_reblock] in Hrb.
  destruct (deadline s <=? now) eqn:E; [discriminate|]. destruct (now <? dl now d3) eqn:E3; [|discriminate]. injection Hrb as <-.
  exists [now; 1], (reg (sid s) (dl now d3)). split; [reflexivity|].
  cbn [aw_wake] in Hw. cbn [aw_held held_sleeps] in Hh.
  inversion Hh as [|? ? Hs Hh']; subst. inversion Hh' as [|? ? Hx _]; subst.
  cbn [run_steps poll_aw poll_aw0 fst snd aw_done]. unfold sleep_poll.
  replace (N.min (deadline s) (deadline sx) <? deadline s) with true by lia. rewrite Hs. cbn [fst snd].
  replace (N.min (deadline s) (deadline sx) <? deadline sx) with false by lia. cbn [fst snd].
  unfold sleep_reset, sleep_drop. cbn [deadline handle sid fst snd]. rewrite Hs. unfold sleep_poll. cbn [deadline handle sid].
  rewrite E3, E. cbn [fst snd reg deadline sid]. reflexivity.
Qed.

(* a blocked timeout(d, receive) is polled: with a message in its channel it is Ok -- the delay
   is dropped, and so is the boxed Sleep that was received; without one, at its deadline, it is Elapsed *)
Lemma run_steps_woken_recv now m k st r ch dl iv dr nid lg mail :
  handle dl = Some (deadline dl) ->
  match mail_take m ch mail with
  | Some (s, mail') =>
    run_steps now m k (st :: r) (Some (AwTimeout (VRecv ch) dl)) iv dr nid lg mail =
    run_steps now m k r None iv (drop_entry (sid dl) (deadline dl) (sleep_drop s dr)) nid (lg ++ [now; 1]) mail'
  | None =>
    deadline dl <= now ->
    run_steps now m k (st :: r) (Some (AwTimeout (VRecv ch) dl)) iv dr nid lg mail =
    run_steps now m k r None iv dr nid (lg ++ [now; 0]) mail
  end.
Proof.
  intros Hd. cbn [run_steps poll_aw fst snd]. unfold timeout_poll, vpoll_m. cbn [fst snd].
  destruct (mail_take m ch mail) as [[s mail']|] eqn:Em; cbn [fst snd].
  - unfold sleep_drop at 1. rewrite Hd. cbn [vdrop]. reflexivity.
  - intros Hle. unfold sleep_poll. replace (now <? deadline dl) with false by lia. cbn [fst snd].
    unfold sleep_drop. cbn [handle vdrop]. reflexivity.
Qed.

(* the preparations of a step leave the entries of the driver as they were *)
Lemma prep_drv_spec now nid rcv st dr : frag_step2 rcv st -> Mid now dr -> fresh_in nid (pending dr) ->
  acts now dr (prep_drv now nid st dr) /\ forall x, ents_at x (pending (prep_drv now nid st dr)) = ents_at x (pending dr).
Proof.
  intros Hst Hm Hf. pose proof (mid_sorted _ _ Hm) as Hs.
  (* only reset, drop and the keep-alive select prepare anything *)
  destruct st as [d|t|d v|biased a b| | | |polled d1 d2|d| | | | | |rearm d0 d2 x d3| | ]; try contradiction; cbn [frag_step2 frag_step] in Hst; cbn [prep_drv]; try (split; [apply acts_refl|reflexivity]).
  - destruct (reset_prep_spec now polled (dl now d1) (dl now d2) nid dr Hs Hf) as (_ & H2 & H3). split; assumption.
  - split; [apply poll_drop_acts|]. intros x. apply poll_drop_ents; assumption.
  - destruct (reset_prep_spec now true (dl now d0) (dl now d2) nid dr Hs Hf) as (_ & H2 & H3).
    set (dr2 := snd (reset_prep now true (dl now d0) (dl now d2) nid dr)) in *.
    assert (Hs2 : sorted (pending dr2)) by exact (mid_sorted _ _ (acts_mid _ _ _ H2 Hm)).
    assert (Hf2 : fresh_in nid (pending dr2)) by (intros y; rewrite H3; apply Hf).
    destruct ((now <? dl now d2) && negb (now <? now + x)) eqn:E; [|split; assumption].
    destruct rearm.
    + split.
      * eapply acts_trans; [exact H2|]. eapply acts_trans; [apply (acts_one now dr2 (Register nid (dl now d2))); cbn [op_wf]; lia|].
        apply (acts_one now _ (ResetEntry nid (dl now d2) (dl now d3))). exact I.
      * intros y. rewrite (reset_registered_ents _ _ _ _ _ Hs2 Hf2). apply H3.
    + split.
      * eapply acts_trans; [exact H2|]. eapply acts_trans; [apply (acts_one now dr2 (Register nid (dl now d2))); cbn [op_wf]; lia|].
        apply (acts_one now _ (DropEntry nid (dl now d2))). exact I.
      * intros y. rewrite (drop_registered_ents _ _ _ _ Hs2 Hf2). apply H3.
Qed.

(* where the id of a Sleep the task holds after a poll comes from: created in this poll, or one
   the task owned before ([old]) *)
Definition idsrc (nid n : N) (old : N -> Prop) (id : N) : Prop := (nid <= id /\ id < n) \/ old id.

Definition iv_ids (iv : option interval) (id : N) : Prop := exists i, iv = Some i /\ id = sid (iv_delay i).

(* what holds of the await state a task blocks in, right after the poll.  StepBlock asks for its parts one by one
   (blocked_intro puts them together); E2EInv.tstate's TBl keeps the part that lasts while the task stays blocked:
   aw_kind, the handles, the distinct ids *)
Definition blocked_ok (now nid n : N) (old : N -> Prop) (a : aw) (iv' : option interval) : Prop :=
  aw_kind a iv' /\ now < aw_wake a iv' /\ NoDup (map sid (aw_held a iv')) /\
  Forall (fun s => now < deadline s /\ handle s = Some (deadline s) /\ idsrc nid n old (sid s)) (aw_held a iv') /\
  (forall id, iv_ids iv' id -> idsrc nid n old id).

(* ---- the channels ---- *)
(* the boxed Sleeps in channel ch of module m, oldest first *)
Fixpoint chan (m ch : N) (mail : mailbox) : list sleep :=
  match mail with
  | [] => []
  | (m', ch', _, s) :: r => if (m' =? m) && (ch' =? ch) then s :: chan m ch r else chan m ch r
  end.

Definition chn (e : N * N * nat * sleep) : N := snd (fst (fst e)).

(* every boxed Sleep in a channel has elapsed before it was sent: it is not registered *)
Definition inert (mail : mailbox) : Prop := Forall (fun e : N * N * nat * sleep => handle (snd e) = None) mail.

Lemma chan_app m ch l1 l2 : chan m ch (l1 ++ l2) = chan m ch l1 ++ chan m ch l2.
Proof.
  induction l1 as [|[[[m' ch'] k'] s] r IH]; cbn [app chan]; [reflexivity|].
  destruct ((m' =? m) && (ch' =? ch)); [cbn [app]; rewrite IH; reflexivity|exact IH].
Qed.

Lemma mail_take_some m ch mail s mail' : mail_take m ch mail = Some (s, mail') ->
  chan m ch mail = s :: chan m ch mail' /\
  (forall m' c, (m' =? m) && (c =? ch) = false -> chan m' c mail' = chan m' c mail) /\
  (inert mail -> handle s = None /\ inert mail').
Proof.
  revert s mail'. induction mail as [|[[[m0 ch0] k0] s0] r IH]; intros s mail' H; cbn [mail_take] in H; [discriminate|].
  destruct ((m0 =? m) && (ch0 =? ch)) eqn:E.
  - injection H as <- <-. cbn [chan]. rewrite E. split; [reflexivity|]. split.
    + intros m' c Hne. replace ((m0 =? m') && (ch0 =? c)) with false; [reflexivity|].
      symmetry. apply not_true_is_false. intros Ht. apply andb_true_iff in Ht. apply andb_true_iff in E.
      destruct Ht as [T1 T2], E as [E1 E2]. assert (m' = m) by lia. assert (c = ch) by lia. subst m' c.
      rewrite !N.eqb_refl in Hne. discriminate.
    + intros Hi. inversion Hi as [|? ? H1 H2]; subst. split; assumption.
  - destruct (mail_take m ch r) as [[s1 r1]|] eqn:Er; [|discriminate]. injection H as <- <-.
    destruct (IH s1 r1 eq_refl) as (I1 & I2 & I3). cbn [chan]. rewrite E. split; [exact I1|]. split.
    + intros m' c Hne. destruct ((m0 =? m') && (ch0 =? c)); [rewrite (I2 m' c Hne); reflexivity|exact (I2 m' c Hne)].
    + intros Hi. inversion Hi as [|? ? H1 H2]; subst. destruct (I3 H2) as [J1 J2]. split; [exact J1|constructor; assumption].
Qed.

Lemma mail_take_none m ch mail : mail_take m ch mail = None <-> chan m ch mail = [].
Proof.
  induction mail as [|[[[m0 ch0] k0] s0] r IH]; cbn [mail_take chan]; [split; reflexivity|].
  destruct ((m0 =? m) && (ch0 =? ch)); [split; discriminate|].
  destruct (mail_take m ch r) as [[s1 r1]|]; [split; [discriminate|]|split; [intros _; apply IH; reflexivity|reflexivity]].
  intros H. apply IH in H. discriminate.
Qed.

Lemma skipn_add {A} (l : list A) : forall a b, skipn b (skipn a l) = skipn (a + b) l.
Proof.
  induction l as [|x r IH]; intros a b; [destruct a, b; reflexivity|].
  destruct a as [|a]; [reflexivity|]. cbn [skipn Nat.add]. apply IH.
Qed.

(* what a poll of task k (of module m, at instant now) does to the channels, to the arrivals the
   task still expects, and to the list of messages it is still to send:
   a receiver takes messages off the front of its channels; any other task appends tokens *)
Definition tok_ok (now m : N) (k : nat) (e : N * N * nat * sleep) : Prop :=
  exists ch id, e = (m, ch, k, token now 0 id).

Definition mail_ok (now m : N) (k : nat) (rcv : bool) (mail ml : mailbox) (arr arr' : arrs) (Sd Sd' : list (N * N)) : Prop :=
  if rcv then
    Sd = Sd' /\
    (exists cons : N -> nat, forall c, chan m c ml = skipn (cons c) (chan m c mail) /\ arr' c = skipn (cons c) (arr c) /\
                                       (cons c <= length (chan m c mail))%nat) /\
    (forall m' c, m' <> m -> chan m' c ml = chan m' c mail) /\ (inert mail -> inert ml)
  else
    exists toks, ml = mail ++ toks /\ Forall (tok_ok now m k) toks /\ (forall c, arr' c = arr c) /\
                 Sd = map (fun e => (chn e, now)) toks ++ Sd'.

Lemma mail_ok_refl now m k rcv mail arr Sd : mail_ok now m k rcv mail mail arr arr Sd Sd.
Proof.
  unfold mail_ok. destruct rcv.
  - split; [reflexivity|]. split; [exists (fun _ => 0%nat); intros c; repeat split; lia|]. split; [reflexivity|exact (fun H => H)].
  - exists []. rewrite app_nil_r. repeat split; constructor.
Qed.

Lemma mail_ok_trans now m k rcv mail mail1 ml arr arr1 arr' S1 S2 Sd' :
  mail_ok now m k rcv mail mail1 arr arr1 S1 [] -> mail_ok now m k rcv mail1 ml arr1 arr' S2 Sd' ->
  mail_ok now m k rcv mail ml arr arr' (S1 ++ S2) Sd'.
Proof.
  unfold mail_ok. destruct rcv.
  - intros (-> & (c1 & H1) & O1 & I1) (-> & (c2 & H2) & O2 & I2). split; [reflexivity|]. split; [|split].
    + exists (fun c => (c1 c + c2 c)%nat). intros c. destruct (H1 c) as (A1 & B1 & C1). destruct (H2 c) as (A2 & B2 & C2).
      rewrite A2, B2, A1, B1, !skipn_add. repeat split. rewrite A1, skipn_length in C2. lia.
    + intros m' c Hne. rewrite (O2 m' c Hne). apply O1; exact Hne.
    + intros H. exact (I2 (I1 H)).
  - intros (t1 & -> & F1 & A1 & ->) (t2 & -> & F2 & A2 & ->). exists (t1 ++ t2). rewrite app_assoc, map_app, app_nil_r, app_assoc.
    repeat split; try reflexivity; [apply Forall_app; split; assumption|]. intros c. rewrite A2. apply A1.
Qed.

(* the arrivals a receiver expects: first the messages that are in its channels (sent no later
   than now), then those still to be sent (no earlier than now) *)
Definition LA (now m : N) (mail : mailbox) (arr : arrs) : Prop :=
  forall c, exists F, arr c = map deadline (chan m c mail) ++ F /\
                      Forall (fun a => a <= now) (map deadline (chan m c mail)) /\ Forall (fun a => now <= a) F.

Lemma mail_ok_take now m k mail mail' arr ch s : mail_take m ch mail = Some (s, mail') ->
  mail_ok now m k true mail mail' arr (arr_pop arr ch) [] [].
Proof.
  intros Em. destruct (mail_take_some _ _ _ _ _ Em) as (Ec & Eo & Ei).
  split; [reflexivity|]. split; [|split; [|intros Hi; exact (proj2 (Ei Hi))]].
  - exists (fun c => if c =? ch then 1%nat else 0%nat). intros c. unfold arr_pop. destruct (c =? ch) eqn:E.
    + apply N.eqb_eq in E. subst c. rewrite Ec. cbn [skipn length]. split; [reflexivity|]. split; [destruct (arr ch); reflexivity|lia].
    + rewrite (Eo m c) by (rewrite N.eqb_refl, E; reflexivity). cbn [skipn]. repeat split. lia.
  - intros m' c Hne. apply Eo. replace (m' =? m) with false by lia. reflexivity.
Qed.

Lemma LA_take now m mail mail' arr ch s : mail_take m ch mail = Some (s, mail') -> LA now m mail arr -> LA now m mail' (arr_pop arr ch).
Proof.
  intros Em Hla c. destruct (mail_take_some _ _ _ _ _ Em) as (Ec & Eo & _). unfold arr_pop. destruct (c =? ch) eqn:E.
  - apply N.eqb_eq in E. subst c. destruct (Hla ch) as (F & EF & Hpast & Hfut). rewrite Ec in EF, Hpast. cbn [map app] in EF, Hpast.
    exists F. rewrite EF. cbn [tl]. split; [reflexivity|]. split; [exact (Forall_inv_tail Hpast)|exact Hfut].
  - rewrite (Eo m c) by (rewrite N.eqb_refl, E; reflexivity). apply Hla.
Qed.

(* a task that is not a receiver never looks at the arrivals; a receiver never sends *)
Lemma step_time_noarr now iv arr st : frag_step2 false st -> step_time now iv arr st = step_time now iv noarr st.
Proof. destruct st; cbn [frag_step2 step_time]; try reflexivity. intros [H _]; discriminate. Qed.

Lemma exp_sends_rcv steps : Forall (frag_step2 true) steps -> forall now iv, exp_sends now iv steps = [].
Proof.
  induction 1 as [|st r Hst _ IH]; intros now iv; cbn [exp_sends]; [reflexivity|]. rewrite IH.
  destruct st; try reflexivity. destruct Hst as [H _]; discriminate.
Qed.

(* what one poll emits against the log [E] still demanded (and the messages [Sd] still to be
   sent), where it leaves the task, and what it does to the driver: contract-respecting
   operations whose net effect on the entries is the registration of the Sleeps the task
   blocks on *)
Definition poll_body (now nid n m : N) (k : nat) (rcv : bool) (old : N -> Prop) (mail ml : mailbox) (arr arr' : arrs)
                     (E : list N) (Sd : list (N * N)) (o : list N) (b : option (aw * option interval * list step)) : Prop :=
  match b with
  | None => E = o /\ mail_ok now m k rcv mail ml arr arr' Sd []
  | Some (a, iv', l) =>
    exists st rest, l = st :: rest /\ Forall (frag_step2 rcv) rest /\
      E = o ++ aw_rec a iv' arr' ++ exp_run (aw_end a iv' arr') (iv_abs (iv_after a iv')) (aw_arr a arr') rest /\
      blocked_ok now nid n old a iv' /\
      mail_ok now m k rcv mail ml arr arr' Sd (exp_sends (aw_end a iv' arr') (iv_abs (iv_after a iv')) rest) /\
      aw_ok a arr' /\ recv_ok (aw_end a iv' arr') (iv_abs (iv_after a iv')) (aw_arr a arr') rest /\
      (forall ch, waits_on (Some a) = Some ch -> rcv = true /\ chan m ch ml = [])
  end.

Definition poll_ok (now nid m : N) (k : nat) (rcv : bool) (old : N -> Prop) (dr : driver) (mail : mailbox) (arr : arrs)
                   (E : list N) (Sd : list (N * N))
                   (res : list N * option (aw * option interval * list step) * N * driver * mailbox) : Prop :=
  let '(o, b, n, d', ml) := res in
  nid <= n /\ acts now dr d' /\
  (forall x, ents_at x (pending d') =
             ents_at x (pending dr) ++ match b with Some (a, iv', _) => new_at a iv' x | None => [] end) /\
  exists arr', poll_body now nid n m k rcv old mail ml arr arr' E Sd o b.

Lemma poll_ok_pass now nid nid' m k rcv (old old' : N -> Prop) dr dr' mail mail1 arr arr1 E pre S1 S2 res :
  nid <= nid' -> (forall id, old' id -> idsrc nid nid' old id) -> acts now dr dr' ->
  (forall x, ents_at x (pending dr') = ents_at x (pending dr)) ->
  mail_ok now m k rcv mail mail1 arr arr1 S1 [] ->
  poll_ok now nid' m k rcv old' dr' mail1 arr1 E S2 res ->
  poll_ok now nid m k rcv old dr mail arr (pre ++ E) (S1 ++ S2) (let '(o, b, n, d', ml) := res in (pre ++ o, b, n, d', ml)).
Proof.
  intros Hn Hold Ha He Hm1. destruct res as [[[[o b] n] d'] ml]. unfold poll_ok, poll_body. intros (I1 & I2 & I3 & arr' & I4).
  assert (Hsrc : forall id, idsrc nid' n old' id -> idsrc nid n old id).
  { intros id [[H1 H2]|H]; [left; lia|]. destruct (Hold id H) as [[H1 H2]|H']; [left; lia|right; exact H']. }
  split; [lia|]. split; [exact (acts_trans _ _ _ _ Ha I2)|].
  split; [intros x; rewrite I3, He; reflexivity|]. exists arr'.
  destruct b as [[[a iv'] l]|].
  - destruct I4 as (st' & rest & -> & Hf' & He' & (Hk & Hw & Hnd & Hall & Hiv) & Hmo & Hao & Hro & Hch). exists st', rest.
    split; [reflexivity|]. split; [exact Hf'|]. split; [rewrite He', app_assoc; reflexivity|].
    split; [|split; [exact (mail_ok_trans _ _ _ _ _ _ _ _ _ _ _ _ _ Hm1 Hmo)|split; [exact Hao|split; [exact Hro|exact Hch]]]].
    split; [exact Hk|]. split; [exact Hw|]. split; [exact Hnd|]. split.
    + eapply Forall_impl; [|exact Hall]. cbn beta. intros s0 (H1 & H2 & H3). repeat split; try assumption. exact (Hsrc _ H3).
    + intros id Hid. exact (Hsrc _ (Hiv id Hid)).
  - destruct I4 as [-> Hmo]. split; [reflexivity|]. exact (mail_ok_trans _ _ _ _ _ _ _ _ _ _ _ _ _ Hm1 Hmo).
Qed.

Definition regs (ss : list sleep) (dr : driver) : driver := fold_left (fun d s => register (sid s) (deadline s) d) ss dr.

Lemma regs_spec now ss : Forall (fun s => now < deadline s) ss -> forall dr, sorted (pending dr) ->
  acts now dr (regs ss dr) /\
  forall x, ents_at x (pending (regs ss dr)) = ents_at x (pending dr) ++ map sid (filter (fun s => deadline s =? x) ss).
Proof.
  induction 1 as [|s r Hs _ IH]; intros dr Hsd; cbn [regs fold_left filter map].
  - split; [apply acts_refl|]. intros x. rewrite app_nil_r. reflexivity.
  - destruct (IH (register (sid s) (deadline s) dr) (q_add_sorted _ _ _ Hsd)) as [Ha He]. split.
    + eapply acts_trans; [apply (acts_one now dr (Register (sid s) (deadline s))); exact Hs|exact Ha].
    + intros x. fold (regs r (register (sid s) (deadline s) dr)). rewrite He. cbn [register set_pending pending].
      rewrite (ents_at_add _ _ _ _ Hsd), (N.eqb_sym (deadline s) x).
      destruct (x =? deadline s) eqn:E; [|reflexivity].
      apply N.eqb_eq in E. subst x. cbn [map]. rewrite <- app_assoc. reflexivity.
Qed.

Lemma blocked_intro now nid n old a iv' : aw_kind a iv' -> NoDup (map sid (aw_held a iv')) ->
  Forall (fun s => now < deadline s /\ handle s = Some (deadline s) /\ idsrc nid n old (sid s)) (aw_held a iv') ->
  (forall id, iv_ids iv' id -> idsrc nid n old id) -> blocked_ok now nid n old a iv'.
Proof.
  intros Hk Hnd Hall Hiv. split; [exact Hk|]. split; [|split; [exact Hnd|split; [exact Hall|exact Hiv]]].
  destruct (proj1 (aw_wake_held a iv' Hk)) as (s & Hs & <-). rewrite Forall_forall in Hall. exact (proj1 (Hall s Hs)).
Qed.

Definition step_sends (now : N) (st : step) : list (N * N) := match st with SHandOver ch _ => [(ch, now)] | _ => [] end.

Lemma exp_sends_cons rcv now iv arr st r : frag_step2 rcv st -> Forall (frag_step2 rcv) r ->
  exp_sends now iv (st :: r) = step_sends now st ++ exp_sends (step_time now iv arr st) (step_iv now iv st) r.
Proof.
  intros Hst Hr. cbn [exp_sends]. fold (step_sends now st). destruct rcv.
  - rewrite !(exp_sends_rcv r Hr). reflexivity.
  - rewrite (step_time_noarr now iv arr st Hst). reflexivity.
Qed.

(* a step either completes within the poll -- it logs [pre], takes no time and leaves the entries
   of the driver as they were -- or the task blocks on an await state whose Sleeps, all not yet
   due, are registered on the driver [dr0] the preparations of the step have left *)
Inductive step_res (now m : N) (k : nat) (rcv : bool) (st : step) (iv : option interval) (dr : driver) (nid : N)
                   (mail : mailbox) (arr : arrs) : Prop :=
| StepPass pre iv1 dr1 nid1 mail1 :
    (forall r lg, run_steps now m k (st :: r) None iv dr nid lg mail = run_steps now m k r None iv1 dr1 nid1 (lg ++ pre) mail1) ->
    step_log now (iv_abs iv) arr st = pre -> step_time now (iv_abs iv) arr st = now -> step_iv now (iv_abs iv) st = iv_abs iv1 ->
    nid <= nid1 -> iv_idle iv1 -> (forall id, iv_ids iv1 id -> idsrc nid nid1 (iv_ids iv) id) ->
    acts now dr dr1 -> (forall x, ents_at x (pending dr1) = ents_at x (pending dr)) ->
    mail_ok now m k rcv mail mail1 arr (step_arr now arr st) (step_sends now st) [] -> inert mail1 ->
    (rcv = true -> LA now m mail1 (step_arr now arr st)) ->
    step_res now m k rcv st iv dr nid mail arr
| StepBlock a iv' dr0 n :
    (forall r lg, run_steps now m k (st :: r) None iv dr nid lg mail =
                  (st :: r, Some a, iv', regs (aw_held a iv') dr0, n, lg, false, mail)) ->
    nid <= n -> acts now dr dr0 -> (forall x, ents_at x (pending dr0) = ents_at x (pending dr)) ->
    aw_kind a iv' -> NoDup (map sid (aw_held a iv')) ->
    Forall (fun s => now < deadline s /\ handle s = Some (deadline s) /\ idsrc nid n (iv_ids iv) (sid s)) (aw_held a iv') ->
    (forall id, iv_ids iv' id -> idsrc nid n (iv_ids iv) id) ->
    step_log now (iv_abs iv) arr st = aw_rec a iv' arr -> step_time now (iv_abs iv) arr st = aw_end a iv' arr ->
    step_iv now (iv_abs iv) st = iv_abs (iv_after a iv') -> step_arr now arr st = aw_arr a arr -> aw_ok a arr ->
    (forall ch, waits_on (Some a) = Some ch -> rcv = true /\ chan m ch mail = []) -> step_sends now st = [] ->
    step_res now m k rcv st iv dr nid mail arr.

Arguments StepPass {now m k rcv st iv dr nid mail arr}.
Arguments StepBlock {now m k rcv st iv dr nid mail arr}.

Definition same_ents (now : N) (dr dr1 : driver) : Prop :=
  acts now dr dr1 /\ forall x, ents_at x (pending dr1) = ents_at x (pending dr).

Lemma same_ents_refl now dr : same_ents now dr dr.
Proof. split; [apply acts_refl|reflexivity]. Qed.

Definition step_plain (now : N) (iv : option interval) (arr : arrs) (st : step) : Prop :=
  step_iv now (iv_abs iv) st = iv_abs iv /\ step_arr now arr st = arr /\ step_sends now st = [].

(* The step lemmas below take what is known when the step begins (the interval is idle, the channels inert, the
   arrivals those of the channels) as their first arguments; their premises come in the order: what run_steps
   computes, the log and the instant the property demands, then the driver. *)

Lemma step_pass_iv {now m k rcv st iv dr nid mail arr} (Hin : inert mail) (Hla : rcv = true -> LA now m mail arr) pre iv1 dr1 nid1 :
  (forall r lg, run_steps now m k (st :: r) None iv dr nid lg mail = run_steps now m k r None iv1 dr1 nid1 (lg ++ pre) mail) ->
  step_log now (iv_abs iv) arr st = pre -> step_time now (iv_abs iv) arr st = now -> step_iv now (iv_abs iv) st = iv_abs iv1 ->
  step_arr now arr st = arr /\ step_sends now st = [] ->
  nid <= nid1 -> iv_idle iv1 -> (forall id, iv_ids iv1 id -> idsrc nid nid1 (iv_ids iv) id) -> same_ents now dr dr1 ->
  step_res now m k rcv st iv dr nid mail arr.
Proof.
  intros Hrun Hlog Ht Hiv [Harr Hsn] Hn Hi1 Hids [Ha He].
  apply (StepPass pre iv1 dr1 nid1 mail Hrun Hlog Ht Hiv Hn Hi1 Hids Ha He).
  - rewrite Harr, Hsn. apply mail_ok_refl.
  - exact Hin.
  - rewrite Harr. exact Hla.
Qed.

Lemma step_pass {now m k rcv st iv dr nid mail arr} (Hi : iv_idle iv) (Hin : inert mail) (Hla : rcv = true -> LA now m mail arr) pre dr1 nid1 :
  (forall r lg, run_steps now m k (st :: r) None iv dr nid lg mail = run_steps now m k r None iv dr1 nid1 (lg ++ pre) mail) ->
  step_log now (iv_abs iv) arr st = pre -> step_time now (iv_abs iv) arr st = now -> step_plain now iv arr st ->
  nid <= nid1 -> same_ents now dr dr1 -> step_res now m k rcv st iv dr nid mail arr.
Proof.
  intros Hrun Hlog Ht (Hiv & Hp) Hn Hs.
  exact (step_pass_iv Hin Hla pre iv dr1 nid1 Hrun Hlog Ht Hiv Hp Hn Hi (fun id H => or_intror H) Hs).
Qed.

(* dr0: the driver the preparations of the step leave *)
Lemma step_block_new {now m k rcv st iv dr nid mail arr} a dr0 n :
  (forall r lg, run_steps now m k (st :: r) None iv dr nid lg mail =
                (st :: r, Some a, iv, regs (aw_held a iv) dr0, n, lg, false, mail)) ->
  step_log now (iv_abs iv) arr st = aw_rec a iv arr -> step_time now (iv_abs iv) arr st = aw_end a iv arr ->
  step_plain now iv arr st -> nid <= n -> same_ents now dr dr0 ->
  aw_kind a iv -> waits_on (Some a) = None -> iv_after a iv = iv -> NoDup (map sid (aw_held a iv)) ->
  Forall (fun s => now < deadline s /\ handle s = Some (deadline s) /\ idsrc nid n (iv_ids iv) (sid s)) (aw_held a iv) ->
  step_res now m k rcv st iv dr nid mail arr.
Proof.
  intros Hrun Hlog Ht (Hiv & Harr & Hsn) Hn [Ha He] Hk Hw Hia Hnd Hall.
  destruct (aw_noarr a iv arr arr Hw) as (_ & _ & Ea & _ & Hao).
  apply (StepBlock a iv dr0 n Hrun Hn Ha He Hk Hnd Hall (fun id H => or_intror H) Hlog Ht).
  - rewrite Hia. exact Hiv.
  - rewrite Ea. exact Harr.
  - exact Hao.
  - intros ch Hc. rewrite Hw in Hc. discriminate.
  - exact Hsn.
Qed.

Lemma await_sleep {now m k rcv st iv dr nid mail arr} (Hi : iv_idle iv) (Hin : inert mail) (Hla : rcv = true -> LA now m mail arr) D dr0 :
  (forall lg, start_step now m k st iv dr nid lg mail = (Some (AwSleep (sleep_new D nid)), iv, dr0, nid + 1, lg, mail)) ->
  step_log now (iv_abs iv) arr st = [N.max now D] -> step_time now (iv_abs iv) arr st = N.max now D ->
  step_plain now iv arr st -> same_ents now dr dr0 -> step_res now m k rcv st iv dr nid mail arr.
Proof.
  intros Hstart Hlog Ht Hp Hs.
  assert (Hrun : forall r lg, run_steps now m k (st :: r) None iv dr nid lg mail =
            if now <? D then (st :: r, Some (AwSleep (reg nid D)), iv, register nid D dr0, nid + 1, lg, false, mail)
            else run_steps now m k r None iv dr0 (nid + 1) (lg ++ [now]) mail).
  { intros r lg. cbn [run_steps]. rewrite Hstart. cbn [poll_aw poll_aw0]. unfold sleep_poll, sleep_new. cbn [deadline handle sid].
    destruct (now <? D); reflexivity. }
  destruct (now <? D) eqn:E.
  - apply (step_block_new (AwSleep (reg nid D)) dr0 (nid + 1) Hrun).
    + rewrite Hlog. cbn [aw_rec reg deadline]. replace (N.max now D) with D by lia. reflexivity.
    + rewrite Ht. cbn [aw_end aw_wake reg deadline]. lia.
    + exact Hp.
    + apply N.le_add_r.
    + exact Hs.
    + exact Hi.
    + reflexivity.
    + reflexivity.
    + repeat constructor. intros [].
    + repeat constructor; cbn [reg deadline sid]; lia.
  - apply (step_pass Hi Hin Hla [now] dr0 (nid + 1) Hrun).
    + rewrite Hlog. replace (N.max now D) with now by lia. reflexivity.
    + rewrite Ht. lia.
    + exact Hp.
    + apply N.le_add_r.
    + exact Hs.
Qed.

(* a step that creates two Sleeps, for D1 and D2, and awaits them together, polling the first one first: the task
   blocks on [a] when neither is due; when only the second is due, the first, registered by its poll, is dropped *)
Lemma step_race {now m k rcv st iv dr nid mail arr} (Hi : iv_idle iv) (Hm : Mid now dr) (Hf : fresh_in nid (pending dr))
                (Hin : inert mail) (Hla : rcv = true -> LA now m mail arr) a D1 D2 pre1 pre2 :
  (forall r lg, run_steps now m k (st :: r) None iv dr nid lg mail =
     if now <? D1 then
       if now <? D2 then (st :: r, Some a, iv, register (nid + 1) D2 (register nid D1 dr), nid + 2, lg, false, mail)
       else run_steps now m k r None iv (drop_entry nid D1 (register nid D1 dr)) (nid + 2) (lg ++ pre2) mail
     else run_steps now m k r None iv dr (nid + 2) (lg ++ pre1) mail) ->
  (now < D1 -> now < D2 -> step_log now (iv_abs iv) arr st = aw_rec a iv arr /\ step_time now (iv_abs iv) arr st = aw_end a iv arr) ->
  (now < D1 -> D2 <= now -> step_log now (iv_abs iv) arr st = pre2 /\ step_time now (iv_abs iv) arr st = now) ->
  (D1 <= now -> step_log now (iv_abs iv) arr st = pre1 /\ step_time now (iv_abs iv) arr st = now) ->
  step_plain now iv arr st ->
  aw_held a iv = [reg nid D1; reg (nid + 1) D2] -> aw_kind a iv -> waits_on (Some a) = None -> iv_after a iv = iv ->
  step_res now m k rcv st iv dr nid mail arr.
Proof.
  intros Hrun H11 H10 H0 Hp Hheld Hk Hw Hia.
  destruct (now <? D1) eqn:E1; [destruct (now <? D2) eqn:E2|].
  - destruct (H11 ltac:(lia) ltac:(lia)) as [Hlog Ht].
    apply (step_block_new a dr (nid + 2)); [rewrite Hheld; exact Hrun|exact Hlog|exact Ht|exact Hp|apply N.le_add_r|apply same_ents_refl|
                                            exact Hk|exact Hw|exact Hia| |]; rewrite Hheld.
    + repeat constructor; [intros [H|[]]; cbn [reg sid] in H; lia|intros []].
    + repeat constructor; cbn [reg deadline sid]; lia.
  - destruct (H10 ltac:(lia) ltac:(lia)) as [Hlog Ht].
    apply (step_pass Hi Hin Hla pre2 (drop_entry nid D1 (register nid D1 dr)) (nid + 2) Hrun Hlog Ht Hp (N.le_add_r _ _)). split.
    + eapply acts_trans; [apply (acts_one now dr (Register nid D1)); cbn [op_wf]; lia|].
      apply (acts_one now _ (DropEntry nid D1)). exact I.
    + intros y. apply drop_registered_ents; [exact (mid_sorted _ _ Hm)|exact Hf].
  - destruct (H0 ltac:(lia)) as [Hlog Ht].
    exact (step_pass Hi Hin Hla pre1 dr (nid + 2) Hrun Hlog Ht Hp (N.le_add_r _ _) (same_ents_refl now dr)).
Qed.

Lemma start_reset now m k polled d1 d2 iv dr nid lg mail :
  start_step now m k (SReset polled d1 d2) iv dr nid lg mail =
  (Some (AwSleep (fst (reset_prep now polled (dl now d1) (dl now d2) nid dr))), iv,
   snd (reset_prep now polled (dl now d1) (dl now d2) nid dr), nid + 1, lg, mail).
Proof.
  cbn [start_step start_step0]. unfold reset_prep.
  destruct polled; [destruct (sleep_poll now (sleep_new (dl now d1) nid) dr) as [[r0 s1] dr1]|]; reflexivity.
Qed.

Lemma start_keep now m k rearm d0 d2 x d3 iv dr nid lg mail :
  start_step now m k (SKeep rearm d0 d2 x d3) iv dr nid lg mail =
  (Some (AwKeep rearm d3 (fst (reset_prep now true (dl now d0) (dl now d2) nid dr)) (sleep_new (now + x) (nid + 1))), iv,
   snd (reset_prep now true (dl now d0) (dl now d2) nid dr), nid + 2, lg, mail).
Proof.
  cbn [start_step start_step0]. unfold reset_prep.
  destruct (sleep_poll now (sleep_new (dl now d0) nid) dr) as [[r0 s1] dr1]. reflexivity.
Qed.

Lemma step_tick now m k rcv iv dr nid mail arr : iv_idle iv -> inert mail -> (rcv = true -> LA now m mail arr) ->
  step_res now m k rcv SIvTick iv dr nid mail arr.
Proof.
  intros Hi Hin Hla. destruct iv as [[[dd ii hh] pp bb]|].
  - cbn [iv_idle iv_delay handle] in Hi. subst hh.
    assert (Hrun : forall r lg, run_steps now m k (SIvTick :: r) None (Some {| iv_delay := sleep_new dd ii; iv_period := pp; iv_beh := bb |}) dr nid lg mail =
              if now <? dd then
                (SIvTick :: r, Some AwTick, Some {| iv_delay := reg ii dd; iv_period := pp; iv_beh := bb |}, register ii dd dr, nid, lg, false, mail)
              else run_steps now m k r None (Some {| iv_delay := sleep_new (tick_next bb dd now pp) ii; iv_period := pp; iv_beh := bb |})
                             dr nid (lg ++ [now; dd]) mail).
    { intros r lg. cbn [run_steps start_step start_step0 poll_aw poll_aw0]. unfold poll_tick, sleep_poll, sleep_new.
      cbn [iv_delay iv_period iv_beh deadline handle sid]. destruct (now <? dd); reflexivity. }
    destruct (now <? dd) eqn:E.
    + assert (Hmax : N.max now dd = dd) by lia.
      apply (StepBlock AwTick (Some {| iv_delay := reg ii dd; iv_period := pp; iv_beh := bb |}) dr nid Hrun (N.le_refl _)
               (acts_refl _ _) (fun x => eq_refl)).
      * discriminate.
      * repeat constructor. intros [].
      * constructor; [|constructor]. cbn [iv_delay reg deadline sid handle]. split; [lia|]. split; [reflexivity|]. right. eexists. split; reflexivity.
      * intros id (i' & E' & ->). injection E' as <-. right. eexists. split; reflexivity.
      * cbn [step_log iv_abs iv_delay sleep_new deadline]. rewrite Hmax. reflexivity.
      * cbn [step_time iv_abs iv_delay sleep_new deadline]. exact Hmax.
      * (* taken at exactly its instant, the tick is not a missed one *)
        cbn [step_iv iv_abs iv_delay iv_period iv_beh sleep_new deadline]. rewrite Hmax, tick_next_on_time by lia. reflexivity.
      * reflexivity.
      * exact I.
      * intros ch H. discriminate H.
      * reflexivity.
    + assert (Hmax : N.max now dd = now) by lia.
      apply (step_pass_iv Hin Hla [now; dd] (Some {| iv_delay := sleep_new (tick_next bb dd now pp) ii; iv_period := pp; iv_beh := bb |}) dr nid Hrun).
      * cbn [step_log iv_abs iv_delay sleep_new deadline]. rewrite Hmax. reflexivity.
      * cbn [step_time iv_abs iv_delay sleep_new deadline]. exact Hmax.
      * cbn [step_iv iv_abs iv_delay iv_period iv_beh sleep_new deadline]. rewrite Hmax. reflexivity.
      * split; reflexivity.
      * apply N.le_refl.
      * reflexivity.
      * intros id (i' & E' & ->). injection E' as <-. right. eexists. split; reflexivity.
      * apply same_ents_refl.
  - apply (step_pass Hi Hin Hla [now; 0] dr nid).
    + intros r lg. reflexivity.
    + reflexivity.
    + reflexivity.
    + repeat split.
    + apply N.le_refl.
    + apply same_ents_refl.
Qed.

Lemma step_recv now m d ch k iv dr nid mail arr : d < FARK -> iv_idle iv -> inert mail -> LA now m mail arr ->
  step_ok now arr (STimeoutRecv d ch) -> step_res now m k true (STimeoutRecv d ch) iv dr nid mail arr.
Proof.
  intros Hd Hi Hin Hla Hsok. cbn [step_ok] in Hsok. destruct Hsok as [Hfin Htie].
  destruct (Hla ch) as (F & EF & Hpast & Hfut).
  assert (Hrun : forall r lg, run_steps now m k (STimeoutRecv d ch :: r) None iv dr nid lg mail =
            match mail_take m ch mail with
            | Some (s, mail') => run_steps now m k r None iv (sleep_drop s dr) (nid + 1) (lg ++ [now; 1]) mail'
            | None => if now <? now + d
                      then (STimeoutRecv d ch :: r, Some (AwTimeout (VRecv ch) (reg nid (now + d))), iv, register nid (now + d) dr, nid + 1, lg, false, mail)
                      else run_steps now m k r None iv dr (nid + 1) (lg ++ [now; 0]) mail
            end).
  { intros r lg. cbn [run_steps start_step start_step0 poll_aw]. unfold timeout_poll, vpoll_m. cbn [fst snd]. rewrite (dl_fin now d Hd).
    destruct (mail_take m ch mail) as [[s mail']|]; [reflexivity|].
    unfold sleep_poll, sleep_new. cbn [deadline handle sid]. destruct (now <? now + d); reflexivity. }
  destruct (mail_take m ch mail) as [[s mail']|] eqn:Em.
  - destruct (mail_take_some _ _ _ _ _ Em) as (Ec & Eo & Ei). destruct (Ei Hin) as [Hs Hin']. clear Ei.
    rewrite Ec in EF, Hpast. cbn [map app] in EF, Hpast. pose proof (Forall_inv Hpast) as Hsle. cbn beta in Hsle.
    assert (Hhit : recv_hit now d (arr ch) = Some (deadline s)).
    { rewrite EF in Htie |- *. cbn [recv_hit]. replace (deadline s <? now + d) with true by lia. reflexivity. }
    unfold sleep_drop in Hrun. rewrite Hs in Hrun.
    apply (StepPass [now; 1] iv dr (nid + 1) mail' Hrun).
    + cbn [step_log]. rewrite Hhit. replace (N.max now (deadline s)) with now by lia. reflexivity.
    + cbn [step_time]. rewrite Hhit. lia.
    + reflexivity.
    + apply N.le_add_r.
    + exact Hi.
    + intros id H. right. exact H.
    + apply acts_refl.
    + reflexivity.
    + cbn [step_arr]. rewrite Hhit. exact (mail_ok_take now m k mail mail' arr ch s Em).
    + exact Hin'.
    + cbn [step_arr]. rewrite Hhit. intros _. exact (LA_take now m mail mail' arr ch s Em Hla).
  - apply mail_take_none in Em. rewrite Em in EF. cbn [map app] in EF.
    destruct (now <? now + d) eqn:Ed.
    + assert (Hmax : match recv_hit now d (arr ch) with Some a0 => N.max now a0 = a0 | None => True end).
      { rewrite EF. destruct Hfut as [|a0 F' Ha0 _]; [exact I|]. cbn [recv_hit]. destruct (a0 <? now + d); [lia|exact I]. }
      apply (StepBlock (AwTimeout (VRecv ch) (reg nid (now + d))) iv dr (nid + 1) Hrun (N.le_add_r _ _) (acts_refl _ _) (fun x => eq_refl) Hi).
      * repeat constructor. intros [].
      * repeat constructor; cbn [reg deadline sid]; lia.
      * intros id H. right. exact H.
      * cbn [step_log aw_rec reg deadline]. change (aw_hit (now + d) (arr ch)) with (recv_hit now d (arr ch)).
        destruct (recv_hit now d (arr ch)); [rewrite Hmax|]; reflexivity.
      * cbn [step_time aw_end reg deadline]. change (aw_hit (now + d) (arr ch)) with (recv_hit now d (arr ch)).
        destruct (recv_hit now d (arr ch)); [exact Hmax|reflexivity].
      * reflexivity.
      * reflexivity.
      * split; [exact Hfin|exact Htie].
      * intros c H0. injection H0 as <-. split; [reflexivity|exact Em].
      * reflexivity.
    + (* d = 0: elapsed at once *)
      assert (Hhit : recv_hit now d (arr ch) = None).
      { rewrite EF. destruct Hfut as [|a0 F' Ha0 _]; [reflexivity|]. cbn [recv_hit]. replace (a0 <? now + d) with false by lia. reflexivity. }
      apply (step_pass Hi Hin (fun _ => Hla) [now; 0] dr (nid + 1) Hrun).
      * cbn [step_log]. rewrite Hhit. replace (now + d) with now by lia. reflexivity.
      * cbn [step_time]. rewrite Hhit. lia.
      * split; [reflexivity|]. split; [cbn [step_arr]; rewrite Hhit; reflexivity|reflexivity].
      * apply N.le_add_r.
      * apply same_ents_refl.
Qed.

Lemma step_keep now m k rcv rearm d0 d2 x d3 iv dr nid mail arr : d2 < FARK /\ x < FARK /\ d3 < FARK -> iv_idle iv -> Mid now dr ->
  fresh_in nid (pending dr) -> inert mail -> (rcv = true -> LA now m mail arr) ->
  step_res now m k rcv (SKeep rearm d0 d2 x d3) iv dr nid mail arr.
Proof.
  intros Hst Hi Hm Hf Hin Hla. pose proof (prep_drv_spec now nid rcv (SKeep rearm d0 d2 x d3) dr Hst Hm Hf) as Hp. cbn [prep_drv] in Hp.
  destruct Hst as (Hd2 & Hx & Hd3). pose proof (mid_sorted _ _ Hm) as Hs.
  destruct (reset_prep_spec now true (dl now d0) (dl now d2) nid dr Hs Hf) as (E1 & _).
  rewrite (dl_fin now d2 Hd2), ?(dl_fin now d3 Hd3) in *.
  set (dr2 := snd (reset_prep now true (dl now d0) (now + d2) nid dr)) in *.
  assert (Hrun : forall r lg, run_steps now m k (SKeep rearm d0 d2 x d3 :: r) None iv dr nid lg mail =
            if now <? now + d2 then
              if now <? now + x then
                (SKeep rearm d0 d2 x d3 :: r, Some (AwKeep rearm d3 (reg nid (now + d2)) (reg (nid + 1) (now + x))), iv,
                 register (nid + 1) (now + x) (register nid (now + d2) dr2), nid + 2, lg, false, mail)
              else if rearm then
                if now <? now + d3 then
                  (SKeep rearm d0 d2 x d3 :: r, Some (AwThen [now; 1] (reg nid (now + d3))), iv,
                   register nid (now + d3) (reset_entry nid (now + d2) (now + d3) (register nid (now + d2) dr2)), nid + 2, lg, false, mail)
                else run_steps now m k r None iv (reset_entry nid (now + d2) (now + d3) (register nid (now + d2) dr2)) (nid + 2) (lg ++ [now; 1; now]) mail
              else run_steps now m k r None iv (drop_entry nid (now + d2) (register nid (now + d2) dr2)) (nid + 2) (lg ++ [now; 1; now]) mail
            else run_steps now m k r None iv dr2 (nid + 2) (lg ++ [now; 0]) mail).
  { intros r lg. cbn [run_steps]. rewrite start_keep, (dl_fin now d2 Hd2), E1. fold dr2. cbn [poll_aw poll_aw0].
    unfold sleep_poll, sleep_new. cbn [deadline handle sid].
    destruct (now <? now + d2); [|reflexivity]. destruct (now <? now + x); [reflexivity|].
    destruct rearm; [|reflexivity]. unfold sleep_reset, sleep_drop. cbn [deadline handle sid fst snd]. rewrite (dl_fin now d3 Hd3).
    unfold sleep_poll. cbn [deadline handle sid]. destruct (now <? now + d3); reflexivity. }
  destruct (now <? now + d2) eqn:E2; [destruct (now <? now + x) eqn:Ex|]; cbn [andb negb] in Hp.
  - apply (step_block_new (AwKeep rearm d3 (reg nid (now + d2)) (reg (nid + 1) (now + x))) dr2 (nid + 2) Hrun).
    + cbn [step_log aw_rec reg deadline]. replace (now + d2 <=? now + x) with (d2 <=? x) by lia. reflexivity.
    + cbn [step_time aw_end reg deadline]. replace (now + d2 <=? now + x) with (d2 <=? x) by lia. reflexivity.
    + repeat split.
    + apply N.le_add_r.
    + exact Hp.
    + split; [exact Hi|exact Hd3].
    + reflexivity.
    + reflexivity.
    + repeat constructor; [intros [H|[]]; cbn [reg sid] in H; lia|intros []].
    + repeat constructor; cbn [reg deadline sid]; lia.
  - (* sleep(x) is due at once, the kept timer is not: x = 0 < d2 *)
    assert (Hd20 : (d2 <=? x) = false) by lia.
    destruct rearm; [destruct (now <? now + d3) eqn:E3|].
    + (* re-armed for a later instant: blocked on the kept timer alone *)
      apply (step_block_new (AwThen [now; 1] (reg nid (now + d3))) (reset_entry nid (now + d2) (now + d3) (register nid (now + d2) dr2)) (nid + 2) Hrun).
      * cbn [step_log aw_rec reg deadline app]. rewrite Hd20. replace (now + x) with now by lia. reflexivity.
      * cbn [step_time aw_end aw_wake reg deadline]. rewrite Hd20. lia.
      * repeat split.
      * apply N.le_add_r.
      * exact Hp.
      * exact Hi.
      * reflexivity.
      * reflexivity.
      * repeat constructor. intros [].
      * repeat constructor; cbn [reg deadline sid]; lia.
    + (* re-armed for this very instant *)
      apply (step_pass Hi Hin Hla [now; 1; now] (reset_entry nid (now + d2) (now + d3) (register nid (now + d2) dr2)) (nid + 2) Hrun).
      * cbn [step_log]. rewrite Hd20. replace (now + x) with now by lia. replace (now + d3) with now by lia. reflexivity.
      * cbn [step_time]. rewrite Hd20. lia.
      * repeat split.
      * apply N.le_add_r.
      * exact Hp.
    + apply (step_pass Hi Hin Hla [now; 1; now] (drop_entry nid (now + d2) (register nid (now + d2) dr2)) (nid + 2) Hrun).
      * cbn [step_log]. rewrite Hd20. replace (now + x) with now by lia. rewrite N.add_0_r. reflexivity.
      * cbn [step_time]. rewrite Hd20. lia.
      * repeat split.
      * apply N.le_add_r.
      * exact Hp.
  - assert (Hd2x : (d2 <=? x) = true) by lia.
    apply (step_pass Hi Hin Hla [now; 0] dr2 (nid + 2) Hrun).
    + cbn [step_log]. rewrite Hd2x. replace (now + d2) with now by lia. reflexivity.
    + cbn [step_time]. rewrite Hd2x. lia.
    + repeat split.
    + apply N.le_add_r.
    + exact Hp.
Qed.

Lemma step_cases now m k rcv st iv dr nid mail arr :
  frag_step2 rcv st -> iv_idle iv -> Mid now dr -> fresh_in nid (pending dr) -> inert mail ->
  (rcv = true -> LA now m mail arr) -> step_ok now arr st -> step_res now m k rcv st iv dr nid mail arr.
Proof.
  intros Hst Hi Hm Hf Hin Hla Hsok.
  pose proof (prep_drv_spec now nid rcv st dr Hst Hm Hf) as Hp.
  destruct st as [d|t|d v|biased a b|p bh| | |polled d1 d2|d| |ch d|ch|d ch|rf ch d|rearm d0 d2 x d3|wf d|wr chi cho];
    cbn [frag_step2 frag_step] in Hst; try contradiction; cbn [prep_drv] in Hp.
  - (* sleep *)
    apply (await_sleep Hi Hin Hla (now + d) dr).
    + intros lg. reflexivity.
    + cbn [step_log]. replace (N.max now (now + d)) with (now + d) by lia. reflexivity.
    + cbn [step_time]. lia.
    + repeat split.
    + exact Hp.
  - (* sleep_until *)
    apply (await_sleep Hi Hin Hla t dr).
    + intros lg. reflexivity.
    + reflexivity.
    + reflexivity.
    + repeat split.
    + exact Hp.
  - (* timeout around a sleep *)
    destruct v as [x|]; [|contradiction]. destruct Hst as [Hd Hx].
    apply (step_race Hi Hm Hf Hin Hla (AwTimeout (VSleep (reg nid (now + x))) (reg (nid + 1) (now + d))) (now + x) (now + d) [now; 1] [now; 0]).
    + intros r lg. cbn [run_steps start_step start_step0 poll_aw]. unfold timeout_poll, vpoll_m. cbn [fst snd vpoll].
      unfold sleep_poll, sleep_new. cbn [deadline handle sid]. rewrite (dl_fin now d Hd).
      destruct (now <? now + x); [destruct (now <? now + d)|]; reflexivity.
    + intros H1 H2. cbn [step_log step_time aw_rec aw_end aw_wake reg deadline]. rewrite N.add_min_distr_l.
      replace (now + x <=? now + d) with (x <=? d) by lia. split; reflexivity.
    + (* the delay is due: d = 0 *)
      intros H1 H2. cbn [step_log step_time]. replace (N.min x d) with 0 by lia. replace (x <=? d) with false by lia.
      rewrite N.add_0_r. split; reflexivity.
    + (* the value is due: x = 0 *)
      intros H1. cbn [step_log step_time]. replace (N.min x d) with 0 by lia. replace (x <=? d) with true by lia.
      rewrite N.add_0_r. split; reflexivity.
    + repeat split.
    + reflexivity.
    + exact Hi.
    + reflexivity.
    + reflexivity.
  - (* select over two sleeps *)
    destruct Hst as [Ha Hb].
    apply (step_race Hi Hm Hf Hin Hla (AwSelect biased (a =? b) (reg nid (now + a)) (reg (nid + 1) (now + b))) (now + a) (now + b)
             [now; if biased || negb (a =? b) then 0 else 2] [now; if biased || negb (a =? b) then 1 else 2]).
    + intros r lg. cbn [run_steps start_step start_step0 poll_aw poll_aw0]. rewrite (dl_fin now a Ha), (dl_fin now b Hb).
      unfold sleep_poll, sleep_new. cbn [deadline handle sid].
      destruct (now <? now + a); [destruct (now <? now + b)|]; reflexivity.
    + intros H1 H2. cbn [step_log step_time aw_rec aw_end aw_wake reg deadline]. rewrite N.add_min_distr_l. unfold sel_code.
      replace (now + a <=? now + b) with (a <=? b) by lia. replace (now + a =? now + b) with (a =? b) by lia. split; reflexivity.
    + (* sleep(b) is due at once: b = 0 < a *)
      intros H1 H2. cbn [step_log step_time]. unfold sel_code. replace (N.min a b) with 0 by lia. replace (a <=? b) with false by lia.
      replace (a =? b) with false by lia. rewrite orb_true_r, N.add_0_r. split; reflexivity.
    + (* sleep(a) is due at once: a = 0 *)
      intros H1. cbn [step_log step_time]. unfold sel_code. replace (N.min a b) with 0 by lia. replace (a <=? b) with true by lia.
      rewrite N.add_0_r. split; reflexivity.
    + repeat split.
    + reflexivity.
    + (* a tie of the deadlines is a tie of the durations *) split; [exact Hi|cbn [reg deadline]; lia].
    + reflexivity.
    + reflexivity.
  - (* a new interval: the old one, idle, is dropped *)
    apply (step_pass_iv Hin Hla [] (Some (interval_new now p bh nid)) dr (nid + 1)).
    + intros r lg. cbn [run_steps start_step start_step0]. rewrite (iv_drop_idle iv dr Hi), app_nil_r. reflexivity.
    + reflexivity.
    + reflexivity.
    + reflexivity.
    + split; reflexivity.
    + apply N.le_add_r.
    + reflexivity.
    + intros id (i & E & ->). injection E as <-. left. cbn [interval_new iv_delay sleep_new sid]. lia.
    + apply same_ents_refl.
  - exact (step_tick now m k rcv iv dr nid mail arr Hi Hin Hla).
  - (* the interval, idle, is dropped *)
    apply (step_pass_iv Hin Hla [] None dr nid).
    + intros r lg. cbn [run_steps start_step start_step0]. rewrite (iv_drop_idle iv dr Hi), app_nil_r. reflexivity.
    + reflexivity.
    + reflexivity.
    + reflexivity.
    + split; reflexivity.
    + apply N.le_refl.
    + exact I.
    + intros id (i & E & _). discriminate E.
    + apply same_ents_refl.
  - (* reset *)
    destruct Hst as [Hd1 Hd2]. pose proof (mid_sorted _ _ Hm) as Hs.
    destruct (reset_prep_spec now polled (dl now d1) (dl now d2) nid dr Hs Hf) as (E1 & _).
    apply (await_sleep Hi Hin Hla (dl now d2) (snd (reset_prep now polled (dl now d1) (dl now d2) nid dr))).
    + intros lg. rewrite start_reset, E1. reflexivity.
    + cbn [step_log]. rewrite (dl_fin now d2 Hd2). replace (N.max now (now + d2)) with (now + d2) by lia. reflexivity.
    + cbn [step_time]. rewrite (dl_fin now d2 Hd2). lia.
    + repeat split.
    + exact Hp.
  - (* drop *)
    apply (step_pass Hi Hin Hla [now] (let '(_, s1, dr1) := sleep_poll now (sleep_new (dl now d) nid) dr in sleep_drop s1 dr1) (nid + 1)).
    + intros r lg. cbn [run_steps start_step start_step0]. destruct (sleep_poll now (sleep_new (dl now d) nid) dr) as [[r0 s1] dr1]. reflexivity.
    + reflexivity.
    + reflexivity.
    + repeat split.
    + apply N.le_add_r.
    + exact Hp.
  - (* log *)
    apply (step_pass Hi Hin Hla [now] dr nid).
    + intros r lg. reflexivity.
    + reflexivity.
    + reflexivity.
    + repeat split.
    + apply N.le_refl.
    + exact Hp.
  - (* hand-over of an elapsed Sleep *)
    destruct Hst as [-> ->].
    apply (StepPass [now] iv dr (nid + 1) (mail ++ [(m, ch, k, token now 0 nid)])).
    + intros r lg. cbn [run_steps start_step]. unfold sleep_poll, sleep_new. cbn [deadline handle sid].
      replace (now <? now + 0) with false by lia. reflexivity.
    + reflexivity.
    + reflexivity.
    + reflexivity.
    + apply N.le_add_r.
    + exact Hi.
    + intros id H. right. exact H.
    + apply acts_refl.
    + reflexivity.
    + exists [(m, ch, k, token now 0 nid)]. split; [reflexivity|]. split; [constructor; [exists ch, nid; reflexivity|constructor]|].
      split; reflexivity.
    + apply Forall_app. split; [exact Hin|constructor; [reflexivity|constructor]].
    + intros H. discriminate H.
  - destruct Hst as [-> Hd]. exact (step_recv now m d ch k iv dr nid mail arr Hd Hi Hin (Hla eq_refl) Hsok).
  - exact (step_keep now m k rcv rearm d0 d2 x d3 iv dr nid mail arr Hst Hi Hm Hf Hin Hla).
Qed.

Lemma run_steps_spec now m k rcv steps : Forall (frag_step2 rcv) steps -> forall nid iv dr mail arr lg,
  iv_idle iv -> Mid now dr -> (forall x id, In id (ents_at x (pending dr)) -> id < nid) ->
  inert mail -> (rcv = true -> LA now m mail arr) -> recv_ok now (iv_abs iv) arr steps ->
  exists o b n d' ml,
    run_steps now m k steps None iv dr nid lg mail = (fr_steps b, fr_cur b, fr_iv b, d', n, lg ++ o, false, ml) /\
    poll_ok now nid m k rcv (iv_ids iv) dr mail arr (exp_run now (iv_abs iv) arr steps) (exp_sends now (iv_abs iv) steps)
            (o, b, n, d', ml) /\
    (length (fr_steps b) <= length steps)%nat.
Proof.
  induction 1 as [|st r Hst Hr IH]; intros nid iv dr mail arr lg Hi Hm Hfr Hin Hla Hok.
  { exists [], None, nid, dr, mail. cbn [run_steps fr_steps fr_cur fr_iv exp_run exp_sends].
    rewrite (iv_drop_idle iv dr Hi), app_nil_r. split; [reflexivity|]. split; [|apply Nat.le_refl].
    split; [apply N.le_refl|]. split; [apply acts_refl|]. split; [intros x; rewrite app_nil_r; reflexivity|].
    exists arr. split; [reflexivity|apply mail_ok_refl]. }
  assert (Hf : fresh_in nid (pending dr)) by (intros x Hin'; specialize (Hfr x nid Hin'); lia).
  cbn [recv_ok] in Hok. destruct Hok as [Hsok Hokr]. cbn [exp_run]. rewrite (exp_sends_cons rcv now (iv_abs iv) arr st r Hst Hr).
  destruct (step_cases now m k rcv st iv dr nid mail arr Hst Hi Hm Hf Hin Hla Hsok)
    as [pre iv1 dr1 nid1 mail1 Hrun Hlog Ht Hiv Hn Hi1 Hids Ha He Hmo Hin1 Hla1
       |a iv' dr0 n Hrun Hn Ha He Hk Hnd Hall Hids Hlog Ht Hiv Harr Hao Hw Hsn].
  - rewrite Hlog, Ht, Hiv in *.
    destruct (IH nid1 iv1 dr1 mail1 (step_arr now arr st) (lg ++ pre) Hi1 (acts_mid _ _ _ Ha Hm)) as (o & b & n & d' & ml & Hrs & Hpo & Hlen);
      try assumption.
    { intros x id Hx. rewrite He in Hx. specialize (Hfr x id Hx). lia. }
    exists (pre ++ o), b, n, d', ml. split; [rewrite Hrun, Hrs, app_assoc; reflexivity|]. split; [|cbn [length]; lia].
    exact (poll_ok_pass now nid nid1 m k rcv (iv_ids iv) (iv_ids iv1) dr dr1 mail mail1 arr _ _ pre _ _ (o, b, n, d', ml) Hn Hids Ha He Hmo Hpo).
  - destruct (regs_spec now (aw_held a iv')) with (dr := dr0) as [Har Her].
    { eapply Forall_impl; [|exact Hall]. intros s H. exact (proj1 H). }
    { exact (mid_sorted _ _ (acts_mid _ _ _ Ha Hm)). }
    exists [], (Some (a, iv', st :: r)), n, (regs (aw_held a iv') dr0), mail.
    split; [rewrite Hrun, app_nil_r; reflexivity|]. split; [|apply Nat.le_refl].
    split; [exact Hn|]. split; [exact (acts_trans _ _ _ _ Ha Har)|]. split; [intros x; rewrite Her, He; reflexivity|].
    exists arr, st, r. rewrite Hlog, Ht, Hiv, Harr, Hsn in *. cbn [app].
    split; [reflexivity|]. split; [exact Hr|]. split; [reflexivity|]. split; [exact (blocked_intro _ _ _ _ _ _ Hk Hnd Hall Hids)|].
    split; [apply mail_ok_refl|]. split; [exact Hao|]. split; [exact Hokr|exact Hw].
Qed.

(* Burst, over a whole sequence of ticks with work of [busy_k] ns after the k-th: the k-th tick
   has the value start + k * period whatever the delays, and returns at that instant or, if
   the task arrives later, at once *)
Fixpoint burst_log (now start p : N) (k : nat) (busy : list N) : list N :=
  match busy with
  | [] => []
  | d :: r =>
    let nom := start + N.of_nat k * p in
    let t := N.max now nom in
    t :: nom :: (if d =? 0 then burst_log t start p (S k) r else (t + d) :: burst_log (t + d) start p (S k) r)
  end.

Fixpoint burst_end (now start p : N) (k : nat) (busy : list N) : N :=
  match busy with
  | [] => now
  | d :: r => burst_end (N.max now (start + N.of_nat k * p) + d) start p (S k) r
  end.

Lemma exp_run_burst busy : forall now start p k arr r,
  exp_run now (Some (start + N.of_nat k * p, p, Burst)) arr (ticks busy ++ r) =
  burst_log now start p k busy ++
  exp_run (burst_end now start p k busy) (Some (start + N.of_nat (k + length busy) * p, p, Burst)) arr r.
Proof.
  induction busy as [|d bs IH]; intros now start p k arr r.
  - cbn [ticks app burst_log burst_end length]. rewrite Nat.add_0_r. reflexivity.
  - cbn [ticks app burst_log burst_end length exp_run step_log step_time step_iv step_arr]. rewrite tick_next_burst.
    replace (start + N.of_nat k * p + p) with (start + N.of_nat (S k) * p) by lia.
    replace (k + S (length bs))%nat with (S k + length bs)%nat by lia.
    destruct (d =? 0) eqn:E.
    + replace (N.max now (start + N.of_nat k * p) + d) with (N.max now (start + N.of_nat k * p)) by lia.
      rewrite IH. reflexivity.
    + cbn [app exp_run step_log step_time step_iv step_arr]. rewrite IH. reflexivity.
Qed.

(* the branch a select over sleep(a), sleep(b) reports, spelled out *)
Lemma sel_code_cases biased a b :
  sel_code biased a b = if a <? b then 0 else if b <? a then 1 else if biased then 0 else 2.
Proof.
  unfold sel_code. destruct (a <? b) eqn:E1.
  - replace (a <=? b) with true by lia. replace (a =? b) with false by lia. rewrite orb_true_r. reflexivity.
  - destruct (b <? a) eqn:E2.
    + replace (a <=? b) with false by lia. reflexivity.
    + replace (a <=? b) with true by lia. replace (a =? b) with true by lia. destruct biased; reflexivity.
Qed.

(* ---- tasks that do not receive ---- *)
(* their demanded log does not depend on the arrivals, and they have no ties *)
Lemma exp_run_noarr steps : Forall (frag_step2 false) steps -> forall now iv arr arr',
  exp_run now iv arr steps = exp_run now iv arr' steps.
Proof.
  induction 1 as [|st r Hst _ IH]; intros now iv arr arr'; [reflexivity|]. cbn [exp_run].
  assert (H : step_log now iv arr st = step_log now iv arr' st /\ step_time now iv arr st = step_time now iv arr' st /\
              step_arr now arr st = arr /\ step_arr now arr' st = arr').
  { destruct st; cbn [frag_step2] in Hst; cbn [step_log step_time step_arr]; try (repeat split; reflexivity). destruct Hst as [H _]; discriminate. }
  destruct H as (-> & -> & -> & ->). rewrite (IH _ _ arr arr'). reflexivity.
Qed.

Lemma recv_ok_noarr steps : Forall (frag_step2 false) steps -> forall now iv arr, recv_ok now iv arr steps.
Proof.
  induction 1 as [|st r Hst _ IH]; intros now iv arr; cbn [recv_ok]; [exact I|]. split; [|apply IH].
  destruct st; cbn [frag_step2] in Hst; cbn [step_ok]; try exact I. destruct Hst as [H _]; discriminate.
Qed.

Lemma frag_steps_send_only steps : Forall frag_step steps -> Forall (frag_step2 false) steps.
Proof. intros H. eapply Forall_impl; [|exact H]. intros st. apply frag_step_any_rcv. Qed.

(* the instants of a task's future messages are not before the instant it is at *)
Lemma step_time_mono now iv arr st : now <= step_time now iv arr st.
Proof.
  destruct st; cbn [step_time]; try lia.
  - destruct v; lia.
  - destruct iv as [[[nx p] b]|]; lia.
  - destruct (recv_hit now d (arr ch)); lia.
  - destruct (d2 <=? x); lia.
Qed.

Lemma exp_sends_ge steps : forall now iv c t, In (c, t) (exp_sends now iv steps) -> now <= t.
Proof.
  induction steps as [|st r IH]; intros now iv c t H; cbn [exp_sends] in H; [contradiction|].
  apply in_app_or in H. destruct H as [H|H].
  - destruct st; try contradiction. destruct H as [H|[]]. injection H as _ <-. lia.
  - specialize (IH _ _ _ _ H). pose proof (step_time_mono now iv noarr st). lia.
Qed.
