(* Forward simulation between the composite timer model over C01's event-set SPECIFICATION
   (Timer/Model.v) and the same model over the concrete calendar queue (Timer/ModelCq.v), using
   C01's one-step refinement relation (CQueue/Client.v).
   Result: for all n, t >= 1 both runs end in the same state of tasks, drivers, waker table and
   channels, and print the same output.
   An add BEFORE the set's clock is rejected by both sides (the real queue panics; both models
   return the state unchanged), so the simulation holds for every script.  Inside the proved
   fragment such an add never happens: the wake-up that deactivate schedules lies strictly after
   the event's instant (Timer/Inv.v mid_nw). *)
From Coq Require Import List NArith PArith Bool Lia Permutation.
From DesVerif Require Import Common.Fuel Common.Codec CQueue.Model CQueue.Spec CQueue.Refine CQueue.Client
  Timer.Driver Timer.Futures Timer.Model Timer.ModelCq.
Import ListNotations.
Open Scope N_scope.

(* ---- nothing below the event loop looks at the event set ---- *)
Lemma drv_of_set_fes w g m : drv_of (set_fes w g) m = drv_of w m.
Proof. reflexivity. Qed.

Lemma set_drv_set_fes w g m d : set_drv (set_fes w g) m d = set_fes (set_drv w m d) g.
Proof. unfold set_drv, set_fes. destruct (m =? 0); reflexivity. Qed.

Lemma set_fes_id w : set_fes w (w_fes w) = w.
Proof. destruct w; reflexivity. Qed.

Lemma poll_task_fes wfix now m k w g :
  poll_task wfix now m k (set_fes w g) = (set_fes (fst (poll_task wfix now m k w)) g, snd (poll_task wfix now m k w)).
Proof.
  unfold poll_task. cbn [set_fes w_tasks w_nid w_mail w_owner]. rewrite drv_of_set_fes.
  destruct (nth_error (w_tasks w) k) as [tk|]; [|reflexivity]. destruct (t_fin tk); [reflexivity|].
  destruct (run_steps now m k (t_steps tk) (t_cur tk) (t_iv tk) (drv_of w m) (w_nid w) (t_log tk) (w_mail w)) as [[[[[[[steps cur] iv] dr] nid] lg] sw] mail].
  rewrite set_drv_set_fes. unfold set_drv, set_fes. destruct (m =? 0); reflexivity.
Qed.

Lemma run_queue_fes wfix fuel now m g : forall q w,
  run_queue wfix fuel now m q (set_fes w g) = set_fes (run_queue wfix fuel now m q w) g.
Proof.
  induction fuel as [|f IH]; intros q w; cbn [run_queue]; [reflexivity|]. destruct q as [|k r]; [reflexivity|].
  rewrite poll_task_fes. destruct (poll_task wfix now m k w) as [w' sw]. cbn [fst snd set_fes w_mail w_tasks]. apply IH.
Qed.

(* ---- the relation: C01's R on the event sets, everything else equal ---- *)
Definition Rel (w : world) (cw : cworld) : Prop :=
  (exists hs, R (c_q cw) (w_fes w) hs) /\ c_w cw = set_fes w sp_new.

Lemma Rq_cq_add q s time pay : Rq q s -> Rq (cq_add q time pay) (fst (fst (sp_add s time pay))).
Proof. intros H. apply (Rq_add q s time pay H). Qed.

Lemma w_fes_set_drv w m d : w_fes (set_drv w m d) = w_fes w.
Proof. unfold set_drv. destruct (m =? 0); reflexivity. Qed.

Lemma run_queue_w_fes wfix fuel now m q w : w_fes (run_queue wfix fuel now m q w) = w_fes w.
Proof.
  pose proof (run_queue_fes wfix fuel now m (w_fes w) q w) as H. rewrite set_fes_id in H.
  rewrite H at 1. reflexivity.
Qed.

Lemma module_event_sim wfix t m spawn fire w cw : Rel w cw ->
  Rel (module_event wfix t m spawn fire w) (module_event_cq wfix t m spawn fire cw).
Proof.
  intros [HR Ew]. destruct cw as [q cw0]. cbn [c_q c_w] in *. subst cw0.
  unfold module_event, module_event_cq. cbn [c_q c_w]. rewrite drv_of_set_fes.
  destruct (activate t (if fire then sched_fire t (drv_of w m) else drv_of w m)) as [woken dr1].
  change (w_owner (set_fes w sp_new)) with (w_owner w).
  rewrite set_drv_set_fes.
  change (queue_fuel (set_fes (set_drv w m dr1) sp_new)) with (queue_fuel (set_drv w m dr1)).
  rewrite run_queue_fes, drv_of_set_fes.
  set (w2 := run_queue wfix _ t m _ (set_drv w m dr1)).
  assert (Ef : w_fes w2 = w_fes w) by (unfold w2; rewrite run_queue_w_fes; apply w_fes_set_drv).
  destruct (deactivate true (drv_of w2 m)) as [dr3 wk]. rewrite set_drv_set_fes.
  split; cbn [c_q c_w w_fes set_fes].
  - rewrite w_fes_set_drv, Ef. destruct wk as [x|]; [apply Rq_cq_add|]; exact HR.
  - unfold set_drv. destruct (m =? 0); reflexivity.
Qed.

Lemma inject_sim ts : forall i f q, Rq q f -> Rq (inject_cq i ts q) (inject i ts f).
Proof.
  induction ts as [|tk r IH]; intros i f q H; cbn [inject inject_cq]; [exact H|]. apply IH.
  destruct (t_start tk =? 0); [exact H|]. apply Rq_cq_add, H.
Qed.

Lemma init_sim n t ts : n <> 0 -> t <> 0 -> Rel (init_world ts) (init_world_cq n t ts).
Proof.
  intros Hn Ht. split; [|reflexivity]. cbn [init_world init_world_cq c_q w_fes].
  apply inject_sim, Rq_new_at; assumption.
Qed.

Lemma take_snaps_sim w cw : Rel w cw -> Rel (take_snaps w) (take_snaps_cq cw).
Proof. intros [H E]. split; [exact H|]. unfold take_snaps_cq. cbn [c_w]. rewrite E. reflexivity. Qed.

Lemma Rel_tasks w cw : Rel w cw -> w_tasks (c_w cw) = w_tasks w.
Proof. intros [_ E]. rewrite E. reflexivity. Qed.

Lemma sim_start_sim wfix w cw : Rel w cw -> Rel (sim_start wfix w) (sim_start_cq wfix cw).
Proof.
  intros H. unfold sim_start, sim_start_cq. rewrite (Rel_tasks _ _ H).
  pose proof (module_event_sim wfix 0 0 (start_tasks 0 0 (w_tasks w)) false w cw H) as H0.
  rewrite (Rel_tasks _ _ H0). apply take_snaps_sim, module_event_sim. exact H0.
Qed.

(* ---- the main loop ---- *)
Definition RelS (a : world + world) (b : cworld + cworld) : Prop :=
  match a, b with inl x, inl y => Rel x y | inr x, inr y => Rel x y | _, _ => False end.

Lemma loop_step_sim wfix w cw : Rel w cw -> RelS (loop_step wfix w) (loop_step_cq wfix cw).
Proof.
  intros [HR Ew]. destruct cw as [q cw0]. cbn [c_q c_w] in *. subst cw0.
  unfold loop_step, loop_step_cq. cbn [c_q c_w].
  destruct (Rq_fetch q (w_fes w) HR) as [Ho HR']. pose proof (Rq_empty q (w_fes w) HR) as HE.
  destruct (qlen q =? 0) eqn:El.
  - destruct (proj1 HE eq_refl) as [Ez Er]. unfold sp_fetch. rewrite Ez, Er. cbn [RelS]. split; [exact HR|reflexivity].
  - destruct (fetch_next q) as [q' o], (sp_fetch (w_fes w)) as [f o'] eqn:Ef. cbn [fst snd] in Ho, HR'. subst o'.
    destruct o as [|pay te| | | | | | |]; try (cbn [RelS]; split; [exact HR|reflexivity]).
    assert (H1 : Rel (set_fes w f) {| c_q := q'; c_w := set_fes w sp_new |}) by (split; [exact HR'|reflexivity]).
    destruct (pay <? 2).
    + cbn [RelS]. apply take_snaps_sim, module_event_sim. exact H1.
    + cbn [c_w]. change (w_tasks (set_fes w sp_new)) with (w_tasks w). change (w_tasks (set_fes w f)) with (w_tasks w).
      destruct (nth_error (w_tasks w) (N.to_nat (pay - 2))) as [tk|]; cbn [RelS]; [apply take_snaps_sim, module_event_sim; exact H1|exact H1].
Qed.

Lemma iter_sim wfix k w cw : Rel w cw -> RelS (iter_nat k (loop_step wfix) w) (iter_nat k (loop_step_cq wfix) cw).
Proof. exact (iter_nat_sim Rel Rel _ _ (loop_step_sim wfix) k w cw). Qed.

(* both runs end (or run out of fuel) alike, in related states *)
Theorem run_tasks_sim wfix n t ts : n <> 0 -> t <> 0 ->
  Rel (fst (run_tasks wfix ts)) (fst (run_tasks_cq wfix n t ts)) /\ snd (run_tasks_cq wfix n t ts) = snd (run_tasks wfix ts).
Proof.
  intros Hn Ht. unfold run_tasks, run_tasks_cq. rewrite !iter_until_nat.
  pose proof (iter_sim wfix (Pos.to_nat (fuel ts)) _ _ (sim_start_sim wfix _ _ (init_sim n t ts Hn Ht))) as H.
  destruct (iter_nat (Pos.to_nat (fuel ts)) (loop_step wfix) (sim_start wfix (init_world ts))) as [w|w],
           (iter_nat (Pos.to_nat (fuel ts)) (loop_step_cq wfix) (sim_start_cq wfix (init_world_cq n t ts))) as [cw|cw];
    cbn [RelS] in H; try contradiction; split; try exact H; reflexivity.
Qed.

Theorem run_cq_eq_run n t input : n <> 0 -> t <> 0 -> run_cq n t input = run input.
Proof.
  intros Hn Ht. unfold run_cq, run, run_gen_cq, run_gen.
  destruct (run_tasks_sim true n t (decode input) Hn Ht) as [[_ E] Eok].
  destruct (run_tasks true (decode input)) as [w ok], (run_tasks_cq true n t (decode input)) as [cw ok']. cbn [fst snd] in *.
  subst ok'. rewrite E. reflexivity.
Qed.
