(* The premise every removal-by-id argument rests on: the timer entries of one slot carry
   pairwise distinct ids.  TimerSlot::remove(id) removes the FIRST entry with that id; with
   distinct ids that is exactly the entry of the Sleep that asks for it.  Ids come from the
   global counter SLEEP_ID: every Sleep a task step creates gets a fresh one. *)
From Coq Require Import List NArith Bool Lia ZifyBool.
From DesVerif Require Import CQueue.Spec Timer.Driver Timer.QueueLemmas Timer.Inv Timer.Futures Timer.FutureLaws Timer.TempOps Timer.Model.
Import ListNotations.
Open Scope N_scope.

(* with distinct ids, remove(id) takes out exactly the entry with that id *)
Lemma ents_remove_exact id es es' : NoDup es -> ents_remove id es = Some es' ->
  ~ In id es' /\ NoDup es' /\ forall x, x <> id -> (In x es <-> In x es').
Proof.
  intros Hnd E. assert (Er : es' = rm id es) by (unfold rm; rewrite E; reflexivity). subst es'.
  split; [intros H; exact (proj2 (proj1 (rm_in_iff id es id Hnd) H) eq_refl)|]. split; [exact (rm_nodup id es Hnd)|].
  intros x Hx. rewrite (rm_in_iff id es x Hnd). split; [intros H; exact (conj H Hx)|intros [H _]; exact H].
Qed.

(* ... and dropping / re-arming a timer leaves every other timer of the slot registered *)
Lemma remove_keeps_others d id p x a : In a (ents_at x p) -> a <> id -> In a (ents_at x (q_remove_at d id p)).
Proof. exact (ents_at_remove_keeps d id p x a). Qed.

(* ---- ids are preserved by the futures and fresh at creation ---- *)
Lemma sleep_reset_sid s d' dr : sid (fst (sleep_reset s d' dr)) = sid s.
Proof. reflexivity. Qed.

Definition v_sids (v : vstate) : list N := match v with VSleep s => [sid s] | VGot s => [sid s] | _ => [] end.

Definition aw_sids (a : aw) : list N :=
  match a with
  | AwSleep s => [sid s]
  | AwTimeout v dl => v_sids v ++ [sid dl]
  | AwSelect _ _ a b => [sid a; sid b]
  | AwSelRecv _ _ s => [sid s]
  | AwKeep _ _ s sx => [sid s; sid sx]
  | AwThen _ s => [sid s]
  | AwHeld _ s => [sid s]
  | AwTick | AwRecv _ | AwRelay _ _ _ => []
  end.

Lemma fresh0 (nid n : N) : NoDup (@nil N) /\ forall i, In i [] -> nid <= i /\ i < n.
Proof. split; [constructor|intros i []]. Qed.

Lemma fresh1 nid n : nid < n -> NoDup [nid] /\ forall i, In i [nid] -> nid <= i /\ i < n.
Proof. intros H. split; [repeat constructor; intros []|intros i [<-|[]]; lia]. Qed.

Lemma fresh2 nid n : nid + 1 < n -> NoDup [nid; nid + 1] /\ forall i, In i [nid; nid + 1] -> nid <= i /\ i < n.
Proof.
  intros H. split; [repeat constructor; [intros [E|[]]; lia|intros []]|intros i [<-|[<-|[]]]; lia].
Qed.

(* every Sleep that a step creates and goes on to await has an id drawn in this step: at least
   the counter's value before, below its value after, all different *)
Lemma start_step0_fresh now s iv dr nid lg :
  let r := start_step0 now s iv dr nid lg in
  nid <= snd (fst r) /\
  match fst (fst (fst (fst r))) with
  | Some a => NoDup (aw_sids a) /\ forall i, In i (aw_sids a) -> nid <= i /\ i < snd (fst r)
  | None => True
  end.
Proof.
  cbn zeta. destruct s as [d|t|d v|biased a b|p b| | |polled d1 d2|d| |ch d|ch|d ch|rf ch d|rearm d0 d2 x d3|wf d|wr chi cho];
    cbn [start_step0 fst snd aw_sids v_sids sleep_new sid app];
    try (split; [lia|exact I]); try (split; [lia|apply fresh1; lia]); try (split; [lia|apply fresh2; lia]).
  - destruct v; cbn [fst snd aw_sids v_sids sleep_new sid app]; (split; [lia|]); [apply fresh2|apply fresh1]; lia.
  - split; [lia|apply fresh0].
  - (* a reset keeps the id, polled or not *)
    destruct polled.
    + pose proof (sleep_poll_sid now (sleep_new (dl now d1) nid) dr) as Hsid.
      destruct (sleep_poll now (sleep_new (dl now d1) nid) dr) as [[r s1] dr1]. cbn [fst snd sleep_new sid] in Hsid.
      cbn [sleep_reset fst snd aw_sids sid]. rewrite Hsid. split; [lia|apply fresh1; lia].
    + cbn [sleep_reset fst snd aw_sids sleep_new sid]. split; [lia|apply fresh1; lia].
  - destruct (sleep_poll now (sleep_new (dl now d) nid) dr) as [[r s1] dr1]. cbn [fst snd]. split; [lia|exact I].
  - split; [lia|apply fresh0].
  - pose proof (sleep_poll_sid now (sleep_new (dl now d0) nid) dr) as Hsid.
    destruct (sleep_poll now (sleep_new (dl now d0) nid) dr) as [[r s1] dr1]. cbn [fst snd sleep_new sid] in Hsid.
    cbn [sleep_reset fst snd aw_sids sleep_new sid]. rewrite Hsid. split; [lia|apply fresh2; lia].
  - pose proof (sleep_poll_sid now (sleep_new (dl now d) nid) dr) as Hsid.
    destruct (sleep_poll now (sleep_new (dl now d) nid) dr) as [[r s1] dr1]. cbn [fst snd sleep_new sid] in Hsid.
    cbn [fst snd aw_sids]. rewrite Hsid. split; [lia|apply fresh1; lia].
Qed.
