(* End-to-end argument, fragment of coq/Timer/Frag.v: the main loop of the composite
   model keeps the boundary invariant; when the event set is empty every task has finished
   with exactly the log the property demands. *)
From Coq Require Import List Arith NArith Bool Lia Permutation ZifyBool.
From DesVerif Require Import Common.Fuel CQueue.Model CQueue.Spec CQueue.SpecProps Timer.Driver Timer.QueueLemmas Timer.Inv
  Timer.Exact Timer.Futures Timer.Model Timer.EvSet Timer.Frag Timer.E2EInv Timer.E2EPoll Timer.E2EEvent.
Import ListNotations.
Open Scope N_scope.

Lemma winv_take_snaps A0 A ts0 later w : WInv A0 A ts0 later w -> WInv A0 A ts0 later (take_snaps w).
Proof. intros [H1 H2 H3 H4 H5 H6 H7 H8]. constructor; assumption. Qed.

(* the boundary invariant, for some arrivals still expected *)
Definition WInvE (A0 : N -> arrs) (ts0 : list task) (later : nat -> Prop) (w : world) : Prop := exists A, WInv A0 A ts0 later w.

Lemma msg_of_nat k : N.to_nat (msg_of k - 2) = k.
Proof. unfold msg_of. lia. Qed.

(* which module an event fetched from the event set belongs to: payload 0 / 1 is the
   AsyncWakeupEvent of module 0 / 1 (fire), payload 2 + k the message that spawns task k *)
Definition ev_module (pay : N) (ts : list task) (m : N) (fire : bool) : Prop :=
  (pay < 2 /\ m = pay /\ fire = true) \/
  (2 <= pay /\ fire = false /\ exists tk, nth_error ts (N.to_nat (pay - 2)) = Some tk /\ m = t_mod tk).

(* ---- one iteration of Runtime::run ---- *)
(* the loop ends iff the event set is empty; otherwise the fetched event is a wake-up or a
   message, and the state in which its module_event begins satisfies PreEv *)
Lemma loop_step_pre A0 A ts0 w : WInv A0 A ts0 (fun _ => False) w ->
  (spend (w_fes w) = [] /\ loop_step true w = inr w) \/
  exists x f m spawn fire,
    sp_fetch (w_fes w) = (f, OFetched (epay x) (etime x)) /\ spend (w_fes w) = x :: spend f /\
    loop_step true w = inl (take_snaps (module_event true (etime x) m spawn fire (set_fes w f))) /\
    (fire = true \/ spawn <> []) /\ ev_module (epay x) (w_tasks w) m fire /\
    PreEv A0 A ts0 (fun _ => False) (set_fes w f) (etime x) m spawn fire.
Proof.
  intros HW. pose proof HW as [Hsi Htc _ _ _ Hbase _ Hmsgs].
  assert (Hcase : spend (w_fes w) = [] \/ spend (w_fes w) <> []) by (destruct (spend (w_fes w)); [left; reflexivity|right; discriminate]).
  destruct Hcase as [Esp|Esp].
  { left. split; [exact Esp|]. unfold loop_step. rewrite (fetch_none _ Esp). reflexivity. }
  right.
  destruct (fetch_some (w_fes w) Hsi Esp) as (x & s' & Hf & Hsp & Htc' & Hle & Hmin).
  assert (Hsi' : SI s') by (pose proof (SI_fetch _ Hsi) as H; rewrite Hf in H; exact H).
  destruct Hmsgs as [Mt Mn Ma Ml]. rewrite Hsp in Mt, Mn, Ma.
  destruct (epay x <? 2) eqn:Ep.
  - (* the AsyncWakeupEvent of module [epay x] *)
    exists x, s', (epay x), [], true.
    split; [exact Hf|]. split; [exact Hsp|]. split; [unfold loop_step; rewrite Hf, Ep; reflexivity|]. split; [left; reflexivity|]. split; [left; repeat split; lia|].
    apply (PreEv_of_WInv A0 A ts0 (fun _ => False) w); try assumption.
    + repeat split.
    + lia.
    + lia.
    + intros m' Hm'. cbn [set_fes w_fes andb]. rewrite Hsp, wakes_cons. destruct (N.eq_dec m' (epay x)) as [->|Hne].
      * rewrite N.eqb_refl. apply Permutation_refl.
      * rewrite (proj2 (N.eqb_neq _ _) Hne), (proj2 (N.eqb_neq _ _) (not_eq_sym Hne)). apply Permutation_refl.
    + intros k [].
    + intros k e [].
    + constructor.
      * intros e He Hp. exact (Mt e (or_intror He) Hp).
      * cbn [map filter] in Mn. rewrite (proj2 (N.leb_gt 2 (epay x))) in Mn by lia. exact Mn.
      * intros k tk Hk Hun. destruct (Ma k tk Hk Hun) as [[]|(e & [<-|He] & Ee)].
        -- unfold msg_of in Ee. lia.
        -- right. exists e. split; assumption.
      * intros k [[]|[]].
  - (* the message that makes its module spawn a task *)
    destruct (Mt x (or_introl eq_refl)) as (k & tk & E1 & Hk & Hun & E2 & E3); [lia|].
    cbn [map filter] in Mn. rewrite (proj2 (N.leb_le 2 (epay x))) in Mn by lia. apply NoDup_cons_iff in Mn. destruct Mn as [Hnotin Mn'].
    exists x, s', (t_mod tk), [k], false.
    split; [exact Hf|]. split; [exact Hsp|]. split.
    { unfold loop_step. rewrite Hf, Ep, E1, msg_of_nat. cbn [set_fes w_tasks]. rewrite Hk. reflexivity. }
    split; [right; discriminate|]. split.
    { right. rewrite E1, msg_of_nat. split; [unfold msg_of; lia|]. split; [reflexivity|]. exists tk. split; [exact Hk|reflexivity]. }
    apply (PreEv_of_WInv A0 A ts0 (fun _ => False) w); try assumption.
    + repeat split.
    + lia.
    + exact (base_mod Hbase Hk).
    + intros m' Hm'. cbn [set_fes w_fes andb app]. rewrite Hsp, wakes_cons, (proj2 (N.eqb_neq (epay x) m')) by lia. apply Permutation_refl.
    + intros k' [<-|[]]. exists tk. split; [exact Hk|]. split; [exact Hun|]. split; [reflexivity|lia].
    + intros k' e [<-|[]] He Ee. apply Hnotin. apply filter_In. split; [|unfold msg_of in Ee; lia].
      apply in_map_iff. exists e. split; [rewrite Ee; symmetry; exact E1|exact He].
    + constructor.
      * intros e He Hp. exact (Mt e (or_intror He) Hp).
      * exact Mn'.
      * intros k' tk' Hk' Hun'. destruct (Ma k' tk' Hk' Hun') as [[]|(e & [<-|He] & Ee)].
        -- left. right. left. apply msg_of_inj. rewrite <- E1, <- Ee. reflexivity.
        -- right. exists e. split; assumption.
      * intros k' [[]|[<-|[]]]. exists tk. split; assumption.
Qed.

Lemma loop_step_winv A0 ts0 w : WInvE A0 ts0 (fun _ => False) w ->
  match loop_step true w with
  | inl w' => WInvE A0 ts0 (fun _ => False) w'
  | inr w' => w' = w /\ spend (w_fes w) = []
  end.
Proof.
  intros [A HW]. destruct (loop_step_pre A0 A ts0 w HW) as [(Esp & ->)|(x & f & m & spawn & fire & _ & _ & -> & _ & _ & HP)].
  - split; [reflexivity|exact Esp].
  - destruct (module_event_winv HP) as (A' & HW'). exists A'. apply winv_take_snaps. exact HW'.
Qed.

(* every iteration lowers  2 * (work still to do) + pending events + stale wake-ups *)
Definition mu (w : world) : nat :=
  (2 * work (w_tasks w) + length (spend (w_fes w)) + stale (drv_of w 0) + stale (drv_of w 1))%nat.

Lemma mu_take_snaps w : mu (take_snaps w) = mu w.
Proof. reflexivity. Qed.

Lemma loop_step_measure A0 ts0 w : WInvE A0 ts0 (fun _ => False) w ->
  match loop_step true w with
  | inl w' => (mu w' + 1 <= mu w)%nat
  | inr _ => True
  end.
Proof.
  intros [A HW]. destruct (loop_step_pre A0 A ts0 w HW) as [(Esp & ->)|(x & f & m & spawn & fire & _ & Hsp & -> & Hcase & _ & HP)]; [exact I|].
  destruct (module_event_measure HP) as (_ & H2 & H3). specialize (H2 Hcase). pose proof (pe_m HP) as Hm.
  change (w_tasks (set_fes w f)) with (w_tasks w) in H2. change (w_fes (set_fes w f)) with f in H2.
  change (drv_of (set_fes w f)) with (drv_of w) in H2, H3.
  rewrite mu_take_snaps. unfold mu. rewrite Hsp. cbn [length].
  assert (Hm01 : m = 0 \/ m = 1) by lia. destruct Hm01 as [E0 | E0]; subst m.
  - rewrite (H3 1) by (cbn; discriminate). clear -H2. lia.
  - rewrite (H3 0) by (cbn; discriminate). clear -H2. lia.
Qed.

(* ---- when the event set is empty ---- *)
Definition done_exact (A0 : N -> arrs) (tk0 tk : task) : Prop := t_fin tk = true /\ t_log tk = expected A0 tk0.

Lemma winv_final A0 A ts0 w : WInv A0 A ts0 (fun _ => False) w -> spend (w_fes w) = [] -> Forall2 (done_exact A0) ts0 (w_tasks w).
Proof.
  intros [Hsi Htc Hinert Harr Hnorecv Hbase Hdrv Hmsgs] Hsp.
  apply (Forall2_nth_impl _ _ _ _ (b_states Hbase)). intros k tk0 tk Hk0 Hk Hst.
  destruct Hst as [-> _ _|a st rest _ _ _ _ Hc _ _ _ _ _ _ _ _|_ _ _ _ _ H6 H7].
  - (* never spawned: its message would still be in the event set *)
    exfalso. destruct (proj1 (Forall_forall _ _) (b_init Hbase) tk0 (nth_error_In _ _ Hk0)) as (_ & I2 & _ & _ & I5 & _).
    destruct (m_all Hmsgs k tk0 Hk (conj I2 I5)) as [[]|(e & He & _)]. rewrite Hsp in He. contradiction.
  - (* blocked: its timer is live, so a wake-up would still be in the event set *)
    exfalso. pose proof (base_mod Hbase Hk) as Hm.
    destruct (Hdrv (t_mod tk) Hm) as (l & _ & [_ Hwake] & Hperm & T & _).
    destruct (blocked_covered Hbase T Hwake Hk Hc eq_refl) as (w0 & Hw0 & _).
    rewrite Hsp in Hperm. cbn in Hperm. apply Permutation_nil in Hperm. rewrite Hperm in Hw0. contradiction.
  - split; assumption.
Qed.

(* safety at every boundary: what a task has logged so far is a prefix of the demanded log *)
Lemma winv_prefix A0 A ts0 later w : WInv A0 A ts0 later w ->
  Forall2 (fun tk0 tk => exists rest, expected A0 tk0 = t_log tk ++ rest) ts0 (w_tasks w).
Proof.
  intros HW. pose proof (wi_base HW) as Hbase.
  apply (Forall2_nth_impl _ _ _ _ (b_states Hbase)). intros k tk0 tk Hk0 Hk Hst.
  destruct Hst as [-> _ _|a st rest _ _ _ _ _ _ _ _ _ H11 _ _ _|_ _ _ _ _ _ H7].
  - destruct (proj1 (Forall_forall _ _) (b_init Hbase) tk0 (nth_error_In _ _ Hk0)) as (_ & _ & _ & I4 & _).
    rewrite I4. exists (expected A0 tk0). reflexivity.
  - eexists. exact H11.
  - exists []. rewrite app_nil_r. symmetry. exact H7.
Qed.

(* ---- any number of iterations ---- *)
Lemma iter_winv A0 ts0 n : forall w, WInvE A0 ts0 (fun _ => False) w ->
  match iter_nat n (loop_step true) w with
  | inl w' => WInvE A0 ts0 (fun _ => False) w'
  | inr w' => WInvE A0 ts0 (fun _ => False) w' /\ spend (w_fes w') = []
  end.
Proof.
  induction n as [|n IH]; intros w HW; cbn [iter_nat]; [exact HW|].
  pose proof (loop_step_winv A0 ts0 w HW) as H. destruct (loop_step true w) as [w'|w'].
  - exact (IH w' H).
  - destruct H as [-> Hsp]. split; assumption.
Qed.

(* ---- the event that wakes a timer is stamped exactly with its deadline ---- *)
(* at every event boundary of the run: the slots with timers that the next event's activation
   pops from its module's driver all have the deadline t of that event *)
Lemma event_woken_exact A0 ts0 w f pay t m fire : WInvE A0 ts0 (fun _ => False) w ->
  sp_fetch (w_fes w) = (f, OFetched pay t) -> ev_module pay (w_tasks w) m fire ->
  forall d es, In (d, es) (fst (activate t (if fire then sched_fire t (drv_of w m) else drv_of w m))) -> es <> [] -> d = t.
Proof.
  intros [A HW] Hf Hev d es Hin Hne.
  destruct (loop_step_pre A0 A ts0 w HW) as [(Esp & _)|(x & f' & m' & spawn & fire' & Hf' & _ & _ & _ & Hev' & HP)].
  { rewrite (fetch_none _ Esp) in Hf. discriminate. }
  rewrite Hf in Hf'. injection Hf' as -> -> ->.
  assert (E : m' = m /\ fire' = fire).
  { destruct Hev as [(H1 & E1 & E2)|(H1 & E1 & tk & Hk & E2)], Hev' as [(G1 & F1 & F2)|(G1 & F1 & tk' & Hk' & F2)].
    - split; [exact (eq_trans F1 (eq_sym E1))|exact (eq_trans F2 (eq_sym E2))].
    - destruct (N.lt_irrefl _ (N.lt_le_trans _ _ _ H1 G1)).
    - destruct (N.lt_irrefl _ (N.lt_le_trans _ _ _ G1 H1)).
    - rewrite Hk in Hk'. injection Hk' as <-. split; [exact (eq_trans F2 (eq_sym E2))|exact (eq_trans F1 (eq_sym E1))]. }
  destruct E as [Em Ef]. subst m' fire'. destruct es as [|id es']; [contradiction Hne; reflexivity|].
  destruct (ev_woken _ _ _ _ _ _ _ _ _ HP d (id :: es') id Hin (or_introl eq_refl)) as (k0 & tk0 & a0 & s0 & _ & _ & _ & _ & _ & _ & Edt & _). exact Edt.
Qed.
