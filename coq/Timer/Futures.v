(* The timer futures of des as pure functions of [now] and the module's driver:
     des/src/time/sleep.rs      Sleep::{new, poll, reset_inner}, Drop of the entry handle
     des/src/time/timeout.rs    Timeout::poll (value before delay)
     des/src/time/interval.rs   Interval::poll_tick, MissedTickBehavior::next_timeout
   No proofs in this file. *)
From Coq Require Import List NArith Bool.
From DesVerif Require Import Timer.Driver.
Import ListNotations.
Open Scope N_scope.

(* ---- Sleep ---- *)
(* [handle = Some d]: an entry handle for the slot with deadline d is held *)
Record sleep := { deadline : N; sid : N; handle : option N }.

Definition sleep_new (d id : N) : sleep := {| deadline := d; sid := id; handle := None |}.

(* Sleep::poll: if deadline > now { register unless already scheduled; Pending }
   else { handle.take().resolve(); Ready }.  The waker stored with the entry is modelled apart:
   [sleep_poll_waker] below. *)
Definition sleep_poll (now : N) (s : sleep) (dr : driver) : bool * sleep * driver :=
  if now <? deadline s then
    match handle s with
    | None => (false, {| deadline := deadline s; sid := sid s; handle := Some (deadline s) |},
               register (sid s) (deadline s) dr)
    | Some _ => (false, s, dr)
    end
  else (true, {| deadline := deadline s; sid := sid s; handle := None |}, dr).

(* Sleep::reset_inner: if let Some(h) = handle.take() { h.reset(deadline); }  deadline = new *)
Definition sleep_reset (s : sleep) (d' : N) (dr : driver) : sleep * driver :=
  ({| deadline := d'; sid := sid s; handle := None |},
   match handle s with
   | Some d => reset_entry (sid s) d d' dr
   | None => dr
   end).

(* dropping a Sleep drops its handle *)
Definition sleep_drop (s : sleep) (dr : driver) : driver :=
  match handle s with
  | Some d => drop_entry (sid s) d dr
  | None => dr
  end.

(* ---- Timeout ---- *)
Inductive tresult := TPending | TOk | TElapsed.

Section Timeout.
  (* the value future: any state type with any poll function over the same driver *)
  Variable V : Type.
  Variable vpoll : N -> V -> driver -> bool * V * driver.

  (* Timeout::poll: first the value; only if it is pending, the delay *)
  Definition timeout_poll (now : N) (v : V) (dl : sleep) (dr : driver) : tresult * V * sleep * driver :=
    let '(vr, v', dr1) := vpoll now v dr in
    if vr then (TOk, v', dl, dr1)
    else
      let '(r, dl', dr2) := sleep_poll now dl dr1 in
      if r then (TElapsed, v', dl', dr2) else (TPending, v', dl', dr2).

  (* the future is polled at the instants [ts], in order, until it completes:
     (instant of completion, result) *)
  Fixpoint timeout_run (ts : list N) (v : V) (dl : sleep) (dr : driver) : option (N * tresult) :=
    match ts with
    | [] => None
    | t :: r =>
      let '(res, v', dl', dr') := timeout_poll t v dl dr in
      match res with
      | TPending => timeout_run r v' dl' dr'
      | _ => Some (t, res)
      end
    end.
End Timeout.

Arguments timeout_poll {V}.
Arguments timeout_run {V}.

(* ---- Interval ---- *)
Inductive behaviour := Burst | Delay | Skip.

Record interval := { iv_delay : sleep; iv_period : N; iv_beh : behaviour }.

(* a tick counts as missed when it is taken more than 5 ms after it was due *)
Definition GRACE : N := 5000000.

(* MissedTickBehavior::next_timeout(timeout, now, period) *)
Definition next_timeout (b : behaviour) (timeout now period : N) : N :=
  match b with
  | Burst => timeout + period
  | Delay => now + period
  | Skip => now + period - ((now - timeout) mod period)
  end.

Definition tick_next (b : behaviour) (timeout now period : N) : N :=
  if timeout + GRACE <? now then next_timeout b timeout now period else timeout + period.

(* Interval::poll_tick: ready!(delay.poll); timeout = delay.deadline();
   delay.reset(next); Ready(timeout) *)
Definition poll_tick (now : N) (iv : interval) (dr : driver) : option N * interval * driver :=
  let '(r, s1, dr1) := sleep_poll now (iv_delay iv) dr in
  if r then
    let timeout := deadline s1 in
    let '(s2, dr2) := sleep_reset s1 (tick_next (iv_beh iv) timeout now (iv_period iv)) dr1 in
    (Some timeout, {| iv_delay := s2; iv_period := iv_period iv; iv_beh := iv_beh iv |}, dr2)
  else (None, {| iv_delay := s1; iv_period := iv_period iv; iv_beh := iv_beh iv |}, dr1).

(* interval_at(start, period) with the chosen behaviour; [id] is the id of its Sleep *)
Definition interval_new (start period : N) (b : behaviour) (id : N) : interval :=
  {| iv_delay := sleep_new start id; iv_period := period; iv_beh := b |}.

(* tick() is awaited at the instants [ts] (one poll each); the instants returned by the
   polls that were Ready *)
Fixpoint tick_seq (ts : list N) (iv : interval) (dr : driver) : list N :=
  match ts with
  | [] => []
  | t :: r =>
    let '(res, iv', dr') := poll_tick t iv dr in
    match res with
    | Some x => x :: tick_seq r iv' dr'
    | None => tick_seq r iv' dr'
    end
  end.

(* ---- the waker stored with a timer entry ---- *)
(* TimerSlotEntry.waker, kept as a table  entry id -> task  (newest binding first).
   Sleep::poll (after fix: commit 5af9a5f): the first poll with deadline > now registers the
   entry with the waker of the polling task; a later poll of the registered Sleep replaces
   the stored waker when it would wake another task (update_waker).  [fixed = false] is the
   code before that commit: the stored waker is never looked at again. *)
Definition wakers := list (N * nat).

Fixpoint waker_of (tab : wakers) (id : N) : option nat :=
  match tab with
  | [] => None
  | (i, k) :: r => if i =? id then Some k else waker_of r id
  end.

Definition sleep_poll_waker (fixed : bool) (now : N) (k : nat) (s : sleep) (tab : wakers) : wakers :=
  if now <? deadline s then
    match handle s with
    | None => (sid s, k) :: tab
    | Some _ => if fixed then (sid s, k) :: tab else tab
    end
  else tab.

(* the same, told from the Sleep as it is after the poll and whether it was registered before *)
Definition note_poll (fixed : bool) (k : nat) (was_registered : bool) (s_after : sleep) (tab : wakers) : wakers :=
  match handle s_after with
  | None => tab
  | Some _ => if was_registered && negb fixed then tab else (sid s_after, k) :: tab
  end.

(* the Sleep is polled by task k at instant t, for each (t, k) of the list in turn *)
Fixpoint poll_seq (fixed : bool) (polls : list (N * nat)) (s : sleep) (dr : driver) (tab : wakers)
  : sleep * driver * wakers :=
  match polls with
  | [] => (s, dr, tab)
  | (t, k) :: r =>
    let tab' := sleep_poll_waker fixed t k s tab in
    let '(_, s', dr') := sleep_poll t s dr in
    poll_seq fixed r s' dr' tab'
  end.
