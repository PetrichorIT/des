(* Facts about the slot queue of coq/Timer/Driver.v: order of slot times, the entries
   found under a deadline, what add / remove / reset / bump / next do to them. *)
From Coq Require Import List NArith Bool Lia Sorting.Sorted ZifyBool.
From DesVerif Require Import Common.Lists Timer.Driver.
Import ListNotations.
Open Scope N_scope.

(* slot times strictly increasing *)
Definition sorted (p : list slot) : Prop := StronglySorted N.lt (map fst p).

(* the entries registered under deadline x *)
Fixpoint ents_at (x : N) (p : list slot) : list N :=
  match p with
  | [] => []
  | (t, es) :: r => if t =? x then es else ents_at x r
  end.

Definition rm (id : N) (es : list N) : list N :=
  match ents_remove id es with Some e => e | None => es end.

(* ---- entry lists ---- *)
Lemma ents_remove_in id es es' a : ents_remove id es = Some es' -> In a es' -> In a es.
Proof.
  revert es'; induction es as [|x r IH]; intros es' H Ha; cbn [ents_remove] in H; [discriminate|].
  destruct (x =? id) eqn:E.
  - injection H as <-. right; exact Ha.
  - destruct (ents_remove id r) as [r'|] eqn:Er; [|discriminate]. injection H as <-.
    destruct Ha as [->|Ha]; [left; reflexivity|right; eapply IH; [reflexivity|exact Ha]].
Qed.

Lemma ents_remove_keeps id es es' a : ents_remove id es = Some es' -> In a es -> a <> id -> In a es'.
Proof.
  revert es'; induction es as [|x r IH]; intros es' H Ha Hne; cbn [ents_remove] in H; [discriminate|].
  destruct (x =? id) eqn:E.
  - injection H as <-. destruct Ha as [->|Ha]; [|exact Ha]. apply N.eqb_eq in E. contradiction.
  - destruct (ents_remove id r) as [r'|] eqn:Er; [|discriminate]. injection H as <-.
    destruct Ha as [->|Ha]; [left; reflexivity|right; apply IH; [reflexivity|exact Ha|exact Hne]].
Qed.

Lemma ents_remove_some id es es' : ents_remove id es = Some es' -> In id es.
Proof.
  revert es'; induction es as [|a es IH]; intros es' H; cbn [ents_remove] in H; [discriminate|].
  destruct (N.eqb_spec a id) as [->|_]; [left; reflexivity|].
  destruct (ents_remove id es) as [e|]; [|discriminate]. right. eapply IH. reflexivity.
Qed.

Lemma rm_in id es a : In a (rm id es) -> In a es.
Proof.
  unfold rm. destruct (ents_remove id es) as [e|] eqn:E; [|exact (fun H => H)].
  apply ents_remove_in with (1 := E).
Qed.

Lemma rm_keeps id es a : In a es -> a <> id -> In a (rm id es).
Proof.
  unfold rm. intros Ha Hne. destruct (ents_remove id es) as [e|] eqn:E; [|exact Ha].
  eapply ents_remove_keeps; eassumption.
Qed.

Lemma rm_nil id : rm id [] = [].
Proof. reflexivity. Qed.

Lemma rm_single id : rm id [id] = [].
Proof. unfold rm. cbn [ents_remove]. rewrite N.eqb_refl. reflexivity. Qed.

Lemma rm_nonempty id es : rm id es <> [] -> es <> [].
Proof. intros H ->. apply H. reflexivity. Qed.

(* ---- slot times ---- *)
Lemma q_add_above t id d p : Forall (N.lt t) (map fst p) -> t < d -> Forall (N.lt t) (map fst (q_add id d p)).
Proof.
  intros H Hd. induction p as [|[u es] r IH]; cbn [q_add map fst]; [repeat constructor; exact Hd|].
  inversion H as [|? ? Hu Hr]; subst. destruct (d <? u); [constructor; [exact Hd|exact H]|].
  destruct (d =? u); constructor; [exact Hu|exact Hr|exact Hu|exact (IH Hr)].
Qed.

Lemma q_add_sorted id d p : sorted p -> sorted (q_add id d p).
Proof.
  unfold sorted. induction p as [|[t es] r IH]; cbn [q_add map fst]; intros Hs; [repeat constructor|].
  inversion Hs as [|? ? Hr Hall]; subst. destruct (N.ltb_spec d t) as [Hlt|Hge].
  - constructor; [exact Hs|]. constructor; [exact Hlt|].
    eapply Forall_impl; [|exact Hall]. intros a Ha. exact (N.lt_trans _ _ _ Hlt Ha).
  - destruct (N.eqb_spec d t) as [_|Hne]; [exact Hs|].
    constructor; [exact (IH Hr)|apply q_add_above; [exact Hall|cbn [fst]; lia]].
Qed.

Lemma q_take_at_fst d id p p' : q_take_at d id p = Some p' -> map fst p' = map fst p.
Proof.
  revert p'; induction p as [|[t es] r IH]; intros p' H; cbn [q_take_at] in H; [discriminate|].
  destruct (t =? d).
  - destruct (ents_remove id es); [|discriminate]. injection H as <-. reflexivity.
  - destruct (q_take_at d id r) as [r'|]; [|discriminate]. injection H as <-.
    cbn [map fst]. rewrite (IH r' eq_refl). reflexivity.
Qed.

Lemma q_take_at_sorted d id p p' : q_take_at d id p = Some p' -> sorted p -> sorted p'.
Proof. unfold sorted. intros H. rewrite (q_take_at_fst _ _ _ _ H). exact (fun H => H). Qed.

Lemma q_remove_at_sorted d id p : sorted p -> sorted (q_remove_at d id p).
Proof.
  unfold q_remove_at. destruct (q_take_at d id p) as [p'|] eqn:E; [exact (q_take_at_sorted _ _ _ _ E)|exact (fun H => H)].
Qed.

Lemma sorted_app_r w rest : sorted (w ++ rest) -> sorted rest.
Proof. unfold sorted. rewrite map_app. apply StronglySorted_app_r. Qed.

Lemma sorted_head_lt s p q : sorted (s :: p) -> In q p -> fst s < fst q.
Proof.
  unfold sorted. cbn [map]. intros H Hq. inversion H as [|? ? _ Hall]; subst.
  rewrite Forall_forall in Hall. apply Hall. apply in_map. exact Hq.
Qed.

(* ---- entries under a deadline ---- *)
Lemma ents_at_app_r x w rest : (forall s, In s w -> fst s <> x) -> ents_at x (w ++ rest) = ents_at x rest.
Proof.
  induction w as [|[t es] w IH]; intros H; cbn [app ents_at]; [reflexivity|].
  destruct (N.eqb_spec t x) as [E|_]; [destruct (H (t, es) (or_introl eq_refl) E)|].
  apply IH. intros s Hs. apply H. right; exact Hs.
Qed.

Lemma ents_at_in x p : ents_at x p <> [] -> In (x, ents_at x p) p.
Proof.
  induction p as [|[t es] r IH]; cbn [ents_at]; [intros H; contradiction|].
  destruct (N.eqb_spec t x) as [->|_]; intros H; [left; reflexivity|right; exact (IH H)].
Qed.

Lemma in_ents_at d es p : sorted p -> In (d, es) p -> ents_at d p = es.
Proof.
  induction p as [|[t es0] r IH]; intros Hs Hin; [contradiction|]. cbn [ents_at].
  destruct Hin as [Heq|Hin].
  - injection Heq as -> ->. rewrite N.eqb_refl. reflexivity.
  - pose proof (sorted_head_lt _ _ _ Hs Hin) as Hlt. cbn [fst] in Hlt.
    destruct (N.eqb_spec t d) as [E|_]; [rewrite E in Hlt; destruct (N.lt_irrefl _ Hlt)|]. apply IH; [exact (sorted_app_r [_] _ Hs)|exact Hin].
Qed.

Lemma ents_at_take d id p p' x : q_take_at d id p = Some p' ->
  ents_at x p' = if x =? d then rm id (ents_at d p) else ents_at x p.
Proof.
  revert p'; induction p as [|[t es] r IH]; intros p' H; cbn [q_take_at] in H; [discriminate|]. cbn [ents_at].
  destruct (N.eqb_spec t d) as [->|Htd].
  - destruct (ents_remove id es) as [es'|] eqn:Er; [|discriminate]. injection H as <-.
    cbn [ents_at]. unfold rm. rewrite Er, (N.eqb_sym x d). destruct (d =? x); reflexivity.
  - destruct (q_take_at d id r) as [r'|]; [|discriminate]. injection H as <-.
    cbn [ents_at]. rewrite (IH r' eq_refl). destruct (N.eqb_spec t x) as [->|_]; [|reflexivity].
    destruct (N.eqb_spec x d) as [->|_]; [contradiction Htd; reflexivity|reflexivity].
Qed.

Lemma q_take_at_none d id p : q_take_at d id p = None -> ents_remove id (ents_at d p) = None.
Proof.
  induction p as [|[t es] r IH]; intros H; cbn [q_take_at] in H; cbn [ents_at]; [reflexivity|].
  destruct (t =? d).
  - destruct (ents_remove id es); [discriminate|reflexivity].
  - destruct (q_take_at d id r); [discriminate|]. apply IH. reflexivity.
Qed.

Lemma ents_at_remove d id p x :
  ents_at x (q_remove_at d id p) = if x =? d then rm id (ents_at d p) else ents_at x p.
Proof.
  unfold q_remove_at. destruct (q_take_at d id p) as [p'|] eqn:E.
  - exact (ents_at_take _ _ _ _ _ E).
  - destruct (N.eqb_spec x d) as [->|_]; [|reflexivity].
    unfold rm. rewrite (q_take_at_none _ _ _ E). reflexivity.
Qed.

Lemma q_take_at_some d id p p' : q_take_at d id p = Some p' -> In id (ents_at d p).
Proof.
  revert p'; induction p as [|[t es] r IH]; intros p' H; cbn [q_take_at] in H; cbn [ents_at]; [discriminate|].
  destruct (t =? d).
  - destruct (ents_remove id es) as [es'|] eqn:Er; [|discriminate]. exact (ents_remove_some _ _ _ Er).
  - destruct (q_take_at d id r) as [r'|]; [|discriminate]. eapply IH. reflexivity.
Qed.

Lemma ents_at_add id d p x : sorted p ->
  ents_at x (q_add id d p) = if x =? d then ents_at d p ++ [id] else ents_at x p.
Proof.
  induction p as [|[t es] r IH]; intros Hs; cbn [q_add ents_at].
  - rewrite (N.eqb_sym d x). destruct (x =? d); reflexivity.
  - destruct (N.ltb_spec d t) as [Hlt|Hge]; cbn [ents_at].
    + (* a new front slot: no slot had deadline d *)
      rewrite (N.eqb_sym d x). destruct (N.eqb_spec x d) as [_|_]; [|reflexivity].
      destruct (N.eqb_spec t d) as [->|_]; [lia|]. rewrite <- (app_nil_r r), ents_at_app_r; [reflexivity|]. intros s Hin.
      pose proof (sorted_head_lt _ _ _ Hs Hin) as H. cbn [fst] in H. lia.
    + destruct (N.eqb_spec d t) as [<-|Hne]; cbn [ents_at].
      * rewrite N.eqb_refl, (N.eqb_sym x d). destruct (d =? x); reflexivity.
      * rewrite (IH (sorted_app_r [_] _ Hs)). destruct (N.eqb_spec t d) as [->|_]; [contradiction Hne; reflexivity|].
        destruct (N.eqb_spec x d) as [E|_]; [rewrite E|reflexivity].
        destruct (N.eqb_spec t d) as [->|_]; [contradiction Hne; reflexivity|reflexivity].
Qed.

(* ---- bump ---- *)
Lemma q_bump_spec now p w rest : q_bump now p = (w, rest) ->
  p = w ++ rest /\ Forall (fun s => fst s <= now) w /\ match rest with [] => True | s :: _ => now < fst s end.
Proof.
  revert w rest; induction p as [|[t es] r IH]; intros w rest H; cbn [q_bump] in H.
  - injection H as <- <-. repeat split. constructor.
  - destruct (t <=? now) eqn:E.
    + destruct (q_bump now r) as [w' rest'] eqn:Eb. injection H as <- <-.
      destruct (IH w' rest' eq_refl) as (H1 & H2 & H3).
      split; [cbn [app]; f_equal; exact H1|]. split; [|exact H3].
      constructor; [cbn [fst]; lia|exact H2].
    + injection H as <- <-. split; [reflexivity|]. split; [constructor|]. cbn [fst]. lia.
Qed.

Lemma q_bump_rest_future now p w rest : sorted p -> q_bump now p = (w, rest) ->
  forall s, In s rest -> now < fst s.
Proof.
  intros Hs H s Hin. destruct (q_bump_spec _ _ _ _ H) as (Hp & _ & Hh). subst p.
  pose proof (sorted_app_r _ _ Hs) as Hr.
  destruct rest as [|s0 rest]; [contradiction|].
  destruct Hin as [<-|Hin]; [exact Hh|].
  pose proof (sorted_head_lt _ _ _ Hr Hin). lia.
Qed.

(* ---- next ---- *)
Lemma prune_spec p : exists pre, p = pre ++ prune p /\ Forall (fun s => snd s = []) pre.
Proof.
  induction p as [|[t es] r IH]; [exists []; split; [reflexivity|constructor]|].
  destruct es as [|e es].
  - destruct IH as (pre & H1 & H2). exists ((t, []) :: pre). cbn [prune app].
    split; [f_equal; exact H1|]. constructor; [reflexivity|exact H2].
  - exists []. split; [reflexivity|constructor].
Qed.

Lemma prune_head_live p t es r : prune p = (t, es) :: r -> es <> [].
Proof.
  induction p as [|[t0 es0] r0 IH]; cbn [prune]; [discriminate|].
  destruct es0 as [|e es0]; [exact IH|]. intros H. injection H as <- <- <-. discriminate.
Qed.

Lemma prune_sorted p : sorted p -> sorted (prune p).
Proof.
  intros Hs. destruct (prune_spec p) as (pre & H & _). rewrite H in Hs. exact (sorted_app_r _ _ Hs).
Qed.

Lemma prune_keeps_live p d es : In (d, es) p -> es <> [] -> In (d, es) (prune p).
Proof.
  intros Hin Hne. destruct (prune_spec p) as (pre & H & Hall). rewrite H in Hin.
  apply in_app_or in Hin. destruct Hin as [Hin|Hin]; [|exact Hin].
  rewrite Forall_forall in Hall. specialize (Hall _ Hin). cbn [snd] in Hall. contradiction.
Qed.

Lemma prune_in p s : In s (prune p) -> In s p.
Proof.
  intros Hin. destruct (prune_spec p) as (pre & H & _). rewrite H. apply in_or_app. right; exact Hin.
Qed.

(* ---- scheduled wake-ups ---- *)
Lemma lmin_spec l m : lmin l = Some m -> In m l /\ forall x, In x l -> m <= x.
Proof.
  revert m; induction l as [|a r IH]; intros m H; cbn [lmin] in H; [discriminate|].
  destruct (lmin r) as [m'|] eqn:E.
  - injection H as <-. destruct (IH m' eq_refl) as [Hin Hle]. split.
    + destruct (N.min_spec a m') as [[_ ->]|[_ ->]]; [left; reflexivity|right; exact Hin].
    + intros x [<-|Hx]; [lia|]. specialize (Hle x Hx). lia.
  - injection H as <-. destruct r as [|b r]; [|cbn [lmin] in E; destruct (lmin r); discriminate].
    split; [left; reflexivity|]. intros x [<-|[]]. lia.
Qed.

Lemma lmin_none l : lmin l = None -> l = [].
Proof. destruct l as [|a r]; [reflexivity|]. cbn [lmin]. destruct (lmin r); discriminate. Qed.

Lemma remove1_in w l x : In x (remove1 w l) -> In x l.
Proof.
  induction l as [|a r IH]; cbn [remove1]; [exact (fun H => H)|].
  destruct (a =? w); [intros H; right; exact H|].
  intros [<-|H]; [left; reflexivity|right; exact (IH H)].
Qed.

Lemma remove1_keeps w l x : In x l -> x <> w -> In x (remove1 w l).
Proof.
  induction l as [|a r IH]; cbn [remove1]; [exact (fun H _ => H)|].
  intros [<-|H] Hne.
  - destruct (N.eqb_spec a w) as [E|_]; [contradiction|left; reflexivity].
  - destruct (a =? w); [exact H|right; exact (IH H Hne)].
Qed.
