(* Removal by id, seen slot by slot.  A Sleep that is registered and, within the same poll,
   dropped or reset leaves the entries of the driver exactly as they were (it leaves empty slots
   behind), provided its id is fresh: the removal by id then hits its own entry
   (drop_registered_ents .. reset_prep_spec).  A Sleep that has been registered for a while and is
   then dropped or reset: with distinct ids in its slot exactly its entry goes (rm_in_iff,
   rm_nodup, reset_existing_ents). *)
From Coq Require Import List NArith Bool Lia ZifyBool.
From DesVerif Require Import Timer.Driver Timer.QueueLemmas Timer.Inv Timer.Futures Timer.FutureLaws.
Import ListNotations.
Open Scope N_scope.

Lemma ents_remove_app_fresh id es : ~ In id es -> ents_remove id (es ++ [id]) = Some es.
Proof.
  induction es as [|a r IH]; intros H; cbn [app ents_remove]; [rewrite N.eqb_refl; reflexivity|].
  destruct (a =? id) eqn:E; [exfalso; apply H; left; lia|]. rewrite IH; [reflexivity|]. intros Hin; apply H; right; exact Hin.
Qed.

Lemma rm_app_fresh id es : ~ In id es -> rm id (es ++ [id]) = es.
Proof. intros H. unfold rm. rewrite (ents_remove_app_fresh _ _ H). reflexivity. Qed.

Lemma ents_remove_fresh id es : ~ In id es -> ents_remove id es = None.
Proof.
  induction es as [|a r IH]; intros H; cbn [ents_remove]; [reflexivity|].
  destruct (a =? id) eqn:E; [exfalso; apply H; left; lia|]. rewrite IH; [reflexivity|]. intros Hin; apply H; right; exact Hin.
Qed.

Lemma ents_remove_none id es : ents_remove id es = None -> ~ In id es.
Proof.
  induction es as [|x r IH]; intros E Hin; [contradiction|]. cbn [ents_remove] in E.
  destruct (x =? id) eqn:Ex; [discriminate|]. destruct (ents_remove id r); [discriminate|].
  destruct Hin as [->|Hin]; [lia|exact (IH eq_refl Hin)].
Qed.

Lemma rm_fresh id es : ~ In id es -> rm id es = es.
Proof. intros H. unfold rm. rewrite (ents_remove_fresh _ _ H). reflexivity. Qed.

Definition fresh_in (id : N) (p : list slot) : Prop := forall x, ~ In id (ents_at x p).

Lemma drop_registered_ents id d dr x : sorted (pending dr) -> fresh_in id (pending dr) ->
  ents_at x (pending (drop_entry id d (register id d dr))) = ents_at x (pending dr).
Proof.
  intros Hs Hf. cbn [drop_entry register set_pending pending]. rewrite ents_at_remove, !(ents_at_add _ _ _ _ Hs), N.eqb_refl.
  destruct (x =? d) eqn:E; [|reflexivity]. replace x with d by lia. apply rm_app_fresh, Hf.
Qed.

Lemma reset_registered_ents id d d' dr x : sorted (pending dr) -> fresh_in id (pending dr) ->
  ents_at x (pending (reset_entry id d d' (register id d dr))) = ents_at x (pending dr).
Proof.
  intros Hs Hf. rewrite reset_entry_pending. cbn [register set_pending pending].
  pose proof (q_add_sorted id d _ Hs) as Hs1.
  destruct (q_take_at d id (q_add id d (pending dr))) as [p1|] eqn:Et.
  - pose proof (q_take_at_sorted _ _ _ _ Et Hs1) as Hsp1.
    assert (H1 : forall y, ents_at y p1 = ents_at y (pending dr)).
    { intros y. rewrite (ents_at_take _ _ _ _ y Et), !(ents_at_add _ _ _ _ Hs), N.eqb_refl.
      destruct (y =? d) eqn:E; [|reflexivity]. replace y with d by lia. apply rm_app_fresh, Hf. }
    rewrite !ents_at_remove, !(ents_at_add _ _ _ _ Hsp1), !H1, ?N.eqb_refl.
    destruct (x =? d') eqn:E1.
    + replace x with d' by lia. destruct (d' =? d) eqn:E2.
      * replace (d =? d') with true by lia. rewrite rm_app_fresh by apply Hf. apply rm_fresh, Hf.
      * apply rm_app_fresh, Hf.
    + destruct (x =? d) eqn:E2; [|reflexivity]. replace x with d by lia.
      destruct (d =? d') eqn:E3; [lia|]. apply rm_fresh, Hf.
  - exfalso. apply q_take_at_none in Et. rewrite (ents_at_add _ _ _ _ Hs), N.eqb_refl in Et.
    rewrite (ents_remove_app_fresh _ _ (Hf d)) in Et. discriminate.
Qed.

(* polled (if it is not due yet: registered), then dropped *)
Lemma poll_drop_ents now D id dr x : sorted (pending dr) -> fresh_in id (pending dr) ->
  ents_at x (pending (let '(_, s1, dr1) := sleep_poll now (sleep_new D id) dr in sleep_drop s1 dr1)) = ents_at x (pending dr).
Proof.
  intros Hs Hf. unfold sleep_poll, sleep_new. cbn [deadline handle sid].
  destruct (now <? D); unfold sleep_drop; cbn [handle sid]; [apply drop_registered_ents; assumption|reflexivity].
Qed.

Lemma poll_drop_acts now D id dr :
  acts now dr (let '(_, s1, dr1) := sleep_poll now (sleep_new D id) dr in sleep_drop s1 dr1).
Proof.
  pose proof (sleep_poll_acts now (sleep_new D id) dr) as H. destruct (sleep_poll now (sleep_new D id) dr) as [[r s1] dr1].
  cbn [snd] in H. eapply acts_trans; [exact H|apply sleep_drop_acts].
Qed.

(* created, polled if asked, reset: the Sleep is not registered afterwards *)
Definition reset_prep (now : N) (polled : bool) (D1 D2 id : N) (dr : driver) : sleep * driver :=
  let s0 := sleep_new D1 id in
  let '(s1, dr1) := if polled then let '(_, s1, dr1) := sleep_poll now s0 dr in (s1, dr1) else (s0, dr) in
  sleep_reset s1 D2 dr1.

Lemma reset_prep_spec now polled D1 D2 id dr : sorted (pending dr) -> fresh_in id (pending dr) ->
  fst (reset_prep now polled D1 D2 id dr) = {| deadline := D2; sid := id; handle := None |} /\
  acts now dr (snd (reset_prep now polled D1 D2 id dr)) /\
  forall x, ents_at x (pending (snd (reset_prep now polled D1 D2 id dr))) = ents_at x (pending dr).
Proof.
  intros Hs Hf. unfold reset_prep. destruct polled.
  - pose proof (sleep_poll_acts now (sleep_new D1 id) dr) as Ha.
    unfold sleep_poll, sleep_new in *. cbn [deadline handle sid] in *.
    destruct (now <? D1); cbn [snd] in Ha; unfold sleep_reset; cbn [deadline handle sid fst snd].
    + split; [reflexivity|]. split.
      * eapply acts_trans; [exact Ha|]. apply (acts_one now _ (ResetEntry id D1 D2)). exact I.
      * intros x. apply reset_registered_ents; assumption.
    + split; [reflexivity|]. split; [apply acts_refl|reflexivity].
  - unfold sleep_reset, sleep_new. cbn [deadline handle sid fst snd]. split; [reflexivity|]. split; [apply acts_refl|reflexivity].
Qed.

(* with distinct ids in a slot, removal by id takes out exactly that id *)
Lemma rm_in_iff id es a : NoDup es -> (In a (rm id es) <-> In a es /\ a <> id).
Proof.
  intros Hnd. unfold rm. destruct (ents_remove id es) as [e|] eqn:E.
  - revert e E. induction es as [|x r IH]; intros e E; cbn [ents_remove] in E; [discriminate|].
    inversion Hnd as [|? ? Hx Hr]; subst. destruct (x =? id) eqn:Ex.
    + injection E as <-. assert (x = id) by lia. subst x. split.
      * intros Hin. split; [right; exact Hin|intros ->; contradiction].
      * intros [[->|Hin] Hne]; [contradiction Hne; reflexivity|exact Hin].
    + destruct (ents_remove id r) as [r'|] eqn:Er; [|discriminate]. injection E as <-. specialize (IH Hr r' eq_refl). split.
      * intros [->|Hin]; [split; [left; reflexivity|lia]|]. apply IH in Hin. split; [right; exact (proj1 Hin)|exact (proj2 Hin)].
      * intros [[->|Hin] Hne]; [left; reflexivity|right; apply IH; split; assumption].
  - split; [intros Hin; split; [exact Hin|]|intros [Hin _]; exact Hin].
    intros ->. exact (ents_remove_none _ _ E Hin).
Qed.

Lemma rm_nodup id es : NoDup es -> NoDup (rm id es).
Proof.
  intros Hnd. unfold rm. destruct (ents_remove id es) as [e|] eqn:E; [|exact Hnd].
  revert e E. induction es as [|x r IH]; intros e E; cbn [ents_remove] in E; [discriminate|].
  inversion Hnd as [|? ? Hx Hr]; subst. destruct (x =? id); [injection E as <-; exact Hr|].
  destruct (ents_remove id r) as [r'|] eqn:Er; [|discriminate]. injection E as <-. constructor; [|exact (IH Hr r' eq_refl)].
  intros Hin. apply Hx. exact (ents_remove_in _ _ _ _ Er Hin).
Qed.

(* reset of a Sleep that is registered (its id in its slot exactly once, and nowhere in the
   slot it moves to): the entry is gone afterwards, everything else is as it was *)
Lemma reset_existing_ents id d d' dr x : sorted (pending dr) -> In id (ents_at d (pending dr)) ->
  NoDup (ents_at d (pending dr)) -> (d' <> d -> ~ In id (ents_at d' (pending dr))) ->
  ents_at x (pending (reset_entry id d d' dr)) = if x =? d then rm id (ents_at d (pending dr)) else ents_at x (pending dr).
Proof.
  intros Hs Hin Hnd Hf. rewrite reset_entry_pending.
  destruct (q_take_at d id (pending dr)) as [p1|] eqn:Et.
  - pose proof (q_take_at_sorted _ _ _ _ Et Hs) as Hsp1.
    assert (Hno : ~ In id (rm id (ents_at d (pending dr)))).
    { intros H. apply (rm_in_iff _ _ _ Hnd) in H. destruct H as [_ H]. apply H. reflexivity. }
    rewrite !ents_at_remove, !(ents_at_add _ _ _ _ Hsp1), !(ents_at_take _ _ _ _ _ Et), ?N.eqb_refl.
    destruct (d' =? d) eqn:E2.
    + replace d' with d in * by lia. rewrite ?N.eqb_refl.
      destruct (x =? d) eqn:E1; [|reflexivity].
      rewrite (rm_app_fresh _ _ Hno). apply rm_fresh. exact Hno.
    + replace (d =? d') with false by lia.
      destruct (x =? d') eqn:E1.
      * replace x with d' by lia. rewrite E2. apply rm_app_fresh. apply Hf. lia.
      * destruct (x =? d) eqn:E3; [|reflexivity]. apply rm_fresh. exact Hno.
  - exfalso. apply q_take_at_none in Et. exact (ents_remove_none _ _ Et Hin).
Qed.
