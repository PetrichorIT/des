(* From the wake-up invariant: timers are never woken early, no event overtakes a live
   deadline, the event that wakes a timer is stamped exactly with its deadline, and a run
   cannot end while a timer is live. *)
From Coq Require Import List NArith Bool.
From DesVerif Require Import Timer.Driver Timer.QueueLemmas Timer.Inv.
Import ListNotations.
Open Scope N_scope.

(* the timer entry [id] is registered under deadline d *)
Definition live (dr : driver) (id d : N) : Prop := exists es, In (d, es) (pending dr) /\ In id es.

Definition op_id (o : dop) : N :=
  match o with Register i _ => i | DropEntry i _ => i | ResetEntry i _ _ => i end.

(* the Sleep that owns entry [id] is neither dropped, reset nor registered again *)
Definition untouched (id : N) (tr : list event) : Prop :=
  forall e o, In e tr -> In o (ev_ops e) -> op_id o <> id.

Lemma live_ents dr id d : sorted (pending dr) -> (live dr id d <-> In id (ents_at d (pending dr))).
Proof.
  intros Hs. split.
  - intros (es & Hin & Hid). rewrite (in_ents_at _ _ _ Hs Hin). exact Hid.
  - intros H. exists (ents_at d (pending dr)). split; [|exact H].
    apply ents_at_in. intros E. rewrite E in H. contradiction.
Qed.

(* ---- never early ---- *)
Lemma activate_split now dr :
  pending dr = fst (activate now dr) ++ pending (snd (activate now dr)) /\
  Forall (fun s => fst s <= now) (fst (activate now dr)) /\
  (sorted (pending dr) -> forall s, In s (pending (snd (activate now dr))) -> now < fst s).
Proof.
  unfold activate. destruct (q_bump now (pending dr)) as [w rest] eqn:Eb. cbn [fst snd pending].
  destruct (q_bump_spec _ _ _ _ Eb) as (Hp & Hall & _).
  split; [exact Hp|]. split; [exact Hall|]. intros Hs. exact (q_bump_rest_future _ _ _ _ Hs Eb).
Qed.

Lemma never_early now dr d es : In (d, es) (fst (activate now dr)) -> d <= now.
Proof.
  destruct (activate_split now dr) as (_ & Hall & _). rewrite Forall_forall in Hall. exact (Hall (d, es)).
Qed.

(* ... and bump takes every due slot *)
Lemma bump_takes_all_due now dr d es : sorted (pending dr) -> In (d, es) (pending dr) -> d <= now ->
  In (d, es) (fst (activate now dr)).
Proof.
  destruct (activate_split now dr) as (Hp & _ & Hf). intros Hs Hin Hle. rewrite Hp in Hin.
  apply in_app_or in Hin. destruct Hin as [Hin|Hin]; [exact Hin|].
  destruct (N.lt_irrefl d). exact (N.le_lt_trans _ _ _ Hle (Hf Hs _ Hin)).
Qed.

Lemma activate_keeps_future now dr d es : In (d, es) (pending dr) -> now < d ->
  In (d, es) (pending (snd (activate now dr))).
Proof.
  destruct (activate_split now dr) as (Hp & _ & _). intros Hin Hlt. rewrite Hp in Hin.
  apply in_app_or in Hin. destruct Hin as [Hin|Hin]; [|exact Hin].
  destruct (N.lt_irrefl d). exact (N.le_lt_trans _ _ _ (never_early now dr d es Hin) Hlt).
Qed.

(* ---- operations on other timers leave an entry alone ---- *)
Lemma apply_op_keeps dr o x a : sorted (pending dr) -> In a (ents_at x (pending dr)) -> op_id o <> a ->
  In a (ents_at x (pending (apply_op dr o))).
Proof.
  intros Hs Ha Hne. apply not_eq_sym in Hne. destruct o as [id d|id d|id d d']; cbn [op_id] in Hne;
    cbn [apply_op register drop_entry set_pending pending].
  - apply ents_at_add_keeps; assumption.
  - apply ents_at_remove_keeps; assumption.
  - apply reset_ents_keeps; assumption.
Qed.

Lemma apply_ops_keeps t ops dr x a : Mid t dr -> ops_wf t ops ->
  (forall o, In o ops -> op_id o <> a) -> In a (ents_at x (pending dr)) ->
  In a (ents_at x (pending (apply_ops ops dr))).
Proof.
  unfold apply_ops, ops_wf. revert dr. induction ops as [|o r IH]; intros dr Hm Hwf Hne Ha; cbn [fold_left]; [exact Ha|].
  inversion Hwf as [|? ? Ho Hr]; subst. apply IH.
  - apply apply_op_mid; assumption.
  - exact Hr.
  - intros o' Ho'. apply Hne. right; exact Ho'.
  - apply apply_op_keeps; [exact (mid_sorted _ _ Hm)|exact Ha|apply Hne; left; reflexivity].
Qed.

Lemma deactivate_pending dr : pending (fst (deactivate true dr)) = prune (pending dr).
Proof.
  unfold deactivate, q_next. destruct (front_time (prune (pending dr))) as [t|]; [|reflexivity].
  destruct (earlier t (next_wakeup dr)); reflexivity.
Qed.

(* ---- one event, seen from one live entry ---- *)
Lemma event_body_live t ops dr id d : Pre t dr -> ops_wf t ops -> live dr id d ->
  (forall o, In o ops -> op_id o <> id) -> t <= d ->
  (t = d /\ exists es, In (d, es) (fst (event_body true t ops dr)) /\ In id es) \/
  (t < d /\ live (snd (event_body true t ops dr)) id d).
Proof.
  intros Hpre Hwf (es & Hin & Hid) Hne Hle. rewrite event_body_eq. cbn [fst snd].
  destruct (N.eq_dec t d) as [->|Hneq].
  - left. split; [reflexivity|]. exists es. split; [|exact Hid].
    exact (bump_takes_all_due d dr d es (pre_sorted _ _ Hpre) Hin (N.le_refl d)).
  - right. assert (Hlt : t < d) by (apply N.le_neq; split; assumption). split; [exact Hlt|].
    pose proof (activate_mid t dr Hpre) as Hm. pose proof (event_body_mid t ops dr Hpre Hwf) as Hm2.
    assert (Ha : In id (ents_at d (pending (apply_ops ops (snd (activate t dr)))))).
    { apply (apply_ops_keeps t); try assumption.
      rewrite (in_ents_at _ _ _ (mid_sorted _ _ Hm) (activate_keeps_future t dr d es Hin Hlt)). exact Hid. }
    assert (Hne2 : ents_at d (pending (apply_ops ops (snd (activate t dr)))) <> []) by (intros E; rewrite E in Ha; contradiction).
    exists (ents_at d (pending (apply_ops ops (snd (activate t dr))))). split; [|exact Ha].
    rewrite deactivate_pending. apply prune_keeps_live; [|exact Hne2]. apply ents_at_in. exact Hne2.
Qed.

Lemma live_slot dr id d : live dr id d -> exists es, In (d, es) (pending dr) /\ es <> [].
Proof. intros (es & Hin & Hid). exists es. split; [exact Hin|]. intros E. rewrite E in Hid. contradiction. Qed.

Lemma step_event_covered st e d es : Inv (fst st) (snd st) -> ev_valid st e ->
  In (d, es) (pending (snd st)) -> es <> [] -> d < TMAX -> fst (fst (step_event true st e)) <= d.
Proof.
  intros Hinv Hv Hin Hne Hfin. destruct (proj2 Hinv d es Hin Hne Hfin) as (w0 & Hw0 & _ & Hle).
  destruct (step_event_shape st e Hinv Hv) as (t & dr0 & _ & _ & _ & _ & Hsc & ->).
  exact (N.le_trans _ _ _ (Hsc w0 Hw0) Hle).
Qed.

Lemma step_event_live st e id d : Inv (fst st) (snd st) -> ev_valid st e -> live (snd st) id d -> d < TMAX ->
  (forall o, In o (ev_ops e) -> op_id o <> id) ->
  let t := fst (fst (step_event true st e)) in
  (t = d /\ exists es, In (d, es) (snd (step_event true st e)) /\ In id es) \/
  (t < d /\ live (snd (fst (step_event true st e))) id d).
Proof.
  intros Hinv Hv Hl Hfin Hne. destruct (live_slot _ _ _ Hl) as (es & Hin & Hnil).
  pose proof (step_event_covered st e d es Hinv Hv Hin Hnil Hfin) as Hle. cbn zeta.
  destruct (step_event_shape st e Hinv Hv) as (t & dr0 & Hpre & Hwf & Hp & _ & _ & E). rewrite E in *. cbn [fst snd] in *.
  apply event_body_live; try assumption. unfold live. rewrite Hp. exact Hl.
Qed.

(* ---- woken exactly at the deadline ---- *)
Lemma step_event_exact st e d es : Inv (fst st) (snd st) -> ev_valid st e ->
  In (d, es) (snd (step_event true st e)) -> es <> [] -> d < TMAX -> fst (fst (step_event true st e)) = d.
Proof.
  intros Hinv Hv Hin Hne Hfin.
  (* a popped slot was pending, so it was covered: the event is not later than d, and bump pops no future slot *)
  assert (Hp : In (d, es) (pending (snd st)) /\ d <= fst (fst (step_event true st e))).
  { destruct (step_event_shape st e Hinv Hv) as (t & dr0 & _ & _ & Hp & _ & _ & E). rewrite E in *. cbn [fst snd] in *.
    rewrite event_body_eq in Hin. cbn [fst] in Hin. split; [|exact (never_early t dr0 d es Hin)].
    rewrite <- Hp, (proj1 (activate_split t dr0)). apply in_or_app. left; exact Hin. }
  destruct Hp as [Hp Hle]. exact (N.le_antisymm _ _ (step_event_covered st e d es Hinv Hv Hp Hne Hfin) Hle).
Qed.

Theorem log_exact tr : forall st, Inv (fst st) (snd st) -> valid_trace st tr ->
  forall t d es, In (t, (d, es)) (snd (run_trace true st tr)) -> es <> [] -> d < TMAX -> t = d.
Proof.
  revert tr. refine (valid_trace_ind _ _ _); [intros st _ t d es []|].
  intros st e r Hinv Hev IH t d es Hin Hne Hfin. rewrite run_trace_cons in Hin. cbn [snd] in Hin.
  apply in_app_or in Hin. destruct Hin as [Hin|Hin]; [|exact (IH t d es Hin Hne Hfin)].
  apply in_map_iff in Hin. destruct Hin as (s & Heq & Hs). injection Heq as <- ->.
  exact (step_event_exact st e d es Hinv Hev Hs Hne Hfin).
Qed.

(* ---- never late, never lost ---- *)
Theorem never_late_never_lost tr : forall st id d,
  Inv (fst st) (snd st) -> valid_trace st tr -> live (snd st) id d -> d < TMAX -> untouched id tr ->
  (exists es, In (d, (d, es)) (snd (run_trace true st tr)) /\ In id es) \/
  (live (snd (fst (run_trace true st tr))) id d /\ fst (fst (run_trace true st tr)) < d /\
   exists w, In w (scheduled (snd (fst (run_trace true st tr)))) /\ fst (fst (run_trace true st tr)) <= w /\ w <= d).
Proof.
  intros st id d Hinv Hv. revert tr st Hinv Hv. refine (valid_trace_ind _ _ _).
  - intros st [Hm Hw] Hl Hfin _. right. cbn [run_trace fst snd]. split; [exact Hl|].
    destruct (live_slot _ _ _ Hl) as (es & Hin & Hne).
    split; [exact (mid_future _ _ Hm d es Hin Hne)|exact (Hw d es Hin Hne Hfin)].
  - intros st e r Hinv Hev IH Hl Hfin Hun. rewrite run_trace_cons. cbn [fst snd].
    assert (Hne : forall o, In o (ev_ops e) -> op_id o <> id) by (intros o Ho; apply (Hun e o); [left; reflexivity|exact Ho]).
    assert (Hun' : untouched id r) by (intros e' o He' Ho; apply (Hun e' o); [right; exact He'|exact Ho]).
    destruct (step_event_live st e id d Hinv Hev Hl Hfin Hne) as [(E & es & Hin & Hid)|(_ & Hl')].
    + left. exists es. split; [|exact Hid]. apply in_or_app. left.
      apply in_map_iff. exists (d, es). split; [rewrite E; reflexivity|exact Hin].
    + destruct (IH Hl' Hfin Hun') as [(es & Hin & Hid)|H]; [|right; exact H].
      left. exists es. split; [|exact Hid]. apply in_or_app. right. exact Hin.
Qed.

(* the runtime stops only when the event set is empty: a completed run has woken every
   timer that was left alone, by an event stamped exactly with its deadline *)
Corollary complete_run_wakes_at_deadline tr st id d :
  Inv (fst st) (snd st) -> valid_trace st tr -> live (snd st) id d -> d < TMAX -> untouched id tr ->
  scheduled (snd (fst (run_trace true st tr))) = [] ->
  exists es, In (d, (d, es)) (snd (run_trace true st tr)) /\ In id es.
Proof.
  intros Hinv Hv Hl Hfin Hun Hnil.
  destruct (never_late_never_lost tr st id d Hinv Hv Hl Hfin Hun) as [H|(_ & _ & w & Hw & _)]; [exact H|].
  rewrite Hnil in Hw. contradiction.
Qed.
