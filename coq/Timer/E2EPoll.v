(* End-to-end argument, fragment of coq/Timer/Frag.v: one poll of a task inside an event
   of its module, and the executor's run over the queue of woken / spawned tasks. *)
From Coq Require Import List Arith NArith Bool Lia Permutation ZifyBool.
From DesVerif Require Import Common.Lists CQueue.Model CQueue.Spec CQueue.SpecProps Timer.Driver Timer.QueueLemmas Timer.Inv
  Timer.Futures Timer.FutureLaws Timer.TempOps Timer.Model Timer.Compose Timer.EvSet Timer.Frag Timer.E2EInv.
Import ListNotations.
Open Scope N_scope.

(* what is known of the tasks that are about to be polled at instant t in module m: spawned
   now, blocked on a future whose timer is due now, or blocked on a receive with a message waiting *)
Definition runnable (ts : list task) (mail : mailbox) (t m : N) (k : nat) : Prop :=
  exists tk, nth_error ts k = Some tk /\ t_mod tk = m /\
    ((unspawned tk /\ t_start tk = t) \/
     exists a, t_cur tk = Some a /\ (aw_wake a (t_iv tk) = t \/
                                    exists ch, waits_on (Some a) = Some ch /\ chan m ch mail <> [] /\ t < aw_wake a (t_iv tk))).

(* the arrivals of one module replaced *)
Definition upd (A : N -> arrs) (m : N) (arr : arrs) : N -> arrs := fun m' => if m' =? m then arr else A m'.

Lemma upd_same A m arr : upd A m arr m = arr.
Proof. unfold upd. rewrite N.eqb_refl. reflexivity. Qed.

Lemma upd_other A m arr m' : m' <> m -> upd A m arr m' = A m'.
Proof. intros H. unfold upd. replace (m' =? m) with false by lia. reflexivity. Qed.

Lemma tstate_agree A0 A A' tk0 tk : A (t_mod tk0) = A' (t_mod tk0) -> tstate A0 A tk0 tk -> tstate A0 A' tk0 tk.
Proof.
  intros E [-> H1 H2|a st rest H1 H2 H3 H4 H5 H7 H8 H9 H10 H11 H12 H13 H14|H1 H2 H3 H4 H5 H6 H7].
  - apply TUn; [reflexivity|rewrite <- E; exact H1|rewrite <- E; exact H2].
  - apply (TBl _ _ _ _ a st rest); try assumption; rewrite <- E; assumption.
  - apply TDn; assumption.
Qed.

Lemma waker_of_cons own id k id' : waker_of ((id, k) :: own) id' = if id =? id' then Some k else waker_of own id'.
Proof. reflexivity. Qed.

Lemma apply_ops_rest_nw ops : forall dr, next_wakeup (apply_ops ops dr) = next_wakeup dr /\ scheduled (apply_ops ops dr) = scheduled dr.
Proof.
  unfold apply_ops. induction ops as [|o r IH]; intros dr; cbn [fold_left]; [split; reflexivity|].
  destruct (IH (apply_op dr o)) as [H1 H2]. destruct (apply_op_rest dr o) as [E1 E2]. rewrite H1, H2, E1, E2. split; reflexivity.
Qed.

(* the wakers noted for the Sleeps a task holds when it blocks *)
Lemma note_polls_held k before ss : forall own, Forall (fun s => handle s <> None) ss ->
  forall id, waker_of (note_polls true k before ss own) id = if existsb (N.eqb id) (map sid ss) then Some k else waker_of own id.
Proof.
  unfold note_polls. induction ss as [|s r IH]; intros own Hh id; cbn [fold_left map existsb]; [reflexivity|].
  inversion Hh as [|? ? Hs Hr]; subst. rewrite (IH _ Hr). unfold note_poll.
  destruct (handle s) as [h|]; [|contradiction Hs; reflexivity]. rewrite andb_false_r. rewrite waker_of_cons.
  destruct (existsb (N.eqb id) (map sid r)); [rewrite orb_true_r; reflexivity|]. rewrite orb_false_r.
  rewrite N.eqb_sym. reflexivity.
Qed.

Lemma new_at_in a iv x id : In id (new_at a iv x) <-> exists s, In s (aw_held a iv) /\ sid s = id /\ deadline s = x.
Proof.
  unfold new_at. rewrite in_map_iff. split.
  - intros (s & E & Hin). apply filter_In in Hin. destruct Hin as [Hin Hd]. exists s. repeat split; [exact Hin|exact E|lia].
  - intros (s & Hin & E & Hd). exists s. split; [exact E|]. apply filter_In. split; [exact Hin|lia].
Qed.

Lemma NoDup_map_filter {A B} (f : A -> B) (g : A -> bool) l : NoDup (map f l) -> NoDup (map f (filter g l)).
Proof.
  induction l as [|a r IH]; cbn [map filter]; intros H; [constructor|]. inversion H as [|? ? Ha Hr]; subst.
  destruct (g a); [|exact (IH Hr)]. cbn [map]. constructor; [|exact (IH Hr)].
  intros Hin. apply Ha. apply in_map_iff in Hin. destruct Hin as (x & E & Hx). apply filter_In in Hx. apply in_map_iff. exists x. split; [exact E|exact (proj1 Hx)].
Qed.

Lemma note_polls_app k before l1 l2 own : note_polls true k before (l1 ++ l2) own = note_polls true k before l2 (note_polls true k before l1 own).
Proof. unfold note_polls. apply fold_left_app. Qed.

Lemma note_polls_none k before ss : Forall (fun s => handle s = None) ss -> forall own, note_polls true k before ss own = own.
Proof.
  unfold note_polls. induction 1 as [|s r Hs _ IH]; intros own; cbn [fold_left]; [reflexivity|].
  unfold note_poll at 2. rewrite Hs. apply IH.
Qed.

Lemma sent_by_inert k mail : inert mail -> Forall (fun s => handle s = None) (sent_by k mail).
Proof.
  induction 1 as [|[[[m0 c0] k0] s0] r Hs _ IH]; cbn [sent_by]; [constructor|]. cbn [snd] in Hs.
  destruct (Nat.eqb k k0); [constructor; assumption|exact IH].
Qed.

(* replacing one element of a list under flat_map *)
Lemma flat_map_set_nth {A B} (f : A -> list B) ts : forall k tk tk', nth_error ts k = Some tk ->
  exists pre post, flat_map f ts = pre ++ f tk ++ post /\ flat_map f (set_nth k tk' ts) = pre ++ f tk' ++ post.
Proof.
  induction ts as [|x r IH]; intros k tk tk' Hk; [destruct k; discriminate|].
  destruct k as [|k]; cbn [nth_error set_nth flat_map] in *.
  - injection Hk as ->. exists [], (flat_map f r). split; reflexivity.
  - destruct (IH k tk tk' Hk) as (pre & post & E1 & E2). exists (f x ++ pre), post. rewrite E1, E2, <- !app_assoc. split; reflexivity.
Qed.

Lemma on_chan_app c l1 l2 : on_chan c (l1 ++ l2) = on_chan c l1 ++ on_chan c l2.
Proof. unfold on_chan. rewrite filter_app, map_app. reflexivity. Qed.

(* the tokens a poll has appended, seen channel by channel *)
Lemma toks_chan now m k toks : Forall (tok_ok now m k) toks ->
  (forall c, map deadline (chan m c toks) = on_chan c (map (fun e => (chn e, now)) toks)) /\
  (forall m' c, m' <> m -> chan m' c toks = []) /\ inert toks.
Proof.
  induction 1 as [|e r (ch & id & ->) _ (I1 & I2 & I3)]; [repeat split; constructor|].
  split; [|split].
  - intros c. cbn [chan map chn fst snd on_chan filter]. rewrite N.eqb_refl. cbn [andb].
    pose proof (I1 c) as Hc. unfold on_chan in Hc.
    destruct (ch =? c); [cbn [map token deadline snd]; rewrite N.add_0_r, Hc; reflexivity|exact Hc].
  - intros m' c Hne. cbn [chan]. replace (m =? m') with false by lia. cbn [andb]. exact (I2 m' c Hne).
  - constructor; [reflexivity|exact I3].
Qed.

Lemma Forall_skipn {X} (P : X -> Prop) n0 : forall l, Forall P l -> Forall P (skipn n0 l).
Proof. induction n0 as [|n0 IH]; intros l H; [exact H|]. destruct l as [|x l]; [constructor|]. inversion H; subst. cbn [skipn]. apply IH. assumption. Qed.

(* twice the steps to go, plus two for a task that is still to be spawned, plus one for a task whose
   keep-alive select may block once more (on the re-armed kept timer) within the same step *)
Definition wt (tk : task) : nat :=
  (2 * length (t_steps tk) +
   match t_cur tk with
   | None => if t_fin tk then 0 else 2
   | Some (AwKeep true _ _ _) => 1
   | Some _ => 0
   end)%nat.

Definition wres (b : option (aw * option interval * list step)) : nat :=
  (2 * length (fr_steps b) + match fr_cur b with Some (AwKeep true _ _ _) => 1 | _ => 0 end)%nat.

Lemma wres_bound b : (wres b <= 2 * length (fr_steps b) + 1)%nat.
Proof. unfold wres. destruct (fr_cur b) as [[]|]; try lia. destruct rearm; lia. Qed.

Definition work (ts : list task) : nat := fold_right (fun tk n => (wt tk + n)%nat) 0%nat ts.

Lemma work_set_nth ts : forall k tk tk', nth_error ts k = Some tk ->
  (work (set_nth k tk' ts) + wt tk = work ts + wt tk')%nat.
Proof.
  induction ts as [|a r IH]; intros k tk tk' Hk; [destruct k; discriminate|].
  destruct k as [|k]; cbn [nth_error set_nth work fold_right] in *.
  - injection Hk as ->. fold (work r). lia.
  - fold (work r) in *. fold (work (set_nth k tk' r)). pose proof (IH k tk tk' Hk). lia.
Qed.

(* the messages that are still to be sent, all tasks together: bounds how often the run queue grows *)
Definition psends (ts : list task) : nat := fold_right (fun tk n => (length (fut_sends tk) + n)%nat) 0%nat ts.

Lemma psends_set_nth ts : forall k tk tk', nth_error ts k = Some tk ->
  (psends (set_nth k tk' ts) + length (fut_sends tk) = psends ts + length (fut_sends tk'))%nat.
Proof.
  induction ts as [|a r IH]; intros k tk tk' Hk; [destruct k; discriminate|].
  destruct k as [|k]; cbn [nth_error set_nth psends fold_right] in *.
  - injection Hk as ->. fold (psends r). lia.
  - fold (psends r) in *. fold (psends (set_nth k tk' r)). pose proof (IH k tk tk' Hk). lia.
Qed.

(* inside an event of module m at instant t, with [q] still to be polled *)
Record MInv (A0 A : N -> arrs) (ts0 : list task) (t m : N) (q : list nat) (w : world) : Prop := {
  mi_inert : inert (w_mail w);
  mi_arr : Arr A t (w_tasks w) (w_mail w);
  mi_base : Base A0 A ts0 (w_tasks w) (w_owner w) (w_nid w);
  mi_nodup : NoDup q;
  mi_run : forall k, In k q -> runnable (w_tasks w) (w_mail w) t m k;
  mi_mid : Mid t (drv_of w m);
  mi_tie : Tie (w_tasks w) t q m (drv_of w m);
  (* a receiver that is blocked while its channel holds a message is about to be polled; the
     message was sent at this very instant *)
  mi_recvq : forall k tk ch, nth_error (w_tasks w) k = Some tk -> waits_on (t_cur tk) = Some ch ->
             chan (t_mod tk) ch (w_mail w) <> [] ->
             t_mod tk = m /\ In k q /\ Forall (fun s => deadline s = t) (chan m ch (w_mail w)) }.

Arguments mi_inert {A0 A ts0 t m q w}.
Arguments mi_arr {A0 A ts0 t m q w}.
Arguments mi_base {A0 A ts0 t m q w}.
Arguments mi_nodup {A0 A ts0 t m q w}.
Arguments mi_mid {A0 A ts0 t m q w}.
Arguments mi_tie {A0 A ts0 t m q w}.
Arguments mi_recvq {A0 A ts0 t m q w}.

Lemma poll_task_eq wfix now m k w tk steps cur iv dr nid lg sw mail :
  nth_error (w_tasks w) k = Some tk -> t_fin tk = false ->
  run_steps now m k (t_steps tk) (t_cur tk) (t_iv tk) (drv_of w m) (w_nid w) (t_log tk) (w_mail w) =
    (steps, cur, iv, dr, nid, lg, sw, mail) ->
  let w' := fst (poll_task wfix now m k w) in
  snd (poll_task wfix now m k w) = sw /\ w_fes w' = w_fes w /\ w_now w' = w_now w /\ drv_of w' m = dr /\
  (forall m', (m' =? 0) <> (m =? 0) -> drv_of w' m' = drv_of w m') /\
  w_tasks w' = set_nth k {| t_mod := t_mod tk; t_start := t_start tk; t_steps := steps; t_cur := cur; t_iv := iv;
                            t_log := lg; t_fin := match steps with [] => true | _ => false end |} (w_tasks w) /\
  w_nid w' = nid /\
  w_owner w' = note_polls wfix k (flat_map snd (pending (drv_of w m))) (held_sleeps cur iv ++ sent_by k mail) (w_owner w) /\
  w_mail w' = mail.
Proof.
  intros Hk Hf Hr. cbn zeta. unfold poll_task. rewrite Hk, Hf, Hr. unfold set_drv, drv_of.
  destruct (m =? 0) eqn:Em; cbn [fst snd w_fes w_now w_d0 w_d1 w_tasks w_nid w_owner w_mail];
    (repeat split; try reflexivity); intros m' Hne; destruct (m' =? 0); try reflexivity; contradiction Hne; reflexivity.
Qed.

Lemma enqueue_in q ks x : In x (enqueue q ks) <-> In x q \/ (In x ks /\ ~ In x q).
Proof.
  unfold enqueue. rewrite in_app_iff, filter_In. split.
  - intros [H|[H1 H2]]; [left; exact H|right; split; [exact H1|]]. intros Hin. apply negb_true_iff in H2.
    assert (existsb (Nat.eqb x) q = true) by (apply existsb_exists; exists x; split; [exact Hin|apply Nat.eqb_refl]). congruence.
  - intros [H|[H1 H2]]; [left; exact H|right; split; [exact H1|]]. apply negb_true_iff. apply not_true_is_false. intros Hex.
    apply existsb_exists in Hex. destruct Hex as (y & Hy & E). apply Nat.eqb_eq in E. subst y. exact (H2 Hy).
Qed.

Lemma ready_receivers_in m mail ts : forall i x, In x (ready_receivers m mail i ts) <->
  exists tk ch, (i <= x)%nat /\ nth_error ts (x - i) = Some tk /\ waits_on (t_cur tk) = Some ch /\ t_mod tk = m /\ chan m ch mail <> [].
Proof.
  induction ts as [|tk r IH]; intros i x; cbn [ready_receivers].
  - split; [intros []|intros (tk & ch & _ & H & _); destruct (x - i)%nat; discriminate].
  - assert (Hrest : In x (ready_receivers m mail (S i) r) <->
        exists tk1 ch, (i <= x)%nat /\ x <> i /\ nth_error (tk :: r) (x - i) = Some tk1 /\ waits_on (t_cur tk1) = Some ch /\ t_mod tk1 = m /\ chan m ch mail <> []).
    { rewrite IH. split.
      - intros (tk1 & ch & H1 & H2 & H3). exists tk1, ch. split; [lia|]. split; [lia|]. replace (x - i)%nat with (S (x - S i)) by lia. exact (conj H2 H3).
      - intros (tk1 & ch & H1 & Hne & H2 & H3). exists tk1, ch. split; [lia|]. replace (x - i)%nat with (S (x - S i)) in H2 by lia. exact (conj H2 H3). }
    assert (Hhere : forall ch, waits_on (t_cur tk) = Some ch ->
        ((t_mod tk =? m) && (match mail_take m ch mail with Some _ => true | None => false end) = true <-> t_mod tk = m /\ chan m ch mail <> [])).
    { intros ch _. rewrite andb_true_iff. split.
      - intros [H1 H2]. split; [lia|]. intros Hn. apply mail_take_none in Hn. rewrite Hn in H2. discriminate.
      - intros [H1 H2]. split; [lia|]. destruct (mail_take m ch mail) eqn:Em; [reflexivity|]. apply mail_take_none in Em. contradiction. }
    destruct (waits_on (t_cur tk)) as [ch|] eqn:Ew.
    + destruct ((t_mod tk =? m) && (match mail_take m ch mail with Some _ => true | None => false end)) eqn:Eb.
      * cbn [In]. rewrite Hrest. split.
        -- intros [<-|(tk1 & ch1 & H1 & _ & H2)]; [|exists tk1, ch1; exact (conj H1 H2)].
           exists tk, ch. rewrite Nat.sub_diag. destruct (proj1 (Hhere ch eq_refl) Eb) as [G1 G2]. repeat split; try assumption; lia.
        -- intros (tk1 & ch1 & H1 & H2 & H3). destruct (Nat.eq_dec x i) as [->|Hne]; [left; reflexivity|right].
           exists tk1, ch1. repeat split; try assumption. exact (proj1 H3). exact (proj1 (proj2 H3)). exact (proj2 (proj2 H3)).
      * rewrite Hrest. split.
        -- intros (tk1 & ch1 & H1 & _ & H2). exists tk1, ch1. exact (conj H1 H2).
        -- intros (tk1 & ch1 & H1 & H2 & H3 & H4 & H5). exists tk1, ch1. split; [exact H1|]. split; [|exact (conj H2 (conj H3 (conj H4 H5)))].
           intros ->. rewrite Nat.sub_diag in H2. injection H2 as <-. rewrite Ew in H3. injection H3 as <-.
           assert (true = false) by (rewrite <- Eb; symmetry; apply (Hhere ch eq_refl); split; assumption). discriminate.
    + rewrite Hrest. split.
      * intros (tk1 & ch1 & H1 & _ & H2). exists tk1, ch1. exact (conj H1 H2).
      * intros (tk1 & ch1 & H1 & H2 & H3 & H4). exists tk1, ch1. split; [exact H1|]. split; [|exact (conj H2 (conj H3 H4))].
        intros ->. rewrite Nat.sub_diag in H2. injection H2 as <-. rewrite Ew in H3. discriminate.
Qed.

Lemma ready_receivers_nodup m mail ts : forall i, NoDup (ready_receivers m mail i ts).
Proof.
  induction ts as [|tk r IH]; intros i; cbn [ready_receivers]; [constructor|].
  assert (Hlt : forall x, In x (ready_receivers m mail (S i) r) -> (S i <= x)%nat).
  { intros x Hx. apply ready_receivers_in in Hx. destruct Hx as (_ & _ & H & _). exact H. }
  destruct (waits_on (t_cur tk)); [|apply IH].
  destruct ((t_mod tk =? m) && _); [|apply IH]. constructor; [|apply IH]. intros Hin. specialize (Hlt i Hin). lia.
Qed.

Lemma enqueue_nodup q ks : NoDup q -> NoDup ks -> NoDup (enqueue q ks).
Proof.
  intros Hq Hk. unfold enqueue. apply NoDup_app_intro; [exact Hq|apply NoDup_filter; exact Hk|].
  intros x H1 H2. apply filter_In in H2. destruct H2 as [_ H2]. apply negb_true_iff in H2.
  assert (existsb (Nat.eqb x) q = true) by (apply existsb_exists; exists x; split; [exact H1|apply Nat.eqb_refl]). congruence.
Qed.

Lemma Tie_mono ts t q q' m dr : (forall x, In x q -> In x q') -> Tie ts t q m dr -> Tie ts t q' m dr.
Proof.
  intros Hsub [He Ht Hn]. constructor; [|exact Ht|exact Hn].
  intros k tk s Hk Hs Hm Hq. apply (He k tk s Hk Hs Hm). destruct Hq as [Hq|Hq]; [left; intros H; exact (Hq (Hsub k H))|right; exact Hq].
Qed.

(* Tie for all tasks but k, which is being polled: its Sleeps are out of the driver *)
Record TieX (ts : list task) (t : N) (k : nat) (r : list nat) (m : N) (dr : driver) : Prop := {
  tx_entry : forall k' tk s, k' <> k -> nth_error ts k' = Some tk -> In s (held tk) -> t_mod tk = m -> (~ In k' r \/ t < deadline s) ->
             In (sid s) (ents_at (deadline s) (pending dr));
  tx_task : forall d id, In id (ents_at d (pending dr)) ->
            exists k' tk s, k' <> k /\ nth_error ts k' = Some tk /\ In s (held tk) /\ t_mod tk = m /\ sid s = id /\ deadline s = d;
  tx_nodup : forall d, NoDup (ents_at d (pending dr)) }.

Arguments tx_entry {ts t k r m dr}.
Arguments tx_task {ts t k r m dr}.
Arguments tx_nodup {ts t k r m dr}.

Lemma tie_entry_other ts t k r m dr k' tk s : Tie ts t (k :: r) m dr -> k' <> k -> nth_error ts k' = Some tk -> In s (held tk) ->
  t_mod tk = m -> (~ In k' r \/ t < deadline s) -> In (sid s) (ents_at (deadline s) (pending dr)).
Proof.
  intros T Hne Hk' Hs Hm Hq. apply (tie_entry T k' tk s Hk' Hs Hm). destruct Hq as [Hq|Hq]; [left|right; exact Hq].
  intros [E|E]; [apply Hne; symmetry; exact E|exact (Hq E)].
Qed.

Lemma Tie_TieX ts t k r m dr tk : Tie ts t (k :: r) m dr -> nth_error ts k = Some tk ->
  (forall d id s, In id (ents_at d (pending dr)) -> In s (held tk) -> sid s <> id) -> TieX ts t k r m dr.
Proof.
  intros T Hk Hno. constructor; [|intros d id Hin|exact (tie_nodup T)].
  - intros k' tk1 s. exact (tie_entry_other ts t k r m dr k' tk1 s T).
  - destruct (tie_task T d id Hin) as (k' & tk1 & s & Hk' & Hs & Hm & E1 & E2).
    exists k', tk1, s. repeat split; try assumption. intros ->. rewrite Hk in Hk'. injection Hk' as <-. exact (Hno d id s Hin Hs E1).
Qed.

Lemma nodup_all_equal {X} (l : list X) : NoDup l -> (forall x y, In x l -> In y l -> x = y) -> (length l <= 1)%nat.
Proof.
  intros Hn He. destruct l as [|x [|y r]]; cbn [length]; try lia. exfalso.
  inversion Hn as [|? ? Hx _]; subst. apply Hx. left. apply He; [right; left; reflexivity|left; reflexivity].
Qed.

Lemma waits_recv a iv ch : aw_kind a iv -> waits_on (Some a) = Some ch -> exists dl, a = AwTimeout (VRecv ch) dl.
Proof.
  destruct a as [s|v dl| | | | | | | |]; try contradiction; cbn [waits_on]; try discriminate.
  destruct v; try contradiction; try discriminate. intros _ H. injection H as <-. exists dl. reflexivity.
Qed.

Lemma blocked_recv A0 A ts0 ts own nid x tk1 ch : Base A0 A ts0 ts own nid -> nth_error ts x = Some tk1 -> waits_on (t_cur tk1) = Some ch ->
  exists tk10 dl, nth_error ts0 x = Some tk10 /\ t_cur tk1 = Some (AwTimeout (VRecv ch) dl) /\ rcv_of tk10 = true /\
                  t_mod tk10 = t_mod tk1 /\ held tk1 = [dl].
Proof.
  intros B Hx Hw. destruct (Base_nth B Hx) as (tk10 & Hx0 & Hst1 & Hi1).
  destruct (t_cur tk1) as [a1|] eqn:Ec1; [|discriminate].
  destruct (tstate_blocked Hst1 Hi1 Ec1) as (st1 & rest1 & G1 & _ & _ & _ & _ & Gk & _ & _ & Gh & _ & _ & _ & G14).
  destruct (waits_recv a1 _ ch Gk Hw) as (dl & ->). exists tk10, dl. repeat split; try reflexivity; try assumption; [exact (G14 ch Hw)|symmetry; exact G1].
Qed.

Arguments blocked_recv {A0 A ts0 ts own nid}.

Section PollStep.
  (* One poll of task k (tk, scripted as tk0) of module m at instant t, with the tasks [r] still queued behind it.
     Given: the state before the poll (ts, own, nid, mail; Base, Arr) and the outcome of the poll as [Polled] packs it:
     [drc]: the driver after the future the task was blocked on has completed (for a task that is spawned: the driver as
     it is); it holds no entry of task k any more (Htx).  The task has logged [L] and still owes the log [E] (Hexp) and
     the messages [Sd] (HfS).  The poll leaves (o, b, n, dr', ml): [o] what it logs, [b] where it blocks (None: the task
     is done), [n] the id counter, and it meets [poll_ok] (Hn, Hacts, Hents: the entries of dr' are those of drc plus
     the Sleeps the task blocks on, Hres).  [old]: ids of Sleeps task k owned before the poll; [arr']: the arrivals task
     k expects afterwards; [before]: the entries before the poll, as poll_task passes them to note_polls.
     Delivered: the state after the poll -- tasks ts', waker table own', arrivals A' -- satisfies everything MInv
     asks for with the queue r extended by the receivers that were sent a message: ps_base, ps_tie, ps_arr, ps_inert,
     ps_runnable, assembled in ps_minv; ps_work and ps_queue are the two measures run_queue_frag descends on
     (Hwt: the poll uses up at least one unit of the task's work).  ps_cases unfolds Hres; ps_src: an id the task holds
     afterwards is fresh or was its own; ps_new: a receiver that joins the queue was sent a message by this poll. *)
  Variables (A0 A : N -> arrs) (ts0 ts : list task) (own : wakers) (nid : N) (drc : driver) (mail : mailbox) (t m : N) (k : nat) (r : list nat).
  Variables (tk tk0 : task) (L E : list N) (Sd : list (N * N)) (o : list N) (b : option (aw * option interval * list step)) (n : N) (dr' : driver)
            (ml : mailbox) (arr' : arrs).
  Variable before : list N.
  Variable old : N -> Prop.

  Hypothesis Hbase : Base A0 A ts0 ts own nid.
  Hypothesis Hnd : NoDup (k :: r).
  Hypothesis Hmid : Mid t drc.
  Hypothesis Htx : TieX ts t k r m drc.
  Hypothesis Hk : nth_error ts k = Some tk.
  Hypothesis Hk0 : nth_error ts0 k = Some tk0.
  Hypothesis Hmod : t_mod tk = m.
  Hypothesis Hmod0 : t_mod tk = t_mod tk0.
  Hypothesis Hst0 : t_start tk = t_start tk0.
  Hypothesis Hold : forall id, old id -> exists s, In s (owned tk) /\ sid s = id.
  Hypothesis Hinert : inert mail.
  Hypothesis Hn : nid <= n.
  Hypothesis Hacts : acts t drc dr'.
  Hypothesis Hents : forall x, ents_at x (pending dr') =
                       ents_at x (pending drc) ++ match b with Some (a, iv', _) => new_at a iv' x | None => [] end.
  Hypothesis Hres : poll_body t nid n m k (rcv_of tk0) old mail ml (A m) arr' E Sd o b.
  Hypothesis Hexp : expected A0 tk0 = L ++ E.
  Hypothesis HfS : fut_sends tk = Sd.
  Hypothesis Harr : Arr A t ts mail.

  Let tk' := {| t_mod := t_mod tk; t_start := t_start tk; t_steps := fr_steps b; t_cur := fr_cur b; t_iv := fr_iv b;
                t_log := L ++ o; t_fin := match fr_steps b with [] => true | _ => false end |}.
  Let ts' := set_nth k tk' ts.
  Let own' := note_polls true k before (held_sleeps (fr_cur b) (fr_iv b) ++ sent_by k ml) own.
  (* the arrivals afterwards: only a receiver changes what its module expects *)
  Let A' := if rcv_of tk0 then upd A m arr' else A.

  Lemma ps_fresh : forall x id, In id (ents_at x (pending drc)) -> id < nid.
  Proof.
    intros x id Hin. destruct (tx_task Htx x id Hin) as (k' & tk1 & s & _ & Hk' & Hs & _ & E1 & _). rewrite <- E1.
    exact (proj1 (b_ids Hbase k' tk1 s Hk' Hs)).
  Qed.

  Lemma ps_cases :
    (b = None /\ E = o /\ mail_ok t m k (rcv_of tk0) mail ml (A m) arr' Sd []) \/
    exists a iv' st rest, b = Some (a, iv', st :: rest) /\ Forall (frag_step2 (rcv_of tk0)) rest /\
        E = o ++ aw_rec a iv' arr' ++ exp_run (aw_end a iv' arr') (iv_abs (iv_after a iv')) (aw_arr a arr') rest /\
        blocked_ok t nid n old a iv' /\
        mail_ok t m k (rcv_of tk0) mail ml (A m) arr' Sd (exp_sends (aw_end a iv' arr') (iv_abs (iv_after a iv')) rest) /\
        aw_ok a arr' /\ recv_ok (aw_end a iv' arr') (iv_abs (iv_after a iv')) (aw_arr a arr') rest /\
        (forall ch, waits_on (Some a) = Some ch -> rcv_of tk0 = true /\ chan m ch ml = []).
  Proof.
    pose proof Hres as H. unfold poll_body in H. revert H. generalize b. intros b0 Hb.
    destruct b0 as [[[a iv'] l]|]; [right|left; destruct Hb as [H1 H2]; repeat split; assumption].
    destruct Hb as (st & rest & -> & H). exists a, iv', st, rest. split; [reflexivity|exact H].
  Qed.

  (* an id the task has after the poll is below the new counter, in no entry of the driver
     before the poll, and owned by no other task *)
  Lemma ps_src id : idsrc nid n old id ->
    id < n /\ (forall x, ~ In id (ents_at x (pending drc))) /\
    forall k' tk1 s1, k' <> k -> nth_error ts k' = Some tk1 -> In s1 (owned tk1) -> sid s1 <> id.
  Proof.
    intros [[H1 H2]|Ho].
    - split; [exact H2|]. split.
      + intros x Hin. pose proof (ps_fresh x id Hin). lia.
      + intros k' tk1 s1 _ Hk' Hs1 E1. pose proof (b_own Hbase k' tk1 s1 Hk' Hs1). lia.
    - destruct (Hold id Ho) as (s & Hs & <-). split; [pose proof (b_own Hbase k tk s Hk Hs); lia|]. split.
      + intros x Hin. destruct (tx_task Htx x _ Hin) as (k' & tk1 & s1 & Hne & Hk' & Hs1 & _ & E1 & _).
        apply Hne. exact (b_distinct Hbase k' k tk1 tk s1 s Hk' Hk (held_owned _ _ Hs1) Hs E1).
      + intros k' tk1 s1 Hne Hk' Hs1 E1. apply Hne.
        exact (b_distinct Hbase k' k tk1 tk s1 s Hk' Hk Hs1 Hs E1).
  Qed.

  Lemma ps_held : held tk' = match b with Some (a, iv', _) => aw_held a iv' | None => [] end.
  Proof. unfold held, tk'. cbn [t_cur t_iv]. generalize b. intros [[[a iv'] l]|]; reflexivity. Qed.

  Lemma ps_held_in s : In s (held tk') ->
    exists a iv' st rest, b = Some (a, iv', st :: rest) /\ In s (aw_held a iv') /\ t < deadline s /\ handle s = Some (deadline s) /\ idsrc nid n old (sid s).
  Proof.
    rewrite ps_held. destruct ps_cases as [(Eb & _)|(a & iv' & st & rest & Eb & _ & _ & (_ & _ & _ & Hall & _) & _)]; rewrite Eb; [intros []|].
    intros Hin. rewrite Forall_forall in Hall. destruct (Hall s Hin) as (H1 & H2 & H3). exists a, iv', st, rest. repeat split; assumption.
  Qed.

  Lemma ps_owned s : In s (owned tk') -> idsrc nid n old (sid s).
  Proof.
    intros Hin. unfold owned in Hin. apply in_app_or in Hin. destruct Hin as [Hin|Hin].
    - destruct (ps_held_in s Hin) as (_ & _ & _ & _ & _ & _ & _ & _ & H). exact H.
    - unfold tk' in Hin. cbn [t_iv] in Hin.
      destruct ps_cases as [(Eb & _)|(a & iv' & st & rest & Eb & _ & _ & (_ & _ & _ & _ & Hiv) & _)]; rewrite Eb in Hin; cbn [fr_iv] in Hin; [contradiction|].
      destruct iv' as [i|]; [|contradiction]. destruct Hin as [<-|[]]. apply Hiv. exists i. split; reflexivity.
  Qed.

  Lemma ps_mail : mail_ok t m k (rcv_of tk0) mail ml (A m) arr' Sd (fut_sends tk').
  Proof.
    unfold fut_sends, tk'. cbn [t_cur t_fin t_steps t_iv t_start].
    destruct ps_cases as [(Eb & _ & Hm)|(a & iv' & st & rest & Eb & Hf & _ & (Hkind & _) & Hm & _ & _ & Hw)]; rewrite Eb; cbn [fr_cur fr_steps fr_iv tl]; [exact Hm|].
    destruct (rcv_of tk0) eqn:Er.
    - rewrite (exp_sends_rcv rest Hf) in *. exact Hm.
    - assert (Hnw : waits_on (Some a) = None).
      { destruct (waits_on (Some a)) as [ch|] eqn:Ew; [|reflexivity]. destruct (Hw ch eq_refl) as [H _]. discriminate. }
      destruct (aw_noarr a iv' arr' noarr Hnw) as (_ & E2 & _). rewrite <- E2. exact Hm.
  Qed.

  Lemma ps_inert : inert ml.
  Proof.
    pose proof ps_mail as Hm. unfold mail_ok in Hm. destruct (rcv_of tk0).
    - destruct Hm as (_ & _ & _ & Hi). exact (Hi Hinert).
    - destruct Hm as (toks & -> & Ht & _). apply Forall_app. split; [exact Hinert|exact (proj2 (proj2 (toks_chan _ _ _ _ Ht)))].
  Qed.

  Lemma ps_waker id : waker_of own' id =
    if existsb (N.eqb id) (map sid (held tk')) then Some k else waker_of own id.
  Proof.
    unfold own'. rewrite note_polls_app, (note_polls_none k before _ (sent_by_inert k ml ps_inert)). rewrite ps_held.
    destruct ps_cases as [(Eb & _)|(a & iv' & st & rest & Eb & _ & _ & (_ & _ & _ & Hall & _) & _)]; rewrite Eb; cbn [fr_cur fr_iv held_sleeps].
    - reflexivity.
    - apply note_polls_held. eapply Forall_impl; [|exact Hall]. cbn beta. intros s (_ & H & _). rewrite H. discriminate.
  Qed.

  Lemma ps_tstate : tstate A0 A' tk0 tk'.
  Proof.
    assert (H : tstate A0 (upd A m arr') tk0 tk').
    { unfold tk'. assert (Em : t_mod tk0 = m) by (rewrite <- Hmod0; exact Hmod).
      destruct ps_cases as [(Eb & Ho & _)|(a & iv' & st & rest & Eb & Hf & He & (Hk1 & Hw & Hndp & Hall & _) & _ & Hao & Hro & Hch)]; rewrite Eb.
      - apply TDn; cbn [t_mod t_start t_steps t_cur t_iv t_fin t_log fr_steps fr_cur fr_iv]; try assumption; try reflexivity.
        rewrite Hexp, Ho. reflexivity.
      - apply (TBl _ _ _ _ a st rest); cbn [t_mod t_start t_steps t_cur t_iv t_fin t_log fr_steps fr_cur fr_iv]; try assumption; try reflexivity;
          rewrite ?Em, ?upd_same; try assumption.
        + eapply Forall_impl; [|exact Hall]. cbn beta. intros s (_ & H & _). exact H.
        + rewrite Hexp, He, app_assoc. reflexivity.
        + intros ch Hc. exact (proj1 (Hch ch Hc)). }
    unfold A'. destruct (rcv_of tk0) eqn:Er; [exact H|].
    pose proof (b_init Hbase) as Hall. rewrite Forall_forall in Hall.
    exact (tstate_noarr _ _ A _ _ H (Hall tk0 (nth_error_In _ _ Hk0)) Er).
  Qed.

  Lemma ps_nth_other k' : k' <> k -> nth_error ts' k' = nth_error ts k'.
  Proof. intros H. unfold ts'. apply nth_set_nth_other. intros E1; apply H; symmetry; exact E1. Qed.

  Lemma ps_nth_same : nth_error ts' k = Some tk'.
  Proof. unfold ts'. eapply nth_set_nth_same. exact Hk. Qed.

  (* the other tasks are not affected by the change of the arrivals *)
  Lemma ps_tstate_other k' tk1 tk10 : k' <> k -> nth_error ts k' = Some tk1 -> nth_error ts0 k' = Some tk10 ->
    tstate A0 A tk10 tk1 -> tstate A0 A' tk10 tk1.
  Proof.
    intros Hne Hk' Hk0' Hst. unfold A'. destruct (rcv_of tk0) eqn:Er; [|exact Hst].
    pose proof (b_init Hbase) as Hall. rewrite Forall_forall in Hall.
    destruct (N.eq_dec (t_mod tk10) m) as [Em|Em].
    - destruct (rcv_of tk10) eqn:Er1.
      + exfalso. apply Hne. apply (b_one Hbase k' k tk10 tk0 Hk0' Hk0 Er1 Er). rewrite Em, <- Hmod0. symmetry; exact Hmod.
      + exact (tstate_noarr _ _ _ _ _ Hst (Hall tk10 (nth_error_In _ _ Hk0')) Er1).
    - apply (tstate_agree _ A); [rewrite (upd_other _ _ _ _ Em); reflexivity|exact Hst].
  Qed.

  Lemma ps_base : Base A0 A' ts0 ts' own' n.
  Proof.
    destruct Hbase as [Hst Hin Hone Hids Hown Hdis].
    constructor.
    - (* the states *)
      unfold ts'. apply (Forall2_set_nth_impl (tstate A0 A) (tstate A0 A') ts0 ts k tk0 tk' Hst Hk0 ps_tstate).
      intros k' a' b' Hne Ha Hb Hr. exact (ps_tstate_other k' b' a' Hne Hb Ha Hr).
    - exact Hin.
    - exact Hone.
    - intros k' tk1 s Hk' Hs. rewrite ps_waker. destruct (Nat.eq_dec k' k) as [->|Hne].
      + rewrite ps_nth_same in Hk'. injection Hk' as <-. destruct (ps_held_in s Hs) as (_ & _ & _ & _ & _ & _ & _ & _ & Hsrc).
        split; [exact (proj1 (ps_src _ Hsrc))|]. replace (existsb (N.eqb (sid s)) (map sid (held tk'))) with true; [reflexivity|].
        symmetry. apply existsb_exists. exists (sid s). split; [apply in_map; exact Hs|apply N.eqb_refl].
      + rewrite (ps_nth_other k' Hne) in Hk'. destruct (Hids k' tk1 s Hk' Hs) as [H1 H2]. split; [lia|].
        replace (existsb (N.eqb (sid s)) (map sid (held tk'))) with false; [exact H2|].
        symmetry. apply not_true_is_false. intros Hex. apply existsb_exists in Hex. destruct Hex as (i & Hi & E1).
        apply in_map_iff in Hi. destruct Hi as (s' & <- & Hs'). destruct (ps_held_in s' Hs') as (_ & _ & _ & _ & _ & _ & _ & _ & Hsrc).
        apply (proj2 (proj2 (ps_src _ Hsrc)) k' tk1 s Hne Hk' (held_owned _ _ Hs)). lia.
    - intros k' tk1 s Hk' Hs. destruct (Nat.eq_dec k' k) as [->|Hne].
      + rewrite ps_nth_same in Hk'. injection Hk' as <-. exact (proj1 (ps_src _ (ps_owned s Hs))).
      + rewrite (ps_nth_other k' Hne) in Hk'. pose proof (Hown k' tk1 s Hk' Hs). lia.
    - intros k1 k2 tk1 tk2 s1 s2 H1 H2 B1 B2 E1.
      destruct (Nat.eq_dec k1 k) as [->|N1], (Nat.eq_dec k2 k) as [->|N2]; [reflexivity| | |].
      + exfalso. rewrite ps_nth_same in H1. injection H1 as <-. rewrite (ps_nth_other k2 N2) in H2.
        apply (proj2 (proj2 (ps_src _ (ps_owned s1 B1))) k2 tk2 s2 N2 H2 B2). symmetry; exact E1.
      + exfalso. rewrite ps_nth_same in H2. injection H2 as <-. rewrite (ps_nth_other k1 N1) in H1.
        apply (proj2 (proj2 (ps_src _ (ps_owned s2 B2))) k1 tk1 s1 N1 H1 B1). exact E1.
      + rewrite (ps_nth_other k1 N1) in H1. rewrite (ps_nth_other k2 N2) in H2. exact (Hdis _ _ _ _ _ _ H1 H2 B1 B2 E1).
  Qed.

  Lemma ps_mid : Mid t dr'.
  Proof. exact (acts_mid _ _ _ Hacts Hmid). Qed.

  Lemma ps_tie : Tie ts' t r m dr'.
  Proof.
    assert (Hkr : ~ In k r) by (inversion Hnd; assumption).
    constructor.
    - intros k' tk1 s Hk' Hs Hm Hq. rewrite Hents. destruct (Nat.eq_dec k' k) as [->|Hne].
      + rewrite ps_nth_same in Hk'. injection Hk' as <-. destruct (ps_held_in s Hs) as (a & iv' & st & rest & Eb & Hin & _).
        rewrite Eb. apply in_or_app. right. apply new_at_in. exists s. repeat split; [exact Hin].
      + rewrite (ps_nth_other k' Hne) in Hk'. apply in_or_app. left. exact (tx_entry Htx k' tk1 s Hne Hk' Hs Hm Hq).
    - intros d id Hin. rewrite Hents in Hin. apply in_app_or in Hin. destruct Hin as [Ho|Hnew].
      + destruct (tx_task Htx d id Ho) as (k' & tk1 & s & Hne & Hk' & Hs & Hm & E1 & E2).
        exists k', tk1, s. rewrite (ps_nth_other k' Hne). repeat split; assumption.
      + destruct ps_cases as [(Eb & _)|(a & iv' & st & rest & Eb & _)]; rewrite Eb in Hnew; [contradiction|].
        apply new_at_in in Hnew. destruct Hnew as (s & Hs & E1 & E2).
        exists k, tk', s. rewrite ps_nth_same, ps_held, Eb. repeat split; try assumption; try (unfold tk'; cbn [t_mod]; exact Hmod).
    - intros d. rewrite Hents.
      destruct ps_cases as [(Eb & _)|(a & iv' & st & rest & Eb & _ & _ & (_ & _ & Hndp & Hall & _) & _)]; rewrite Eb; [rewrite app_nil_r; apply (tx_nodup Htx)|].
      apply NoDup_app_intro; [apply (tx_nodup Htx)|unfold new_at; apply NoDup_map_filter; exact Hndp|].
      intros id H1 H2. apply new_at_in in H2. destruct H2 as (s & Hs & <- & _).
      rewrite Forall_forall in Hall. destruct (Hall s Hs) as (_ & _ & Hsrc). exact (proj1 (proj2 (ps_src _ Hsrc)) d H1).
  Qed.

  Lemma ps_spawned : ~ unspawned tk'.
  Proof.
    unfold tk', unspawned. cbn [t_cur t_fin].
    destruct ps_cases as [(Eb & _)|(a & iv' & st & rest & Eb & _)]; rewrite Eb; cbn [fr_cur fr_steps]; intros [H1 H2]; discriminate.
  Qed.

  (* ---- the channels after the poll ---- *)
  Lemma ps_chan_other m' c : m' <> m -> chan m' c ml = chan m' c mail.
  Proof.
    intros Hne. pose proof ps_mail as Hm. unfold mail_ok in Hm. destruct (rcv_of tk0).
    - destruct Hm as (_ & _ & Ho & _). exact (Ho m' c Hne).
    - destruct Hm as (toks & -> & Ht & _). rewrite chan_app, (proj1 (proj2 (toks_chan _ _ _ _ Ht)) m' c Hne), app_nil_r. reflexivity.
  Qed.

  (* a task that is not a receiver only adds messages *)
  Lemma ps_chan_grow c : rcv_of tk0 = false -> exists extra, chan m c ml = chan m c mail ++ extra /\ Forall (fun s => deadline s = t) extra.
  Proof.
    intros Er. pose proof ps_mail as Hm. unfold mail_ok in Hm. rewrite Er in Hm. destruct Hm as (toks & -> & Ht & _).
    exists (chan m c toks). split; [apply chan_app|].
    clear -Ht. induction Ht as [|e r0 (ch & id & ->) _ IH]; [constructor|]. cbn [chan]. rewrite N.eqb_refl. cbn [andb].
    destruct (ch =? c); [constructor; [cbn [token deadline]; lia|exact IH]|exact IH].
  Qed.

  (* a task blocks on a receive only with its channel empty *)
  Lemma ps_recv_block ch : waits_on (t_cur tk') = Some ch -> rcv_of tk0 = true /\ chan m ch ml = [].
  Proof.
    unfold tk'. cbn [t_cur].
    destruct ps_cases as [(Eb & _)|(a & iv' & st & rest & Eb & _ & _ & _ & _ & _ & _ & Hw)]; rewrite Eb; cbn [fr_cur]; [discriminate|].
    exact (Hw ch).
  Qed.

  Lemma ps_arr : Arr A' t ts' ml.
  Proof.
    intros m1 c. destruct (Harr m1 c) as (EA & F1 & F2).
    set (f := fun tk1 : task => if t_mod tk1 =? m1 then on_chan c (fut_sends tk1) else []).
    destruct (flat_map_set_nth f ts k tk tk' Hk) as (pre & post & E1 & E2).
    change (fsends m1 c ts) with (flat_map f ts) in *. change (fsends m1 c ts') with (flat_map f (set_nth k tk' ts)).
    rewrite E2. rewrite E1 in EA, F2.
    assert (Hmod' : t_mod tk' = t_mod tk) by reflexivity.
    pose proof ps_mail as Hm. rewrite <- HfS in Hm. unfold mail_ok in Hm. unfold A'.
    destruct (rcv_of tk0) eqn:Er.
    - (* a receiver: it took messages off its channels *)
      destruct Hm as (ES & (cons & Hc) & Ho & _).
      assert (Ef : f tk' = f tk) by (unfold f; rewrite Hmod', ES; reflexivity). rewrite Ef.
      destruct (N.eq_dec m1 m) as [->|Hne].
      + rewrite upd_same. destruct (Hc c) as (C1 & C2 & C3). rewrite C2, EA.
        unfold chan_inst in *. rewrite C1, <- skipn_map, skipn_app.
        replace (cons c - length (map deadline (chan m c mail)))%nat with 0%nat by (rewrite map_length; lia). cbn [skipn].
        split; [reflexivity|]. split; [apply Forall_skipn; exact F1|exact F2].
      + rewrite (upd_other _ _ _ _ Hne). unfold chan_inst in *. rewrite (Ho m1 c Hne). split; [exact EA|]. split; assumption.
    - (* any other task: it appended the messages it sent *)
      destruct Hm as (toks & -> & Ht & _ & ES). destruct (toks_chan _ _ _ _ Ht) as (T1 & T2 & _).
      destruct (N.eq_dec m1 m) as [->|Hne].
      + assert (Ef : f tk = on_chan c (map (fun e => (chn e, t)) toks) ++ f tk').
        { unfold f. rewrite Hmod', Hmod, N.eqb_refl, ES, on_chan_app. reflexivity. }
        set (sent := on_chan c (map (fun e => (chn e, t)) toks)) in *.
        assert (Hsent : Forall (fun a => a = t) sent).
        { unfold sent, on_chan. clear. induction toks as [|e r0 IH]; cbn [map filter]; [constructor|].
          destruct (fst (chn e, t) =? c); [cbn [map snd]; constructor; [reflexivity|exact IH]|exact IH]. }
        rewrite Ef in EA, F2.
        assert (F2' : Forall (fun a => t <= a) (pre ++ f tk' ++ post)).
        { apply Forall_app in F2. destruct F2 as [G1 G2]. apply Forall_app in G2. destruct G2 as [G2 G3]. apply Forall_app in G2. destruct G2 as [_ G2].
          apply Forall_app. split; [exact G1|]. apply Forall_app. split; assumption. }
        assert (Eis : isort (pre ++ (sent ++ f tk') ++ post) = sent ++ isort (pre ++ f tk' ++ post)).
        { rewrite <- (isort_min_prefix t sent _ Hsent F2'). apply isort_perm_eq.
          rewrite <- !app_assoc. rewrite app_assoc. rewrite (app_assoc sent). apply Permutation_app_tail. apply Permutation_app_comm. }
        unfold chan_inst in *. rewrite chan_app, map_app, T1. fold sent. rewrite EA, Eis, <- app_assoc.
        split; [reflexivity|]. split; [|exact F2'].
        apply Forall_app. split; [exact F1|]. eapply Forall_impl; [|exact Hsent]. cbn beta. intros a ->. lia.
      + assert (Ef : f tk' = f tk) by (unfold f; rewrite Hmod', Hmod; replace (m =? m1) with false by lia; reflexivity). rewrite Ef.
        unfold chan_inst in *. rewrite chan_app, (T2 m1 c Hne), app_nil_r. split; [exact EA|]. split; assumption.
  Qed.

  Lemma ps_not_rcv x tk10 : x <> k -> nth_error ts0 x = Some tk10 -> rcv_of tk10 = true -> t_mod tk10 = m -> rcv_of tk0 = false.
  Proof.
    intros Hxk Hx0 Hr1 Hm1. destruct (rcv_of tk0) eqn:Er; [exfalso|reflexivity]. apply Hxk.
    apply (b_one Hbase x k tk10 tk0 Hx0 Hk0 Hr1 Er). rewrite Hm1, <- Hmod0. symmetry. exact Hmod.
  Qed.

  (* the tasks still to be polled stay runnable *)
  Lemma ps_runnable k' : In k' r -> runnable ts mail t m k' -> runnable ts' ml t m k'.
  Proof.
    intros Hin (tk1 & H1 & H2 & H3).
    assert (Hne : k' <> k) by (intros ->; inversion Hnd; contradiction).
    exists tk1. split; [rewrite ps_nth_other; [exact H1|exact Hne]|]. split; [exact H2|].
    destruct H3 as [H3|(a & Hc & [Hw|(ch & Hw & Hch & Hlt)])]; [left; exact H3|right; exists a; split; [exact Hc|left; exact Hw]|].
    right. exists a. split; [exact Hc|]. right. exists ch. split; [exact Hw|]. split; [|exact Hlt].
    (* k' receives in module m, so task k does not: it has only added messages *)
    destruct (blocked_recv k' tk1 ch Hbase H1 ltac:(rewrite Hc; exact Hw)) as (tk10 & dl & Hk10 & _ & Hr1 & Hm1 & _).
    destruct (ps_chan_grow ch (ps_not_rcv k' tk10 Hne Hk10 Hr1 ltac:(rewrite Hm1; exact H2))) as (extra & -> & _).
    intros Hnil. apply app_eq_nil in Hnil. exact (Hch (proj1 Hnil)).
  Qed.

  Hypothesis Hrun : forall k', In k' r -> runnable ts mail t m k'.
  Hypothesis Hrq : forall k' tk1 ch, nth_error ts k' = Some tk1 -> waits_on (t_cur tk1) = Some ch -> chan (t_mod tk1) ch mail <> [] ->
                   t_mod tk1 = m /\ In k' (k :: r) /\ Forall (fun s => deadline s = t) (chan m ch mail).
  Hypothesis Hwt : (wres b + 1 <= wt tk)%nat.

  Let rr := ready_receivers m ml 0 ts'.

  Lemma ps_new x : In x rr -> ~ In x r ->
    x <> k /\ rcv_of tk0 = false /\
    exists tk1 ch dl, nth_error ts x = Some tk1 /\ t_cur tk1 = Some (AwTimeout (VRecv ch) dl) /\ t_mod tk1 = m /\
                      chan m ch ml <> [] /\ t < deadline dl.
  Proof.
    intros Hx Hnr. unfold rr in Hx. apply ready_receivers_in in Hx. destruct Hx as (tk1 & ch & _ & Hx & Hw & Hm1 & Hne).
    rewrite Nat.sub_0_r in Hx.
    assert (Hxk : x <> k).
    { intros ->. rewrite ps_nth_same in Hx. injection Hx as <-. destruct (ps_recv_block ch Hw) as [_ Hnil]. contradiction. }
    rewrite (ps_nth_other x Hxk) in Hx. destruct (blocked_recv x tk1 ch Hbase Hx Hw) as (tk10 & dl & Hx0 & Hc1 & Hr1 & Hmm & Hh1).
    split; [exact Hxk|]. split; [exact (ps_not_rcv x tk10 Hxk Hx0 Hr1 ltac:(rewrite Hmm; exact Hm1))|].
    exists tk1, ch, dl. repeat split; try assumption.
    assert (Hin : In (sid dl) (ents_at (deadline dl) (pending drc))).
    { apply (tx_entry Htx x tk1 dl Hxk Hx); [rewrite Hh1; left; reflexivity|exact Hm1|left; exact Hnr]. }
    assert (Hne1 : ents_at (deadline dl) (pending drc) <> []) by (intros E1; rewrite E1 in Hin; contradiction).
    exact (mid_future _ _ Hmid _ _ (ents_at_in _ _ Hne1) Hne1).
  Qed.

  Lemma ps_minv w' : w_tasks w' = ts' -> w_owner w' = own' -> w_nid w' = n -> w_mail w' = ml -> drv_of w' m = dr' ->
    MInv A0 A' ts0 t m (enqueue r rr) w'.
  Proof.
    intros Et Eo En Eml Ed. constructor; rewrite ?Eml, ?Et, ?Ed, ?Eo, ?En.
    - exact ps_inert.
    - exact ps_arr.
    - exact ps_base.
    - apply enqueue_nodup; [inversion Hnd; assumption|apply ready_receivers_nodup].
    - intros x Hx. apply enqueue_in in Hx. destruct Hx as [Hx|[Hx Hnr]]; [exact (ps_runnable x Hx (Hrun x Hx))|].
      destruct (ps_new x Hx Hnr) as (Hxk & _ & tk1 & ch & dl & G1 & G3 & G4 & G8 & G9).
      exists tk1. split; [rewrite (ps_nth_other x Hxk); exact G1|]. split; [exact G4|]. right. exists (AwTimeout (VRecv ch) dl). split; [exact G3|].
      right. exists ch. split; [reflexivity|]. split; [exact G8|exact G9].
    - exact ps_mid.
    - apply (Tie_mono _ _ r); [|exact ps_tie]. intros x Hx. apply enqueue_in. left; exact Hx.
    - intros x tk1 ch Hx Hw Hne.
      destruct (Nat.eq_dec x k) as [->|Hxk].
      { rewrite ps_nth_same in Hx. injection Hx as <-. destruct (ps_recv_block ch Hw) as [_ Hnil]. change (t_mod tk') with (t_mod tk) in Hne.
        rewrite Hmod in Hne. contradiction. }
      rewrite (ps_nth_other x Hxk) in Hx. destruct (blocked_recv x tk1 ch Hbase Hx Hw) as (tk10 & dl & Hx0 & Hc1 & Hr1 & Hmm & Hh1).
      destruct (N.eq_dec (t_mod tk1) m) as [Hm1|Hm1].
      + rewrite Hm1 in Hne. split; [exact Hm1|]. split.
        * apply enqueue_in. destruct (in_dec Nat.eq_dec x r) as [Hin|Hnin]; [left; exact Hin|right; split; [|exact Hnin]].
          unfold rr. apply ready_receivers_in. exists tk1, ch. rewrite Nat.sub_0_r, (ps_nth_other x Hxk). repeat split; try assumption. lia.
        * destruct (ps_chan_grow ch (ps_not_rcv x tk10 Hxk Hx0 Hr1 ltac:(rewrite Hmm; exact Hm1))) as (extra & -> & Hex).
          apply Forall_app. split; [|exact Hex].
          destruct (chan m ch mail) as [|s0 l0] eqn:Ec0; [constructor|].
          destruct (Hrq x tk1 ch Hx Hw ltac:(rewrite Hm1, Ec0; discriminate)) as (_ & _ & Hall). rewrite Ec0 in Hall. exact Hall.
      + exfalso. rewrite (ps_chan_other (t_mod tk1) ch Hm1) in Hne. exact (Hm1 (proj1 (Hrq x tk1 ch Hx Hw Hne))).
  Qed.

  Lemma ps_work : (work ts' + 1 <= work ts)%nat.
  Proof.
    pose proof (work_set_nth ts k tk tk' Hk) as Hw. fold ts' in Hw.
    assert (Hwt' : wt tk' = wres b).
    { unfold wt, wres, tk'. cbn [t_steps t_cur t_fin]. destruct ps_cases as [(-> & _)|(a & iv' & st & rest & -> & _)]; reflexivity. }
    clear - Hw Hwt' Hwt. lia.
  Qed.

  Lemma ps_queue : (length (enqueue r rr) + psends ts' <= length r + psends ts)%nat.
  Proof.
    pose proof (psends_set_nth ts k tk tk' Hk) as Hps. fold ts' in Hps.
    unfold enqueue. rewrite app_length.
    match goal with |- context [length (filter ?f ?l)] => remember (filter f l) as new eqn:Enew end.
    assert (Hnw : forall x, In x new -> In x rr /\ ~ In x r).
    { intros x Hx. rewrite Enew in Hx. apply filter_In in Hx. destruct Hx as [H1 H2]. split; [exact H1|]. intros Hin. apply negb_true_iff in H2.
      assert (existsb (Nat.eqb x) r = true) by (apply existsb_exists; exists x; split; [exact Hin|apply Nat.eqb_refl]). congruence. }
    assert (Hlen1 : (length new <= 1)%nat).
    { (* they all are the receiver of module m *)
      apply nodup_all_equal; [rewrite Enew; apply NoDup_filter, ready_receivers_nodup|]. intros x y Hx Hy.
      destruct (Hnw x Hx) as [X1 X2]. destruct (Hnw y Hy) as [Y1 Y2].
      destruct (ps_new x X1 X2) as (_ & _ & tkx & chx & dlx & Gx & Gxc & Gxm & _).
      destruct (ps_new y Y1 Y2) as (_ & _ & tky & chy & dly & Gy & Gyc & Gym & _).
      destruct (blocked_recv x tkx chx Hbase Gx ltac:(rewrite Gxc; reflexivity)) as (tkx0 & _ & Gx0 & _ & Gxr & Gxmm & _).
      destruct (blocked_recv y tky chy Hbase Gy ltac:(rewrite Gyc; reflexivity)) as (tky0 & _ & Gy0 & _ & Gyr & Gymm & _).
      apply (b_one Hbase x y tkx0 tky0 Gx0 Gy0 Gxr Gyr). congruence. }
    pose proof ps_mail as Pmail. rewrite <- HfS in Pmail. unfold mail_ok in Pmail.
    clear Enew. destruct new as [|x0 new0]; [cbn [length]|].
    - destruct (rcv_of tk0).
      + destruct Pmail as (ES & _). rewrite ES in Hps. clear - Hps. lia.
      + destruct Pmail as (toks & _ & _ & _ & ES). rewrite ES, app_length, map_length in Hps. clear - Hps. lia.
    - destruct (Hnw x0 ltac:(left; reflexivity)) as [X1 X2].
      destruct (ps_new x0 X1 X2) as (Hx0k & Hr0 & tk1 & ch & dl & G1 & G3 & G4 & Gnew & _).
      rewrite Hr0 in Pmail. destruct Pmail as (toks & Eml & _ & _ & ES). rewrite ES, app_length, map_length in Hps.
      assert (chan m ch mail = []).
      { destruct (chan m ch mail) as [|s0 l0] eqn:Ec0; [reflexivity|exfalso].
        destruct (Hrq x0 tk1 ch G1 ltac:(rewrite G3; reflexivity) ltac:(rewrite G4, Ec0; discriminate)) as (_ & [Ek|Hin] & _); [exact (Hx0k (eq_sym Ek))|exact (X2 Hin)]. }
      assert (toks <> []).
      { intros ->. rewrite app_nil_r in Eml. rewrite Eml in Gnew. contradiction. }
      destruct toks; [contradiction|]. cbn [length] in *. clear - Hps Hlen1. lia.
  Qed.
End PollStep.

Lemma aw_kind_idle a iv : aw_kind a iv -> a <> AwTick -> iv_idle iv.
Proof.
  destruct a as [s|v dl|biased tie sa sb| | | | |rearm d3 s sx|pre s|kr chi cho]; try contradiction; cbn [aw_kind]; try (intros H _; exact H).
  - destruct v; try contradiction; intros H _; exact H.
  - intros [H _] _; exact H.
  - intros [H _] _; exact H.
Qed.

Lemma iv_after_idle a iv : aw_kind a iv -> iv_idle (iv_after a iv).
Proof.
  intros Hk. destruct a as [s|v dl|biased tie sa sb| | | | |rearm d3 s sx|pre s|kr chi cho]; try contradiction; cbn [iv_after];
    try (apply (aw_kind_idle _ _ Hk); discriminate).
  destruct iv as [i|]; [reflexivity|exact I].
Qed.

Lemma iv_after_ids a iv id : iv_ids (iv_after a iv) id -> iv_ids iv id.
Proof.
  destruct a; cbn [iv_after]; try (intros H; exact H).
  destruct iv as [i|]; [|intros H; exact H]. intros (i' & E1 & ->). injection E1 as <-. exists i. split; reflexivity.
Qed.

(* when the woken task does not block again, its await completes at the wake instant *)
Lemma aw_end_noreblock a iv arr t : aw_kind a iv -> waits_on (Some a) = None -> aw_wake a iv = t -> aw_reblock t a = None -> aw_end a iv arr = t.
Proof.
  intros Hk Hnw Hw Hrb. destruct a as [s|v dl|biased tie sa sb| | | | |rearm d3 s sx|pre s|kr chi cho]; try contradiction; try exact Hw.
  - destruct v; try contradiction; [exact Hw|discriminate Hnw].
  - destruct Hk as [_ Hd3]. cbn [aw_wake] in Hw. cbn [aw_end].
    destruct (deadline s <=? deadline sx) eqn:E; [lia|].
    destruct rearm; [|lia]. cbn [aw_reblock] in Hrb. rewrite (dl_fin _ _ Hd3) in Hrb.
    replace (deadline s <=? t) with false in Hrb by lia. destruct (t <? t + d3) eqn:E3; [discriminate|]. lia.
Qed.

(* the future a woken task was blocked on completes: its Sleep that is still registered is
   dropped (or, for the kept timer that is re-armed, reset -- which removes its entry as well) *)
Lemma woken_done A0 A ts0 ts own nid t m k r tk a iv dr :
  Base A0 A ts0 ts own nid -> NoDup (k :: r) -> Mid t dr -> Tie ts t (k :: r) m dr ->
  nth_error ts k = Some tk -> t_mod tk = m -> t_cur tk = Some a -> aw_kind a iv -> held tk = aw_held a iv ->
  Forall (fun s => handle s = Some (deadline s)) (aw_held a iv) -> NoDup (map sid (aw_held a iv)) ->
  (aw_wake a iv = t \/ (waits_on (Some a) <> None /\ t < aw_wake a iv)) ->
  acts t dr (aw_done t a dr) /\ TieX ts t k r m (aw_done t a dr).
Proof.
  intros Hbase Hnd Hmid T Hk Hmod Hc Hkind Hheld Hh Hndp Hw. pose proof T as [He Ht Hn].
  assert (Hkr : ~ In k r) by (inversion Hnd; assumption).
  (* entries of task k that are still in the driver have a deadline after t *)
  assert (Hown : forall d id, In id (ents_at d (pending dr)) -> forall s, In s (held tk) -> sid s = id -> deadline s = d /\ t < d).
  { intros d id Hin s Hs E. destruct (Ht d id Hin) as (k' & tk1 & s' & Hk' & Hs' & _ & E1 & E2).
    assert (k' = k) by (apply (b_distinct Hbase k' k tk1 tk s' s Hk' Hk (held_owned _ _ Hs') (held_owned _ _ Hs)); congruence). subst k'.
    rewrite Hk in Hk'. injection Hk' as <-.
    assert (s' = s).
    { rewrite Hheld in Hs, Hs'. clear -Hndp Hs Hs' E E1. induction (aw_held a iv) as [|x l IH]; [contradiction|].
      cbn [map] in Hndp. inversion Hndp as [|? ? Hx Hl]; subst. destruct Hs as [->|Hs], Hs' as [->|Hs']; try reflexivity.
      - exfalso. apply Hx. apply in_map_iff. exists s'. split; [congruence|exact Hs'].
      - exfalso. apply Hx. apply in_map_iff. exists s. split; [congruence|exact Hs].
      - exact (IH Hl Hs Hs'). }
    subst s'. split; [exact E2|]. assert (Hne : ents_at d (pending dr) <> []) by (intros E0; rewrite E0 in Hin; contradiction).
    exact (mid_future _ _ Hmid d _ (ents_at_in _ _ Hne) Hne). }
  assert (Hkeep : forall k' tk1 s, k' <> k -> nth_error ts k' = Some tk1 -> In s (held tk1) -> forall s0, In s0 (held tk) -> sid s <> sid s0).
  { intros k' tk1 s Hne Hk' Hs s0 Hs0 E. apply Hne. exact (b_distinct Hbase k' k tk1 tk s s0 Hk' Hk (held_owned _ _ Hs) (held_owned _ _ Hs0) E). }
  (* an await state with a single Sleep: it was popped; nothing of task k is left in the driver *)
  assert (Hsingle : forall s0, aw_held a iv = [s0] -> deadline s0 = t -> acts t dr dr /\ TieX ts t k r m dr).
  { intros s0 E0 Hd0. split; [apply acts_refl|]. apply (Tie_TieX ts t k r m dr tk T Hk).
    intros d id s1 Hin Hs1 E. destruct (Hown d id Hin s1 Hs1 E) as [E2 Hlt].
    rewrite Hheld, E0 in Hs1. destruct Hs1 as [<-|[]]. lia. }
  (* an await state with two Sleeps: [sr], the one that did not fire, is taken out of the driver by its id *)
  assert (Hrem : forall drc sr, In sr (held tk) -> (forall s0, In s0 (held tk) -> t < deadline s0 -> s0 = sr) ->
     (forall x, ents_at x (pending drc) = if x =? deadline sr then rm (sid sr) (ents_at (deadline sr) (pending dr)) else ents_at x (pending dr)) ->
     TieX ts t k r m drc).
  { intros drc sr Hsr Honly Hre.
    assert (Hents : forall x id, In id (ents_at x (pending drc)) <-> In id (ents_at x (pending dr)) /\ (x = deadline sr -> id <> sid sr)).
    { intros x id. rewrite Hre. destruct (x =? deadline sr) eqn:E.
      - apply N.eqb_eq in E. subst x. rewrite (rm_in_iff _ _ _ (Hn (deadline sr))).
        split; [intros [H1 H2]; split; [exact H1|intros _; exact H2]|intros [H1 H2]; split; [exact H1|exact (H2 eq_refl)]].
      - apply N.eqb_neq in E. split; [intros H; split; [exact H|intros E'; contradiction]|intros [H _]; exact H]. }
    constructor.
    + intros k' tk1 s1 Hne Hk' Hs1 Hm1 Hq. apply Hents. split; [exact (tie_entry_other ts t k r m dr k' tk1 s1 T Hne Hk' Hs1 Hm1 Hq)|].
      intros _. exact (Hkeep k' tk1 s1 Hne Hk' Hs1 sr Hsr).
    + intros d id Hin. apply Hents in Hin. destruct Hin as [Hin Hnot].
      destruct (Ht d id Hin) as (k' & tk1 & s' & Hk' & Hs' & Hm' & E1 & E2).
      exists k', tk1, s'. repeat split; try assumption. intros ->. rewrite Hk in Hk'. injection Hk' as <-.
      destruct (Hown d _ Hin s' Hs' E1) as [_ Hlt]. rewrite <- E2 in Hlt.
      rewrite (Honly s' Hs' Hlt) in E1, E2. exact (Hnot (eq_sym E2) (eq_sym E1)).
    + intros d. rewrite Hre. destruct (d =? deadline sr); [apply rm_nodup|]; apply Hn. }
  assert (Hdrop : forall sr, In sr (held tk) -> (forall s0, In s0 (held tk) -> t < deadline s0 -> s0 = sr) ->
     acts t dr (drop_entry (sid sr) (deadline sr) dr) /\ TieX ts t k r m (drop_entry (sid sr) (deadline sr) dr)).
  { intros sr Hsr Honly. split; [apply (acts_one t dr (DropEntry (sid sr) (deadline sr))); exact I|].
    apply (Hrem _ sr Hsr Honly). intros x. cbn [drop_entry set_pending pending]. apply ents_at_remove. }
  (* of two held Sleeps with min deadline t, the one (if any) with a later deadline *)
  assert (Hpair : forall s1 s2, aw_held a iv = [s1; s2] -> N.min (deadline s1) (deadline s2) = t ->
     let sr := if deadline s1 <=? t then s2 else s1 in
     In sr (held tk) /\ forall s0, In s0 (held tk) -> t < deadline s0 -> s0 = sr).
  { intros s1 s2 E0 Hmin. cbn zeta. rewrite Hheld, E0. split.
    - destruct (deadline s1 <=? t); [right; left|left]; reflexivity.
    - intros s0 [<-|[<-|[]]] Hlt.
      + replace (deadline s1 <=? t) with false by lia. reflexivity.
      + replace (deadline s1 <=? t) with true by lia. reflexivity. }
  assert (Hloser : forall s1 s2, aw_held a iv = [s1; s2] -> N.min (deadline s1) (deadline s2) = t ->
     let drc := if deadline s1 <=? t then drop_entry (sid s2) (deadline s2) dr else drop_entry (sid s1) (deadline s1) dr in
     acts t dr drc /\ TieX ts t k r m drc).
  { intros s1 s2 E0 Hmin. destruct (Hpair s1 s2 E0 Hmin) as [Hsr Honly]. cbn zeta in *.
    destruct (deadline s1 <=? t); exact (Hdrop _ Hsr Honly). }
  assert (Hw' : waits_on (Some a) = None -> aw_wake a iv = t) by (intros Hnone; destruct Hw as [Hw|[Hw _]]; [exact Hw|contradiction]).
  destruct a as [s|v dl|biased tie sa sb| | | | |rearm d3 s sx|pre s|kr chi cho]; try contradiction.
  - specialize (Hw' eq_refl). clear Hw. rename Hw' into Hw. cbn [aw_done]. apply (Hsingle s); [reflexivity|exact Hw].
  - destruct v as [s| |ch|]; try contradiction; cycle 1.
    { (* a receive: woken by its message before the deadline -- the delay is dropped -- or by the delay *)
      cbn [aw_wake waits_on] in Hw. cbn [aw_done].
      destruct Hw as [Hw|[_ Hw]].
      - replace (t <? deadline dl) with false by lia. apply (Hsingle dl); [reflexivity|exact Hw].
      - replace (t <? deadline dl) with true by lia.
        assert (Hsr : In dl (held tk)) by (rewrite Hheld; left; reflexivity).
        apply (Hdrop dl Hsr). intros s0 Hs0 _. rewrite Hheld in Hs0. destruct Hs0 as [<-|[]]. reflexivity. }
    specialize (Hw' eq_refl). clear Hw. rename Hw' into Hw. cbn [aw_wake] in Hw.
    exact (Hloser s dl eq_refl Hw).
  - (* select over two sleeps: the loser is dropped *)
    specialize (Hw' eq_refl). clear Hw. rename Hw' into Hw. cbn [aw_wake] in Hw. exact (Hloser sa sb eq_refl Hw).
  - (* the tick that was waited for *)
    specialize (Hw' eq_refl). clear Hw. rename Hw' into Hw.
    destruct iv as [i|]; [|contradiction Hkind; reflexivity]. cbn [aw_done]. apply (Hsingle (iv_delay i)); [reflexivity|exact Hw].
  - (* the keep-alive select *)
    specialize (Hw' eq_refl). clear Hw. rename Hw' into Hw. cbn [aw_wake] in Hw. destruct (Hpair s sx eq_refl Hw) as [Hsr Honly].
    cbn [aw_done]. destruct (deadline s <=? t) eqn:E.
    + exact (Hdrop sx Hsr Honly).
    + destruct rearm.
      * (* reset of the kept timer, which is still registered *)
        split; [apply (acts_one t dr (ResetEntry (sid s) (deadline s) (dl t d3))); exact I|].
        assert (Hreg : In (sid s) (ents_at (deadline s) (pending dr))).
        { apply (He k tk s Hk Hsr Hmod). right. lia. }
        assert (Hfar : dl t d3 <> deadline s -> ~ In (sid s) (ents_at (dl t d3) (pending dr))).
        { intros Hne Hin. destruct (Hown _ _ Hin s Hsr eq_refl) as [E1 _]. exact (Hne (eq_sym E1)). }
        pose proof (fun x => reset_existing_ents (sid s) (deadline s) (dl t d3) dr x (mid_sorted _ _ Hmid) Hreg (Hn (deadline s)) Hfar) as Hre.
        exact (Hrem _ s Hsr Honly Hre).
      * exact (Hdrop s Hsr Honly).
  - (* the re-armed kept timer *)
    specialize (Hw' eq_refl). clear Hw. rename Hw' into Hw. cbn [aw_done]. apply (Hsingle s); [reflexivity|exact Hw].
Qed.

(* the woken task blocks again at once: on the kept timer, re-armed for a later instant *)
Lemma reblock_ok t nid m k rcv (old : N -> Prop) drc mail arr a a' iv rest st :
  aw_kind a iv -> aw_wake a iv = t -> aw_reblock t a = Some a' -> Forall (frag_step2 rcv) rest ->
  sorted (pending drc) ->
  (forall s, In s (aw_held a iv) -> old (sid s)) -> (forall id, iv_ids iv id -> old id) ->
  recv_ok (aw_end a iv arr) (iv_abs (iv_after a iv)) (aw_arr a arr) rest ->
  exists pre s', a' = AwThen pre s' /\
    poll_ok t nid m k rcv old drc mail arr
      (aw_rec a iv arr ++ exp_run (aw_end a iv arr) (iv_abs (iv_after a iv)) (aw_arr a arr) rest)
      (exp_sends (aw_end a iv arr) (iv_abs (iv_after a iv)) rest)
      ([], Some (a', iv, st :: rest), nid, register (sid s') (deadline s') drc, mail) /\
    (wres (Some (a', iv, st :: rest)) + 1 <= 2 * length (st :: rest) + match a with AwKeep true _ _ _ => 1 | _ => 0 end)%nat.
Proof.
  intros Hk Hw Hrb Hrest Hs Hold Hivo Hro. destruct a as [s|v dl| | | | | |rearm d3 s sx|pre s|kr chi cho]; try discriminate.
  destruct rearm; [|discriminate]. destruct Hk as [Hi Hd3]. cbn [aw_reblock] in Hrb. rewrite (dl_fin _ _ Hd3) in Hrb.
  destruct (deadline s <=? t) eqn:E; [discriminate|]. destruct (t <? t + d3) eqn:E3; [|discriminate]. injection Hrb as <-.
  cbn [aw_wake] in Hw. exists [t; 1], (reg (sid s) (t + d3)). split; [reflexivity|]. split.
  - assert (Hall : Forall (fun s0 => t < deadline s0 /\ handle s0 = Some (deadline s0) /\ idsrc nid nid old (sid s0))
                          (aw_held (AwThen [t; 1] (reg (sid s) (t + d3))) iv)).
    { constructor; [|constructor]. cbn [reg deadline handle sid]. split; [lia|]. split; [reflexivity|]. right. apply Hold. left; reflexivity. }
    destruct (regs_spec t _ (Forall_impl _ (fun s0 H => proj1 H) Hall) drc Hs) as [Ha He].
    assert (Hbl : blocked_ok t nid nid old (AwThen [t; 1] (reg (sid s) (t + d3))) iv).
    { apply blocked_intro; [exact Hi|repeat constructor; intros []|exact Hall|intros id Hid; right; exact (Hivo id Hid)]. }
    split; [lia|]. split; [exact Ha|]. split; [exact He|].
    exists arr, st, rest. split; [reflexivity|]. split; [exact Hrest|].
    cbn [aw_rec aw_end aw_wake aw_arr reg deadline app iv_after] in Hro |- *.
    replace (deadline s <=? deadline sx) with false in * by lia. replace (deadline sx) with t in * by lia.
    split; [reflexivity|]. split; [exact Hbl|].
    split; [apply mail_ok_refl|]. split; [exact I|]. split; [exact Hro|]. intros ch H; discriminate.
  - unfold wres. cbn [fr_steps fr_cur]. lia.
Qed.

(* the arrivals a receiver expects, from the invariant of the channels *)
Lemma arr_la A t ts mail m : Arr A t ts mail -> LA t m mail (A m).
Proof.
  intros H c. destruct (H m c) as (E & F1 & F2). exists (isort (fsends m c ts)). split; [exact E|]. split; [exact F1|].
  apply isort_forall. exact F2.
Qed.

(* the outcome of one poll of task k: once the future it awaited (if any) has completed -- driver [drc], which
   holds no entry of task k any more -- the task runs on and leaves a result that meets [poll_ok] against the
   log [E] still demanded and the messages [Sd] still to be sent; [old]: ids of the Sleeps it owned before *)
Inductive Polled (A0 A : N -> arrs) (ts : list task) (nid : N) (dr : driver) (mail : mailbox) (t m : N) (k : nat) (r : list nat)
                 (tk tk0 : task) : list step * option aw * option interval * driver * N * list N * bool * mailbox -> Prop :=
| Polled_intro L E Sd drc (old : N -> Prop) o b n dr' ml :
    expected A0 tk0 = L ++ E -> fut_sends tk = Sd -> (forall id, old id -> exists s, In s (owned tk) /\ sid s = id) ->
    acts t dr drc -> TieX ts t k r m drc ->
    poll_ok t nid m k (rcv_of tk0) old drc mail (A m) E Sd (o, b, n, dr', ml) -> (wres b + 1 <= wt tk)%nat ->
    Polled A0 A ts nid dr mail t m k r tk tk0 (fr_steps b, fr_cur b, fr_iv b, dr', n, L ++ o, false, ml).

Lemma poll_cases A0 A ts0 t m k r w : MInv A0 A ts0 t m (k :: r) w ->
  exists tk tk0, nth_error (w_tasks w) k = Some tk /\ nth_error ts0 k = Some tk0 /\ t_mod tk = m /\ t_fin tk = false /\
    t_mod tk = t_mod tk0 /\ t_start tk = t_start tk0 /\
    Polled A0 A (w_tasks w) (w_nid w) (drv_of w m) (w_mail w) t m k r tk tk0
      (run_steps t m k (t_steps tk) (t_cur tk) (t_iv tk) (drv_of w m) (w_nid w) (t_log tk) (w_mail w)).
Proof.
  intros [Hinert Harr Hbase Hnd Hrun Hmid Htie Hrq].
  destruct (Hrun k (or_introl eq_refl)) as (tk & Hk & Hmod & Hcase).
  destruct (Base_nth Hbase Hk) as (tk0 & Hk0 & Hts & Hi0).
  exists tk, tk0. split; [exact Hk|]. split; [exact Hk0|]. split; [exact Hmod|].
  destruct (tstate_cases Hts Hi0) as (Hm0 & Hs0 & _).
  assert (Em : t_mod tk0 = m) by (rewrite <- Hm0; exact Hmod).
  assert (Hfresh : forall drc, TieX (w_tasks w) t k r m drc -> forall x id, In id (ents_at x (pending drc)) -> id < w_nid w).
  { intros drc Gx x id Hin. destruct (tx_task Gx x id Hin) as (k' & tk1 & s & _ & Hk' & Hs & _ & E1 & _). rewrite <- E1.
    exact (proj1 (b_ids Hbase k' tk1 s Hk' Hs)). }
  pose proof (arr_la A t (w_tasks w) (w_mail w) m Harr) as Hla.
  set (old := fun id => exists s, In s (owned tk) /\ sid s = id).
  (* the task runs [Sx] on from scratch: it has logged L, its interval is iv0, the future it awaited (if any) has
     completed -- driver drc --, the channels are mail1 and it expects the arrivals arr1.  First what the callers have at
     hand, then what they have to show: the poll comes to this run, the log and the messages still due are those of Sx,
     the interval is idle, the channels have changed as mail_ok allows, the ids are the task's own, Sx is lighter than
     the task's work *)
  assert (Hon : forall L Sx drc iv0 mail1 arr1,
            Forall (frag_step2 (rcv_of tk0)) Sx -> recv_ok t (iv_abs iv0) arr1 Sx ->
            inert mail1 -> (rcv_of tk0 = true -> LA t m mail1 arr1) ->
            acts t (drv_of w m) drc -> TieX (w_tasks w) t k r m drc ->
            run_steps t m k (t_steps tk) (t_cur tk) (t_iv tk) (drv_of w m) (w_nid w) (t_log tk) (w_mail w) =
              run_steps t m k Sx None iv0 drc (w_nid w) L mail1 ->
            expected A0 tk0 = L ++ exp_run t (iv_abs iv0) arr1 Sx -> iv_idle iv0 ->
            mail_ok t m k (rcv_of tk0) (w_mail w) mail1 (A m) arr1 [] [] ->
            fut_sends tk = exp_sends t (iv_abs iv0) Sx -> (forall id, iv_ids iv0 id -> old id) ->
            (2 * length Sx + 2 <= wt tk)%nat ->
            Polled A0 A (w_tasks w) (w_nid w) (drv_of w m) (w_mail w) t m k r tk tk0
              (run_steps t m k (t_steps tk) (t_cur tk) (t_iv tk) (drv_of w m) (w_nid w) (t_log tk) (w_mail w))).
  { intros L Sx drc iv0 mail1 arr1 HS Hok1 Hin1 Hla1 Ha Gx Hrs Hexp Hidle Hm1 HfS Hivo Hw.
    destruct (run_steps_spec t m k _ Sx HS (w_nid w) iv0 drc mail1 arr1 L Hidle (acts_mid _ _ _ Ha Hmid) (Hfresh drc Gx) Hin1 Hla1 Hok1)
      as (o & b & n & dr' & ml & Hrs' & Hspec & Hl).
    rewrite Hrs, Hrs'.
    pose proof (poll_ok_pass t (w_nid w) (w_nid w) m k (rcv_of tk0) old (iv_ids iv0) drc drc (w_mail w) mail1 (A m) arr1 _ [] [] _ (o, b, n, dr', ml)
                  (N.le_refl _) (fun id H => or_intror (Hivo id H)) (acts_refl _ _) (fun x => eq_refl) Hm1 Hspec) as Hspec'.
    apply Polled_intro with (E := exp_run t (iv_abs iv0) arr1 Sx) (Sd := exp_sends t (iv_abs iv0) Sx) (drc := drc) (old := old);
      [exact Hexp|exact HfS|intros id H; exact H|exact Ha|exact Gx|exact Hspec'|].
    pose proof (wres_bound b) as Hb. clear - Hl Hw Hb. lia. }
  destruct Hcase as [(Hun & Hst)|(a & Hc & Hcase')].
  - destruct (tstate_unspawned _ _ _ _ Hts Hun) as (-> & Hte & Hto). destruct Hi0 as (I1 & I2 & I3 & I4 & I5 & I6).
    rewrite Em, Hst in Hte, Hto.
    split; [exact I5|]. split; [reflexivity|]. split; [reflexivity|].
    assert (Gx : TieX (w_tasks w) t k r m (drv_of w m)).
    { apply (Tie_TieX _ _ _ _ _ _ tk0 Htie Hk). intros d id s _ Hs. unfold held in Hs. rewrite I2 in Hs. contradiction. }
    apply (Hon [] (t_steps tk0) (drv_of w m) None (w_mail w) (A m) I1 Hto Hinert (fun _ => Hla) (acts_refl _ _) Gx).
    + rewrite I2, I3, I4. reflexivity.
    + exact Hte.
    + exact I.
    + apply mail_ok_refl.
    + unfold fut_sends. rewrite I2, I5, Hst. reflexivity.
    + intros id (i & E & _). discriminate E.
    + unfold wt. rewrite I2, I5. apply Nat.le_refl.
  - destruct (tstate_blocked Hts Hi0 Hc) as (st & rest & _ & _ & H3 & H4 & H7 & Hkind & Hh & Hndp & Hheld & H8 & Hao & H13 & H14).
    split; [exact H7|]. split; [exact Hm0|]. split; [exact Hs0|].
    rewrite Em in *.
    assert (Hivown : forall id, iv_ids (t_iv tk) id -> old id).
    { intros id (i & Ei & ->). exists (iv_delay i). split; [|reflexivity].
      unfold owned. rewrite Ei. apply in_or_app. right. left. reflexivity. }
    assert (Hwt : (2 * length rest + 2 <= wt tk)%nat) by (unfold wt; rewrite H3; cbn [length]; clear; lia).
    assert (Hwd : aw_wake a (t_iv tk) = t \/ (waits_on (Some a) <> None /\ t < aw_wake a (t_iv tk)) ->
              acts t (drv_of w m) (aw_done t a (drv_of w m)) /\ TieX (w_tasks w) t k r m (aw_done t a (drv_of w m))).
    { exact (woken_done A0 A ts0 (w_tasks w) (w_owner w) (w_nid w) t m k r tk a (t_iv tk) (drv_of w m) Hbase Hnd Hmid Htie Hk Hmod Hc Hkind Hheld Hh Hndp). }
    destruct (waits_on (Some a)) as [ch|] eqn:Ew.
    + destruct (waits_recv a _ ch Hkind Ew) as (dl & ->). specialize (H14 ch eq_refl).
      cbn [aw_wake aw_held held_sleeps] in *. pose proof (Forall_inv Hh) as Hdl. cbn beta in Hdl.
      destruct Hao as [Hfin Htie0]. destruct (Harr m ch) as (EA & F1 & F2).
      assert (HfS : fut_sends tk = exp_sends t (iv_abs (t_iv tk)) rest).
      { unfold fut_sends. rewrite Hc, H3. cbn [tl]. pose proof H4 as H4'. rewrite H14 in H4'. rewrite !(exp_sends_rcv rest H4'). reflexivity. }
      pose proof (run_steps_woken_recv t m k st rest ch dl (t_iv tk) (drv_of w m) (w_nid w) (t_log tk) (w_mail w) Hdl) as Hrw.
      cbn [aw_rec aw_end aw_arr iv_after] in H8, H13.
      destruct (mail_take m ch (w_mail w)) as [[s mail1]|] eqn:Emt.
      * destruct (mail_take_some _ _ _ _ _ Emt) as (Ec & Eo & Ei). destruct (Ei Hinert) as [Hs0' Hin1]. clear Ei.
        assert (Hne0 : chan (t_mod tk) ch (w_mail w) <> []) by (rewrite Hmod, Ec; discriminate).
        destruct (Hrq k tk ch Hk ltac:(rewrite Hc; reflexivity) Hne0) as (_ & _ & Hnow). rewrite Ec in Hnow. pose proof (Forall_inv Hnow) as Hst. cbn beta in Hst.
        unfold chan_inst in EA. rewrite Ec in EA. cbn [map app] in EA. rewrite Hst in EA. rewrite EA in Htie0.
        assert (Hlt : t < deadline dl).
        { destruct Hcase' as [Hw|(ch' & _ & _ & Hw)]; [congruence|exact Hw]. }
        assert (Hhit : aw_hit (deadline dl) (A m ch) = Some t).
        { rewrite EA. cbn [aw_hit]. rewrite (proj2 (N.ltb_lt _ _) Hlt). reflexivity. }
        rewrite Hhit in H8, H13.
        assert (Hwn : waits_on (Some (AwTimeout (VRecv ch) dl)) <> None) by discriminate.
        destruct (Hwd (or_intror (conj Hwn Hlt))) as (Ha & Gx).
        cbn [aw_done] in Ha, Gx. rewrite (proj2 (N.ltb_lt _ _) Hlt) in Ha, Gx.
        unfold sleep_drop in Hrw at 1. rewrite Hs0' in Hrw.
        apply (Hon (t_log tk ++ [t; 1]) rest (drop_entry (sid dl) (deadline dl) (drv_of w m)) (t_iv tk) mail1 (arr_pop (A m) ch)
                 H4 H13 Hin1 (fun _ => LA_take t m (w_mail w) mail1 (A m) ch s Emt Hla) Ha Gx).
        -- rewrite H3, Hc. exact Hrw.
        -- rewrite H8, <- app_assoc. reflexivity.
        -- exact Hkind.
        -- rewrite H14. exact (mail_ok_take t m k (w_mail w) mail1 (A m) ch s Emt).
        -- exact HfS.
        -- exact Hivown.
        -- exact Hwt.
      * apply mail_take_none in Emt.
        assert (Hw : deadline dl = t).
        { destruct Hcase' as [Hw|(ch' & Hw' & Hne & _)]; [exact Hw|]. injection Hw' as <-. contradiction. }
        unfold chan_inst in EA. rewrite Emt in EA. cbn [map app] in EA.
        assert (Hhit : aw_hit (deadline dl) (A m ch) = None).
        { rewrite EA in *. apply isort_forall in F2. destruct F2 as [|a0 F' Ha0 _]; [reflexivity|]. cbn [aw_hit].
          rewrite (proj2 (N.ltb_ge _ _)); [reflexivity|]. rewrite Hw. exact Ha0. }
        rewrite Hhit, Hw in H8, H13.
        destruct (Hwd (or_introl Hw)) as (Ha & Gx).
        cbn [aw_done] in Ha, Gx. rewrite Hw, N.ltb_irrefl in Ha, Gx.
        specialize (Hrw ltac:(rewrite Hw; apply N.le_refl)).
        apply (Hon (t_log tk ++ [t; 0]) rest (drv_of w m) (t_iv tk) (w_mail w) (A m) H4 H13 Hinert (fun _ => Hla) Ha Gx).
        -- rewrite H3, Hc. exact Hrw.
        -- rewrite H8, <- app_assoc. reflexivity.
        -- exact Hkind.
        -- apply mail_ok_refl.
        -- exact HfS.
        -- exact Hivown.
        -- exact Hwt.
    + assert (Hwk : aw_wake a (t_iv tk) = t).
      { destruct Hcase' as [Hw|(ch' & Hw' & _)]; [exact Hw|discriminate]. }
      destruct (Hwd (or_introl Hwk)) as (Ha & Gx).
      destruct (aw_noarr a (t_iv tk) (A m) noarr Ew) as (En1 & En2 & En3 & _).
      destruct (aw_reblock t a) as [a'|] eqn:Erb.
      * destruct (reblock_ok t (w_nid w) m k (rcv_of tk0) old (aw_done t a (drv_of w m)) (w_mail w) (A m) a a' (t_iv tk) rest st Hkind Hwk Erb H4
                    (mid_sorted _ _ (acts_mid _ _ _ Ha Hmid)))
          as (pre & s' & Ea' & Hspec & Hwr); [| |exact H13|].
        { intros s Hs. exists s. split; [apply held_owned; rewrite Hheld; exact Hs|reflexivity]. }
        { exact Hivown. }
        destruct (run_steps_reblock t m k st rest a a' (t_iv tk) (drv_of w m) (w_nid w) (t_log tk) (w_mail w) Hkind Hh Hwk Erb) as (pre2 & s2 & Ea2 & Hrs).
        rewrite Ea' in Ea2. injection Ea2 as <- <-.
        rewrite H3, Hc, Hrs, <- (app_nil_r (t_log tk)).
        apply Polled_intro with (L := t_log tk) (o := []) (b := Some (a', t_iv tk, st :: rest)) (drc := aw_done t a (drv_of w m)) (old := old)
          (E := aw_rec a (t_iv tk) (A m) ++ exp_run (aw_end a (t_iv tk) (A m)) (iv_abs (iv_after a (t_iv tk))) (aw_arr a (A m)) rest)
          (Sd := exp_sends (aw_end a (t_iv tk) (A m)) (iv_abs (iv_after a (t_iv tk))) rest).
        -- exact H8.
        -- unfold fut_sends. rewrite Hc, H3, En2. reflexivity.
        -- intros id H. exact H.
        -- exact Ha.
        -- exact Gx.
        -- exact Hspec.
        -- unfold wt. rewrite H3, Hc. exact Hwr.
      * pose proof (aw_end_noreblock _ _ (A m) _ Hkind Ew Hwk Erb) as Eend. rewrite En3, Eend in H8, H13.
        apply (Hon (t_log tk ++ aw_rec a (t_iv tk) (A m)) rest (aw_done t a (drv_of w m)) (iv_after a (t_iv tk)) (w_mail w) (A m)
                 H4 H13 Hinert (fun _ => Hla) Ha Gx).
        -- rewrite H3, Hc. exact (run_steps_woken t m k st rest a (t_iv tk) (A m) _ _ _ _ Hkind Hh Hwk Erb Ew).
        -- rewrite H8, <- app_assoc. reflexivity.
        -- exact (iv_after_idle _ _ Hkind).
        -- apply mail_ok_refl.
        -- unfold fut_sends. rewrite Hc, H3, <- En2, Eend. reflexivity.
        -- intros id Hid. exact (Hivown id (iv_after_ids _ _ _ Hid)).
        -- exact Hwt.
Qed.

(* one poll *)
Lemma poll_task_minv A0 A ts0 t m k r w : MInv A0 A ts0 t m (k :: r) w ->
  let w' := fst (poll_task true t m k w) in
  let q' := enqueue r (ready_receivers m (w_mail w') 0 (w_tasks w')) in
  snd (poll_task true t m k w) = false /\ (exists A', MInv A0 A' ts0 t m q' w') /\
  w_fes w' = w_fes w /\ w_now w' = w_now w /\
  (forall m', (m' =? 0) <> (m =? 0) -> drv_of w' m' = drv_of w m') /\
  (forall k', k' <> k -> nth_error (w_tasks w') k' = nth_error (w_tasks w) k') /\
  length (w_tasks w') = length (w_tasks w) /\ w_nid w <= w_nid w' /\
  (forall tk', nth_error (w_tasks w') k = Some tk' -> ~ unspawned tk') /\
  (work (w_tasks w') + 1 <= work (w_tasks w))%nat /\
  (length q' + psends (w_tasks w') <= length r + psends (w_tasks w))%nat.
Proof.
  intros HM. cbn zeta. destruct (poll_cases A0 A ts0 t m k r w HM) as (tk & tk0 & Hk & Hk0 & Hmod & Hfin & Hm0 & Hs0 & HP).
  destruct HM as [Hinert Harr Hbase Hnd Hrun Hmid Htie Hrq].
  remember (run_steps t m k (t_steps tk) (t_cur tk) (t_iv tk) (drv_of w m) (w_nid w) (t_log tk) (w_mail w)) as res eqn:Hrs.
  destruct HP as [L E Sd drc old o b n dr' ml Hexp HfS Hold Hac Gx (Hnn & Hacts & Hents & arr' & Hres) Hwt]. symmetry in Hrs.
  pose proof (acts_mid _ _ _ Hac Hmid) as Hmidc.
  pose proof (fun k' H => Hrun k' (or_intror H)) as Hrun'.
  destruct (poll_task_eq true t m k w tk _ _ _ _ _ _ _ _ Hk Hfin Hrs) as (Hsw & Hfes & Hnow & Hdr & Hoth & Htasks & Hnid & Hown & Hml).
  (* the waker table and the entries before the poll, for the lemmas of PollStep *)
  pose (own := w_owner w). pose (before := flat_map snd (pending (drv_of w m))).
  rewrite Htasks, Hml. split; [exact Hsw|]. split; [eexists; eapply ps_minv; eassumption|].
  repeat split; try assumption.
  - intros k' Hne. apply nth_set_nth_other. intros E1. apply Hne. symmetry. exact E1.
  - apply length_set_nth.
  - rewrite Hnid. exact Hnn.
  - intros tk1 H1. rewrite (nth_set_nth_same _ _ _ _ Hk) in H1. injection H1 as <-. eapply ps_spawned with (m := m); eassumption.
  - eapply ps_work with (m := m); eassumption.
  - eapply ps_queue with (m := m); eassumption.
Qed.


(* the executor's run over the whole queue; receivers that are sent a message join it *)
Lemma run_queue_frag A0 ts0 t m : forall fuel q A w, (length q + psends (w_tasks w) <= fuel)%nat -> MInv A0 A ts0 t m q w ->
  let w' := run_queue true fuel t m q w in
  (exists A', MInv A0 A' ts0 t m [] w') /\ w_fes w' = w_fes w /\ w_now w' = w_now w /\
  (forall m', (m' =? 0) <> (m =? 0) -> drv_of w' m' = drv_of w m') /\
  (forall k' tk1, nth_error (w_tasks w) k' = Some tk1 -> ~ In k' q -> (t_cur tk1 = None \/ t_mod tk1 <> m) ->
     nth_error (w_tasks w') k' = Some tk1) /\
  length (w_tasks w') = length (w_tasks w) /\ w_nid w <= w_nid w' /\
  (forall k' tk1 tk2, nth_error (w_tasks w) k' = Some tk1 -> nth_error (w_tasks w') k' = Some tk2 -> ~ unspawned tk1 -> ~ unspawned tk2) /\
  (forall k tk', In k q -> nth_error (w_tasks w') k = Some tk' -> ~ unspawned tk') /\
  (work (w_tasks w') + length q <= work (w_tasks w))%nat.
Proof.
  induction fuel as [|f IH]; intros q A w Hlen Hm; cbn zeta.
  - destruct q; [|cbn [length] in Hlen; lia]. cbn [run_queue].
    split; [exists A; exact Hm|]. split; [reflexivity|]. split; [reflexivity|]. split; [reflexivity|].
    split; [intros k' tk1 H _ _; exact H|]. split; [reflexivity|]. split; [lia|].
    split; [intros k' tk1 tk2 H1 H2 Hn; rewrite H1 in H2; injection H2 as <-; exact Hn|]. split; [intros k tk' []|cbn [length]; lia].
  - destruct q as [|k r].
    { cbn [run_queue].
      split; [exists A; exact Hm|]. split; [reflexivity|]. split; [reflexivity|]. split; [reflexivity|].
      split; [intros k' tk1 H _ _; exact H|]. split; [reflexivity|]. split; [lia|].
      split; [intros k' tk1 tk2 H1 H2 Hn; rewrite H1 in H2; injection H2 as <-; exact Hn|]. split; [intros k tk' []|cbn [length]; lia]. }
    cbn [run_queue].
    destruct (poll_task_minv A0 A ts0 t m k r w Hm) as (Hsw & (A1 & Hm') & H1 & H2 & H3 & H4 & H5 & H6 & H7 & H8 & H9).
    destruct (poll_task true t m k w) as [w1 sw]. cbn [fst snd] in *. subst sw.
    set (q1 := enqueue r (ready_receivers m (w_mail w1) 0 (w_tasks w1))) in *.
    cbn [length] in Hlen. destruct (IH q1 A1 w1 ltac:(clear - Hlen H9; lia) Hm') as (G0 & G1 & G2 & G3 & G4 & G5 & G6 & G7 & G8 & G9).
    split; [exact G0|]. split; [rewrite G1; exact H1|]. split; [rewrite G2; exact H2|].
    split; [intros m' Hne; rewrite (G3 m' Hne); exact (H3 m' Hne)|].
    assert (Hkr : ~ In k r) by (pose proof (mi_nodup Hm) as Hnd; inversion Hnd; assumption).
    split; [|split; [rewrite G5; exact H5|split; [lia|split; [|split]]]].
    + intros k' tk1 Hk' Hn Hc. assert (Hne : k' <> k) by (intros ->; apply Hn; left; reflexivity).
      apply G4; [rewrite (H4 k' Hne); exact Hk'| |exact Hc].
      intros Hin. unfold q1 in Hin. apply enqueue_in in Hin. destruct Hin as [Hin|[Hin _]]; [apply Hn; right; exact Hin|].
      apply ready_receivers_in in Hin. destruct Hin as (tk2 & ch & _ & Hx & Hw & Hmm & _). rewrite Nat.sub_0_r, (H4 k' Hne), Hk' in Hx. injection Hx as <-.
      destruct Hc as [Hc|Hc]; [rewrite Hc in Hw; discriminate|exact (Hc Hmm)].
    + intros k' tk1 tk2 Hk1 Hk2 Hns. destruct (nth_error (w_tasks w1) k') as [tkm|] eqn:Ekm.
      * apply (G7 k' tkm tk2 Ekm Hk2). destruct (Nat.eq_dec k' k) as [->|Hne]; [exact (H7 tkm Ekm)|].
        rewrite (H4 k' Hne), Hk1 in Ekm. injection Ekm as <-. exact Hns.
      * exfalso. apply nth_error_None in Ekm. rewrite H5 in Ekm. apply nth_error_None in Ekm. congruence.
    + intros k' tk' [<-|Hin] Hk'.
      * destruct (nth_error (w_tasks w1) k) as [tkm|] eqn:Ekm.
        -- exact (G7 k tkm tk' Ekm Hk' (H7 tkm eq_refl)).
        -- exfalso. apply nth_error_None in Ekm. assert (Hk2 : nth_error (w_tasks (run_queue true f t m q1 w1)) k <> None) by (rewrite Hk'; discriminate).
           apply nth_error_Some in Hk2. rewrite G5 in Hk2. lia.
      * apply (G8 k' tk'); [unfold q1; apply enqueue_in; left; exact Hin|exact Hk'].
    + assert (length r <= length q1)%nat by (unfold q1, enqueue; rewrite app_length; lia). cbn [length]. lia.
Qed.

(* the messages still to be sent are bounded by the steps still to go *)
Lemma exp_sends_len steps : forall now iv, (length (exp_sends now iv steps) <= length steps)%nat.
Proof.
  induction steps as [|st r IH]; intros now iv; cbn [exp_sends length]; [lia|]. rewrite app_length.
  specialize (IH (step_time now iv noarr st) (step_iv now iv st)). destruct st; cbn [length]; lia.
Qed.

Lemma psends_bound ts : (psends ts <= fold_right (fun tk n => (length (t_steps tk) + n)%nat) 0%nat ts)%nat.
Proof.
  induction ts as [|tk r IH]; cbn [psends fold_right]; [lia|]. fold (psends r).
  assert (length (fut_sends tk) <= length (t_steps tk))%nat.
  { unfold fut_sends. destruct (t_cur tk).
    - pose proof (exp_sends_len (tl (t_steps tk)) (aw_end a (t_iv tk) noarr) (iv_abs (iv_after a (t_iv tk)))). destruct (t_steps tk); cbn [tl length] in *; lia.
    - destruct (t_fin tk); [cbn [length]; lia|apply exp_sends_len]. }
  lia.
Qed.
