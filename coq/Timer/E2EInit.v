(* End-to-end argument, fragment of coq/Timer/Frag.v: the start-up (messages injected
   before the run, the at_sim_start event of each module) establishes the boundary invariant;
   the theorem about whole runs. *)
From Coq Require Import List Arith NArith Bool Lia Permutation ZifyBool.
From DesVerif Require Import Common.Fuel CQueue.Model CQueue.Spec CQueue.SpecProps Timer.Driver Timer.QueueLemmas Timer.Inv
  Timer.Exact Timer.Futures Timer.Model Timer.EvSet Timer.Frag Timer.E2EInv Timer.E2EPoll Timer.E2EEvent Timer.E2ELoop.
Import ListNotations.
Open Scope N_scope.

(* ---- the injected messages ---- *)
Definition te (e : ev) : N * N := (etime e, epay e).

Fixpoint msgs (i : nat) (ts : list task) : list (N * N) :=
  match ts with
  | [] => []
  | tk :: r => (if t_start tk =? 0 then [] else [(t_start tk, msg_of i)]) ++ msgs (S i) r
  end.

Lemma inject_spec ts : forall i f, SI f -> s_tcur f = 0 ->
  SI (inject i ts f) /\ s_tcur (inject i ts f) = 0 /\
  Permutation (map te (spend (inject i ts f))) (map te (spend f) ++ msgs i ts).
Proof.
  induction ts as [|tk r IH]; intros i f Hsi Htc; cbn [inject msgs].
  - rewrite app_nil_r. split; [exact Hsi|split; [exact Htc|apply Permutation_refl]].
  - destruct (t_start tk =? 0) eqn:E.
    + cbn [app]. apply IH; assumption.
    + destruct (add_perm f (t_start tk) (2 + N.of_nat i)) as [P1 P2]; [lia|].
      destruct (IH (S i) (fst (fst (sp_add f (t_start tk) (2 + N.of_nat i)))) (SI_add _ _ _ Hsi) ltac:(lia)) as (I1 & I2 & I3).
      split; [exact I1|]. split; [exact I2|].
      eapply Permutation_trans; [exact I3|]. cbn [app].
      eapply Permutation_trans; [apply Permutation_app_tail, Permutation_map; exact P1|].
      cbn [map te etime epay app]. apply Permutation_middle.
Qed.

Lemma msgs_in i ts t p : In (t, p) (msgs i ts) <->
  exists j tk, nth_error ts j = Some tk /\ t_start tk <> 0 /\ t = t_start tk /\ p = msg_of (i + j).
Proof.
  revert i; induction ts as [|tk r IH]; intros i; cbn [msgs].
  - split; [intros []|intros (j & tk & H & _); destruct j; discriminate].
  - rewrite in_app_iff, IH. split.
    + intros [H|(j & tk' & H1 & H2 & H3 & H4)].
      * destruct (t_start tk =? 0) eqn:E; [contradiction|]. destruct H as [H|[]]. injection H as <- <-.
        exists 0%nat, tk. repeat split; [lia|f_equal; lia].
      * exists (S j), tk'. repeat split; try assumption. rewrite H4. f_equal. lia.
    + intros (j & tk' & H1 & H2 & H3 & H4). destruct j as [|j]; cbn [nth_error] in H1.
      * injection H1 as <-. left. replace (t_start tk =? 0) with false by lia. left. rewrite H3, H4. do 2 f_equal. lia.
      * right. exists j, tk'. repeat split; try assumption. rewrite H4. f_equal. lia.
Qed.

Lemma msgs_nodup ts : forall i, NoDup (map snd (msgs i ts)).
Proof.
  induction ts as [|tk r IH]; intros i; cbn [msgs]; [constructor|].
  destruct (t_start tk =? 0); cbn [app map snd]; [apply IH|]. constructor; [|apply IH].
  intros H. apply in_map_iff in H. destruct H as ([t p] & Hp & Hin). cbn [snd] in Hp. subst p.
  apply msgs_in in Hin. destruct Hin as (j & tk' & _ & _ & _ & E). apply msg_of_inj in E. lia.
Qed.

(* ---- the tasks spawned by at_sim_start ---- *)
Lemma start_tasks_in m ts : forall i k, In k (start_tasks m i ts) <->
  exists j tk, k = (i + j)%nat /\ nth_error ts j = Some tk /\ t_mod tk = m /\ t_start tk = 0.
Proof.
  induction ts as [|tk r IH]; intros i k; cbn [start_tasks].
  - split; [intros []|intros (j & tk & _ & H & _); destruct j; discriminate].
  - assert (Hrest : In k (start_tasks m (S i) r) <-> exists j tk', k = (i + S j)%nat /\ nth_error r j = Some tk' /\ t_mod tk' = m /\ t_start tk' = 0).
    { rewrite IH. split; intros (j & tk' & H1 & H2); exists j, tk'; (split; [lia|exact H2]). }
    destruct ((t_mod tk =? m) && (t_start tk =? 0)) eqn:E.
    + cbn [In]. rewrite Hrest. split.
      * intros [<-|(j & tk' & H1 & H2)]; [exists 0%nat, tk; repeat split; lia|exists (S j), tk'; split; [exact H1|exact H2]].
      * intros (j & tk' & H1 & H2 & H3 & H4). destruct j as [|j]; [left; lia|right; exists j, tk'].
        cbn [nth_error] in H2. split; [exact H1|split; [exact H2|split; assumption]].
    + rewrite Hrest. split.
      * intros (j & tk' & H1 & H2). exists (S j), tk'. split; [exact H1|exact H2].
      * intros (j & tk' & H1 & H2 & H3 & H4). destruct j as [|j]; [cbn [nth_error] in H2; injection H2 as <-; lia|].
        cbn [nth_error] in H2. exists j, tk'. split; [exact H1|split; [exact H2|split; assumption]].
Qed.

Lemma start_tasks_nodup m ts : forall i, NoDup (start_tasks m i ts).
Proof.
  induction ts as [|tk r IH]; intros i; cbn [start_tasks]; [constructor|].
  destruct ((t_mod tk =? m) && (t_start tk =? 0)); [|apply IH]. constructor; [|apply IH].
  rewrite start_tasks_in. intros (j & tk' & H & _). lia.
Qed.

Lemma start_tasks0_in m ts k : In k (start_tasks m 0 ts) <-> exists tk, nth_error ts k = Some tk /\ t_mod tk = m /\ t_start tk = 0.
Proof.
  rewrite start_tasks_in. split.
  - intros (j & tk & -> & H). exists tk. exact H.
  - intros (tk & H). exists k, tk. split; [reflexivity|exact H].
Qed.

(* ---- start-up ---- *)
(* tasks of module 1 that at_sim_start will spawn: still unspawned, without a message, while module 0 starts *)
Definition later1 (ts0 : list task) (k : nat) : Prop :=
  exists tk0, nth_error ts0 k = Some tk0 /\ t_start tk0 = 0 /\ t_mod tk0 = 1.

(* [one_recv ts0] below is the statement of E2EInv.Base's field b_one *)
(* the hypotheses on the scripts, with channels: every task lies in the fragment, none of its
   receives is a tie, and at most one task of a module receives *)
Definition one_recv (ts0 : list task) : Prop :=
  forall k k' tk0 tk0', nth_error ts0 k = Some tk0 -> nth_error ts0 k' = Some tk0' ->
    rcv_of tk0 = true -> rcv_of tk0' = true -> t_mod tk0 = t_mod tk0' -> k = k'.

Definition chan_ok (ts0 : list task) : Prop := Forall (init_ok2 (arrivals ts0)) ts0 /\ one_recv ts0.

Lemma base_init A0 ts own nid : Forall (init_ok2 A0) ts -> one_recv ts -> Base A0 A0 ts ts own nid.
Proof.
  intros Hinit Hone.
  assert (Hown0 : forall k tk s, nth_error ts k = Some tk -> In s (owned tk) -> False).
  { intros k tk s Hk Hbl. destruct (proj1 (Forall_forall _ _) Hinit tk (nth_error_In _ _ Hk)) as (_ & H2 & H3 & _).
    unfold owned, held in Hbl. rewrite H2, H3 in Hbl. destruct Hbl. }
  constructor; [|exact Hinit|exact Hone| | |].
  - clear Hone Hown0. induction Hinit as [|tk l Hi _ IH]; constructor; [|exact IH]. apply TUn; [reflexivity|reflexivity|].
    exact (proj2 (proj2 (proj2 (proj2 (proj2 (proj2 (proj2 Hi))))))).
  - intros k tk s Hk Hbl. destruct (Hown0 k tk s Hk (held_owned _ _ Hbl)).
  - intros k tk s Hk Hbl. destruct (Hown0 k tk s Hk Hbl).
  - intros k k' tk tk' s s' Hk _ Hbl. destruct (Hown0 k tk s Hk Hbl).
Qed.

Lemma arr_init A0 ts : Forall (init_ok2 A0) ts -> Arr (arrivals ts) 0 ts [].
Proof.
  intros Hinit m' c. unfold chan_inst. cbn [chan map app]. split; [|split; [constructor|apply Forall_forall; intros a _; lia]].
  unfold arrivals, fsends. f_equal. rewrite !flat_map_concat_map. f_equal. apply map_ext_in. intros tk Htk.
  destruct (proj1 (Forall_forall _ _) Hinit tk Htk) as (_ & H2 & _ & _ & H5 & _). unfold fut_sends. rewrite H2, H5. reflexivity.
Qed.

Lemma start_pre0 ts0 : chan_ok ts0 ->
  PreEv (arrivals ts0) (arrivals ts0) ts0 (later1 ts0) (init_world ts0) 0 0 (start_tasks 0 0 ts0) false.
Proof.
  intros [Hinit Hone]. pose proof Hinit as Hinit'. rewrite Forall_forall in Hinit'.
  destruct (inject_spec ts0 0 sp_new SI_new eq_refl) as (I1 & I2 & I3). cbn [spend sp_new sp_new_at s_zero s_rest app map] in I3.
  set (w0 := init_world ts0).
  assert (Hev : forall e, In e (spend (w_fes w0)) ->
            exists j tk, nth_error ts0 j = Some tk /\ t_start tk <> 0 /\ etime e = t_start tk /\ epay e = msg_of j).
  { intros e He. assert (H : In (te e) (msgs 0 ts0)) by (eapply Permutation_in; [exact I3|apply in_map; exact He]).
    unfold te in H. apply msgs_in in H. exact H. }
  assert (Hun0 : forall k tk, nth_error ts0 k = Some tk -> unspawned tk).
  { intros k tk Hk. destruct (Hinit' tk (nth_error_In _ _ Hk)) as (_ & H2 & _ & _ & H5 & _). split; assumption. }
  constructor; cbn [w0 init_world w_fes w_now w_mail w_tasks w_owner w_nid].
  - exact I1.
  - exact I2.
  - lia.
  - intros e _. lia.
  - constructor.
  - exact (arr_init _ ts0 Hinit).
  - intros k tk ch Hk Hw. destruct (Hun0 k tk Hk) as [Hc _]. rewrite Hc in Hw. discriminate.
  - exact (base_init _ ts0 [] 0 Hinit Hone).
  - lia.
  - intros m' Hm'. exists 0. split; [lia|].
    assert (Hd : drv_of w0 m' = new_driver) by (unfold drv_of; destruct (m' =? 0); reflexivity). fold w0. rewrite Hd.
    split; [exact inv_init|]. split; [|split; [|exact snap_init]].
    + cbn [andb app new_driver scheduled].
      assert (Hnil : wakes m' (spend (inject 0 ts0 sp_new)) = []).
      { apply incl_l_nil. intros a Hin. exfalso.
        apply wakes_in in Hin. destruct Hin as (e & He & Hp & _). destruct (Hev e He) as (j & tk & _ & _ & _ & Ep).
        unfold msg_of in Ep. lia. }
      rewrite Hnil. constructor.
    + constructor.
      * intros k tk s Hk Hbl. destruct (Hun0 k tk Hk) as [Hc _]. unfold held in Hbl. rewrite Hc in Hbl. destruct Hbl.
      * intros d id [].
      * intros d. constructor.
  - intros k Hk. apply start_tasks0_in in Hk. destruct Hk as (tk & Hk & Hm & Hs).
    exists tk. split; [exact Hk|]. split; [exact (Hun0 k tk Hk)|]. split; assumption.
  - intros k e Hk He Ee. apply start_tasks0_in in Hk. destruct Hk as (tk & Hk & _ & Hs).
    destruct (Hev e He) as (j' & tk' & Hj' & Hne & _ & Ep). rewrite Ee in Ep. apply msg_of_inj in Ep. subst j'.
    rewrite Hk in Hj'. injection Hj' as <-. contradiction.
  - intros k (tk0 & Hk & _ & Hm) Hs. apply start_tasks0_in in Hs. destruct Hs as (tk & Hj & Hm' & _).
    rewrite Hj in Hk. injection Hk as <-. lia.
  - intros k tk _ _. lia.
  - constructor.
    + intros e He _. destruct (Hev e He) as (j & tk & Hj & Hne & Et & Ep). exists j, tk.
      split; [exact Ep|]. split; [exact Hj|]. split; [exact (Hun0 j tk Hj)|]. split; [exact Et|lia].
    + apply NoDup_filter. apply (Permutation_map snd) in I3. rewrite map_map in I3.
      exact (Permutation_NoDup (Permutation_sym I3) (msgs_nodup ts0 0%nat)).
    + intros k tk Hk _. destruct (N.eq_dec (t_start tk) 0) as [Hz|Hnz].
      * left. destruct (Hinit' tk (nth_error_In _ _ Hk)) as (_ & _ & _ & _ & _ & Hm & _).
        destruct (N.eq_dec (t_mod tk) 0) as [Hm0|Hm1].
        -- right. apply start_tasks0_in. exists tk. repeat split; assumption.
        -- left. exists tk. split; [exact Hk|split; [exact Hz|lia]].
      * right. assert (Hin : In (t_start tk, msg_of k) (msgs 0 ts0)) by (apply msgs_in; exists k, tk; repeat split; assumption).
        apply (Permutation_in _ (Permutation_sym I3)) in Hin. apply in_map_iff in Hin. destruct Hin as (e & Ee & He).
        exists e. split; [exact He|]. unfold te in Ee. injection Ee as _ Ep. exact Ep.
    + intros k [(tk0 & Hk & _)|Hs].
      * exists tk0. split; [exact Hk|exact (Hun0 k tk0 Hk)].
      * apply start_tasks0_in in Hs. destruct Hs as (tk & Hj & _). exists tk. split; [exact Hj|exact (Hun0 k tk Hj)].
Qed.

Lemma start_pre1 ts0 : chan_ok ts0 ->
  let w1 := module_event true 0 0 (start_tasks 0 0 ts0) false (init_world ts0) in
  exists A, PreEv (arrivals ts0) A ts0 (fun _ => False) w1 0 1 (start_tasks 1 0 (w_tasks w1)) false.
Proof.
  intros Hok. cbn zeta.
  destruct (module_event_winv (start_pre0 ts0 Hok)) as (A & W1).
  pose proof (proj1 (proj2 (module_event_shape true 0 0 (start_tasks 0 0 ts0) false (init_world ts0)))) as Hnow.
  set (w1 := module_event true 0 0 (start_tasks 0 0 ts0) false (init_world ts0)) in *.
  pose proof W1 as [Hsi Htc _ _ _ Hbase _ [Mt Mn Ma Ml]].
  assert (Hsp1 : forall k tk, nth_error (w_tasks w1) k = Some tk -> t_mod tk = 1 -> t_start tk = 0 -> later1 ts0 k).
  { intros k tk Hk Hm Hs. destruct (Base_nth Hbase Hk) as (tk0 & Hk0 & Hst & Hi).
    destruct (tstate_cases Hst Hi) as (E1 & E2 & _). exists tk0. split; [exact Hk0|split; congruence]. }
  exists A. apply (PreEv_of_WInv _ A ts0 (later1 ts0) w1); try assumption.
  - repeat split.
  - exact (eq_trans Htc Hnow).
  - lia.
  - intros e _. lia.
  - lia.
  - intros m' _. apply Permutation_refl.
  - intros k Hk. apply start_tasks0_in in Hk. destruct Hk as (tk & Hj & Hm & Hs). exists tk.
    destruct (Ml _ (Hsp1 _ tk Hj Hm Hs)) as (tk' & Hk' & Hun). rewrite Hj in Hk'. injection Hk' as <-.
    split; [exact Hj|split; [exact Hun|split; assumption]].
  - intros k e Hk He Ee. destruct (Mt e He) as (k' & tk & E1 & Hk' & _ & E2 & E3); [rewrite Ee; unfold msg_of; lia|].
    rewrite Ee in E1. apply msg_of_inj in E1. subst k'.
    apply start_tasks0_in in Hk. destruct Hk as (tk' & Hj & _ & Hs). rewrite Hj in Hk'. injection Hk' as <-. lia.
  - constructor.
    + exact Mt.
    + exact Mn.
    + intros k tk Hk Hun. destruct (Ma k tk Hk Hun) as [(tk0 & Hk0 & Hs0 & Hm0)|H]; [|right; exact H].
      left. right. apply start_tasks0_in. exists tk. split; [exact Hk|].
      destruct (Base_nth Hbase Hk) as (tk0' & Hk0' & Hst & Hi). rewrite Hk0 in Hk0'. injection Hk0' as <-.
      destruct (tstate_cases Hst Hi) as (E1 & E2 & _). split; congruence.
    + intros k [[]|Hk]. apply start_tasks0_in in Hk. destruct Hk as (tk & Hj & Hm & Hs). exact (Ml _ (Hsp1 _ tk Hj Hm Hs)).
Qed.

Lemma sim_start_winv ts0 : chan_ok ts0 -> WInvE (arrivals ts0) ts0 (fun _ => False) (sim_start true (init_world ts0)).
Proof.
  intros Hok. unfold sim_start. destruct (start_pre1 ts0 Hok) as (A & HP).
  destruct (module_event_winv HP) as (A' & HW). exists A'. apply winv_take_snaps. exact HW.
Qed.

(* ---- termination ---- *)
Lemma iter_terminates A0 ts0 n : forall w, WInvE A0 ts0 (fun _ => False) w -> (mu w < n)%nat ->
  exists w', iter_nat n (loop_step true) w = inr w'.
Proof.
  induction n as [|n IH]; intros w HW Hlt; [lia|]. cbn [iter_nat].
  pose proof (loop_step_winv A0 ts0 w HW) as H1. pose proof (loop_step_measure A0 ts0 w HW) as H2.
  destruct (loop_step true w) as [w'|w']; [apply IH; [exact H1|lia]|exists w'; reflexivity].
Qed.

Definition size (ts : list task) : nat := fold_right (fun tk n => (length (t_steps tk) + 1 + n)%nat) 0%nat ts.

Lemma work_init A0 ts : Forall (init_ok2 A0) ts -> work ts = (2 * size ts)%nat.
Proof.
  induction 1 as [|tk r Hi _ IH]; [reflexivity|]. cbn [work size fold_right]. fold (work r). fold (size r). rewrite IH.
  destruct Hi as (_ & I2 & _ & _ & I5 & _). unfold wt. rewrite I2, I5. lia.
Qed.

Lemma msgs_len ts : forall i, (length (msgs i ts) <= length ts)%nat.
Proof.
  induction ts as [|tk r IH]; intros i; cbn [msgs length]; [lia|]. rewrite app_length. specialize (IH (S i)).
  destruct (t_start tk =? 0); cbn [length]; lia.
Qed.

Lemma size_len ts : (length ts <= size ts)%nat.
Proof. induction ts as [|tk r IH]; cbn [size fold_right length]; [lia|]. fold (size r). lia. Qed.

Lemma sim_start_mu ts0 : chan_ok ts0 -> (mu (sim_start true (init_world ts0)) <= 5 * size ts0 + 4)%nat.
Proof.
  intros Hok. pose proof (proj1 Hok) as Hinit.
  destruct (module_event_measure (start_pre0 ts0 Hok)) as (B0 & _).
  destruct (start_pre1 ts0 Hok) as (A & HP1).
  destruct (module_event_measure HP1) as (B1 & _).
  unfold sim_start. rewrite mu_take_snaps. change (w_tasks (init_world ts0)) with ts0 in *.
  (* the two start-up events as variables: the arithmetic below does not look into them *)
  set (w0 := module_event true 0 0 (start_tasks 0 0 ts0) false (init_world ts0)) in *.
  set (w1 := module_event true 0 1 (start_tasks 1 0 (w_tasks w0)) false w0) in *.
  clearbody w1. clearbody w0. clear HP1.
  destruct (inject_spec ts0 0 sp_new SI_new eq_refl) as (_ & _ & I3). cbn [spend sp_new sp_new_at s_zero s_rest app map] in I3.
  pose proof (Permutation_length I3) as Hl. rewrite map_length in Hl.
  change (w_fes (init_world ts0)) with (inject 0 ts0 sp_new) in B0.
  pose proof (msgs_len ts0 0%nat). pose proof (size_len ts0). rewrite (work_init _ ts0 Hinit) in B0.
  unfold mu. pose proof (stale_le (drv_of w1 0)). pose proof (stale_le (drv_of w1 1)). lia.
Qed.

(* ---- whole runs ---- *)
(* For EVERY list of tasks over the fragment (with channels: chan_ok), any number of tasks on the two
   modules, spawned at start-up or by messages at any instants: whenever the run of the
   composite model ends, every task has finished and has logged exactly the instants the
   property demands -- each await returned at exactly its deadline. *)
Theorem composite_exact_if_ends ts0 : chan_ok ts0 ->
  forall w, run_tasks true ts0 = (w, true) -> Forall2 (done_exact (arrivals ts0)) ts0 (w_tasks w).
Proof.
  intros Hok w Hrun. unfold run_tasks in Hrun. rewrite iter_until_nat in Hrun.
  pose proof (iter_winv (arrivals ts0) ts0 (Pos.to_nat (fuel ts0)) _ (sim_start_winv ts0 Hok)) as H.
  destruct (iter_nat (Pos.to_nat (fuel ts0)) (loop_step true) (sim_start true (init_world ts0))) as [w'|w']; [discriminate|].
  injection Hrun as <-. destruct H as [[A HW] Hsp]. exact (winv_final _ A ts0 w' HW Hsp).
Qed.

(* and at every point of the run, ended or not: nothing is ever logged that the property does
   not demand (never early, never late, nothing spurious) *)
Theorem composite_prefix ts0 : chan_ok ts0 -> forall n,
  let w := match iter_nat n (loop_step true) (sim_start true (init_world ts0)) with inl w => w | inr w => w end in
  Forall2 (fun tk0 tk => exists rest, expected (arrivals ts0) tk0 = t_log tk ++ rest) ts0 (w_tasks w).
Proof.
  intros Hok n. cbn zeta.
  pose proof (iter_winv (arrivals ts0) ts0 n _ (sim_start_winv ts0 Hok)) as H.
  destruct (iter_nat n (loop_step true) (sim_start true (init_world ts0))) as [w'|w'].
  - destruct H as [A H]. exact (winv_prefix _ _ _ _ _ H).
  - destruct H as [[A H] _]. exact (winv_prefix _ _ _ _ _ H).
Qed.

(* ... and every run ends: the fuel of the model's main loop is never exhausted *)
Theorem composite_exact ts0 : chan_ok ts0 ->
  exists w, run_tasks true ts0 = (w, true) /\ Forall2 (done_exact (arrivals ts0)) ts0 (w_tasks w).
Proof.
  intros Hok.
  assert (Hfuel : (mu (sim_start true (init_world ts0)) < Pos.to_nat (fuel ts0))%nat).
  { pose proof (sim_start_mu ts0 Hok) as H. unfold fuel. fold (size ts0).
    pose proof (N.succ_pos_spec (16 * N.of_nat (size ts0) + 64)) as Hs. lia. }
  destruct (iter_terminates _ ts0 _ _ (sim_start_winv ts0 Hok) Hfuel) as (w' & Hw').
  assert (Hrun : run_tasks true ts0 = (w', true)) by (unfold run_tasks; rewrite iter_until_nat, Hw'; reflexivity).
  exists w'. split; [exact Hrun|]. exact (composite_exact_if_ends ts0 Hok w' Hrun).
Qed.

(* ---- without channels ---- *)
(* scripts over the fragment without channels meet the hypotheses, whatever the arrivals *)
Lemma frag_step_not_recv steps : Forall frag_step steps -> existsb is_recv steps = false.
Proof. induction 1 as [|st r Hst _ IH]; [reflexivity|]. cbn [existsb]. rewrite IH. destruct st; try reflexivity; contradiction. Qed.

Lemma init_ok_chan A0 tk0 : init_ok tk0 -> init_ok2 A0 tk0 /\ rcv_of tk0 = false /\ expected A0 tk0 = expected (fun _ => noarr) tk0.
Proof.
  intros (I1 & I2 & I3 & I4 & I5 & I6 & I7).
  assert (Hr : rcv_of tk0 = false) by (apply frag_step_not_recv; exact I1).
  pose proof (frag_steps_send_only _ I1) as I1'.
  assert (He : expected A0 tk0 = expected (fun _ => noarr) tk0) by (apply exp_run_noarr; exact I1').
  split; [|split; [exact Hr|exact He]].
  unfold init_ok2. rewrite Hr, He. repeat split; try assumption. apply recv_ok_noarr. exact I1'.
Qed.

Lemma init_chan_ok ts0 : Forall init_ok ts0 -> chan_ok ts0.
Proof.
  intros H. split.
  - eapply Forall_impl; [|exact H]. intros tk Hi. exact (proj1 (init_ok_chan _ tk Hi)).
  - intros k k' tk0 tk0' Hk _ Hr _ _. rewrite Forall_forall in H.
    rewrite (proj1 (proj2 (init_ok_chan (arrivals ts0) tk0 (H tk0 (nth_error_In _ _ Hk))))) in Hr. discriminate.
Qed.

Lemma done_exact_noarr ts0 w : Forall init_ok ts0 -> Forall2 (done_exact (arrivals ts0)) ts0 (w_tasks w) ->
  Forall2 (fun tk0 tk => t_fin tk = true /\ t_log tk = expected (fun _ => noarr) tk0) ts0 (w_tasks w).
Proof.
  intros Hinit H. rewrite Forall_forall in Hinit. apply (Forall2_nth_impl _ _ _ _ H). intros k tk0 tk Hk0 _ [H1 H2].
  split; [exact H1|]. rewrite H2. exact (proj2 (proj2 (init_ok_chan _ tk0 (Hinit tk0 (nth_error_In _ _ Hk0))))).
Qed.

Theorem composite_sleep_exact_if_ends ts0 : Forall init_ok ts0 ->
  forall w, run_tasks true ts0 = (w, true) ->
  Forall2 (fun tk0 tk => t_fin tk = true /\ t_log tk = expected (fun _ => noarr) tk0) ts0 (w_tasks w).
Proof. intros Hinit w Hrun. exact (done_exact_noarr ts0 w Hinit (composite_exact_if_ends ts0 (init_chan_ok ts0 Hinit) w Hrun)). Qed.

Theorem composite_sleep_prefix ts0 : Forall init_ok ts0 -> forall n,
  let w := match iter_nat n (loop_step true) (sim_start true (init_world ts0)) with inl w => w | inr w => w end in
  Forall2 (fun tk0 tk => exists rest, expected (fun _ => noarr) tk0 = t_log tk ++ rest) ts0 (w_tasks w).
Proof.
  intros Hinit n. pose proof (composite_prefix ts0 (init_chan_ok ts0 Hinit) n) as H. cbn zeta in *.
  rewrite Forall_forall in Hinit. apply (Forall2_nth_impl _ _ _ _ H). intros k tk0 tk Hk0 _ (rest & Hr).
  exists rest. rewrite <- Hr. symmetry. exact (proj2 (proj2 (init_ok_chan _ tk0 (Hinit tk0 (nth_error_In _ _ Hk0))))).
Qed.

Theorem composite_sleep_exact ts0 : Forall init_ok ts0 ->
  exists w, run_tasks true ts0 = (w, true) /\
    Forall2 (fun tk0 tk => t_fin tk = true /\ t_log tk = expected (fun _ => noarr) tk0) ts0 (w_tasks w).
Proof.
  intros Hinit. destruct (composite_exact ts0 (init_chan_ok ts0 Hinit)) as (w & Hrun & H).
  exists w. split; [exact Hrun|exact (done_exact_noarr ts0 w Hinit H)].
Qed.

(* every script line decodes into tasks of the shape the theorems ask for *)
Lemma decode_shape input : Forall (fun tk => t_cur tk = None /\ t_iv tk = None /\ t_log tk = [] /\ t_fin tk = false /\ t_mod tk < 2) (decode input).
Proof.
  unfold decode. destruct input as [|nm [|n r]]; try constructor.
  set (mods := 1 + nm mod 2). assert (Hmods : mods <= 2) by (unfold mods; pose proof (N.mod_upper_bound nm 2); lia).
  assert (Hmods0 : mods <> 0) by (unfold mods; generalize (nm mod 2); intros; lia).
  generalize (take_blobs (N.to_nat (N.min n (N.of_nat (length r)))) r). intros bl. induction bl as [|b bl IH]; cbn [map]; [constructor|].
  constructor; [|exact IH].
  assert (Hmod : t_mod (dec_task mods b) < 2).
  { unfold dec_task. destruct b as [|m0 [|s rest]]; cbn [t_mod]; try lia. pose proof (N.mod_upper_bound m0 mods Hmods0). lia. }
  assert (Hshape : t_cur (dec_task mods b) = None /\ t_iv (dec_task mods b) = None /\ t_log (dec_task mods b) = [] /\ t_fin (dec_task mods b) = false).
  { unfold dec_task. destruct b as [|m0 [|s rest]]; repeat split. }
  destruct Hshape as (S1 & S2 & S3 & S4). repeat split; assumption.
Qed.

Lemma decode_init_ok input :
  Forall (fun tk => Forall frag_step (t_steps tk) /\ Forall (fun x => x < TMAX) (expected (fun _ => noarr) tk)) (decode input) ->
  Forall init_ok (decode input).
Proof.
  intros H. pose proof (decode_shape input) as Hs. rewrite Forall_forall in *. intros tk Htk.
  destruct (H tk Htk) as [H1 H2]. destruct (Hs tk Htk) as (S1 & S2 & S3 & S4 & S5). repeat split; assumption.
Qed.

Lemma decode_chan_ok input :
  Forall (fun tk => Forall (frag_step2 (rcv_of tk)) (t_steps tk) /\ Forall (fun x => x < TMAX) (expected (arrivals (decode input)) tk) /\
                    recv_ok (t_start tk) None (arrivals (decode input) (t_mod tk)) (t_steps tk)) (decode input) ->
  one_recv (decode input) -> chan_ok (decode input).
Proof.
  intros H Hone. split; [|exact Hone]. pose proof (decode_shape input) as Hs. rewrite Forall_forall in *. intros tk Htk.
  destruct (H tk Htk) as (H1 & H2 & H3). destruct (Hs tk Htk) as (S1 & S2 & S3 & S4 & S5). repeat split; assumption.
Qed.

(* ---- the hypotheses, decidably: for concrete scripts they are checked by computation ---- *)
Definition frag_step2b (rcv : bool) (s : step) : bool :=
  match s with
  | SSleep _ | SSleepUntil _ | SLog | SIvTick | SIvDrop => true
  | SReset _ d1 d2 => (d1 <? FARK) && (d2 <? FARK)
  | SDropSleep d => d <? FARK
  | STimeout d (ISleep x) => (d <? FARK) && (x <? FARK)
  | SSelect _ a b => (a <? FARK) && (b <? FARK)
  | SIvNew p _ => 0 <? p
  | SKeep _ _ d2 x d3 => (d2 <? FARK) && (x <? FARK) && (d3 <? FARK)
  | STimeoutRecv d _ => rcv && (d <? FARK)
  | SHandOver _ d => negb rcv && (d =? 0)
  | _ => false
  end.

Lemma frag_step2b_sound rcv s : frag_step2b rcv s = true -> frag_step2 rcv s.
Proof.
  destruct s; cbn [frag_step2b frag_step2 frag_step]; try discriminate; try (intros _; exact I); intros H;
    repeat match goal with H : _ && _ = true |- _ => apply andb_true_iff in H; destruct H end; try lia.
  destruct v; [|discriminate]. apply andb_true_iff in H. lia.
Qed.

Definition step_okb (now : N) (arr : arrs) (st : step) : bool :=
  match st with
  | STimeoutRecv d ch => (now + d <? TMAX) && match arr ch with a :: _ => negb (a =? now + d) | [] => true end
  | _ => true
  end.

Fixpoint recv_okb (now : N) (iv : ivs) (arr : arrs) (steps : list step) : bool :=
  match steps with
  | [] => true
  | st :: r => step_okb now arr st && recv_okb (step_time now iv arr st) (step_iv now iv st) (step_arr now arr st) r
  end.

Lemma recv_okb_sound steps : forall now iv arr, recv_okb now iv arr steps = true -> recv_ok now iv arr steps.
Proof.
  induction steps as [|st r IH]; intros now iv arr H; cbn [recv_okb recv_ok] in *; [exact I|].
  apply andb_true_iff in H. destruct H as [H1 H2]. split; [|exact (IH _ _ _ H2)].
  destruct st; cbn [step_okb step_ok] in *; try exact I. apply andb_true_iff in H1. destruct H1 as [G1 G2].
  split; [lia|]. destruct (arr ch) as [|a l]; [exact I|]. apply negb_true_iff in G2. lia.
Qed.

Fixpoint one_recvb (ts : list task) : bool :=
  match ts with
  | [] => true
  | tk :: r => (negb (rcv_of tk) || negb (existsb (fun tk' => rcv_of tk' && (t_mod tk' =? t_mod tk)) r)) && one_recvb r
  end.

Lemma one_recvb_sound ts : one_recvb ts = true -> one_recv ts.
Proof.
  induction ts as [|tk r IH]; intros H k k' tk0 tk0' Hk Hk' Hr Hr' Hm; [destruct k; discriminate|].
  cbn [one_recvb] in H. apply andb_true_iff in H. destruct H as [H1 H2].
  assert (Hex : forall j tkj tkh, nth_error r j = Some tkj -> rcv_of tkj = true -> rcv_of tkh = true -> t_mod tkj = t_mod tkh -> tkh = tk -> False).
  { intros j tkj tkh Hj Hrj Hrh Hmm ->. rewrite Hrh in H1. cbn [negb orb] in H1. apply negb_true_iff in H1.
    assert (existsb (fun tk' => rcv_of tk' && (t_mod tk' =? t_mod tk)) r = true).
    { apply existsb_exists. exists tkj. split; [eapply nth_error_In; exact Hj|]. rewrite Hrj, Hmm, N.eqb_refl. reflexivity. }
    congruence. }
  destruct k as [|k], k' as [|k']; cbn [nth_error] in Hk, Hk'.
  - reflexivity.
  - exfalso. injection Hk as <-. exact (Hex k' tk0' tk Hk' Hr' Hr (eq_sym Hm) eq_refl).
  - exfalso. injection Hk' as <-. exact (Hex k tk0 tk Hk Hr Hr' Hm eq_refl).
  - f_equal. exact (IH H2 k k' tk0 tk0' Hk Hk' Hr Hr' Hm).
Qed.

Definition chan_okb (ts : list task) : bool :=
  forallb (fun tk => forallb (frag_step2b (rcv_of tk)) (t_steps tk) &&
                     forallb (fun x => x <? TMAX) (expected (arrivals ts) tk) &&
                     recv_okb (t_start tk) None (arrivals ts (t_mod tk)) (t_steps tk)) ts && one_recvb ts.

Lemma decode_chan_okb input : chan_okb (decode input) = true -> chan_ok (decode input).
Proof.
  intros H. unfold chan_okb in H. apply andb_true_iff in H. destruct H as [H1 H2].
  apply decode_chan_ok; [|exact (one_recvb_sound _ H2)].
  rewrite forallb_forall in H1. apply Forall_forall. intros tk Htk. specialize (H1 tk Htk).
  apply andb_true_iff in H1. destruct H1 as [H1 G3]. apply andb_true_iff in H1. destruct H1 as [G1 G2].
  split; [|split; [|exact (recv_okb_sound _ _ _ _ G3)]].
  - rewrite forallb_forall in G1. apply Forall_forall. intros st Hst. exact (frag_step2b_sound _ _ (G1 st Hst)).
  - rewrite forallb_forall in G2. apply Forall_forall. intros x Hx. specialize (G2 x Hx). lia.
Qed.
