(* The wake-up invariant of the timer driver (coq/Timer/Driver.v) and its preservation by
   every event of a module, for every sequence of register / drop / reset operations
   performed during the event.  An event at time t is  activate t; ops; deactivate.  Four predicates
   on the driver, by where in an event they hold:
     Pre t   before activate: what the state left by the last event (Inv) gives at the new time t;
     Mid t   between activate and deactivate, kept by every operation (apply_ops_mid);
     Snap t  after deactivate: the shape of the driver as a snapshot between two events shows it;
     Inv t   at every event boundary: Mid t and Inv_wake t (Snap t implies Inv_wake t: Snap_Inv_wake).
   deactivate_bnd takes Mid to Mid and Snap; valid_trace_ind carries Inv along a history. *)
From Coq Require Import List NArith Bool Sorting.Sorted.
From DesVerif Require Import Timer.Driver Timer.QueueLemmas.
Import ListNotations.
Open Scope N_scope.

(* every slot that holds an entry lies strictly in the future *)
Definition lives (t : N) (p : list slot) : Prop := forall d es, In (d, es) p -> es <> [] -> t < d.

(* holds between activate and deactivate of an event at time t *)
Record Mid (t : N) (dr : driver) : Prop := mkMid {
  mid_sorted : sorted (pending dr);
  mid_future : lives t (pending dr);
  mid_nw : forall w, next_wakeup dr = Some w -> t < w /\ In w (scheduled dr);
  mid_sched : forall w, In w (scheduled dr) -> t <= w }.

(* Inv_wake: every slot with a live entry and a finite deadline (below SimTime::MAX; a
   far-future Sleep never elapses) is covered by a scheduled wake-up that is not in the past
   and not later than the slot's deadline *)
Definition Inv_wake (now : N) (dr : driver) : Prop :=
  forall d es, In (d, es) (pending dr) -> es <> [] -> d < TMAX ->
  exists w, In w (scheduled dr) /\ now <= w /\ w <= d.

(* holds at every event boundary *)
Definition Inv (now : N) (dr : driver) : Prop := Mid now dr /\ Inv_wake now dr.

(* the contract of TimerQueue::add: its only caller Sleep::poll registers deadlines > now *)
Definition op_wf (t : N) (o : dop) : Prop :=
  match o with Register _ d => t < d | _ => True end.

Definition ops_wf (t : N) (ops : list dop) : Prop := Forall (op_wf t) ops.

Definition ev_valid (st : N * driver) (e : event) : Prop :=
  match e with
  | EOther t ops => fst st <= t /\ (forall w, In w (scheduled (snd st)) -> t <= w) /\ ops_wf t ops
  | EWake ops => exists w, lmin (scheduled (snd st)) = Some w /\ ops_wf w ops
  end.

Fixpoint valid_trace (st : N * driver) (tr : list event) : Prop :=
  match tr with
  | [] => True
  | e :: r => ev_valid st e /\
              valid_trace (fst (fst (step_event true st e)), snd (fst (step_event true st e))) r
  end.

(* ---- lives, by deadline ---- *)
Lemma lives_ents t p : sorted p -> (lives t p <-> forall x, ents_at x p <> [] -> t < x).
Proof.
  intros Hs. split.
  - intros H x Hx. exact (H x _ (ents_at_in _ _ Hx) Hx).
  - intros H d es Hin Hne. apply H. rewrite (in_ents_at _ _ _ Hs Hin). exact Hne.
Qed.

(* ---- single operations on the entries under a deadline ---- *)
Lemma ents_at_remove_keeps d id p x a : In a (ents_at x p) -> a <> id -> In a (ents_at x (q_remove_at d id p)).
Proof.
  intros Ha Hne. rewrite ents_at_remove. destruct (N.eqb_spec x d) as [->|_]; [apply rm_keeps|]; assumption.
Qed.

Lemma ents_at_take_keeps d id p p' x a : q_take_at d id p = Some p' ->
  In a (ents_at x p) -> a <> id -> In a (ents_at x p').
Proof.
  intros Ht Ha Hne. rewrite (ents_at_take _ _ _ _ x Ht). destruct (N.eqb_spec x d) as [->|_]; [apply rm_keeps|]; assumption.
Qed.

Lemma ents_at_add_keeps id d p x a : sorted p -> In a (ents_at x p) -> In a (ents_at x (q_add id d p)).
Proof.
  intros Hs Ha. rewrite (ents_at_add _ _ _ _ Hs). destruct (N.eqb_spec x d) as [->|_]; [|exact Ha].
  apply in_or_app. left; exact Ha.
Qed.

Lemma ents_at_remove_nil d id p x : ents_at x p = [] -> ents_at x (q_remove_at d id p) = [].
Proof.
  intros Hx. rewrite ents_at_remove. destruct (N.eqb_spec x d) as [->|_]; [|exact Hx]. rewrite Hx. reflexivity.
Qed.

Lemma reset_entry_pending id d d' dr : pending (reset_entry id d d' dr) =
  match q_take_at d id (pending dr) with
  | Some p1 => q_remove_at d' id (q_remove_at d id (q_add id d' p1))
  | None => pending dr
  end.
Proof. unfold reset_entry, handle_reset. destruct (q_take_at d id (pending dr)); reflexivity. Qed.

(* a reset never leaves a new live entry behind: the re-added entry is removed again *)
Lemma reset_ents_nil id d d' dr x : sorted (pending dr) -> ents_at x (pending dr) = [] ->
  ents_at x (pending (reset_entry id d d' dr)) = [].
Proof.
  intros Hs Hx. rewrite reset_entry_pending. destruct (q_take_at d id (pending dr)) as [p1|] eqn:Et; [|exact Hx].
  assert (H1 : ents_at x p1 = []).
  { rewrite (ents_at_take _ _ _ _ x Et). destruct (N.eqb_spec x d) as [->|_]; [rewrite Hx; reflexivity|exact Hx]. }
  pose proof (ents_at_add id d' p1 x (q_take_at_sorted _ _ _ _ Et Hs)) as H2.
  destruct (N.eqb_spec x d') as [->|_]; rewrite H1 in H2; [|do 2 apply ents_at_remove_nil; exact H2].
  (* under d' the slot is [id] after the add; the removal at d' empties it, also when the one at d = d' already has *)
  rewrite ents_at_remove, N.eqb_refl, ents_at_remove.
  destruct (N.eqb_spec d' d) as [<-|_]; rewrite H2; cbn [app]; rewrite ?rm_single; reflexivity.
Qed.

Lemma reset_ents_keeps id d d' dr x a : sorted (pending dr) -> In a (ents_at x (pending dr)) -> a <> id ->
  In a (ents_at x (pending (reset_entry id d d' dr))).
Proof.
  intros Hs Ha Hne. rewrite reset_entry_pending. destruct (q_take_at d id (pending dr)) as [p1|] eqn:Et; [|exact Ha].
  pose proof (q_take_at_sorted _ _ _ _ Et Hs) as Hs1.
  apply ents_at_remove_keeps; [|exact Hne]. apply ents_at_remove_keeps; [|exact Hne].
  apply ents_at_add_keeps; [exact Hs1|]. eapply ents_at_take_keeps; eassumption.
Qed.

(* ---- operations keep the mid-event invariant ---- *)
Lemma apply_op_sorted dr o : sorted (pending dr) -> sorted (pending (apply_op dr o)).
Proof.
  intros Hs. destruct o as [id d|id d|id d d']; cbn [apply_op].
  - apply q_add_sorted; exact Hs.
  - apply q_remove_at_sorted; exact Hs.
  - rewrite reset_entry_pending. destruct (q_take_at d id (pending dr)) as [p1|] eqn:Et; [|exact Hs].
    apply q_remove_at_sorted, q_remove_at_sorted, q_add_sorted. exact (q_take_at_sorted _ _ _ _ Et Hs).
Qed.

Lemma apply_op_lives t dr o : sorted (pending dr) -> lives t (pending dr) -> op_wf t o ->
  lives t (pending (apply_op dr o)).
Proof.
  intros Hs Hl Hwf. apply (lives_ents t _ (apply_op_sorted dr o Hs)).
  pose proof (proj1 (lives_ents t _ Hs) Hl) as Hl'. intros x.
  destruct o as [id d|id d|id d d']; cbn [apply_op register drop_entry set_pending pending].
  - rewrite (ents_at_add _ _ _ _ Hs). destruct (N.eqb_spec x d) as [->|_]; [intros _; exact Hwf|apply Hl'].
  - rewrite ents_at_remove. destruct (N.eqb_spec x d) as [->|_]; [|apply Hl'].
    intros H. apply Hl'. exact (rm_nonempty _ _ H).
  - intros H. apply Hl'. intros Hnil. apply H. apply reset_ents_nil; assumption.
Qed.

Lemma apply_op_rest dr o : next_wakeup (apply_op dr o) = next_wakeup dr /\ scheduled (apply_op dr o) = scheduled dr.
Proof.
  destruct o as [id d|id d|id d d']; cbn [apply_op]; unfold register, drop_entry, reset_entry, set_pending.
  - split; reflexivity.
  - split; reflexivity.
  - destruct (handle_reset d id d' (pending dr)) as [p1 b]. split; reflexivity.
Qed.

Lemma apply_op_mid t dr o : Mid t dr -> op_wf t o -> Mid t (apply_op dr o).
Proof.
  intros [Hs Hl Hnw Hsc] Hwf. destruct (apply_op_rest dr o) as [E1 E2]. constructor.
  - apply apply_op_sorted; exact Hs.
  - apply apply_op_lives; assumption.
  - rewrite E1, E2. exact Hnw.
  - rewrite E2. exact Hsc.
Qed.

Lemma apply_ops_mid t ops dr : Mid t dr -> ops_wf t ops -> Mid t (apply_ops ops dr).
Proof.
  unfold apply_ops, ops_wf. revert dr. induction ops as [|o r IH]; intros dr Hm Hwf; cbn [fold_left]; [exact Hm|].
  inversion Hwf as [|? ? Ho Hr]; subst. apply IH; [apply apply_op_mid; assumption|exact Hr].
Qed.

(* ---- activate ---- *)
(* what activate needs: order, and the bookkeeping of next_wakeup / scheduled relative to
   the time t of the event that starts *)
Record Pre (t : N) (dr : driver) : Prop := mkPre {
  pre_sorted : sorted (pending dr);
  pre_nw : forall w, next_wakeup dr = Some w -> t < w -> In w (scheduled dr);
  pre_sched : forall w, In w (scheduled dr) -> t <= w }.

Lemma activate_mid t dr : Pre t dr -> Mid t (snd (activate t dr)).
Proof.
  intros [Hs Hnw Hsc]. unfold activate. destruct (q_bump t (pending dr)) as [w rest] eqn:Eb. cbn [snd].
  destruct (q_bump_spec _ _ _ _ Eb) as (Hp & _ & _).
  constructor; cbn [pending next_wakeup scheduled].
  - rewrite Hp in Hs. exact (sorted_app_r _ _ Hs).
  - intros d es Hin _. exact (q_bump_rest_future _ _ _ _ Hs Eb _ Hin).
  - intros x Hx. destruct (next_wakeup dr) as [y|] eqn:En; [|discriminate].
    destruct (y <=? t) eqn:E; [discriminate|]. injection Hx as <-. apply N.leb_gt in E.
    split; [exact E|]. apply Hnw; [reflexivity|exact E].
  - exact Hsc.
Qed.

Lemma inv_pre_other now dr t : Inv now dr -> (forall w, In w (scheduled dr) -> t <= w) -> Pre t dr.
Proof.
  intros [[Hs _ Hnw _] _] Hv. constructor; [exact Hs| |exact Hv].
  intros w Hw _. exact (proj2 (Hnw w Hw)).
Qed.

Lemma inv_pre_wake now dr t : Inv now dr -> lmin (scheduled dr) = Some t -> Pre t (sched_fire t dr).
Proof.
  intros [[Hs _ Hnw _] _] Hm. destruct (lmin_spec _ _ Hm) as [_ Hmin].
  constructor; cbn [sched_fire pending next_wakeup scheduled]; [exact Hs| |].
  - intros w Hw Hlt. apply remove1_keeps; [exact (proj2 (Hnw w Hw))|exact (N.neq_sym _ _ (N.lt_neq _ _ Hlt))].
  - intros w Hw. apply Hmin. exact (remove1_in _ _ _ Hw).
Qed.

(* (this is what the correspondence check evaluates on the real driver through the
   verification hook Driver::verif_snapshot): slots sorted by distinct deadlines, none in the
   past, the front slot holds a timer, and next_wakeup itself is the wake-up that covers
   every live slot *)
Record Snap (now : N) (dr : driver) : Prop := mkSnap {
  sn_sorted : sorted (pending dr);
  sn_future : forall d es, In (d, es) (pending dr) -> now < d;
  sn_front : match pending dr with (_, []) :: _ => False | _ => True end;
  sn_cover : forall d es, In (d, es) (pending dr) -> es <> [] -> d < TMAX ->
             exists w, next_wakeup dr = Some w /\ In w (scheduled dr) /\ now < w /\ w <= d }.

Lemma Snap_Inv_wake now dr : Snap now dr -> Inv_wake now dr.
Proof.
  intros Hs d es Hin Hne Hfin. destruct (sn_cover _ _ Hs d es Hin Hne Hfin) as (w & _ & Hw & Hlt & Hle).
  exists w. split; [exact Hw|]. split; [apply N.lt_le_incl; exact Hlt|exact Hle].
Qed.

(* ---- deactivate: the heart ---- *)
Lemma deactivate_bnd t dr : Mid t dr -> Mid t (fst (deactivate true dr)) /\ Snap t (fst (deactivate true dr)).
Proof.
  intros [Hs Hl Hnw Hsc]. unfold deactivate, q_next.
  pose proof (prune_sorted _ Hs) as Hps.
  destruct (prune (pending dr)) as [|[d0 es0] r] eqn:Ep; cbn [front_time fst].
  - (* no live timer *)
    split; constructor; cbn [pending next_wakeup scheduled]; try assumption; try exact I; intros d es [].
  - pose proof (prune_head_live _ _ _ _ Ep) as Hne0.
    assert (Hd0 : t < d0) by (apply (Hl d0 es0); [apply prune_in; rewrite Ep; left; reflexivity|exact Hne0]).
    assert (Hmin : forall d es, In (d, es) ((d0, es0) :: r) -> d0 <= d).
    { intros d es [Heq|Hin]; [injection Heq as <- _; apply N.le_refl|].
      apply N.lt_le_incl. exact (sorted_head_lt _ _ _ Hps Hin). }
    assert (Hfut : forall d es, In (d, es) ((d0, es0) :: r) -> t < d).
    { intros d es Hin. exact (N.lt_le_trans _ _ _ Hd0 (Hmin d es Hin)). }
    assert (Hpl : lives t ((d0, es0) :: r)) by (intros d es Hin _; exact (Hfut d es Hin)).
    assert (Hfront : match es0 with [] => False | _ :: _ => True end) by (destruct es0; [contradiction|exact I]).
    destruct (earlier d0 (next_wakeup dr)) eqn:Ee; cbn [fst];
      (split; constructor; cbn [pending next_wakeup scheduled]; try assumption).
    + (* a new wake-up is scheduled for the earliest live deadline *)
      intros w Hw. injection Hw as <-. split; [exact Hd0|]. apply in_or_app. right. left. reflexivity.
    + intros w Hw. apply in_app_or in Hw. destruct Hw as [Hw|[<-|[]]]; [exact (Hsc w Hw)|apply N.lt_le_incl; exact Hd0].
    + intros d es Hin _ _. exists d0. split; [reflexivity|]. split; [apply in_or_app; right; left; reflexivity|].
      split; [exact Hd0|exact (Hmin d es Hin)].
    + (* the wake-up that is already scheduled is early enough, or the earliest deadline is SimTime::MAX *)
      intros d es Hin _ Hfin. specialize (Hmin d es Hin). unfold earlier in Ee.
      destruct (next_wakeup dr) as [w0|]; apply N.ltb_ge in Ee;
        [|destruct (N.lt_irrefl d); exact (N.lt_le_trans _ _ _ Hfin (N.le_trans _ _ _ Ee Hmin))].
      exists w0. split; [reflexivity|]. destruct (Hnw w0 eq_refl) as [Hw0 Hin0].
      split; [exact Hin0|]. split; [exact Hw0|exact (N.le_trans _ _ _ Ee Hmin)].
Qed.

Lemma deactivate_snap t dr : Mid t dr -> Snap t (fst (deactivate true dr)).
Proof. intros Hm. exact (proj2 (deactivate_bnd t dr Hm)). Qed.

Lemma deactivate_inv t dr : Mid t dr -> Inv t (fst (deactivate true dr)).
Proof.
  intros Hm. destruct (deactivate_bnd t dr Hm) as [Hm' Hs]. exact (conj Hm' (Snap_Inv_wake _ _ Hs)).
Qed.

(* ---- one event ---- *)
Lemma event_body_eq fixed t ops dr : event_body fixed t ops dr =
  (fst (activate t dr), fst (deactivate fixed (apply_ops ops (snd (activate t dr))))).
Proof. unfold event_body. destruct (activate t dr). reflexivity. Qed.

Lemma event_body_mid t ops dr : Pre t dr -> ops_wf t ops -> Mid t (apply_ops ops (snd (activate t dr))).
Proof. intros Hpre Hwf. apply apply_ops_mid; [apply activate_mid|]; assumption. Qed.

Lemma event_body_inv t ops dr : Pre t dr -> ops_wf t ops -> Inv t (snd (event_body true t ops dr)).
Proof. intros Hpre Hwf. rewrite event_body_eq. apply deactivate_inv, event_body_mid; assumption. Qed.

Lemma event_body_snap t ops dr : Pre t dr -> ops_wf t ops -> Snap t (snd (event_body true t ops dr)).
Proof. intros Hpre Hwf. rewrite event_body_eq. apply deactivate_snap, event_body_mid; assumption. Qed.

Lemma step_event_shape st e : Inv (fst st) (snd st) -> ev_valid st e ->
  exists t dr0, Pre t dr0 /\ ops_wf t (ev_ops e) /\ pending dr0 = pending (snd st) /\ fst st <= t /\
    (forall w, In w (scheduled (snd st)) -> t <= w) /\
    step_event true st e = (t, snd (event_body true t (ev_ops e) dr0), fst (event_body true t (ev_ops e) dr0)).
Proof.
  destruct st as [now dr]. cbn [fst snd]. intros Hinv Hv.
  destruct e as [t ops|ops]; cbn [ev_valid fst snd] in Hv; cbn [step_event ev_ops].
  - destruct Hv as (Hle & Hsc & Hwf). exists t, dr. split; [exact (inv_pre_other _ _ _ Hinv Hsc)|].
    repeat split; try assumption. destruct (event_body true t ops dr); reflexivity.
  - destruct Hv as (w & Hm & Hwf). rewrite Hm. destruct (lmin_spec _ _ Hm) as [Hin Hmin].
    exists w, (sched_fire w dr). split; [exact (inv_pre_wake _ _ _ Hinv Hm)|].
    split; [exact Hwf|]. split; [reflexivity|]. split; [exact (mid_sched _ _ (proj1 Hinv) w Hin)|]. split; [exact Hmin|].
    unfold wakeup_event. destruct (event_body true w ops (sched_fire w dr)); reflexivity.
Qed.

Lemma step_event_time st e : Inv (fst st) (snd st) -> ev_valid st e -> fst st <= fst (fst (step_event true st e)).
Proof.
  intros Hinv Hv. destruct (step_event_shape st e Hinv Hv) as (t & dr0 & _ & _ & _ & Hle & _ & ->). exact Hle.
Qed.

Lemma step_event_inv st e : Inv (fst st) (snd st) -> ev_valid st e ->
  Inv (fst (fst (step_event true st e))) (snd (fst (step_event true st e))).
Proof.
  intros Hinv Hv. destruct (step_event_shape st e Hinv Hv) as (t & dr0 & Hpre & Hwf & _ & _ & _ & ->).
  exact (event_body_inv t _ dr0 Hpre Hwf).
Qed.

Lemma step_event_snap st e : Inv (fst st) (snd st) -> ev_valid st e ->
  Snap (fst (fst (step_event true st e))) (snd (fst (step_event true st e))).
Proof.
  intros Hinv Hv. destruct (step_event_shape st e Hinv Hv) as (t & dr0 & Hpre & Hwf & _ & _ & _ & ->).
  exact (event_body_snap t _ dr0 Hpre Hwf).
Qed.

Lemma inv_init : Inv 0 new_driver.
Proof.
  split.
  - constructor; cbn [new_driver pending next_wakeup scheduled].
    + constructor.
    + intros d es [].
    + intros w H; discriminate.
    + intros w [].
  - intros d es [].
Qed.

Lemma snap_init : Snap 0 new_driver.
Proof. constructor; cbn [new_driver pending]; [constructor|intros d es []|exact I|intros d es []]. Qed.

(* ---- every history ---- *)
Lemma run_trace_cons st e r :
  run_trace true st (e :: r) =
  let s := step_event true st e in
  let res := run_trace true (fst (fst s), snd (fst s)) r in
  (fst (fst res), snd (fst res), map (fun x => (fst (fst s), x)) (snd s) ++ snd res).
Proof.
  cbn [run_trace]. destruct (step_event true st e) as [[t dr'] w]. cbn [fst snd].
  destruct (run_trace true (t, dr') r) as [[now' dr''] lg]. reflexivity.
Qed.

Lemma valid_trace_ind (P : N * driver -> list event -> Prop) :
  (forall st, Inv (fst st) (snd st) -> P st []) ->
  (forall st e r, Inv (fst st) (snd st) -> ev_valid st e ->
     P (fst (fst (step_event true st e)), snd (fst (step_event true st e))) r -> P st (e :: r)) ->
  forall tr st, Inv (fst st) (snd st) -> valid_trace st tr -> P st tr.
Proof.
  intros Hnil Hcons. induction tr as [|e r IH]; intros st Hinv Hv; [exact (Hnil st Hinv)|].
  destruct Hv as [Hev Hr]. apply Hcons; [exact Hinv|exact Hev|].
  apply IH; [exact (step_event_inv st e Hinv Hev)|exact Hr].
Qed.

Lemma trace_inv tr : forall st, Inv (fst st) (snd st) -> valid_trace st tr ->
  Inv (fst (fst (run_trace true st tr))) (snd (fst (run_trace true st tr))).
Proof.
  revert tr. refine (valid_trace_ind _ _ _); [intros st Hinv; exact Hinv|].
  intros st e r _ _ IH. rewrite run_trace_cons. exact IH.
Qed.

Lemma trace_snap tr : forall st, Inv (fst st) (snd st) -> valid_trace st tr -> Snap (fst st) (snd st) ->
  Snap (fst (fst (run_trace true st tr))) (snd (fst (run_trace true st tr))).
Proof.
  revert tr. refine (valid_trace_ind _ _ _); [intros st _ Hsn; exact Hsn|].
  intros st e r Hinv Hev IH _. rewrite run_trace_cons. exact (IH (step_event_snap st e Hinv Hev)).
Qed.

(* valid_trace, decidably: for concrete histories it is checked by computation (the
   non-vacuity examples of coq/Properties/C05.v) *)
Definition op_wfb (t : N) (o : dop) : bool :=
  match o with Register _ d => t <? d | _ => true end.

Definition ev_validb (st : N * driver) (e : event) : bool :=
  match e with
  | EOther t ops => (fst st <=? t) && forallb (fun w => t <=? w) (scheduled (snd st)) && forallb (op_wfb t) ops
  | EWake ops => match lmin (scheduled (snd st)) with Some w => forallb (op_wfb w) ops | None => false end
  end.

Fixpoint valid_traceb (st : N * driver) (tr : list event) : bool :=
  match tr with
  | [] => true
  | e :: r => ev_validb st e &&
              valid_traceb (fst (fst (step_event true st e)), snd (fst (step_event true st e))) r
  end.

Lemma ops_wfb_sound t ops : forallb (op_wfb t) ops = true -> ops_wf t ops.
Proof.
  intros H. apply Forall_forall. intros o Ho. rewrite forallb_forall in H. specialize (H o Ho).
  destruct o; cbn [op_wfb op_wf] in *; [exact (proj1 (N.ltb_lt _ _) H)|exact I|exact I].
Qed.

Lemma valid_traceb_sound tr : forall st, valid_traceb st tr = true -> valid_trace st tr.
Proof.
  induction tr as [|e r IH]; intros st H; [exact I|].
  cbn [valid_traceb] in H. apply andb_true_iff in H. destruct H as [He Hr]. split; [|exact (IH _ Hr)].
  destruct e as [t ops|ops]; cbn [ev_validb ev_valid] in *.
  - apply andb_true_iff in He. destruct He as [He H3]. apply andb_true_iff in He. destruct He as [H1 H2].
    split; [exact (proj1 (N.leb_le _ _) H1)|]. split; [|exact (ops_wfb_sound _ _ H3)].
    intros w Hw. rewrite forallb_forall in H2. exact (proj1 (N.leb_le _ _) (H2 w Hw)).
  - destruct (lmin (scheduled (snd st))) as [w|]; [|discriminate].
    exists w. split; [reflexivity|exact (ops_wfb_sound _ _ He)].
Qed.
