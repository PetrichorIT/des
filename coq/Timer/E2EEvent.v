(* End-to-end argument, fragment of coq/Timer/Frag.v: one event of the composite model
   (activate, the executor's run, deactivate, the wake-up put into the event set)
   re-establishes the boundary invariant. *)
From Coq Require Import List Arith NArith Bool Lia Sorting.Sorted Permutation ZifyBool.
From DesVerif Require Import Common.Lists CQueue.Model CQueue.Spec CQueue.SpecProps Timer.Driver Timer.QueueLemmas Timer.Inv Timer.Exact
  Timer.Futures Timer.FutureLaws Timer.Model Timer.Compose Timer.EvSet Timer.Frag Timer.E2EInv Timer.E2EPoll.
Import ListNotations.
Open Scope N_scope.

(* ---- the queue of woken / spawned tasks ---- *)
Lemma dedup_acc_in seen l x : In x (dedup_acc seen l) <-> In x l /\ ~ In x seen.
Proof.
  revert seen; induction l as [|a r IH]; intros seen; cbn [dedup_acc]; [split; [intros []|intros [[] _]]|].
  destruct (existsb (Nat.eqb a) seen) eqn:E.
  - apply existsb_eqb in E. rewrite IH. split.
    + intros [H1 H2]. split; [right; exact H1|exact H2].
    + intros [[->|H1] H2]; [contradiction|split; assumption].
  - assert (Ha : ~ In a seen) by (intros H; apply existsb_eqb in H; rewrite H in E; discriminate).
    cbn [In]. rewrite IH. split.
    + intros [<-|[H1 H2]]; [split; [left; reflexivity|exact Ha]|].
      split; [right; exact H1|intros H; apply H2; right; exact H].
    + intros [[->|H1] H2]; [left; reflexivity|].
      destruct (Nat.eq_dec a x) as [->|Hne]; [left; reflexivity|right].
      split; [exact H1|intros [E'|H]; [exact (Hne E')|exact (H2 H)]].
Qed.

Lemma dedup_acc_nodup seen l : NoDup (dedup_acc seen l).
Proof.
  revert seen; induction l as [|a r IH]; intros seen; cbn [dedup_acc]; [constructor|].
  destruct (existsb (Nat.eqb a) seen); [apply IH|]. constructor; [|apply IH].
  rewrite dedup_acc_in. intros [_ H]. apply H. left; reflexivity.
Qed.

Lemma dedup_in l x : In x (dedup l) <-> In x l.
Proof. unfold dedup. rewrite dedup_acc_in. split; [intros [H _]; exact H|intros H; split; [exact H|intros []]]. Qed.

Lemma msg_of_inj k k' : msg_of k = msg_of k' -> k = k'.
Proof. unfold msg_of. lia. Qed.

Lemma acts_sched t dr dr' : acts t dr dr' -> scheduled dr' = scheduled dr.
Proof. intros (ops & _ & ->). exact (proj2 (apply_ops_rest_nw ops dr)). Qed.

Lemma activate_sched t dr : scheduled (snd (activate t dr)) = scheduled dr.
Proof. unfold activate. destruct (q_bump t (pending dr)). reflexivity. Qed.

Lemma activate_sub t dr s : In s (pending (snd (activate t dr))) -> In s (pending dr).
Proof.
  unfold activate. destruct (q_bump t (pending dr)) as [wk rest] eqn:Eb. cbn [snd pending]. intros H.
  destruct (q_bump_spec _ _ _ _ Eb) as (-> & _). apply in_or_app. right; exact H.
Qed.

Lemma ents_at_prune_keep d p : sorted p -> ents_at d p <> [] -> ents_at d (prune p) = ents_at d p.
Proof.
  intros Hs Hne. apply in_ents_at; [apply prune_sorted; exact Hs|].
  apply prune_keeps_live; [apply ents_at_in; exact Hne|exact Hne].
Qed.

Lemma tie_sub ts t t' q q' m dr dr' : Tie ts t q m dr ->
  (forall d, ents_at d (pending dr') <> [] -> ents_at d (pending dr') = ents_at d (pending dr)) ->
  (forall k tk s, nth_error ts k = Some tk -> In s (held tk) -> t_mod tk = m -> ~ In k q' \/ t' < deadline s ->
     In (sid s) (ents_at (deadline s) (pending dr'))) ->
  Tie ts t' q' m dr'.
Proof.
  intros [_ Ht Hnd] Hsame He. constructor.
  - exact He.
  - intros d id Hin. assert (Hne : ents_at d (pending dr') <> []) by (intros E; rewrite E in Hin; contradiction).
    rewrite (Hsame d Hne) in Hin. exact (Ht d id Hin).
  - intros d. destruct (ents_at d (pending dr')) as [|e0 l0] eqn:Ed; [constructor|].
    assert (Hne : ents_at d (pending dr') <> []) by (rewrite Ed; discriminate).
    rewrite <- Ed, (Hsame d Hne). apply Hnd.
Qed.

Lemma tie_prune ts t q m dr dr' : Tie ts t q m dr -> sorted (pending dr) -> pending dr' = prune (pending dr) -> Tie ts t q m dr'.
Proof.
  intros T Hsrt Dp. apply (tie_sub _ _ _ _ _ _ _ _ T); rewrite Dp.
  - intros d Hne. symmetry. exact (in_ents_at _ _ _ Hsrt (prune_in _ _ (ents_at_in _ _ Hne))).
  - intros k tk s Hk Hbl Hmm Hq. pose proof (tie_entry T k tk s Hk Hbl Hmm Hq) as Hold.
    rewrite ents_at_prune_keep; [exact Hold|exact Hsrt|]. intros E; rewrite E in Hold; contradiction.
Qed.

Lemma base_mod {A0 A ts0 ts own nid k tk} : Base A0 A ts0 ts own nid -> nth_error ts k = Some tk -> t_mod tk < 2.
Proof.
  intros B Hk. destruct (Base_nth B Hk) as (tk0 & _ & Hst & Hi).
  rewrite (proj1 (tstate_cases Hst Hi)). destruct Hi as (_ & _ & _ & _ & _ & Hm & _). exact Hm.
Qed.

Lemma blocked_slot {A0 A ts0 ts own nid l m dr k tk a} : Base A0 A ts0 ts own nid -> Tie ts l [] m dr ->
  nth_error ts k = Some tk -> t_cur tk = Some a -> t_mod tk = m -> ents_at (aw_wake a (t_iv tk)) (pending dr) <> [].
Proof.
  intros B T Hk Hc Hm E. destruct (Base_nth B Hk) as (tk0 & _ & Hst & Hi).
  destruct (tstate_blocked Hst Hi Hc) as (st & rest & _ & _ & _ & _ & _ & Hkind & _ & _ & Hheld & _).
  destruct (aw_wake_held a _ Hkind) as [(s & Hs & Es) _]. rewrite <- Hheld in Hs.
  pose proof (tie_entry T k tk s Hk Hs Hm (or_introl (fun F => F))) as Hin. rewrite Es, E in Hin. exact Hin.
Qed.

Lemma aw_wake_le_end a iv : aw_kind a iv -> waits_on (Some a) = None -> aw_wake a iv <= aw_end a iv noarr.
Proof.
  intros Hkind Hnw. destruct a as [s|v dl|biased tie sa sb| | | | |rearm d3 s sx|pre s|kr chi cho]; try contradiction; cbn [aw_end aw_wake]; try lia.
  - destruct v; try contradiction; [cbn [aw_end aw_wake]; lia|discriminate].
  - destruct (deadline s <=? deadline sx) eqn:E; lia.
Qed.

Lemma slot_holder {A0 A ts0 ts own nid l m dr d es id} : Base A0 A ts0 ts own nid -> Tie ts l [] m dr -> sorted (pending dr) ->
  In (d, es) (pending dr) -> In id es ->
  exists k tk a s, nth_error ts k = Some tk /\ t_cur tk = Some a /\ In s (held tk) /\ t_mod tk = m /\ sid s = id /\ deadline s = d /\
                   aw_wake a (t_iv tk) <= d.
Proof.
  intros B T Hs Hin Hid. rewrite <- (in_ents_at _ _ _ Hs Hin) in Hid.
  destruct (tie_task T d id Hid) as (k & tk & s & Hk & Hbl & Hm & E1 & E2).
  destruct (Base_nth B Hk) as (tk0 & _ & Hst & Hi).
  destruct (held_blocked _ _ _ _ _ Hst Hi Hbl) as (a & Hc & Hkind & Hsa & _).
  pose proof (proj2 (aw_wake_held a _ Hkind) s Hsa) as Hws. rewrite E2 in Hws.
  exists k, tk, a, s. repeat split; assumption.
Qed.

Lemma blocked_covered {A0 A ts0 ts own nid l m dr k tk a} : Base A0 A ts0 ts own nid -> Tie ts l [] m dr -> Inv_wake l dr ->
  nth_error ts k = Some tk -> t_cur tk = Some a -> t_mod tk = m ->
  exists w0, In w0 (scheduled dr) /\ l <= w0 /\ w0 <= aw_wake a (t_iv tk).
Proof.
  intros B T Hw Hk Hc Hm. pose proof (blocked_slot B T Hk Hc Hm) as Hne.
  exact (Hw _ _ (ents_at_in _ _ Hne) Hne (base_blocked_fin _ _ _ _ _ _ _ _ _ B Hk Hc)).
Qed.

Lemma unspawned_dec tk : unspawned tk \/ ~ unspawned tk.
Proof.
  unfold unspawned. destruct (t_cur tk); [right; intros [H _]; discriminate|].
  destruct (t_fin tk); [right; intros [_ H]; discriminate|left; split; reflexivity].
Qed.

Lemma deactivate_out dr :
  pending (fst (deactivate true dr)) = prune (pending dr) /\
  scheduled (fst (deactivate true dr)) = scheduled dr ++ match snd (deactivate true dr) with Some x => [x] | None => [] end /\
  (forall x, snd (deactivate true dr) = Some x -> next_wakeup (fst (deactivate true dr)) = Some x).
Proof.
  unfold deactivate, q_next. destruct (front_time (prune (pending dr))) as [d0|]; cbn [fst snd].
  - destruct (earlier d0 (next_wakeup dr)); cbn [fst snd pending scheduled next_wakeup].
    + repeat split. intros x H; injection H as <-; reflexivity.
    + rewrite app_nil_r. repeat split. intros x H; discriminate.
  - cbn [pending scheduled]. rewrite app_nil_r. repeat split. intros x H; discriminate.
Qed.

Lemma mod_other m m' : m < 2 -> m' < 2 -> m' <> m -> (m' =? 0) <> (m =? 0).
Proof. intros H1 H2 H3 E. destruct (m' =? 0) eqn:A, (m =? 0) eqn:B; try discriminate; lia. Qed.

Lemma set_drv_frame w m dr :
  w_fes (set_drv w m dr) = w_fes w /\ w_tasks (set_drv w m dr) = w_tasks w /\ w_nid (set_drv w m dr) = w_nid w /\
  w_owner (set_drv w m dr) = w_owner w /\ w_mail (set_drv w m dr) = w_mail w.
Proof. unfold set_drv. destruct (m =? 0); repeat split. Qed.

Lemma module_event_shape wfix t m spawn (fire : bool) w :
  let dr0 := if fire then sched_fire t (drv_of w m) else drv_of w m in
  let q0 := dedup (flat_map (owner_of (w_owner w)) (flat_map snd (fst (activate t dr0))) ++ spawn) in
  let w1 := set_drv w m (snd (activate t dr0)) in
  let w2 := run_queue wfix (queue_fuel w1 q0) t m q0 w1 in
  let w' := module_event wfix t m spawn fire w in
  w_fes w' = match snd (deactivate true (drv_of w2 m)) with Some x => fst (fst (sp_add (w_fes w2) x m)) | None => w_fes w2 end /\
  w_now w' = t /\ w_tasks w' = w_tasks w2 /\ w_nid w' = w_nid w2 /\ w_owner w' = w_owner w2 /\ w_mail w' = w_mail w2 /\
  drv_of w' m = fst (deactivate true (drv_of w2 m)).
Proof.
  cbn zeta.
  (* the event is unfolded in one place, not in every conjunct *)
  remember (module_event wfix t m spawn fire w) as w' eqn:E. revert E. unfold module_event.
  generalize (if fire then sched_fire t (drv_of w m) else drv_of w m). intros dr0.
  destruct (activate t dr0) as [wk d1]. cbn [fst snd].
  (* the executor's run as a variable: no conversion below looks into it *)
  set (w2 := run_queue wfix _ t m _ _). clearbody w2.
  destruct (deactivate true (drv_of w2 m)) as [dr3 wk']. intros ->.
  cbn [fst snd w_fes w_now w_tasks w_nid w_owner w_mail].
  destruct (set_drv_frame w2 m dr3) as (F1 & F2 & F3 & F4 & F5). rewrite F1, F2, F3, F4, F5.
  repeat split. exact (drv_of_set_same w2 m dr3).
Qed.

Lemma queue_fuel_ok w q : (length q + psends (w_tasks w) <= queue_fuel w q)%nat.
Proof.
  unfold queue_fuel. pose proof (psends_bound (w_tasks w)) as H.
  assert (H1 : forall l, (fold_right (fun tk n => (length (t_steps tk) + n)%nat) 0%nat l <= fold_right (fun tk n => (length (t_steps tk) + n)%nat) 1%nat l)%nat).
  { induction l as [|x l IH]; cbn [fold_right]; lia. }
  specialize (H1 (w_tasks w)). nia.
Qed.

Lemma run_queue_nil wfix fuel t m w : run_queue wfix fuel t m [] w = w.
Proof. destruct fuel; reflexivity. Qed.

Lemma stale_le dr : (stale dr <= 1)%nat.
Proof. unfold stale. destruct (next_wakeup dr); [destruct (ents_at _ _)|]; lia. Qed.

(* A wake-up fires at t and finds no timer in the slots it pops: either it was the stale
   wake-up, or next_wakeup lies ahead and stays as live as it was; only in the first case
   is a new wake-up scheduled *)
Lemma idle_fire_stale l t dr : Snap l dr ->
  (forall d es, In (d, es) (fst (activate t (sched_fire t dr))) -> es = []) ->
  (forall d es r, prune (pending (snd (activate t (sched_fire t dr)))) = (d, es) :: r -> d < TMAX) ->
  (match snd (deactivate true (snd (activate t (sched_fire t dr)))) with Some _ => 1 | None => 0 end +
   stale (fst (deactivate true (snd (activate t (sched_fire t dr))))) <= stale dr)%nat.
Proof.
  intros [Hsrt _ _ Hcov]. pose proof (fun d es => bump_takes_all_due t (sched_fire t dr) d es Hsrt) as Hdue. revert Hdue.
  unfold activate. cbn [sched_fire pending next_wakeup].
  destruct (q_bump t (pending dr)) as [wk rest] eqn:Eb. cbn [fst snd pending]. intros Hdue Hwkempty Hfin0.
  destruct (q_bump_spec _ _ _ _ Eb) as (Hp & _ & _).
  assert (Hsrest : sorted rest) by (rewrite Hp in Hsrt; exact (sorted_app_r _ _ Hsrt)).
  assert (Hlive_rest : forall d es, In (d, es) (pending dr) -> es <> [] -> In (d, es) rest).
  { intros d es Hin Hne. rewrite Hp in Hin. apply in_app_or in Hin. destruct Hin as [Hin|Hin]; [|exact Hin].
    rewrite (Hwkempty d es Hin) in Hne. contradiction. }
  assert (Hrest_in : forall s0, In s0 rest -> In s0 (pending dr)).
  { intros s0 Hin. rewrite Hp. apply in_or_app. right; exact Hin. }
  assert (Hpr : forall x, ents_at x (prune rest) = [] -> ents_at x (pending dr) = []).
  { intros x E. destruct (ents_at x (pending dr)) as [|e0 l0] eqn:Ex; [reflexivity|exfalso].
    assert (Hne : ents_at x (pending dr) <> []) by (rewrite Ex; discriminate).
    pose proof (prune_keeps_live _ _ _ (Hlive_rest _ _ (ents_at_in _ _ Hne) Hne) Hne) as Hin.
    rewrite (in_ents_at _ _ _ (prune_sorted _ Hsrest) Hin) in E. exact (Hne E). }
  unfold deactivate, q_next, stale. cbn [pending next_wakeup].
  destruct (prune rest) as [|[d0 es0] r] eqn:Epr; cbn [front_time].
  - cbn [fst snd next_wakeup pending ents_at]. destruct (next_wakeup dr) as [x|]; [|lia].
    destruct (x <=? t); [destruct (ents_at x (pending dr)); lia|].
    rewrite (Hpr x eq_refl). lia.
  - (* the front slot of what is left is live and finite, hence covered by next_wakeup *)
    pose proof (prune_head_live _ _ _ _ Epr) as Hne0.
    assert (Hin0 : In (d0, es0) (pending dr)) by (apply Hrest_in, prune_in; rewrite Epr; left; reflexivity).
    destruct (Hcov d0 es0 Hin0 Hne0 (Hfin0 _ _ _ eq_refl)) as (x & -> & _ & _ & Hxd).
    destruct (x <=? t) eqn:Ext.
    + (* the wake-up that fired was next_wakeup: its slot was popped, and was empty *)
      assert (Hst0 : ents_at x (pending dr) = []).
      { destruct (ents_at x (pending dr)) as [|e0 l0] eqn:Ex; [reflexivity|exfalso].
        assert (Hne : ents_at x (pending dr) <> []) by (rewrite Ex; discriminate).
        apply Hne. apply (Hwkempty x). apply Hdue; [exact (ents_at_in _ _ Hne)|lia]. }
      rewrite Hst0. destruct (earlier d0 None); cbn [fst snd next_wakeup pending ents_at]; [|lia].
      rewrite N.eqb_refl. destruct es0; [contradiction Hne0; reflexivity|lia].
    + (* next_wakeup lies ahead: nothing is scheduled, and its slot is as live as before *)
      unfold earlier. rewrite (proj2 (N.ltb_ge d0 x) Hxd). cbn [fst snd next_wakeup pending].
      destruct (ents_at x (_ :: _)) as [|e1 l1] eqn:E1; [|destruct (ents_at x (pending dr)); lia].
      rewrite (Hpr x E1). lia.
Qed.

(* ---- the state in which an event of module m at instant t begins ---- *)
(* what holds when the event of module m at instant t begins ([fire]: it is the wake-up event stamped t; [spawn]: the tasks
   it spawns).  The fields up to pe_base are WInv's, for the instant t that the event set has just handed out.
   pe_drv: the wake-up event being served is no longer in the event set but still in its driver's [scheduled].
   pe_spawn_msg: the messages that spawn these tasks have been fetched.  [later]: unspawned tasks that need no message
   (only at start-up: module 1's start tasks while module 0 starts, E2EInit.later1); pe_later_spawn, pe_later_start:
   they are not spawned by this event and do not start before it *)
Record PreEv (A0 A : N -> arrs) (ts0 : list task) (later : nat -> Prop) (w : world) (t m : N) (spawn : list nat) (fire : bool) : Prop := {
  pe_si : SI (w_fes w);
  pe_tcur : s_tcur (w_fes w) = t;
  pe_now : w_now w <= t;
  pe_min : forall e, In e (spend (w_fes w)) -> t <= etime e;
  pe_inert : inert (w_mail w);
  pe_arr : Arr A (w_now w) (w_tasks w) (w_mail w);
  pe_norecv : forall k tk ch, nth_error (w_tasks w) k = Some tk -> waits_on (t_cur tk) = Some ch -> chan (t_mod tk) ch (w_mail w) = [];
  pe_base : Base A0 A ts0 (w_tasks w) (w_owner w) (w_nid w);
  pe_m : m < 2;
  pe_drv : forall m', m' < 2 -> exists l, l <= w_now w /\ Inv l (drv_of w m') /\
           Permutation ((if fire && (m' =? m) then [t] else []) ++ wakes m' (spend (w_fes w))) (scheduled (drv_of w m')) /\
           Tie (w_tasks w) l [] m' (drv_of w m') /\ Snap l (drv_of w m');
  pe_spawn : forall k, In k spawn -> exists tk, nth_error (w_tasks w) k = Some tk /\ unspawned tk /\ t_mod tk = m /\ t_start tk = t;
  pe_spawn_msg : forall k e, In k spawn -> In e (spend (w_fes w)) -> epay e <> msg_of k;
  pe_later_spawn : forall k, later k -> ~ In k spawn;
  pe_later_start : forall k tk, later k -> nth_error (w_tasks w) k = Some tk -> t <= t_start tk;
  pe_msgs : Msgs (w_tasks w) (spend (w_fes w)) (fun k => later k \/ In k spawn) }.

Arguments pe_si {A0 A ts0 later w t m spawn fire}.
Arguments pe_tcur {A0 A ts0 later w t m spawn fire}.
Arguments pe_now {A0 A ts0 later w t m spawn fire}.
Arguments pe_min {A0 A ts0 later w t m spawn fire}.
Arguments pe_inert {A0 A ts0 later w t m spawn fire}.
Arguments pe_arr {A0 A ts0 later w t m spawn fire}.
Arguments pe_norecv {A0 A ts0 later w t m spawn fire}.
Arguments pe_base {A0 A ts0 later w t m spawn fire}.
Arguments pe_m {A0 A ts0 later w t m spawn fire}.
Arguments pe_drv {A0 A ts0 later w t m spawn fire}.
Arguments pe_spawn {A0 A ts0 later w t m spawn fire}.
Arguments pe_spawn_msg {A0 A ts0 later w t m spawn fire}.
Arguments pe_later_spawn {A0 A ts0 later w t m spawn fire}.
Arguments pe_later_start {A0 A ts0 later w t m spawn fire}.
Arguments pe_msgs {A0 A ts0 later w t m spawn fire}.

(* from the boundary invariant of a world that differs from w' in the event set at most; stated for later = (fun _ => False):
   after start-up every unspawned task has its message in the event set *)
Lemma PreEv_of_WInv A0 A ts0 later0 w w' t m spawn fire : WInv A0 A ts0 later0 w ->
  w_now w' = w_now w /\ w_mail w' = w_mail w /\ w_tasks w' = w_tasks w /\ w_owner w' = w_owner w /\ w_nid w' = w_nid w /\
  w_d0 w' = w_d0 w /\ w_d1 w' = w_d1 w ->
  SI (w_fes w') -> s_tcur (w_fes w') = t -> w_now w <= t -> (forall e, In e (spend (w_fes w')) -> t <= etime e) -> m < 2 ->
  (forall m', m' < 2 -> Permutation ((if fire && (m' =? m) then [t] else []) ++ wakes m' (spend (w_fes w'))) (wakes m' (spend (w_fes w)))) ->
  (forall k, In k spawn -> exists tk, nth_error (w_tasks w) k = Some tk /\ unspawned tk /\ t_mod tk = m /\ t_start tk = t) ->
  (forall k e, In k spawn -> In e (spend (w_fes w')) -> epay e <> msg_of k) ->
  Msgs (w_tasks w) (spend (w_fes w')) (fun k => False \/ In k spawn) ->
  PreEv A0 A ts0 (fun _ => False) w' t m spawn fire.
Proof.
  intros [Hsi Htc Hinert Harr Hnorecv Hbase Hdrv Hmsgs] (E1 & E2 & E3 & E4 & E5 & E6 & E7) Hsi' Htc' Hnow Hmin Hm Hwk Hsp Hspm HM.
  constructor; rewrite ?E1, ?E2, ?E3, ?E4, ?E5; try assumption; try contradiction.
  intros m' Hm'. destruct (Hdrv m' Hm') as (l & Hl & Hinv & Hperm & Htie & Hex). exists l.
  unfold drv_of at 1 2 3 4. rewrite E6, E7. fold (drv_of w m').
  split; [exact Hl|split; [exact Hinv|split; [exact (Permutation_trans (Hwk m' Hm') Hperm)|split; [exact Htie|exact Hex]]]].
Qed.

Section Event.
  Variables (A0 A : N -> arrs) (ts0 : list task) (later : nat -> Prop) (w : world) (t m : N) (spawn : list nat) (fire : bool).
  Hypothesis HP : PreEv A0 A ts0 later w t m spawn fire.

  Let dr0 := if fire then sched_fire t (drv_of w m) else drv_of w m.

  Lemma ev_pending0 : pending dr0 = pending (drv_of w m).
  Proof. unfold dr0. destruct fire; reflexivity. Qed.

  (* the scheduled wake-ups of module m lie at or after t; the fired one is the earliest *)
  Lemma ev_sched_ge' m' x : m' < 2 -> In x (scheduled (drv_of w m')) -> t <= x.
  Proof.
    intros Hm' Hx. destruct (pe_drv HP m' Hm') as (l & _ & _ & Hperm & _ & _).
    apply Permutation_sym in Hperm. pose proof (Permutation_in _ Hperm Hx) as H. apply in_app_or in H.
    destruct H as [H|H].
    - destruct (fire && (m' =? m)); [destruct H as [<-|[]]; lia|contradiction].
    - apply wakes_in in H. destruct H as (e & He & _ & <-). exact (pe_min HP e He).
  Qed.

  Lemma ev_sched_ge x : In x (scheduled (drv_of w m)) -> t <= x.
  Proof. exact (ev_sched_ge' m x (pe_m HP)). Qed.

  Lemma ev_pre : Pre t dr0.
  Proof.
    destruct (pe_drv HP m (pe_m HP)) as (l & _ & Hinv & Hperm & _ & _).
    pose proof ev_sched_ge as Hge.
    unfold dr0. destruct fire.
    - apply (inv_pre_wake l). exact Hinv. apply lmin_of_min; [|exact Hge].
      eapply Permutation_in; [exact Hperm|]. rewrite N.eqb_refl. left; reflexivity.
    - apply (inv_pre_other l); [exact Hinv|exact Hge].
  Qed.

  Lemma ev_sched0 : Permutation (wakes m (spend (w_fes w))) (scheduled dr0).
  Proof.
    destruct (pe_drv HP m (pe_m HP)) as (l & _ & _ & Hperm & _ & _).
    unfold dr0. destruct fire; cbn [andb] in Hperm.
    - rewrite N.eqb_refl in Hperm. cbn [app sched_fire scheduled] in *. apply perm_remove1. exact Hperm.
    - exact Hperm.
  Qed.

  Let woken := fst (activate t dr0).
  Let dr1 := snd (activate t dr0).

  Lemma ev_sub1 s : In s (pending dr1) -> In s (pending (drv_of w m)).
  Proof. intros H. rewrite <- ev_pending0. exact (activate_sub t dr0 s H). Qed.

  (* every entry that activation pops is a Sleep with deadline exactly t, held by a task of
     module m whose awaited future completes exactly at t *)
  Lemma ev_woken d es id : In (d, es) woken -> In id es ->
    exists k tk a s, nth_error (w_tasks w) k = Some tk /\ t_cur tk = Some a /\ In s (held tk) /\ t_mod tk = m /\
                     sid s = id /\ deadline s = d /\ d = t /\ aw_wake a (t_iv tk) = t /\ waker_of (w_owner w) id = Some k.
  Proof.
    intros Hin Hid. pose proof (pe_base HP) as Hbase.
    destruct (pe_drv HP m (pe_m HP)) as (l & _ & [Hmid Hwake] & _ & T & _).
    pose proof (never_early t dr0 d es Hin) as Hle.
    assert (Hp : In (d, es) (pending (drv_of w m))).
    { rewrite <- ev_pending0. unfold woken, activate in Hin. destruct (q_bump t (pending dr0)) as [wk rest] eqn:Eb. cbn [fst] in Hin.
      destruct (q_bump_spec _ _ _ _ Eb) as (-> & _). apply in_or_app. left; exact Hin. }
    destruct (slot_holder Hbase T (mid_sorted _ _ Hmid) Hp Hid) as (k & tk & a & s & Hk & Hc & Hs & Hm & E1 & E2 & Hws).
    (* the Sleep that completes the future is registered: the wake-up that covers it is not before t *)
    destruct (blocked_covered Hbase T Hwake Hk Hc Hm) as (w0 & Hw0 & _ & Hw0d).
    pose proof (ev_sched_ge w0 Hw0) as Htw.
    exists k, tk, a, s. repeat split; try assumption; try lia.
    rewrite <- E1. exact (proj2 (b_ids Hbase k tk s Hk Hs)).
  Qed.

  Let q0 := dedup (flat_map (owner_of (w_owner w)) (flat_map snd woken) ++ spawn).
  Let w1 := set_drv w m dr1.

  Lemma ev_q0_in k : In k q0 <-> In k (flat_map (owner_of (w_owner w)) (flat_map snd woken)) \/ In k spawn.
  Proof. unfold q0. rewrite dedup_in. apply in_app_iff. Qed.

  Lemma ev_q0_popped d es id k : In (d, es) woken -> In id es -> waker_of (w_owner w) id = Some k -> In k q0.
  Proof.
    intros Hin Hid Hwk. apply ev_q0_in. left. apply in_flat_map. exists id. split.
    - apply in_flat_map. exists (d, es). split; [exact Hin|exact Hid].
    - unfold owner_of. rewrite Hwk. left; reflexivity.
  Qed.

  Lemma ev_q0_woken k : In k (flat_map (owner_of (w_owner w)) (flat_map snd woken)) ->
    exists tk a, nth_error (w_tasks w) k = Some tk /\ t_cur tk = Some a /\ t_mod tk = m /\ aw_wake a (t_iv tk) = t.
  Proof.
    intros H. apply in_flat_map in H. destruct H as (id & Hid & Hk). apply in_flat_map in Hid.
    destruct Hid as ([d es] & Hsl & Hes). cbn [snd] in Hes.
    destruct (ev_woken d es id Hsl Hes) as (k' & tk & a & s & H1 & H2 & _ & H3 & _ & _ & _ & H5 & H6).
    unfold owner_of in Hk. rewrite H6 in Hk. destruct Hk as [<-|[]]. exists tk, a. repeat split; assumption.
  Qed.

  Lemma ev_q0_runnable k : In k q0 -> runnable (w_tasks w) (w_mail w) t m k.
  Proof.
    intros H. apply ev_q0_in in H. destruct H as [H|H].
    - destruct (ev_q0_woken k H) as (tk & a & H1 & H2 & H3 & H4). exists tk. split; [exact H1|]. split; [exact H3|].
      right. exists a. split; [exact H2|left; exact H4].
    - destruct (pe_spawn HP k H) as (tk & H1 & H2 & H3 & H4). exists tk. split; [exact H1|]. split; [exact H3|].
      left. split; assumption.
  Qed.

  Lemma ev_tie1 : Tie (w_tasks w) t q0 m dr1.
  Proof.
    destruct (pe_drv HP m (pe_m HP)) as (l & _ & [Hmid _] & _ & T & _).
    pose proof (mid_sorted _ _ Hmid) as Hs.
    assert (Hmid1 : Mid t dr1) by (apply activate_mid; exact ev_pre).
    apply (tie_sub _ _ _ _ _ _ _ _ T).
    - intros d Hne. symmetry. apply (in_ents_at _ _ _ Hs). apply ev_sub1. apply ents_at_in. exact Hne.
    - intros k tk s Hk Hsh Hm Hq.
      pose proof (tie_entry T k tk s Hk Hsh Hm (or_introl (fun F => F))) as Hold.
      assert (Hne : ents_at (deadline s) (pending (drv_of w m)) <> []) by (intros E; rewrite E in Hold; contradiction).
      set (E := ents_at (deadline s) (pending (drv_of w m))) in *.
      assert (Hin : In (deadline s, E) (pending dr0)) by (rewrite ev_pending0; apply ents_at_in; exact Hne).
      destruct (N.le_gt_cases (deadline s) t) as [Hle|Hgt].
      + exfalso. destruct Hq as [Hq|Hq]; [|lia]. apply Hq.
        apply (ev_q0_popped (deadline s) E (sid s)); [|exact Hold|exact (proj2 (b_ids (pe_base HP) k tk s Hk Hsh))].
        unfold woken. apply bump_takes_all_due; [rewrite ev_pending0; exact Hs|exact Hin|exact Hle].
      + pose proof (activate_keeps_future t dr0 _ _ Hin Hgt) as Hk1. fold dr1 in Hk1.
        rewrite (in_ents_at _ _ _ (mid_sorted _ _ Hmid1) Hk1). exact Hold.
  Qed.

  (* the instant of the first timer wake-up of a blocked task is not before t *)
  Lemma ev_wake_ge k tk a : nth_error (w_tasks w) k = Some tk -> t_cur tk = Some a -> t <= aw_wake a (t_iv tk).
  Proof.
    intros Hk Hc. pose proof (pe_base HP) as Hbase. pose proof (base_mod Hbase Hk) as Hm2.
    destruct (pe_drv HP (t_mod tk) Hm2) as (l & _ & [_ Hwake] & _ & T & _).
    destruct (blocked_covered Hbase T Hwake Hk Hc eq_refl) as (w0 & Hw0 & _ & Hw0d).
    pose proof (ev_sched_ge' _ w0 Hm2 Hw0). lia.
  Qed.

  (* the channels at instant t: no message will be sent before t *)
  Lemma ev_arr : Arr A t (w_tasks w) (w_mail w).
  Proof.
    intros m' c. destruct (pe_arr HP m' c) as (EA & F1 & F2). split; [exact EA|]. split.
    - eapply Forall_impl; [|exact F1]. cbn beta. intros a Ha. exact (N.le_trans _ _ _ Ha (pe_now HP)).
    - pose proof (pe_base HP) as Hbase. destruct (pe_msgs HP) as [Mt _ Ma _].
      unfold fsends. apply Forall_forall. intros x Hx. apply in_flat_map in Hx. destruct Hx as (tk & Htk & Hx).
      destruct (t_mod tk =? m') eqn:Em; [|contradiction]. apply In_nth_error in Htk. destruct Htk as (k & Hk).
      unfold on_chan in Hx. apply in_map_iff in Hx. destruct Hx as ([c' x'] & E1 & Hx). cbn [snd] in E1. subst x'.
      apply filter_In in Hx. destruct Hx as [Hx _].
      unfold fut_sends in Hx. destruct (t_cur tk) as [a|] eqn:Ec.
      + (* blocked: its messages come after the instant its await completes, which is not before its first timer wake-up *)
        destruct (Base_nth Hbase Hk) as (tk0 & _ & Hst & Hi0).
        destruct (rcv_of tk0) eqn:Er.
        * pose proof (rcv_no_sends _ _ _ _ Hst Hi0 Er) as Hnil. unfold fut_sends in Hnil. rewrite Ec in Hnil. rewrite Hnil in Hx. contradiction.
        * destruct (tstate_blocked Hst Hi0 Ec) as (st0 & rest0 & _ & _ & _ & _ & _ & Hkind & _ & _ & _ & _ & _ & _ & H14).
          assert (Hnw : waits_on (Some a) = None).
          { destruct (waits_on (Some a)) as [ch|] eqn:Ew; [|reflexivity]. specialize (H14 ch eq_refl). congruence. }
          pose proof (exp_sends_ge _ _ _ _ _ Hx) as Hge. pose proof (ev_wake_ge k tk a Hk Ec) as Hwg.
          exact (N.le_trans _ _ _ Hwg (N.le_trans _ _ _ (aw_wake_le_end a (t_iv tk) Hkind Hnw) Hge)).
      + destruct (t_fin tk) eqn:Ef; [contradiction|]. pose proof (exp_sends_ge _ _ _ _ _ Hx) as Hge.
        (* unspawned: it starts at t (spawned now) or when its message arrives *)
        destruct (Ma k tk Hk (conj Ec Ef)) as [[Hl|Hs]|(e & He & Ep)].
        * exact (N.le_trans _ _ _ (pe_later_start HP k tk Hl Hk) Hge).
        * destruct (pe_spawn HP k Hs) as (tk' & H1 & _ & _ & H4). rewrite Hk in H1. injection H1 as <-. rewrite <- H4. exact Hge.
        * destruct (Mt e He ltac:(rewrite Ep; apply N.le_add_r)) as (k' & tk' & E1 & Hk' & _ & E2 & _).
          rewrite Ep in E1. apply msg_of_inj in E1. subst k'. rewrite Hk in Hk'. injection Hk' as <-.
          rewrite <- E2 in Hge. exact (N.le_trans _ _ _ (pe_min HP e He) Hge).
  Qed.

  Lemma ev_minv1 : MInv A0 A ts0 t m q0 w1.
  Proof.
    destruct (set_drv_frame w m dr1) as (_ & F2 & F4 & F3 & F1). fold w1 in F1, F2, F3, F4.
    pose proof (drv_of_set_same w m dr1) as Fd. fold w1 in Fd.
    constructor; rewrite ?F1, ?F2, ?F3, ?F4, ?Fd.
    - exact (pe_inert HP).
    - exact ev_arr.
    - exact (pe_base HP).
    - unfold q0, dedup. apply dedup_acc_nodup.
    - exact ev_q0_runnable.
    - apply activate_mid. exact ev_pre.
    - exact ev_tie1.
    - intros k tk ch Hk Hw Hne. exfalso. exact (Hne (pe_norecv HP k tk ch Hk Hw)).
  Qed.

  Let w2 := run_queue true (queue_fuel w1 q0) t m q0 w1.

  Lemma ev_run : (exists A2, MInv A0 A2 ts0 t m [] w2) /\ w_fes w2 = w_fes w /\
    (forall k tk, nth_error (w_tasks w) k = Some tk -> ~ In k q0 -> t_cur tk = None \/ t_mod tk <> m -> nth_error (w_tasks w2) k = Some tk) /\
    length (w_tasks w2) = length (w_tasks w) /\
    (forall k tk tk2, nth_error (w_tasks w) k = Some tk -> nth_error (w_tasks w2) k = Some tk2 -> ~ unspawned tk -> ~ unspawned tk2) /\
    (forall k tk2, In k q0 -> nth_error (w_tasks w2) k = Some tk2 -> ~ unspawned tk2) /\
    (work (w_tasks w2) + length q0 <= work (w_tasks w))%nat.
  Proof.
    destruct (set_drv_frame w m dr1) as (E1 & E2 & _). fold w1 in E1, E2.
    destruct (run_queue_frag A0 ts0 t m (queue_fuel w1 q0) q0 A w1 (queue_fuel_ok w1 q0) ev_minv1) as (F0 & F1 & _ & _ & F4 & F5 & _ & F7m & F7 & F8).
    fold w2 in F0, F1, F4, F5, F7m, F7, F8. rewrite E1 in F1. rewrite E2 in F4, F5, F7m, F8.
    exact (conj F0 (conj F1 (conj F4 (conj F5 (conj F7m (conj F7 F8)))))).
  Qed.

  Lemma ev_sched2 : scheduled (drv_of w2 m) = scheduled dr0.
  Proof.
    destruct (run_queue_drv true (queue_fuel w1 q0) t m q0 w1) as [Hacts _]. fold w2 in Hacts.
    pose proof (drv_of_set_same w m dr1) as Fd. fold w1 in Fd. rewrite Fd in Hacts.
    rewrite (acts_sched _ _ _ Hacts). apply activate_sched.
  Qed.

  Lemma ev_nth_back k tk2 : nth_error (w_tasks w2) k = Some tk2 -> exists tk, nth_error (w_tasks w) k = Some tk.
  Proof.
    intros Hk. destruct ev_run as (_ & _ & _ & F5 & _).
    destruct (nth_error (w_tasks w) k) as [tk|] eqn:Ek; [exists tk; reflexivity|exfalso].
    apply nth_error_None in Ek. rewrite <- F5 in Ek. apply nth_error_None in Ek. congruence.
  Qed.

  Let dr3 := fst (deactivate true (drv_of w2 m)).
  Let wk' := snd (deactivate true (drv_of w2 m)).
  Let w' := module_event true t m spawn fire w.

  Lemma ev_shape : w_fes w' = match wk' with Some x => fst (fst (sp_add (w_fes w) x m)) | None => w_fes w end /\
    w_now w' = t /\ w_tasks w' = w_tasks w2 /\ w_nid w' = w_nid w2 /\ w_owner w' = w_owner w2 /\ w_mail w' = w_mail w2 /\
    drv_of w' m = dr3.
  Proof. destruct ev_run as (_ & F1 & _). rewrite <- F1. exact (module_event_shape true t m spawn fire w). Qed.

  Variable A2 : N -> arrs.
  Hypothesis Hm2 : MInv A0 A2 ts0 t m [] w2.

  Lemma ev_wk_gt x : wk' = Some x -> t < x.
  Proof.
    intros E. destruct (deactivate_out (drv_of w2 m)) as (_ & _ & Dn).
    destruct (deactivate_inv t (drv_of w2 m) (mi_mid Hm2)) as [Hmid3 _].
    exact (proj1 (mid_nw _ _ Hmid3 x (Dn x E))).
  Qed.

  (* the new event set *)
  Lemma ev_fes : SI (w_fes w') /\ s_tcur (w_fes w') = t /\
    Permutation (spend (w_fes w')) (match wk' with Some x => [{| etime := x; eid := s_next (w_fes w); epay := m |}] | None => [] end ++ spend (w_fes w)).
  Proof.
    rewrite (proj1 ev_shape). pose proof ev_wk_gt as Hx. destruct wk' as [x|].
    - destruct (add_perm (w_fes w) x m) as [P1 P2]; [rewrite (pe_tcur HP); specialize (Hx x eq_refl); lia|].
      split; [apply SI_add; exact (pe_si HP)|]. split; [rewrite P2; exact (pe_tcur HP)|exact P1].
    - split; [exact (pe_si HP)|]. split; [exact (pe_tcur HP)|apply Permutation_refl].
  Qed.

  Lemma ev_drv_same : Inv t dr3 /\ Permutation (wakes m (spend (w_fes w'))) (scheduled dr3) /\ Tie (w_tasks w2) t [] m dr3 /\ Snap t dr3.
  Proof.
    destruct (deactivate_out (drv_of w2 m)) as (Dp & Ds & _). destruct ev_fes as (_ & _ & Hperm').
    split; [exact (deactivate_inv t _ (mi_mid Hm2))|]. split; [|split; [|exact (deactivate_snap t _ (mi_mid Hm2))]].
    - eapply Permutation_trans; [apply wakes_perm; exact Hperm'|]. unfold dr3. rewrite Ds, ev_sched2. fold wk'.
      pose proof ev_sched0 as Hs0. destruct wk' as [x|]; cbn [app]; [|rewrite app_nil_r; exact Hs0].
      rewrite wakes_cons. cbn [epay etime]. rewrite N.eqb_refl.
      eapply Permutation_trans; [apply perm_skip; exact Hs0|apply Permutation_cons_append].
    - exact (tie_prune _ _ _ _ _ _ (mi_tie Hm2) (mid_sorted _ _ (mi_mid Hm2)) Dp).
  Qed.

  Lemma ev_mod_same k tk tk2 : nth_error (w_tasks w) k = Some tk -> nth_error (w_tasks w2) k = Some tk2 -> t_mod tk2 = t_mod tk.
  Proof.
    intros Hk Hk2. destruct (Base_nth (mi_base Hm2) Hk2) as (tk0 & Hk0 & Hst2 & Hi).
    destruct (Base_nth (pe_base HP) Hk) as (tk0' & Hk0' & Hst0 & _).
    rewrite Hk0 in Hk0'. injection Hk0' as <-.
    rewrite (proj1 (tstate_cases Hst2 Hi)), (proj1 (tstate_cases Hst0 Hi)). reflexivity.
  Qed.

  Lemma ev_other_task k tk : nth_error (w_tasks w) k = Some tk -> t_mod tk <> m -> nth_error (w_tasks w2) k = Some tk.
  Proof.
    intros Hk Hne. destruct ev_run as (_ & _ & F4 & _). apply F4; [exact Hk| |right; exact Hne].
    intros Hin. destruct (ev_q0_runnable k Hin) as (tkp & Hkp & Hmp & _). rewrite Hk in Hkp. injection Hkp as <-. exact (Hne Hmp).
  Qed.

  Lemma ev_drv_other m' : m' < 2 -> m' <> m -> exists l, l <= t /\ Inv l (drv_of w m') /\
    Permutation (wakes m' (spend (w_fes w'))) (scheduled (drv_of w m')) /\ Tie (w_tasks w2) l [] m' (drv_of w m') /\ Snap l (drv_of w m').
  Proof.
    intros Hm' Hne. destruct (pe_drv HP m' Hm') as (l & Hl & Hinv & Hperm & [He Ht Hnd] & Hex). destruct ev_fes as (_ & _ & Hperm').
    exists l. split; [pose proof (pe_now HP); lia|]. split; [exact Hinv|]. split; [|split; [|exact Hex]].
    - eapply Permutation_trans; [apply wakes_perm; exact Hperm'|].
      rewrite (proj2 (N.eqb_neq m' m) Hne), andb_false_r in Hperm. cbn [app] in Hperm.
      destruct wk' as [x|]; cbn [app]; [|exact Hperm].
      rewrite wakes_cons. cbn [epay]. rewrite (proj2 (N.eqb_neq m m') (not_eq_sym Hne)). exact Hperm.
    - constructor.
      + intros k tk s Hk Hbl Hmm Hq. destruct (ev_nth_back k tk Hk) as (tk1 & Ek1).
        assert (Hm1' : t_mod tk1 <> m) by (rewrite <- (ev_mod_same k tk1 tk Ek1 Hk), Hmm; exact Hne).
        rewrite (ev_other_task k tk1 Ek1 Hm1') in Hk. injection Hk as <-. exact (He k tk1 s Ek1 Hbl Hmm Hq).
      + intros d id Hin. destruct (Ht d id Hin) as (k & tk & s & Hk & Hbl & Hmm & E1 & E2).
        exists k, tk, s. rewrite (ev_other_task k tk Hk ltac:(rewrite Hmm; exact Hne)). repeat split; assumption.
      + exact Hnd.
  Qed.

  Lemma ev_msgs : Msgs (w_tasks w2) (spend (w_fes w')) later.
  Proof.
    destruct (pe_msgs HP) as [Mt Mn Ma Ml]. destruct ev_fes as (_ & _ & Hperm'). pose proof (pe_m HP) as Hm.
    destruct ev_run as (_ & _ & F4 & _ & F7m & F7 & _).
    assert (Hin' : forall e, In e (spend (w_fes w')) -> 2 <= epay e -> In e (spend (w_fes w))).
    { intros e He Hp. pose proof (Permutation_in _ Hperm' He) as H. apply in_app_or in H. destruct H as [H|H]; [|exact H].
      destruct wk'; [destruct H as [<-|[]]; cbn [epay] in Hp; lia|contradiction]. }
    assert (Hstill : forall k tk, nth_error (w_tasks w) k = Some tk -> unspawned tk -> ~ In k spawn -> ~ In k q0).
    { intros k tk Hk Hun Hns Hin. apply ev_q0_in in Hin. destruct Hin as [Hin|Hin]; [|exact (Hns Hin)].
      destruct (ev_q0_woken k Hin) as (tk' & a & H1 & H2 & _). rewrite Hk in H1. injection H1 as <-.
      destruct Hun as [Hc _]. rewrite H2 in Hc. discriminate. }
    (* a task that is not spawned in this event stays as it is *)
    assert (Hkeep : forall k tk, nth_error (w_tasks w) k = Some tk -> unspawned tk -> ~ In k q0 -> nth_error (w_tasks w2) k = Some tk).
    { intros k tk Hk Hun Hnq. apply F4; [exact Hk|exact Hnq|left; exact (proj1 Hun)]. }
    constructor.
    - intros e He Hp. destruct (Mt e (Hin' e He Hp) Hp) as (k & tk & E1 & Hk & Hun & E2 & E3).
      assert (Hns : ~ In k spawn).
      { intros Hs. exact (pe_spawn_msg HP k e Hs (Hin' e He Hp) E1). }
      exists k, tk. rewrite (Hkeep k tk Hk Hun (Hstill k tk Hk Hun Hns)). split; [exact E1|split; [reflexivity|split; [exact Hun|split; [exact E2|exact E3]]]].
    - eapply Permutation_NoDup; [apply Permutation_sym, perm_filter, Permutation_map; exact Hperm'|].
      rewrite map_app, filter_app.
      destruct wk'; cbn [map filter epay]; [rewrite (proj2 (N.leb_gt 2 m) Hm)|]; exact Mn.
    - intros k tk Hk Hun.
      destruct (in_dec Nat.eq_dec k q0) as [Hin|Hnq]; [exfalso; exact (F7 k tk Hin Hk Hun)|].
      (* it was unspawned before as well: polls never make a task unspawned *)
      destruct (ev_nth_back k tk Hk) as (tk1 & Ek1).
      destruct (unspawned_dec tk1) as [Hun1|Hn1]; [|exfalso; exact (F7m k tk1 tk Ek1 Hk Hn1 Hun)].
      rewrite (Hkeep k tk1 Ek1 Hun1 Hnq) in Hk. injection Hk as <-.
      destruct (Ma k tk1 Ek1 Hun) as [[Hl|Hs]|(e & He & Ep)].
      + left; exact Hl.
      + exfalso. apply Hnq. apply ev_q0_in. right; exact Hs.
      + right. exists e. split; [|exact Ep]. eapply Permutation_in; [apply Permutation_sym; exact Hperm'|]. apply in_or_app. right; exact He.
    - intros k Hl. destruct (Ml k (or_introl Hl)) as (tk & Hk & Hun). exists tk. split; [|exact Hun].
      exact (Hkeep k tk Hk Hun (Hstill k tk Hk Hun (pe_later_spawn HP k Hl))).
  Qed.

  Lemma ev_winv : WInv A0 A2 ts0 later w'.
  Proof.
    destruct ev_shape as (_ & S2 & S3 & S4 & S5 & S6 & S7). destruct ev_fes as (Hsi & Htc & _).
    constructor; rewrite ?S2, ?S3, ?S4, ?S5, ?S6.
    - exact Hsi.
    - exact Htc.
    - exact (mi_inert Hm2).
    - exact (mi_arr Hm2).
    - intros k tk ch Hk Hw.
      destruct (chan (t_mod tk) ch (w_mail w2)) as [|s0 l0] eqn:Ec; [reflexivity|exfalso].
      destruct (mi_recvq Hm2 k tk ch Hk Hw ltac:(rewrite Ec; discriminate)) as (_ & [] & _).
    - exact (mi_base Hm2).
    - intros m' Hm'. destruct (N.eq_dec m' m) as [->|Hne].
      + rewrite S7. exists t. split; [lia|exact ev_drv_same].
      + pose proof (proj2 (module_event_is_driver_event true t m spawn fire w) m' (mod_other m m' (pe_m HP) Hm' Hne)) as So.
        fold w' in So. rewrite So. exact (ev_drv_other m' Hm' Hne).
    - exact ev_msgs.
  Qed.

  Lemma ev_idle : q0 = [] -> forall d es, In (d, es) woken -> es = [].
  Proof.
    intros Eq0 d es Hin. destruct es as [|id es]; [reflexivity|exfalso].
    destruct (ev_woken d (id :: es) id Hin (or_introl eq_refl)) as (k & tkx & ax & sx & _ & _ & _ & _ & _ & _ & _ & _ & Hwk).
    pose proof (ev_q0_popped d (id :: es) id k Hin (or_introl eq_refl) Hwk) as Hk. rewrite Eq0 in Hk. exact Hk.
  Qed.

  (* the front live slot of what is left is not after the wake-up slot of a blocked task *)
  Lemma ev_front_fin : q0 = [] -> forall d es r, prune (pending dr1) = (d, es) :: r -> d < TMAX.
  Proof.
    intros Eq0 d es r Epr. pose proof (pe_base HP) as Hbase.
    destruct (pe_drv HP m (pe_m HP)) as (l & _ & [Hmid _] & _ & T & _). pose proof (mid_sorted _ _ Hmid) as Hs.
    pose proof (prune_head_live _ _ _ _ Epr) as Hne0.
    assert (Hin0 : In (d, es) (pending (drv_of w m))) by (apply ev_sub1, prune_in; rewrite Epr; left; reflexivity).
    destruct es as [|id0 es']; [contradiction Hne0; reflexivity|].
    destruct (slot_holder Hbase T Hs Hin0 (or_introl eq_refl)) as (k0 & tk0 & a0 & s0 & Hk0 & Hc0 & _ & Hm0 & _ & _ & Hwd).
    pose proof (base_blocked_fin _ _ _ _ _ _ _ _ _ Hbase Hk0 Hc0) as Hfinw.
    pose proof (blocked_slot Hbase T Hk0 Hc0 Hm0) as Hnew.
    assert (Hinw : In (aw_wake a0 (t_iv tk0), ents_at (aw_wake a0 (t_iv tk0)) (pending (drv_of w m))) (pending dr0))
      by (rewrite ev_pending0; exact (ents_at_in _ _ Hnew)).
    destruct (N.le_gt_cases (aw_wake a0 (t_iv tk0)) t) as [Hle|Hgt].
    - exfalso. apply Hnew. apply (ev_idle Eq0 (aw_wake a0 (t_iv tk0))). unfold woken.
      apply bump_takes_all_due; [rewrite ev_pending0; exact Hs|exact Hinw|exact Hle].
    - pose proof (prune_keeps_live _ _ _ (activate_keeps_future t dr0 _ _ Hinw Hgt) Hnew) as Hinp. fold dr1 in Hinp.
      rewrite Epr in Hinp. destruct Hinp as [Hinp|Hinp]; [injection Hinp as -> _; exact Hfinw|].
      assert (Hsp : sorted (prune (pending dr1))) by (apply prune_sorted; exact (mid_sorted _ _ (activate_mid t dr0 ev_pre))).
      rewrite Epr in Hsp. pose proof (sorted_head_lt _ _ _ Hsp Hinp) as Hlt. cbn [fst] in Hlt. lia.
  Qed.

  Lemma ev_stale : q0 = [] -> fire = true -> ((match wk' with Some _ => 1 | None => 0 end) + stale dr3 <= stale (drv_of w m))%nat.
  Proof.
    intros Eq0 Hfire. destruct (pe_drv HP m (pe_m HP)) as (l & _ & _ & _ & _ & Hsnap).
    pose proof (ev_idle Eq0) as Hidle. pose proof (ev_front_fin Eq0) as Hfin.
    unfold wk', dr3, w2. rewrite Eq0, run_queue_nil. unfold w1. rewrite drv_of_set_same.
    unfold woken, dr1, dr0 in Hidle, Hfin |- *. rewrite Hfire in Hidle, Hfin |- *. exact (idle_fire_stale l t _ Hsnap Hidle Hfin).
  Qed.

  Lemma ev_measure :
    (2 * work (w_tasks w') + length (spend (w_fes w')) <= 2 * work (w_tasks w) + length (spend (w_fes w)) + 1)%nat /\
    (fire = true \/ spawn <> [] ->
     (2 * work (w_tasks w') + length (spend (w_fes w')) + stale (drv_of w' m) <=
      2 * work (w_tasks w) + length (spend (w_fes w)) + stale (drv_of w m))%nat).
  Proof.
    destruct ev_run as (_ & _ & _ & _ & _ & _ & F8). destruct ev_shape as (_ & _ & S3 & _ & _ & _ & S7).
    destruct ev_fes as (_ & _ & Hperm'). rewrite S3, S7, (Permutation_length Hperm'), app_length.
    assert (Hn : length (match wk' with Some x => [{| etime := x; eid := s_next (w_fes w); epay := m |}] | None => [] end) =
                 match wk' with Some _ => 1%nat | None => 0%nat end) by (destruct wk'; reflexivity).
    rewrite Hn. assert (Hn1 : (match wk' with Some _ => 1 | None => 0 end <= 1)%nat) by (destruct wk'; lia).
    pose proof (stale_le dr3) as Hst3. split; [clear -F8 Hn1; lia|]. intros Hcase.
    destruct (Nat.eq_dec (length q0) 0) as [Eq0|Hq]; [apply length_zero_iff_nil in Eq0|clear -F8 Hn1 Hst3 Hq; lia].
    (* nothing ran: nothing was spawned either, so the event is a wake-up *)
    assert (Hfire : fire = true).
    { destruct Hcase as [H|H]; [exact H|]. exfalso. apply H. apply incl_l_nil. rewrite <- Eq0.
      intros k Hk. apply ev_q0_in. right; exact Hk. }
    pose proof (ev_stale Eq0 Hfire) as Hs. clear -F8 Hs. lia.
  Qed.
End Event.

Theorem module_event_winv {A0 A ts0 later w t m spawn fire} :
  PreEv A0 A ts0 later w t m spawn fire -> exists A', WInv A0 A' ts0 later (module_event true t m spawn fire w).
Proof.
  intros HP. destruct (ev_run _ _ _ _ _ _ _ _ _ HP) as ((A2 & Hm2) & _).
  exists A2. exact (ev_winv _ _ _ _ _ _ _ _ _ HP A2 Hm2).
Qed.

Theorem module_event_measure {A0 A ts0 later w t m spawn fire} :
  PreEv A0 A ts0 later w t m spawn fire ->
  let w' := module_event true t m spawn fire w in
  (2 * work (w_tasks w') + length (spend (w_fes w')) <= 2 * work (w_tasks w) + length (spend (w_fes w)) + 1)%nat /\
  (fire = true \/ spawn <> [] ->
   (2 * work (w_tasks w') + length (spend (w_fes w')) + stale (drv_of w' m) <=
    2 * work (w_tasks w) + length (spend (w_fes w)) + stale (drv_of w m))%nat) /\
  (forall m', (m' =? 0) <> (m =? 0) -> drv_of w' m' = drv_of w m').
Proof.
  intros HP. cbn zeta. destruct (ev_run _ _ _ _ _ _ _ _ _ HP) as ((A2 & Hm2) & _).
  destruct (ev_measure _ _ _ _ _ _ _ _ _ HP A2 Hm2) as [H1 H2].
  split; [exact H1|]. split; [exact H2|]. exact (proj2 (module_event_is_driver_event true t m spawn fire w)).
Qed.
