(* Composite model used for PREDICTION by the correspondence check of C05: async modules
   whose tasks are scripts over the timer futures, a FIFO executor that polls runnable
   tasks until all are blocked, one timer driver per module (coq/Timer/Driver.v), the
   futures of coq/Timer/Futures.v and the future event set (the two-list specification
   coq/CQueue/Spec.v that C01 proves the calendar queue refines).
     des/src/net/runtime/mod.rs     SimLifecycle::{at_sim_start, at_sim_end}, Runtime::run
     des/src/net/runtime/events.rs  HandleMessageEvent / AsyncWakeupEvent handlers
     des/src/net/runtime/unwind.rs  Harness::exec (callback, then yield_now: woken and
                                    spawned tasks are polled)
   The theorems of C05 about the driver and future layers hold for every step; for the fragment
   of coq/Timer/Frag.v the composition itself is proved (Timer/E2EInit.v composite_exact: the run
   ends and every task logs exactly exp_run); for the steps outside that fragment it is
   validated against the real crate on every run, not proved.  There is no poll budget
   here (tokio's 61 polls per event are the subject of C06).  No proofs in this file. *)
From Coq Require Import List NArith PArith Bool.
From DesVerif Require Import Common.Fuel Common.Codec CQueue.Model CQueue.Spec Timer.Driver Timer.Futures.
Import ListNotations.
Open Scope N_scope.

(* ---- task scripts ---- *)
(* the value future of a timeout: sleep(x), or a future that is Pending on its first poll
   (waking its own task at once) and Ready on the second poll, in the same instant *)
Inductive inner := ISleep (x : N) | IFlip.

Inductive step :=
| SSleep (d : N)                        (* sleep(d).await *)
| SSleepUntil (t : N)                   (* sleep_until(t).await *)
| STimeout (d : N) (v : inner)          (* timeout(d, v).await *)
| SSelect (biased : bool) (a b : N)     (* select! { sleep(a) => 0, sleep(b) => 1 }; the loser is dropped *)
| SIvNew (period : N) (b : behaviour)   (* interval(period) + set_missed_tick_behavior *)
| SIvTick                               (* iv.tick().await *)
| SIvDrop                               (* the interval goes out of scope *)
| SReset (polled : bool) (d1 d2 : N)    (* pinned sleep(d1) [polled once]; reset(now + d2); await *)
| SDropSleep (d : N)                    (* Box::pin(sleep(d)) polled once, then dropped *)
| SLog
| SHandOver (ch d : N)                  (* Box::pin(sleep(d)) polled once, then sent on channel ch of the module *)
| SRecvAwait (ch : N)                   (* receive a boxed Sleep from channel ch (log), await it (log) *)
| STimeoutRecv (d ch : N)               (* timeout(d, receive from channel ch).await; a received Sleep is dropped *)
| SSelRecv (recv_first : bool) (ch d : N)   (* select! { biased; x = receive from ch => 0 (x dropped), sleep(d) => 1 } *)
| SKeep (rearm : bool) (d0 d2 x d3 : N)    (* keep-alive timer: boxed sleep(d0) polled once, armed with reset(now + d2);
                                              select! { biased; it => 0, sleep(x) => 1 }; on 1: re-armed with
                                              reset(now + d3) and awaited, or dropped *)
| SWrap (wrapper_first : bool) (d : N)    (* same task, other waker: Box::pin(sleep(d)) polled once with the task's own
                                              waker, then awaited through a sub-executor that polls it with ITS waker
                                              (and only when that waker was woken); wrapper_first: the other way round.
                                              The stored waker is the one of the LAST poll (Futures.v note_poll); every
                                              waker of a task wakes that task, so the model keeps one identity per task *)
| SRelay (wrapped : bool) (chi cho : N).   (* hand-over chain: receive a boxed Sleep on chi, poll it once (wrapped: with
                                              the waker of a sub-executor), send it on over cho, log the instant.  The
                                              Sleep may come back to a task that polled it earlier *)

Inductive vstate := VSleep (s : sleep) | VFlip (polled : bool) | VRecv (ch : N) | VGot (s : sleep).

(* the future a blocked task is awaiting *)
Inductive aw :=
| AwSleep (s : sleep)
| AwTimeout (v : vstate) (dl : sleep)
| AwSelect (biased tie : bool) (a b : sleep)
| AwTick
| AwRecv (ch : N)                       (* waiting for a boxed Sleep on channel ch *)
| AwHeld (tr : N) (s : sleep)           (* received at tr, awaiting the received Sleep *)
| AwSelRecv (recv_first : bool) (ch : N) (s : sleep)
| AwKeep (rearm : bool) (d3 : N) (s sx : sleep)   (* select between the keep-alive timer s and sleep(x) *)
| AwThen (pre : list N) (s : sleep)               (* [pre] is logged; the step ends when s completes *)
| AwRelay (k : nat) (chi cho : N).                (* task k waits for a boxed Sleep on chi to pass it on over cho *)

(* A duration of at least FARK = 2^61 ns stands for Duration::MAX: `now + d` is SimTime::MAX
   (exactly, at now = 0) or not representable (Sleep::far_future); either way the deadline is
   SimTime::MAX = TMAX and the Sleep draws a fresh id like any other. *)
Definition FARK : N := 2305843009213693952.
Definition dl (now d : N) : N := if FARK <=? d then TMAX else now + d.

(* the channels: (module, channel, sending task, the boxed Sleep), oldest first *)
Definition mailbox := list (N * N * nat * sleep).

Fixpoint mail_take (m ch : N) (mail : mailbox) : option (sleep * mailbox) :=
  match mail with
  | [] => None
  | (m', ch', k, s) :: r =>
    if (m' =? m) && (ch' =? ch) then Some (s, r)
    else match mail_take m ch r with
         | Some (s', r') => Some (s', (m', ch', k, s) :: r')
         | None => None
         end
  end.

Record task := { t_mod : N; t_start : N; t_steps : list step; t_cur : option aw;
                 t_iv : option interval; t_log : list N; t_fin : bool }.

Definition vpoll (now : N) (v : vstate) (dr : driver) : bool * vstate * driver :=
  match v with
  | VSleep s => let '(r, s', dr') := sleep_poll now s dr in (r, VSleep s', dr')
  | VFlip p => (p, VFlip true, dr)
  | VRecv ch => (false, VRecv ch, dr)       (* the channels are looked at by [vpoll_m] *)
  | VGot s => (true, VGot s, dr)
  end.

Definition vdrop (v : vstate) (dr : driver) : driver :=
  match v with VSleep s => sleep_drop s dr | VGot s => sleep_drop s dr | _ => dr end.

Definition self_wakes (v : vstate) : bool := match v with VFlip false => true | _ => false end.

Definition iv_drop (iv : option interval) (dr : driver) : driver :=
  match iv with Some i => sleep_drop (iv_delay i) dr | None => dr end.

(* one poll of the awaited future: (log record if Ready, future, interval, driver,
   did the task wake itself); the channels are only touched by AwRecv, see [poll_aw] *)
Definition poll_aw0 (now : N) (a : aw) (iv : option interval) (dr : driver)
  : option (list N) * aw * option interval * driver * bool :=
  match a with
  | AwSleep s =>
    let '(r, s', dr') := sleep_poll now s dr in
    ((if r then Some [now] else None), AwSleep s', iv, dr', false)
  | AwTimeout v dl =>
    let '(res, v', dl', dr') := timeout_poll vpoll now v dl dr in
    match res with
    | TPending => (None, AwTimeout v' dl', iv, dr', self_wakes v)
    | TOk => (Some [now; 1], AwTimeout v' dl', iv, sleep_drop dl' (vdrop v' dr'), false)
    | TElapsed => (Some [now; 0], AwTimeout v' dl', iv, sleep_drop dl' (vdrop v' dr'), false)
    end
  | AwSelect biased tie a b =>
    let code (br : N) := if biased || negb tie then br else 2 in
    let '(ra, a', dr1) := sleep_poll now a dr in
    if ra then (Some [now; code 0], AwSelect biased tie a' b, iv, sleep_drop b (sleep_drop a' dr1), false)
    else
      let '(rb, b', dr2) := sleep_poll now b dr1 in
      if rb then (Some [now; code 1], AwSelect biased tie a' b', iv, sleep_drop b' (sleep_drop a' dr2), false)
      else (None, AwSelect biased tie a' b', iv, dr2, false)
  | AwTick =>
    match iv with
    | Some i =>
      let '(res, i', dr') := poll_tick now i dr in
      (match res with Some x => Some [now; x] | None => None end, AwTick, Some i', dr', false)
    | None => (Some [now; 0], AwTick, None, dr, false)
    end
  | AwRecv ch => (None, AwRecv ch, iv, dr, false)
  | AwHeld tr s =>
    let '(r, s', dr') := sleep_poll now s dr in
    ((if r then Some [tr; now] else None), AwHeld tr s', iv, dr', false)
  | AwSelRecv rf ch s => (None, AwSelRecv rf ch s, iv, dr, false)   (* see [poll_aw] *)
  | AwKeep rearm d3 s sx =>
    let '(r, s', dr1) := sleep_poll now s dr in
    if r then (Some [now; 0], AwKeep rearm d3 s' sx, iv, sleep_drop s' (sleep_drop sx dr1), false)
    else
      let '(rx, sx', dr2) := sleep_poll now sx dr1 in
      if rx then
        if rearm then
          let '(s3, dr3) := sleep_reset s' (dl now d3) (sleep_drop sx' dr2) in
          let '(r4, s4, dr4) := sleep_poll now s3 dr3 in
          if r4 then (Some [now; 1; now], AwThen [now; 1] s4, iv, dr4, false)
          else (None, AwThen [now; 1] s4, iv, dr4, false)
        else (Some [now; 1; now], AwKeep rearm d3 s' sx', iv, sleep_drop s' (sleep_drop sx' dr2), false)
      else (None, AwKeep rearm d3 s' sx', iv, dr2, false)
  | AwThen pre s =>
    let '(r, s', dr') := sleep_poll now s dr in
    ((if r then Some (pre ++ [now]) else None), AwThen pre s', iv, dr', false)
  | AwRelay k chi cho => (None, AwRelay k chi cho, iv, dr, false)
  end.

(* the value future of a timeout with the channels of module m at hand: a receive is Ready
   with the oldest boxed Sleep of its channel *)
Definition vpoll_m (m now : N) (vm : vstate * mailbox) (dr : driver) : bool * (vstate * mailbox) * driver :=
  match fst vm with
  | VRecv ch =>
    match mail_take m ch (snd vm) with
    | Some (s, mail') => (true, (VGot s, mail'), dr)
    | None => (false, vm, dr)
    end
  | v => let '(r, v', dr') := vpoll now v dr in (r, (v', snd vm), dr')
  end.

(* ... with the channels of module m: a waiting receiver takes the oldest boxed Sleep of its
   channel and goes on to await it in the same poll *)
Definition poll_aw (now m : N) (a : aw) (iv : option interval) (dr : driver) (mail : mailbox)
  : option (list N) * aw * option interval * driver * bool * mailbox :=
  match a with
  | AwRecv ch =>
    match mail_take m ch mail with
    | Some (s, mail') => (poll_aw0 now (AwHeld now s) iv dr, mail')
    | None => (None, AwRecv ch, iv, dr, false, mail)
    end
  | AwRelay k chi cho =>
    match mail_take m chi mail with
    | Some (s, mail') =>
      let '(_, s', dr') := sleep_poll now s dr in
      (Some [now], AwRelay k chi cho, iv, dr', false, mail' ++ [(m, cho, k, s')])
    | None => (None, AwRelay k chi cho, iv, dr, false, mail)
    end
  | AwTimeout v dl =>
    let '(res, vm', dl', dr') := timeout_poll (vpoll_m m) now (v, mail) dl dr in
    match res with
    | TPending => (None, AwTimeout (fst vm') dl', iv, dr', self_wakes v, snd vm')
    | TOk => (Some [now; 1], AwTimeout (fst vm') dl', iv, sleep_drop dl' (vdrop (fst vm') dr'), false, snd vm')
    | TElapsed => (Some [now; 0], AwTimeout (fst vm') dl', iv, sleep_drop dl' (vdrop (fst vm') dr'), false, snd vm')
    end
  | AwSelRecv rf ch s =>
    if rf then
      match mail_take m ch mail with
      | Some (x, mail') => (Some [now; 0], AwSelRecv rf ch s, iv, sleep_drop x (sleep_drop s dr), false, mail')
      | None =>
        let '(r, s', dr') := sleep_poll now s dr in
        if r then (Some [now; 1], AwSelRecv rf ch s', iv, sleep_drop s' dr', false, mail)
        else (None, AwSelRecv rf ch s', iv, dr', false, mail)
      end
    else
      let '(r, s', dr') := sleep_poll now s dr in
      if r then (Some [now; 1], AwSelRecv rf ch s', iv, sleep_drop s' dr', false, mail)
      else match mail_take m ch mail with
           | Some (x, mail') => (Some [now; 0], AwSelRecv rf ch s', iv, sleep_drop x (sleep_drop s' dr'), false, mail')
           | None => (None, AwSelRecv rf ch s', iv, dr', false, mail)
           end
  | _ => (poll_aw0 now a iv dr, mail)
  end.

(* a step is begun: (future to await / None for a step without await, interval, driver,
   next Sleep id, log) *)
Definition start_step0 (now : N) (s : step) (iv : option interval) (dr : driver) (nid : N) (lg : list N)
  : option aw * option interval * driver * N * list N :=
  match s with
  | SSleep d => (Some (AwSleep (sleep_new (now + d) nid)), iv, dr, nid + 1, lg)
  | SSleepUntil t => (Some (AwSleep (sleep_new t nid)), iv, dr, nid + 1, lg)
  | STimeout d (ISleep x) =>
    (Some (AwTimeout (VSleep (sleep_new (now + x) nid)) (sleep_new (dl now d) (nid + 1))), iv, dr, nid + 2, lg)
  | STimeout d IFlip => (Some (AwTimeout (VFlip false) (sleep_new (dl now d) nid)), iv, dr, nid + 1, lg)
  | SSelect biased a b =>
    (Some (AwSelect biased (a =? b) (sleep_new (dl now a) nid) (sleep_new (dl now b) (nid + 1))), iv, dr, nid + 2, lg)
  | SIvNew p b => (None, Some (interval_new now p b nid), iv_drop iv dr, nid + 1, lg)
  | SIvTick => (Some AwTick, iv, dr, nid, lg)
  | SIvDrop => (None, None, iv_drop iv dr, nid, lg)
  | SReset polled d1 d2 =>
    let s0 := sleep_new (dl now d1) nid in
    let '(s1, dr1) := if polled then let '(_, s1, dr1) := sleep_poll now s0 dr in (s1, dr1) else (s0, dr) in
    let '(s2, dr2) := sleep_reset s1 (dl now d2) dr1 in
    (Some (AwSleep s2), iv, dr2, nid + 1, lg)
  | SDropSleep d =>
    let '(_, s1, dr1) := sleep_poll now (sleep_new (dl now d) nid) dr in
    (None, iv, sleep_drop s1 dr1, nid + 1, lg ++ [now])
  | SLog => (None, iv, dr, nid, lg ++ [now])
  | SHandOver _ _ => (None, iv, dr, nid, lg)          (* see [start_step] *)
  | SRecvAwait ch => (Some (AwRecv ch), iv, dr, nid, lg)
  | STimeoutRecv d ch => (Some (AwTimeout (VRecv ch) (sleep_new (dl now d) nid)), iv, dr, nid + 1, lg)
  | SSelRecv rf ch d => (Some (AwSelRecv rf ch (sleep_new (dl now d) nid)), iv, dr, nid + 1, lg)
  | SKeep rearm d0 d2 x d3 =>
    let '(_, s1, dr1) := sleep_poll now (sleep_new (dl now d0) nid) dr in
    let '(s2, dr2) := sleep_reset s1 (dl now d2) dr1 in
    (Some (AwKeep rearm d3 s2 (sleep_new (now + x) (nid + 1))), iv, dr2, nid + 2, lg)
  | SWrap _ d =>
    let '(_, s1, dr1) := sleep_poll now (sleep_new (dl now d) nid) dr in
    (Some (AwSleep s1), iv, dr1, nid + 1, lg)
  | SRelay _ _ _ => (None, iv, dr, nid, lg)           (* see [start_step] *)
  end.

(* ... for task k of module m, with the channels *)
Definition start_step (now m : N) (k : nat) (s : step) (iv : option interval) (dr : driver) (nid : N)
                      (lg : list N) (mail : mailbox)
  : option aw * option interval * driver * N * list N * mailbox :=
  match s with
  | SHandOver ch d =>
    let '(_, s1, dr1) := sleep_poll now (sleep_new (now + d) nid) dr in
    (None, iv, dr1, nid + 1, lg ++ [now], mail ++ [(m, ch, k, s1)])
  | SRelay _ chi cho => (Some (AwRelay k chi cho), iv, dr, nid, lg, mail)
  | _ => (start_step0 now s iv dr nid lg, mail)
  end.

(* the task is polled: it runs until it blocks or ends *)
Fixpoint run_steps (now m : N) (k : nat) (steps : list step) (cur : option aw) (iv : option interval)
                   (dr : driver) (nid : N) (lg : list N) (mail : mailbox)
  : list step * option aw * option interval * driver * N * list N * bool * mailbox :=
  match steps with
  | [] => ([], None, None, iv_drop iv dr, nid, lg, false, mail)
  | s :: rest =>
    let '(a, iv1, dr1, nid1, lg1, mail1) :=
      match cur with
      | Some a => (Some a, iv, dr, nid, lg, mail)
      | None => start_step now m k s iv dr nid lg mail
      end in
    match a with
    | None => run_steps now m k rest None iv1 dr1 nid1 lg1 mail1
    | Some a =>
      let '(res, a', iv2, dr2, sw, mail2) := poll_aw now m a iv1 dr1 mail1 in
      match res with
      | Some r => run_steps now m k rest None iv2 dr2 nid1 (lg1 ++ r) mail2
      | None => (s :: rest, Some a', iv2, dr2, nid1, lg1, sw, mail2)
      end
    end
  end.

(* ---- the world ---- *)
(* [w_owner]: the waker stored with each timer entry (coq/Timer/Futures.v [wakers]) *)
Record world := { w_fes : sp; w_now : N; w_d0 : driver; w_d1 : driver;
                  w_tasks : list task; w_nid : N; w_owner : wakers; w_mail : mailbox;
                  w_snaps : list N   (* driver snapshots taken between events, see [snap1] *) }.

Definition drv_of (w : world) (m : N) : driver := if m =? 0 then w_d0 w else w_d1 w.

Definition set_drv (w : world) (m : N) (dr : driver) : world :=
  if m =? 0 then {| w_fes := w_fes w; w_now := w_now w; w_d0 := dr; w_d1 := w_d1 w;
                    w_tasks := w_tasks w; w_nid := w_nid w; w_owner := w_owner w; w_mail := w_mail w;
                    w_snaps := w_snaps w |}
  else {| w_fes := w_fes w; w_now := w_now w; w_d0 := w_d0 w; w_d1 := dr;
          w_tasks := w_tasks w; w_nid := w_nid w; w_owner := w_owner w; w_mail := w_mail w;
                    w_snaps := w_snaps w |}.

Definition owner_of (own : wakers) (id : N) : list nat :=
  match waker_of own id with Some k => [k] | None => [] end.

Fixpoint set_nth {A} (i : nat) (x : A) (l : list A) : list A :=
  match l, i with
  | [], _ => []
  | _ :: r, O => x :: r
  | y :: r, S i' => y :: set_nth i' x r
  end.

(* the Sleeps a blocked task holds; each of them was polled in the poll that blocked it *)
Definition held_sleeps (a : option aw) (iv : option interval) : list sleep :=
  match a with
  | Some (AwSleep s) => [s]
  | Some (AwTimeout (VSleep s) dl) => [s; dl]
  | Some (AwTimeout _ dl) => [dl]
  | Some (AwSelRecv _ _ s) => [s]
  | Some (AwKeep _ _ s sx) => [s; sx]
  | Some (AwThen _ s) => [s]
  | Some (AwSelect _ _ a b) => [a; b]
  | Some AwTick => match iv with Some i => [iv_delay i] | None => [] end
  | Some (AwHeld _ s) => [s]
  | _ => []
  end.

Fixpoint sent_by (k : nat) (mail : mailbox) : list sleep :=
  match mail with
  | [] => []
  | (_, _, k', s) :: r => if Nat.eqb k k' then s :: sent_by k r else sent_by k r
  end.

(* Sleep::poll's treatment of the stored waker, for every Sleep task k polled (and still
   holds, or has sent away) in this poll; [before]: the entries registered before the poll *)
Definition note_polls (wfix : bool) (k : nat) (before : list N) (ss : list sleep) (tab : wakers) : wakers :=
  fold_left (fun tab s => note_poll wfix k (existsb (N.eqb (sid s)) before) s tab) ss tab.

(* tokio polls task k: returns whether it woke itself.  [wfix]: see Futures.sleep_poll_waker *)
Definition poll_task (wfix : bool) (now m : N) (k : nat) (w : world) : world * bool :=
  match nth_error (w_tasks w) k with
  | None => (w, false)
  | Some tk =>
    if t_fin tk then (w, false) else
    let before := flat_map snd (pending (drv_of w m)) in
    let '(steps, cur, iv, dr, nid, lg, sw, mail) :=
      run_steps now m k (t_steps tk) (t_cur tk) (t_iv tk) (drv_of w m) (w_nid w) (t_log tk) (w_mail w) in
    let tk' := {| t_mod := t_mod tk; t_start := t_start tk; t_steps := steps; t_cur := cur; t_iv := iv;
                  t_log := lg; t_fin := match steps with [] => true | _ => false end |} in
    let w1 := set_drv w m dr in
    ({| w_fes := w_fes w1; w_now := w_now w1; w_d0 := w_d0 w1; w_d1 := w_d1 w1;
        w_tasks := set_nth k tk' (w_tasks w1); w_nid := nid;
        w_owner := note_polls wfix k before (held_sleeps cur iv ++ sent_by k mail) (w_owner w1);
        w_mail := mail; w_snaps := w_snaps w1 |}, sw)
  end.

Definition waits_on (a : option aw) : option N :=
  match a with
  | Some (AwRecv ch) => Some ch
  | Some (AwRelay _ chi _) => Some chi
  | Some (AwTimeout (VRecv ch) _) => Some ch
  | Some (AwSelRecv _ ch _) => Some ch
  | _ => None
  end.

(* receivers of module m that are blocked on a channel that holds a boxed Sleep: the send woke them *)
Fixpoint ready_receivers (m : N) (mail : mailbox) (i : nat) (ts : list task) : list nat :=
  match ts with
  | [] => []
  | tk :: r =>
    match waits_on (t_cur tk) with
    | Some ch =>
      if (t_mod tk =? m) && (match mail_take m ch mail with Some _ => true | None => false end)
      then i :: ready_receivers m mail (S i) r else ready_receivers m mail (S i) r
    | None => ready_receivers m mail (S i) r
    end
  end.

Definition enqueue (q : list nat) (ks : list nat) : list nat :=
  q ++ filter (fun k => negb (existsb (Nat.eqb k) q)) ks.

(* run queue of the module's executor: FIFO; receivers woken by a send join the back, then
   the polled task itself if it woke itself *)
Fixpoint run_queue (wfix : bool) (fuel : nat) (now m : N) (q : list nat) (w : world) : world :=
  match fuel with
  | O => w
  | S f =>
    match q with
    | [] => w
    | k :: r =>
      let '(w', sw) := poll_task wfix now m k w in
      let r1 := enqueue r (ready_receivers m (w_mail w') 0 (w_tasks w')) in
      run_queue wfix f now m (if sw then enqueue r1 [k] else r1) w'
    end
  end.

(* keep the first occurrence of every task (a woken task is queued once) *)
Fixpoint dedup_acc (seen l : list nat) : list nat :=
  match l with
  | [] => []
  | x :: r => if existsb (Nat.eqb x) seen then dedup_acc seen r else x :: dedup_acc (x :: seen) r
  end.

Definition dedup (l : list nat) : list nat := dedup_acc [] l.

Definition queue_fuel (w : world) (q : list nat) : nat :=
  (length q + (1 + length (w_tasks w)) * fold_right (fun tk n => (length (t_steps tk) + n)%nat) 1%nat (w_tasks w))%nat.

(* one event of module m at time t: activate (wake the due slots' tasks), the callback
   spawns [spawn], the executor runs until every task is blocked, deactivate (schedule
   the next wake-up if it is earlier than the one already scheduled).
   [fire]: the event is the AsyncWakeupEvent stamped t. *)
Definition module_event (wfix : bool) (t m : N) (spawn : list nat) (fire : bool) (w : world) : world :=
  let dr := if fire then sched_fire t (drv_of w m) else drv_of w m in
  let '(woken, dr1) := activate t dr in
  let q := dedup (flat_map (owner_of (w_owner w)) (flat_map snd woken) ++ spawn) in
  let w1 := set_drv w m dr1 in
  let w2 := run_queue wfix (queue_fuel w1 q) t m q w1 in
  let '(dr3, wk) := deactivate true (drv_of w2 m) in
  let w3 := set_drv w2 m dr3 in
  {| w_fes := match wk with Some x => fst (fst (sp_add (w_fes w3) x m)) | None => w_fes w3 end;
     w_now := t; w_d0 := w_d0 w3; w_d1 := w_d1 w3; w_tasks := w_tasks w3; w_nid := w_nid w3;
     w_owner := w_owner w3; w_mail := w_mail w3; w_snaps := w_snaps w3 |}.

Definition set_fes (w : world) (f : sp) : world :=
  {| w_fes := f; w_now := w_now w; w_d0 := w_d0 w; w_d1 := w_d1 w; w_tasks := w_tasks w;
     w_nid := w_nid w; w_owner := w_owner w; w_mail := w_mail w; w_snaps := w_snaps w |}.

(* task indices of module m that are spawned by at_sim_start *)
Fixpoint start_tasks (m : N) (i : nat) (ts : list task) : list nat :=
  match ts with
  | [] => []
  | tk :: r => if (t_mod tk =? m) && (t_start tk =? 0) then i :: start_tasks m (S i) r else start_tasks m (S i) r
  end.

(* before the run: one message per task with a start time > 0, in task order;
   payloads of the event set: 0/1 = AsyncWakeupEvent of module 0/1, 2+k = message that
   makes the module spawn task k *)
Fixpoint inject (i : nat) (ts : list task) (f : sp) : sp :=
  match ts with
  | [] => f
  | tk :: r => inject (S i) r (if t_start tk =? 0 then f else fst (fst (sp_add f (t_start tk) (2 + N.of_nat i))))
  end.

Definition init_world (ts : list task) : world :=
  {| w_fes := inject 0 ts sp_new; w_now := 0; w_d0 := new_driver; w_d1 := new_driver;
     w_tasks := ts; w_nid := 0; w_owner := []; w_mail := []; w_snaps := [] |}.

(* What the verification hook Driver::verif_snapshot reports of module m's driver, taken at
   instant t between two events: t m  #slots (deadline #entries)*  flag next_wakeup *)
Definition snap1 (t m : N) (dr : driver) : list N :=
  [t; m; N.of_nat (length (pending dr))] ++
  flat_map (fun sl => [fst sl; N.of_nat (length (snd sl))]) (pending dr) ++
  match next_wakeup dr with Some x => [1; x] | None => [0; 0] end.

Definition take_snaps (w : world) : world :=
  {| w_fes := w_fes w; w_now := w_now w; w_d0 := w_d0 w; w_d1 := w_d1 w; w_tasks := w_tasks w;
     w_nid := w_nid w; w_owner := w_owner w; w_mail := w_mail w;
     w_snaps := w_snaps w ++ snap1 (w_now w) 0 (w_d0 w) ++ snap1 (w_now w) 1 (w_d1 w) |}.

(* SimLifecycle::at_sim_start: one stage; modules in creation order *)
Definition sim_start (wfix : bool) (w : world) : world :=
  let w0 := module_event wfix 0 0 (start_tasks 0 0 (w_tasks w)) false w in
  take_snaps (module_event wfix 0 1 (start_tasks 1 0 (w_tasks w0)) false w0).

(* Runtime::run main loop: fetch the next event, dispatch it *)
Definition loop_step (wfix : bool) (w : world) : world + world :=
  match sp_fetch (w_fes w) with
  | (f, OFetched pay t) =>
    let w1 := set_fes w f in
    if pay <? 2 then inl (take_snaps (module_event wfix t pay [] true w1))
    else
      let k := N.to_nat (pay - 2) in
      match nth_error (w_tasks w1) k with
      | Some tk => inl (take_snaps (module_event wfix t (t_mod tk) [k] false w1))
      | None => inl w1
      end
  | (_, _) => inr w
  end.

(* every distinct deadline of a module is scheduled at most once, every step creates at
   most two Sleeps and resets at most one; this fuel is never exhausted *)
Definition fuel (ts : list task) : positive :=
  N.succ_pos (16 * N.of_nat (fold_right (fun tk n => (length (t_steps tk) + 1 + n)%nat) 0%nat ts) + 64).

Definition run_tasks (wfix : bool) (ts : list task) : world * bool :=
  match iter_until (fuel ts) (loop_step wfix) (sim_start wfix (init_world ts)) with
  | inr w => (w, true)
  | inl w => (w, false)
  end.

(* ---- wire format ---- *)
(* script := nm  ntasks  task*            modules = 1 + nm mod 2
   task   := len [ mod start step* ]      (length-prefixed)   module = mod mod modules;
                                          start = 0: spawned by at_sim_start, else by a message at [start]
   step   := 1 d | 2 t | 3 d k x | 4 f a b | 5 p beh k b1..bk | 6 f d1 d2 | 7 d | 8 | 9 ch d | 10 ch
             | 11 d ch | 12 f ch d | 13 f d0 d2 x d3 | 14 f d | 15 f chi cho
     3: timeout(d, if k even then sleep(x) else flip)       4: f odd = `biased;`
     5: interval(max 1 p), behaviour beh mod 3 (0 Burst 1 Delay 2 Skip), k ticks, after tick i
        sleep(b_i) if b_i > 0                               6: f odd = polled once before the reset
     9: Box::pin(sleep(d)) polled once and sent on channel ch of the task's module
     10: receive a boxed Sleep from channel ch of the task's module, then await it
     11: timeout(d, receive from channel ch); the received Sleep is dropped
     12: select! { biased; receive from ch => 0, sleep(d) => 1 }, f odd: the receive branch comes first
     13: keep-alive timer: Box::pin(sleep(d0)) polled once, reset(now + d2); select!{ biased; it => 0, sleep(x) => 1 };
         on 1: f odd: reset(now + d3) and await, f even: drop
     14: Box::pin(sleep(d)) polled once with the task's waker, then awaited through a sub-executor with its own waker
         (f odd: first through the sub-executor, then awaited directly)
     a duration >= 2^61 is Duration::MAX (steps 3 4 6 7 11 12 13 14): the deadline is SimTime::MAX, printed as 2^62 - 1 *)
Definition beh_of (b : N) : behaviour :=
  if b mod 3 =? 0 then Burst else if b mod 3 =? 1 then Delay else Skip.

Fixpoint ticks (busy : list N) : list step :=
  match busy with
  | [] => []
  | b :: r => SIvTick :: (if b =? 0 then ticks r else SSleep b :: ticks r)
  end.

Definition dec_step (l : list N) : option (list step * list N) :=
  match l with
  | 1 :: d :: r => Some ([SSleep d], r)
  | 2 :: t :: r => Some ([SSleepUntil t], r)
  | 3 :: d :: k :: x :: r => Some ([STimeout d (if N.even k then ISleep x else IFlip)], r)
  | 4 :: f :: a :: b :: r => Some ([SSelect (N.odd f) a b], r)
  | 5 :: p :: b :: k :: r =>
    let '(busy, r') := take_n (N.to_nat (N.min k (N.of_nat (length r)))) r in
    Some (SIvNew (N.max 1 p) (beh_of b) :: ticks busy ++ [SIvDrop], r')
  | 6 :: f :: d1 :: d2 :: r => Some ([SReset (N.odd f) d1 d2], r)
  | 7 :: d :: r => Some ([SDropSleep d], r)
  | 8 :: r => Some ([SLog], r)
  | 9 :: ch :: d :: r => Some ([SHandOver ch d], r)
  | 10 :: ch :: r => Some ([SRecvAwait ch], r)
  | 11 :: d :: ch :: r => Some ([STimeoutRecv d ch], r)
  | 12 :: f :: ch :: d :: r => Some ([SSelRecv (N.odd f) ch d], r)
  | 13 :: f :: d0 :: d2 :: x :: d3 :: r => Some ([SKeep (N.odd f) d0 d2 x d3], r)
  | 14 :: f :: d :: r => Some ([SWrap (N.odd f) d], r)
  | 15 :: f :: chi :: cho :: r => Some ([SRelay (N.odd f) chi cho], r)
  | _ => None
  end.

Definition dec_task (mods : N) (b : list N) : task :=
  match b with
  | m :: s :: r => {| t_mod := m mod mods; t_start := s; t_steps := concat (decode_all dec_step r);
                      t_cur := None; t_iv := None; t_log := []; t_fin := false |}
  | _ => {| t_mod := 0; t_start := 0; t_steps := []; t_cur := None; t_iv := None; t_log := []; t_fin := false |}
  end.

Fixpoint take_blobs (k : nat) (l : list N) : list (list N) :=
  match k with
  | O => []
  | S k' => match l with
            | [] => []
            | _ => let '(b, r) := take_lp l in b :: take_blobs k' r
            end
  end.

Definition decode (l : list N) : list task :=
  match l with
  | nm :: n :: r => map (dec_task (1 + nm mod 2)) (take_blobs (N.to_nat (N.min n (N.of_nat (length r)))) r)
  | _ => []
  end.

(* output := (len log.. fin)*  ok  end_time  snapshot*  [8 if out of fuel]
   snapshot := t m #slots (deadline #entries)* flag next_wakeup -- both drivers after start-up and after every event
   log records: sleep/sleep_until/reset/drop/log/hand-over -> now;  timeout -> now ok;
   select -> now branch (2 = unbiased tie);  tick -> now tick_instant;
   receive+await -> instant of the receive, instant the received Sleep completed
   (a task still awaiting a received Sleep has logged the receive) *)
Definition full_log (tk : task) : list N :=
  t_log tk ++ match t_cur tk with Some (AwHeld tr _) => [tr] | Some (AwThen pre _) => pre | _ => [] end.

Definition enc_task (tk : task) : list N :=
  N.of_nat (length (full_log tk)) :: full_log tk ++ [b2n (t_fin tk)].

Definition run_gen (wfix : bool) (input : list N) : list N :=
  let '(w, ok) := run_tasks wfix (decode input) in
  flat_map enc_task (w_tasks w) ++ [b2n (forallb t_fin (w_tasks w)); w_now w] ++ w_snaps w ++ (if ok then [] else [8]).

(* the code as it is now: a registered Sleep follows the task that polls it *)
Definition run (input : list N) : list N := run_gen true input.
