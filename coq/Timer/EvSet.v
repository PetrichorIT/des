(* What the end-to-end argument about the composite model needs of the future event set
   (coq/CQueue/Spec.v, invariant SI of coq/CQueue/SpecProps.v): fetch returns a pending
   event of minimal time and makes that time current; add inserts one event. *)
From Coq Require Import List NArith Bool Lia Sorting.Sorted Permutation ZifyBool.
From DesVerif Require Import CQueue.Model CQueue.Spec CQueue.ListX CQueue.SpecProps Timer.Driver Timer.QueueLemmas.
Import ListNotations.
Open Scope N_scope.

(* times of the pending events that carry payload m *)
Definition wakes (m : N) (l : list ev) : list N := map etime (filter (fun e => epay e =? m) l).

Lemma perm_filter {A} (f : A -> bool) l l' : Permutation l l' -> Permutation (filter f l) (filter f l').
Proof.
  induction 1 as [|x l l' _ IH|x y l|l l' l'' _ IH1 _ IH2]; cbn [filter].
  - constructor.
  - destruct (f x); [constructor|]; exact IH.
  - destruct (f x), (f y); try apply Permutation_refl. apply perm_swap.
  - eapply Permutation_trans; eassumption.
Qed.

Lemma wakes_perm m l l' : Permutation l l' -> Permutation (wakes m l) (wakes m l').
Proof. intros H. unfold wakes. apply Permutation_map, perm_filter, H. Qed.

Lemma wakes_cons m e l : wakes m (e :: l) = if epay e =? m then etime e :: wakes m l else wakes m l.
Proof. unfold wakes. cbn [filter]. destruct (epay e =? m); reflexivity. Qed.

Lemma wakes_in m l t : In t (wakes m l) <-> exists e, In e l /\ epay e = m /\ etime e = t.
Proof.
  unfold wakes. rewrite in_map_iff. split.
  - intros (e & He & Hin). apply filter_In in Hin. destruct Hin as [Hin Hp]. exists e. repeat split; [exact Hin|lia|exact He].
  - intros (e & Hin & Hp & He). exists e. split; [exact He|]. apply filter_In. split; [exact Hin|lia].
Qed.

Lemma fetch_some s : SI s -> spend s <> [] ->
  exists x s', sp_fetch s = (s', OFetched (epay x) (etime x)) /\ spend s = x :: spend s' /\
               s_tcur s' = etime x /\ s_tcur s <= etime x /\ (forall e, In e (spend s') -> etime x <= etime e).
Proof.
  intros [Hs Hz Hr Hi Hn] Hne. unfold sp_fetch, spend in *.
  destruct (s_zero s) as [|x z] eqn:Ez.
  - destruct (s_rest s) as [|x r] eqn:Er; [contradiction Hne; reflexivity|].
    exists x, {| s_tcur := etime x; s_zero := []; s_rest := r; s_next := s_next s |}.
    cbn [s_zero s_rest s_tcur app]. split; [reflexivity|]. split; [reflexivity|]. split; [reflexivity|].
    split; [apply Hr; left; reflexivity|].
    intros e He. unfold key_sorted in Hs. inversion Hs as [|? ? _ Hall]; subst. rewrite Forall_forall in Hall.
    specialize (Hall e He). unfold key_lt in Hall. lia.
  - exists x, {| s_tcur := s_tcur s; s_zero := z; s_rest := s_rest s; s_next := s_next s |}.
    cbn [s_zero s_rest s_tcur app]. assert (Hx : etime x = s_tcur s) by (apply Hz; left; reflexivity).
    split; [reflexivity|]. split; [reflexivity|]. split; [symmetry; exact Hx|]. split; [lia|].
    intros e He. apply in_app_or in He. destruct He as [He|He].
    + rewrite (Hz e (or_intror He)). lia.
    + specialize (Hr e He). lia.
Qed.

Lemma fetch_none s : spend s = [] -> sp_fetch s = (s, OPanic 2).
Proof.
  unfold spend, sp_fetch. intros H. apply app_eq_nil in H. destruct H as [-> ->]. reflexivity.
Qed.

Lemma add_perm s t p : s_tcur s <= t ->
  let s' := fst (fst (sp_add s t p)) in
  Permutation (spend s') ({| etime := t; eid := s_next s; epay := p |} :: spend s) /\ s_tcur s' = s_tcur s.
Proof.
  intros Ht. cbn zeta. unfold sp_add. replace (t <? s_tcur s) with false by lia.
  destruct (t =? s_tcur s); cbn [fst]; (split; [|reflexivity]); unfold spend; cbn [s_zero s_rest].
  - rewrite <- app_assoc. cbn [app]. symmetry. apply Permutation_middle.
  - eapply Permutation_trans; [apply Permutation_app_head, sins_perm|]. symmetry. apply Permutation_middle.
Qed.

(* ---- the scheduled wake-ups of a driver as a multiset ---- *)
Lemma remove1_perm t l : In t l -> Permutation l (t :: remove1 t l).
Proof.
  induction l as [|a r IH]; [contradiction|]. cbn [remove1]. intros [->|H].
  - rewrite N.eqb_refl. apply Permutation_refl.
  - destruct (a =? t) eqn:E; [replace a with t by lia; apply Permutation_refl|].
    eapply Permutation_trans; [apply perm_skip, IH, H|apply perm_swap].
Qed.

Lemma perm_remove1 t l l2 : Permutation (t :: l) l2 -> Permutation l (remove1 t l2).
Proof.
  intros H. assert (Hin : In t l2) by (eapply Permutation_in; [exact H|left; reflexivity]).
  apply Permutation_cons_inv with (a := t). eapply Permutation_trans; [exact H|apply remove1_perm, Hin].
Qed.

Lemma lmin_of_min t l : In t l -> (forall x, In x l -> t <= x) -> lmin l = Some t.
Proof.
  intros Hin Hmin. destruct (lmin l) as [m|] eqn:E.
  - destruct (lmin_spec l m E) as [Hm Hle]. f_equal. specialize (Hmin m Hm). specialize (Hle t Hin). lia.
  - rewrite (lmin_none l E) in Hin. contradiction.
Qed.
