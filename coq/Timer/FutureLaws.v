(* Laws of the timer futures (coq/Timer/Futures.v), for every [now] and every driver state. *)
From Coq Require Import List NArith Bool Lia ZifyBool.
From DesVerif Require Import Timer.Driver Timer.QueueLemmas Timer.Inv Timer.Futures.
Import ListNotations.
Open Scope N_scope.

(* ---- Sleep ---- *)
Lemma due_deadline_completes_immediately now s dr : deadline s <= now ->
  sleep_poll now s dr = (true, {| deadline := deadline s; sid := sid s; handle := None |}, dr).
Proof. intros H. unfold sleep_poll. rewrite (proj2 (N.ltb_ge _ _) H). reflexivity. Qed.

Lemma pending_poll_shape t s dr : t < deadline s ->
  sleep_poll t s dr =
  (false, {| deadline := deadline s; sid := sid s;
             handle := Some (match handle s with None => deadline s | Some h => h end) |},
   match handle s with None => register (sid s) (deadline s) dr | Some _ => dr end).
Proof.
  intros H. unfold sleep_poll. rewrite (proj2 (N.ltb_lt _ _) H). destruct s as [d i [h|]]; reflexivity.
Qed.

Lemma sleep_poll_deadline now s dr : deadline (snd (fst (sleep_poll now s dr))) = deadline s.
Proof. unfold sleep_poll. destruct (now <? deadline s); [destruct (handle s)|]; reflexivity. Qed.

Lemma sleep_poll_ready now s dr : fst (fst (sleep_poll now s dr)) = (deadline s <=? now).
Proof.
  unfold sleep_poll. destruct (now <? deadline s) eqn:E; [destruct (handle s)|]; cbn [fst]; lia.
Qed.

(* ---- the futures touch the driver only through contract-respecting operations ---- *)
Definition acts (t : N) (dr dr' : driver) : Prop := exists ops, ops_wf t ops /\ dr' = apply_ops ops dr.

Lemma acts_refl t dr : acts t dr dr.
Proof. exists []. split; [constructor|reflexivity]. Qed.

Lemma acts_trans t a b c : acts t a b -> acts t b c -> acts t a c.
Proof.
  intros (o1 & W1 & ->) (o2 & W2 & ->). exists (o1 ++ o2). split.
  - apply Forall_app. split; assumption.
  - unfold apply_ops. rewrite fold_left_app. reflexivity.
Qed.

Lemma acts_one t dr o : op_wf t o -> acts t dr (apply_op dr o).
Proof. intros H. exists [o]. split; [constructor; [exact H|constructor]|reflexivity]. Qed.

Lemma acts_mid t dr dr' : acts t dr dr' -> Mid t dr -> Mid t dr'.
Proof. intros (ops & W & ->) Hm. apply apply_ops_mid; assumption. Qed.

Lemma sleep_poll_acts now s dr : acts now dr (snd (sleep_poll now s dr)).
Proof.
  unfold sleep_poll. destruct (now <? deadline s) eqn:E; [|apply acts_refl].
  destruct (handle s); cbn [snd]; [apply acts_refl|].
  apply (acts_one now dr (Register (sid s) (deadline s))). cbn [op_wf]. lia.
Qed.

Lemma sleep_reset_acts now s d' dr : acts now dr (snd (sleep_reset s d' dr)).
Proof.
  unfold sleep_reset. cbn [snd]. destruct (handle s) as [d|]; [|apply acts_refl].
  apply (acts_one now dr (ResetEntry (sid s) d d')). exact I.
Qed.

Lemma sleep_drop_acts now s dr : acts now dr (sleep_drop s dr).
Proof.
  unfold sleep_drop. destruct (handle s) as [d|]; [|apply acts_refl].
  apply (acts_one now dr (DropEntry (sid s) d)). exact I.
Qed.

(* A chain of driver actions is walked back from its end by [eauto n with acts]: the last link is
   a call whose result was named by [destruct .. eqn:E] (acts_via: E, then the call's own *_acts
   lemma, then the chain before it) or a drop (acts_drop); acts_refl ends the walk.  The database
   holds these three and the *_acts lemmas of the futures (Timer/Compose.v adds those of the
   composite's values locally).  The depth n bounds the length of the walk (a link or a drop takes
   one level on the way back, the side goals one more): the default 5 is enough for one link; the
   7 / 9 / 12 of Timer/Compose.v are generous bounds for chains of up to two, three and five links
   with their drops, not minima. *)
Lemma acts_via {X} t dr0 dr (p : X * driver) x dr' :
  p = (x, dr') -> acts t dr (snd p) -> acts t dr0 dr -> acts t dr0 dr'.
Proof. intros -> H1 H0. exact (acts_trans _ _ _ _ H0 H1). Qed.

Lemma acts_drop t dr0 dr s : acts t dr0 dr -> acts t dr0 (sleep_drop s dr).
Proof. intros H. exact (acts_trans _ _ _ _ H (sleep_drop_acts t s dr)). Qed.

Create HintDb acts.
#[export] Hint Resolve acts_refl acts_via acts_drop sleep_poll_acts sleep_reset_acts : acts.

Lemma poll_tick_acts now iv dr : acts now dr (snd (poll_tick now iv dr)).
Proof.
  unfold poll_tick. destruct (sleep_poll now (iv_delay iv) dr) as [[r s1] dr1] eqn:E1.
  destruct r; cbn [snd]; [|eauto with acts].
  destruct (sleep_reset s1 (tick_next (iv_beh iv) (deadline s1) now (iv_period iv)) dr1) as [s2 dr2] eqn:E2.
  cbn [snd]. eauto with acts.
Qed.

Section TimeoutLaws.
  Variable V : Type.
  Variable vpoll : N -> V -> driver -> bool * V * driver.

  Lemma timeout_poll_acts now v dl dr :
    (forall v0 dr0, acts now dr0 (snd (vpoll now v0 dr0))) ->
    acts now dr (snd (timeout_poll vpoll now v dl dr)).
  Proof.
    intros Hv. unfold timeout_poll. destruct (vpoll now v dr) as [[vr v'] dr1] eqn:E1.
    destruct vr; cbn [snd]; [eauto with acts|].
    destruct (sleep_poll now dl dr1) as [[r dl'] dr2] eqn:E2.
    destruct r; cbn [snd]; eauto 6 with acts.
  Qed.

  (* one poll: the value is looked at first, so a tie goes to the value *)
  Lemma timeout_poll_law now v dl dr :
    fst (fst (fst (timeout_poll vpoll now v dl dr))) =
    if fst (fst (vpoll now v dr)) then TOk
    else if deadline dl <=? now then TElapsed else TPending.
  Proof.
    unfold timeout_poll. destruct (vpoll now v dr) as [[vr v'] dr1]. cbn [fst].
    destruct vr; [reflexivity|].
    pose proof (sleep_poll_ready now dl dr1) as Hr.
    destruct (sleep_poll now dl dr1) as [[r dl'] dr2]. cbn [fst] in *. rewrite <- Hr.
    destruct r; reflexivity.
  Qed.

  Lemma timeout_poll_delay_deadline now v dl dr :
    deadline (snd (fst (timeout_poll vpoll now v dl dr))) = deadline dl.
  Proof.
    unfold timeout_poll. destruct (vpoll now v dr) as [[vr v'] dr1].
    destruct vr; [reflexivity|].
    pose proof (sleep_poll_deadline now dl dr1) as Hd.
    destruct (sleep_poll now dl dr1) as [[r dl'] dr2]. cbn [fst snd] in *.
    destruct r; cbn [fst snd]; exact Hd.
  Qed.

  (* the value becomes ready at instant r (and stays ready) *)
  Variable r : N.
  Hypothesis vready : forall now v dr, fst (fst (vpoll now v dr)) = (r <=? now).

  (* The task is polled at [pre] (all before both r and the deadline D), then at
     min r D -- which is what the driver guarantees: the wake-up for the earlier of the two
     timers is stamped exactly with its deadline.  The timeout completes at min r D, with
     the value iff r <= D. *)
  Lemma timeout_run_prompt pre post v dl dr :
    let D := deadline dl in
    Forall (fun t => t < N.min r D) pre ->
    timeout_run vpoll (pre ++ N.min r D :: post) v dl dr =
    Some (N.min r D, if r <=? D then TOk else TElapsed).
  Proof.
    cbn zeta. revert v dl dr. induction pre as [|t pre IH]; intros v dl dr Hall; cbn [app timeout_run].
    - pose proof (timeout_poll_law (N.min r (deadline dl)) v dl dr) as Hl. rewrite vready in Hl.
      destruct (timeout_poll vpoll (N.min r (deadline dl)) v dl dr) as [[[res v'] dl'] dr']. cbn [fst] in Hl. subst res.
      destruct (N.leb_spec r (deadline dl)) as [Hle|Hgt].
      + rewrite (N.min_l _ _ Hle), N.leb_refl. reflexivity.
      + rewrite (N.min_r _ _ (N.lt_le_incl _ _ Hgt)), (proj2 (N.leb_gt _ _) Hgt), N.leb_refl. reflexivity.
    - inversion Hall as [|? ? Ht Hr]; subst. apply N.min_glb_lt_iff in Ht. destruct Ht as [Ht1 Ht2].
      pose proof (timeout_poll_law t v dl dr) as Hl. rewrite vready in Hl.
      pose proof (timeout_poll_delay_deadline t v dl dr) as Hd.
      destruct (timeout_poll vpoll t v dl dr) as [[[res v'] dl'] dr']. cbn [fst snd] in Hl, Hd.
      rewrite (proj2 (N.leb_gt _ _) Ht1), (proj2 (N.leb_gt _ _) Ht2) in Hl.
      rewrite Hl, <- Hd. apply IH. rewrite Hd. exact Hr.
  Qed.
End TimeoutLaws.

Theorem timeout_ok_iff_inner_first (V : Type) (vpoll : N -> V -> driver -> bool * V * driver) (r : N) :
  (forall now v dr, fst (fst (vpoll now v dr)) = (r <=? now)) ->
  forall pre post v dl dr, Forall (fun t => t < N.min r (deadline dl)) pre ->
  exists res, timeout_run vpoll (pre ++ N.min r (deadline dl) :: post) v dl dr = Some (N.min r (deadline dl), res) /\
              (res = TOk <-> r <= deadline dl) /\ (res = TElapsed <-> deadline dl < r).
Proof.
  intros Hv pre post v dl dr Hall.
  exists (if r <=? deadline dl then TOk else TElapsed).
  split; [exact (timeout_run_prompt V vpoll r Hv pre post v dl dr Hall)|].
  destruct (r <=? deadline dl) eqn:E; split; split; intros H; try reflexivity; try discriminate; lia.
Qed.

(* ---- Interval ---- *)
Lemma tick_next_on_time b timeout now period : now <= timeout + GRACE ->
  tick_next b timeout now period = timeout + period.
Proof. intros H. unfold tick_next. rewrite (proj2 (N.ltb_ge _ _) H). reflexivity. Qed.

Lemma tick_next_burst timeout now period : tick_next Burst timeout now period = timeout + period.
Proof. unfold tick_next. destruct (timeout + GRACE <? now); reflexivity. Qed.

Lemma tick_next_delay timeout now period : timeout + GRACE < now ->
  tick_next Delay timeout now period = now + period.
Proof. intros H. unfold tick_next. rewrite (proj2 (N.ltb_lt _ _) H). reflexivity. Qed.

(* Skip: the next instant of the original schedule that lies strictly after now *)
Lemma tick_next_skip timeout now period : timeout + GRACE < now -> 0 < period ->
  let nx := tick_next Skip timeout now period in
  now < nx /\ nx <= now + period /\ nx = timeout + ((now - timeout) / period + 1) * period.
Proof.
  intros H Hp. cbn zeta. unfold tick_next, next_timeout. rewrite (proj2 (N.ltb_lt _ _) H).
  assert (Hn : period <> 0) by lia.
  pose proof (N.mod_upper_bound (now - timeout) period Hn) as Hm.
  pose proof (N.div_mod (now - timeout) period Hn) as Hdm.
  assert (Hnow : now = timeout + (now - timeout)) by lia.
  set (a := now - timeout) in *. set (q := a / period) in *. set (m := a mod period) in *.
  rewrite N.mul_add_distr_r, N.mul_1_l, (N.mul_comm q period). lia.
Qed.

Lemma poll_tick_ready now iv dr : deadline (iv_delay iv) <= now ->
  poll_tick now iv dr =
  (Some (deadline (iv_delay iv)),
   {| iv_delay := {| deadline := tick_next (iv_beh iv) (deadline (iv_delay iv)) now (iv_period iv);
                     sid := sid (iv_delay iv); handle := None |};
      iv_period := iv_period iv; iv_beh := iv_beh iv |}, dr).
Proof.
  intros H. unfold poll_tick. rewrite (due_deadline_completes_immediately _ _ _ H).
  unfold sleep_reset. cbn [deadline sid handle]. reflexivity.
Qed.

Lemma poll_tick_pending now iv dr : now < deadline (iv_delay iv) ->
  fst (fst (poll_tick now iv dr)) = None /\
  deadline (iv_delay (snd (fst (poll_tick now iv dr)))) = deadline (iv_delay iv) /\
  iv_period (snd (fst (poll_tick now iv dr))) = iv_period iv /\ iv_beh (snd (fst (poll_tick now iv dr))) = iv_beh iv.
Proof.
  intros H. unfold poll_tick. rewrite (pending_poll_shape _ _ _ H).
  cbn [fst snd iv_delay iv_period iv_beh deadline]. repeat split.
Qed.

(* the nominal schedule start, start + period, start + 2 period, ... *)
Fixpoint schedule (start period : N) (n : nat) : list N :=
  match n with O => [] | S n' => start :: schedule (start + period) period n' end.

Lemma schedule_nth start period n k : (k < n)%nat -> nth k (schedule start period n) 0 = start + N.of_nat k * period.
Proof.
  revert start k; induction n as [|n IH]; intros start k Hk; [lia|]. cbn [schedule].
  destruct k as [|k]; cbn [nth]; [lia|]. rewrite IH by lia. lia.
Qed.

(* tick k is taken at an instant within [nominal, nominal + 5 ms] *)
Fixpoint on_time (start period : N) (ts : list N) : Prop :=
  match ts with
  | [] => True
  | t :: r => start <= t /\ t <= start + GRACE /\ on_time (start + period) period r
  end.

(* tick k is taken at or after its nominal instant, however late *)
Fixpoint not_before (start period : N) (ts : list N) : Prop :=
  match ts with
  | [] => True
  | t :: r => start <= t /\ not_before (start + period) period r
  end.

Lemma interval_no_miss ts : forall iv dr,
  on_time (deadline (iv_delay iv)) (iv_period iv) ts ->
  tick_seq ts iv dr = schedule (deadline (iv_delay iv)) (iv_period iv) (length ts).
Proof.
  induction ts as [|t r IH]; intros iv dr H; [reflexivity|].
  destruct H as (H1 & H2 & H3). cbn [tick_seq length schedule].
  rewrite (poll_tick_ready _ _ _ H1). f_equal.
  rewrite IH; cbn [iv_delay iv_period deadline]; rewrite (tick_next_on_time _ _ _ _ H2); [reflexivity|exact H3].
Qed.

Lemma interval_burst ts : forall iv dr, iv_beh iv = Burst ->
  not_before (deadline (iv_delay iv)) (iv_period iv) ts ->
  tick_seq ts iv dr = schedule (deadline (iv_delay iv)) (iv_period iv) (length ts).
Proof.
  induction ts as [|t r IH]; intros iv dr Hb H; [reflexivity|].
  destruct H as (H1 & H3). cbn [tick_seq length schedule].
  rewrite (poll_tick_ready _ _ _ H1). rewrite Hb. f_equal.
  rewrite IH; cbn [iv_delay iv_period iv_beh deadline]; rewrite ?tick_next_burst; [reflexivity|reflexivity|exact H3].
Qed.

(* a tick taken at [now], more than 5 ms late *)
Lemma interval_missed now iv dr : deadline (iv_delay iv) + GRACE < now -> 0 < iv_period iv ->
  let tm := deadline (iv_delay iv) in
  let nx := deadline (iv_delay (snd (fst (poll_tick now iv dr)))) in
  fst (fst (poll_tick now iv dr)) = Some tm /\
  match iv_beh iv with
  | Burst => nx = tm + iv_period iv
  | Delay => nx = now + iv_period iv
  | Skip => now < nx /\ nx <= now + iv_period iv /\ nx = tm + ((now - tm) / iv_period iv + 1) * iv_period iv
  end.
Proof.
  intros H Hp. cbn zeta. rewrite poll_tick_ready by lia. cbn [fst snd iv_delay deadline].
  split; [reflexivity|]. destruct (iv_beh iv).
  - apply tick_next_burst.
  - apply tick_next_delay; exact H.
  - apply tick_next_skip; assumption.
Qed.

(* ---- the waker stored with a timer entry ---- *)
Lemma sleep_poll_sid now s dr : sid (snd (fst (sleep_poll now s dr))) = sid s.
Proof. unfold sleep_poll. destruct (now <? deadline s); [destruct (handle s)|]; reflexivity. Qed.

(* the tie between Futures.note_poll, through which coq/Timer/Model.v records a poll (note_polls), and
   sleep_poll_waker, which the theorems below are about *)
Lemma note_poll_is_sleep_poll_waker fixed now k s dr tab :
  note_poll fixed k (match handle s with Some _ => true | None => false end) (snd (fst (sleep_poll now s dr))) tab =
  sleep_poll_waker fixed now k s tab.
Proof.
  unfold note_poll, sleep_poll_waker, sleep_poll. destruct (now <? deadline s).
  - destruct (handle s) as [h|] eqn:E; cbn [fst snd handle sid andb negb].
    + rewrite E. destruct fixed; reflexivity.
    + reflexivity.
  - reflexivity.
Qed.

(* A registered Sleep follows the task that polls it: after any sequence of polls before the
   deadline (by whatever tasks; the Sleep may have moved between them), the waker stored
   with the entry is that of the task that polled LAST, and the entry was registered once. *)
Theorem woken_through_last_poller polls : forall t k s dr tab,
  Forall (fun p => fst p < deadline s) (polls ++ [(t, k)]) ->
  let r := poll_seq true (polls ++ [(t, k)]) s dr tab in
  waker_of (snd r) (sid s) = Some k /\
  snd (fst r) = match handle s with None => register (sid s) (deadline s) dr | Some _ => dr end /\
  handle (fst (fst r)) = Some (match handle s with None => deadline s | Some h => h end).
Proof.
  induction polls as [|[t0 k0] polls IH]; intros t k s dr tab Hall; cbn zeta; cbn [app poll_seq].
  - inversion Hall as [|? ? Ht _]; subst. cbn [fst] in Ht. rewrite (pending_poll_shape _ _ _ Ht). cbn [fst snd].
    unfold sleep_poll_waker. rewrite (proj2 (N.ltb_lt _ _) Ht).
    split; [|split; reflexivity].
    destruct (handle s); cbn [waker_of]; rewrite N.eqb_refl; reflexivity.
  - inversion Hall as [|? ? Ht Hr]; subst. cbn [fst] in Ht. rewrite (pending_poll_shape _ _ _ Ht).
    set (s' := {| deadline := deadline s; sid := sid s;
                  handle := Some (match handle s with None => deadline s | Some h => h end) |}).
    specialize (IH t k s' (match handle s with None => register (sid s) (deadline s) dr | Some _ => dr end)
                   (sleep_poll_waker true t0 k0 s tab) Hr).
    cbn zeta in IH. cbn [sid deadline handle s'] in IH. exact IH.
Qed.

(* With a stored waker that is never replaced (poll_seq false) the entry keeps the waker of the
   task that polled FIRST. *)
Theorem pinned_woken_through_first_poller polls : forall t k s dr tab, handle s = None ->
  Forall (fun p => fst p < deadline s) ((t, k) :: polls) ->
  waker_of (snd (poll_seq false ((t, k) :: polls) s dr tab)) (sid s) = Some k.
Proof.
  assert (Hkeep : forall polls s dr tab h, handle s = Some h -> Forall (fun p => fst p < deadline s) polls ->
            snd (poll_seq false polls s dr tab) = tab).
  { induction polls0 as [|[t0 k0] polls0 IH]; intros s dr tab h Hh Hall; cbn [poll_seq]; [reflexivity|].
    inversion Hall as [|? ? Ht Hr]; subst. cbn [fst] in Ht. rewrite (pending_poll_shape _ _ _ Ht). rewrite Hh.
    unfold sleep_poll_waker. rewrite (proj2 (N.ltb_lt _ _) Ht), Hh.
    eapply IH; [reflexivity|exact Hr]. }
  intros t k s dr tab Hn Hall. cbn [poll_seq]. inversion Hall as [|? ? Ht Hr]; subst. cbn [fst] in Ht.
  rewrite (pending_poll_shape _ _ _ Ht). rewrite Hn.
  unfold sleep_poll_waker. rewrite (proj2 (N.ltb_lt _ _) Ht), Hn.
  erewrite Hkeep; [|reflexivity|exact Hr]. cbn [waker_of]. rewrite N.eqb_refl. reflexivity.
Qed.
