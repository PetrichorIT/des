(* Link between the composite model (coq/Timer/Model.v) and the driver theorems: whatever the
   scripted tasks of a module do during one event, the module's driver goes through exactly an
   [event_body] of coq/Timer/Driver.v with a contract-respecting operation list, and the
   other module's driver is not touched.  This holds for every step of the model.  (That the
   event set serves the composite's events in time order and that the task logs are what the
   property demands is proved in Timer/E2EInv.v .. E2EInit.v -- composite_exact -- for the
   fragment of Timer/Frag.v; for the steps outside it the correspondence check validates it.) *)
From Coq Require Import List NArith Bool Lia ZifyBool.
From DesVerif Require Import CQueue.Model CQueue.Spec Timer.Driver Timer.QueueLemmas Timer.Inv Timer.Futures
  Timer.FutureLaws Timer.Model.
Import ListNotations.
Open Scope N_scope.

Lemma vpoll_acts now v dr : acts now dr (snd (vpoll now v dr)).
Proof.
  destruct v as [s|p|ch|s]; cbn [vpoll]; try apply acts_refl.
  destruct (sleep_poll now s dr) as [[r s'] dr'] eqn:E. cbn [snd]. eauto with acts.
Qed.

Lemma vpoll_m_acts m now vm dr : acts now dr (snd (vpoll_m m now vm dr)).
Proof.
  unfold vpoll_m. generalize (vpoll_acts now (fst vm) dr).
  destruct (fst vm) as [s|p|ch|s]; intros H; try (destruct (vpoll now _ dr) as [[r v'] dr']; exact H).
  destruct (mail_take m ch (snd vm)) as [[s mail']|]; apply acts_refl.
Qed.

Lemma acts_vdrop now dr0 dr v : acts now dr0 dr -> acts now dr0 (vdrop v dr).
Proof. destruct v as [s|p|ch|s]; cbn [vdrop]; auto with acts. Qed.

Lemma acts_iv_drop now dr0 dr iv : acts now dr0 dr -> acts now dr0 (iv_drop iv dr).
Proof. destruct iv as [i|]; cbn [iv_drop]; auto with acts. Qed.

(* [eauto n with acts] walks a chain of driver actions back to its start (Timer/FutureLaws.v, where
   the database is created and the depths are explained); here the links of the composite's values *)
#[local] Hint Resolve acts_vdrop acts_iv_drop vpoll_acts vpoll_m_acts poll_tick_acts timeout_poll_acts : acts.

Lemma poll_aw0_acts now a iv dr : acts now dr (snd (fst (poll_aw0 now a iv dr))).
Proof.
  destruct a as [s|v dl|biased tie a b| |ch|tr s|rf ch s|rearm d3 s sx|pre s|kr chi cho]; cbn [poll_aw0]; try apply acts_refl.
  - destruct (sleep_poll now s dr) as [[r s'] dr'] eqn:E. cbn [fst snd]. eauto with acts.
  - destruct (timeout_poll vpoll now v dl dr) as [[[res v'] dl'] dr'] eqn:E.
    destruct res; cbn [fst snd]; eauto 7 with acts.
  - destruct (sleep_poll now a dr) as [[ra a'] dr1] eqn:E1.
    destruct ra; cbn [fst snd]; [eauto 7 with acts|].
    destruct (sleep_poll now b dr1) as [[rb b'] dr2] eqn:E2.
    destruct rb; cbn [fst snd]; eauto 9 with acts.
  - destruct iv as [i|]; [|apply acts_refl].
    destruct (poll_tick now i dr) as [[res i'] dr'] eqn:E. cbn [fst snd]. eauto with acts.
  - destruct (sleep_poll now s dr) as [[r s'] dr'] eqn:E. cbn [fst snd]. eauto with acts.
  - destruct (sleep_poll now s dr) as [[r s'] dr1] eqn:E1.
    destruct r; cbn [fst snd]; [eauto 7 with acts|].
    destruct (sleep_poll now sx dr1) as [[rx sx'] dr2] eqn:E2.
    destruct rx; cbn [fst snd]; [|eauto 7 with acts].
    destruct rearm; cbn [fst snd]; [|eauto 9 with acts].
    destruct (sleep_reset s' (dl now d3) (sleep_drop sx' dr2)) as [s3 dr3] eqn:E3.
    destruct (sleep_poll now s3 dr3) as [[r4 s4] dr4] eqn:E4.
    destruct r4; cbn [fst snd]; eauto 12 with acts.
  - destruct (sleep_poll now s dr) as [[r s'] dr'] eqn:E. cbn [fst snd]. eauto with acts.
Qed.

Lemma poll_aw_acts now m a iv dr mail : acts now dr (snd (fst (fst (poll_aw now m a iv dr mail)))).
Proof.
  destruct a as [s|v dl|biased tie a b| |ch|tr s|rf ch s|rearm d3 s sx|pre s|kr chi cho]; cbn [poll_aw fst]; try apply poll_aw0_acts.
  - destruct (timeout_poll (vpoll_m m) now (v, mail) dl dr) as [[[res vm'] dl'] dr'] eqn:E.
    destruct res; cbn [fst snd]; eauto 7 with acts.
  - destruct (mail_take m ch mail) as [[s mail']|]; cbn [fst snd]; [apply poll_aw0_acts|apply acts_refl].
  - destruct rf.
    + destruct (mail_take m ch mail) as [[x mail']|]; cbn [fst snd]; [auto with acts|].
      destruct (sleep_poll now s dr) as [[r s'] dr'] eqn:E.
      destruct r; cbn [fst snd]; eauto 7 with acts.
    + destruct (sleep_poll now s dr) as [[r s'] dr'] eqn:E.
      destruct r; cbn [fst snd]; [eauto 7 with acts|].
      destruct (mail_take m ch mail) as [[x mail']|]; cbn [fst snd]; eauto 7 with acts.
  - destruct (mail_take m chi mail) as [[s mail']|]; cbn [fst snd]; [|apply acts_refl].
    destruct (sleep_poll now s dr) as [[r s'] dr'] eqn:E. cbn [fst snd]. eauto with acts.
Qed.

Lemma start_step0_acts now s iv dr nid lg : acts now dr (snd (fst (fst (start_step0 now s iv dr nid lg)))).
Proof.
  destruct s as [d|t|d v|biased a b|p b| | |polled d1 d2|d| |ch d|ch|d ch|rf ch d|rearm d0 d2 x d3|wf d|wr chi cho]; cbn [start_step0 fst snd]; auto with acts.
  - destruct v; apply acts_refl.
  - destruct polled.
    + destruct (sleep_poll now (sleep_new (dl now d1) nid) dr) as [[r s1] dr1] eqn:E1. cbn iota.
      destruct (sleep_reset s1 (dl now d2) dr1) as [s2 dr2] eqn:E2. cbn [fst snd]. eauto 7 with acts.
    + destruct (sleep_reset (sleep_new (dl now d1) nid) (dl now d2) dr) as [s2 dr2] eqn:E2. cbn [fst snd]. eauto with acts.
  - destruct (sleep_poll now (sleep_new (dl now d) nid) dr) as [[r s1] dr1] eqn:E. cbn [fst snd]. eauto 7 with acts.
  - destruct (sleep_poll now (sleep_new (dl now d0) nid) dr) as [[r s1] dr1] eqn:E1.
    destruct (sleep_reset s1 (dl now d2) dr1) as [s2 dr2] eqn:E2. cbn [fst snd]. eauto 7 with acts.
  - destruct (sleep_poll now (sleep_new (dl now d) nid) dr) as [[r s1] dr1] eqn:E. cbn [fst snd]. eauto with acts.
Qed.

Lemma start_step_acts now m k s iv dr nid lg mail :
  acts now dr (snd (fst (fst (fst (start_step now m k s iv dr nid lg mail))))).
Proof.
  destruct s as [d|t|d v|biased a b|p b| | |polled d1 d2|d| |ch d|ch|d ch|rf ch d|rearm d0 d2 x d3|wf d0|wr chi cho]; cbn [start_step fst]; try apply start_step0_acts; try apply acts_refl.
  destruct (sleep_poll now (sleep_new (now + d) nid) dr) as [[r s1] dr1] eqn:E. cbn [fst snd]. eauto with acts.
Qed.

Definition rs_drv {A B C D E F G} (x : A * B * C * driver * D * E * F * G) : driver := snd (fst (fst (fst (fst x)))).

Lemma run_steps_acts now m k steps : forall cur iv dr nid lg mail,
  acts now dr (rs_drv (run_steps now m k steps cur iv dr nid lg mail)).
Proof.
  induction steps as [|s rest IH]; intros cur iv dr nid lg mail; cbn [run_steps].
  - unfold rs_drv. cbn [fst snd]. auto with acts.
  - assert (H0 : acts now dr (snd (fst (fst (fst
        match cur with
        | Some a => (Some a, iv, dr, nid, lg, mail)
        | None => start_step now m k s iv dr nid lg mail
        end))))).
    { destruct cur; [apply acts_refl|apply start_step_acts]. }
    destruct (match cur with
              | Some a => (Some a, iv, dr, nid, lg, mail)
              | None => start_step now m k s iv dr nid lg mail
              end) as [[[[[a iv1] dr1] nid1] lg1] mail1]. cbn [fst snd] in H0.
    destruct a as [a|]; [|exact (acts_trans _ _ _ _ H0 (IH _ _ _ _ _ _))].
    pose proof (acts_trans _ _ _ _ H0 (poll_aw_acts now m a iv1 dr1 mail1)) as H1.
    destruct (poll_aw now m a iv1 dr1 mail1) as [[[[[res a'] iv2] dr2] sw] mail2]. cbn [fst snd] in H1.
    destruct res as [r|]; [exact (acts_trans _ _ _ _ H1 (IH _ _ _ _ _ _))|exact H1].
Qed.

(* ---- plumbing of the world record ---- *)
Lemma drv_of_set_same w m dr : drv_of (set_drv w m dr) m = dr.
Proof. unfold drv_of, set_drv. destruct (m =? 0); reflexivity. Qed.

Lemma drv_of_set_other w m m' dr : (m' =? 0) <> (m =? 0) -> drv_of (set_drv w m dr) m' = drv_of w m'.
Proof. unfold drv_of, set_drv. destruct (m =? 0), (m' =? 0); intros H; try reflexivity; contradiction H; reflexivity. Qed.

Lemma poll_task_drv wfix now m k w :
  acts now (drv_of w m) (drv_of (fst (poll_task wfix now m k w)) m) /\
  forall m', (m' =? 0) <> (m =? 0) -> drv_of (fst (poll_task wfix now m k w)) m' = drv_of w m'.
Proof.
  unfold poll_task. destruct (nth_error (w_tasks w) k) as [tk|]; [|split; [apply acts_refl|reflexivity]].
  destruct (t_fin tk); [split; [apply acts_refl|reflexivity]|].
  pose proof (run_steps_acts now m k (t_steps tk) (t_cur tk) (t_iv tk) (drv_of w m) (w_nid w) (t_log tk) (w_mail w)) as H.
  destruct (run_steps now m k (t_steps tk) (t_cur tk) (t_iv tk) (drv_of w m) (w_nid w) (t_log tk) (w_mail w))
    as [[[[[[[steps cur] iv] dr] nid] lg] sw] mail]. unfold rs_drv in H. cbn [fst snd] in *.
  (* drv_of reads the two driver fields only, which the new world takes from [set_drv w m dr] *)
  split; [rewrite <- (drv_of_set_same w m dr) in H; exact H|].
  intros m' Hne. exact (drv_of_set_other w m m' dr Hne).
Qed.

Lemma run_queue_drv wfix fuel now m : forall q w,
  acts now (drv_of w m) (drv_of (run_queue wfix fuel now m q w) m) /\
  forall m', (m' =? 0) <> (m =? 0) -> drv_of (run_queue wfix fuel now m q w) m' = drv_of w m'.
Proof.
  induction fuel as [|f IH]; intros q w; cbn [run_queue]; [split; [apply acts_refl|reflexivity]|].
  destruct q as [|k r]; [split; [apply acts_refl|reflexivity]|].
  destruct (poll_task_drv wfix now m k w) as [H1 H2].
  destruct (poll_task wfix now m k w) as [w' sw]. cbn [fst] in *.
  set (r1 := enqueue r (ready_receivers m (w_mail w') 0 (w_tasks w'))).
  destruct (IH (if sw then enqueue r1 [k] else r1) w') as [H3 H4]. split.
  - exact (acts_trans _ _ _ _ H1 H3).
  - intros m' Hne. rewrite (H4 m' Hne). exact (H2 m' Hne).
Qed.

(* ---- one event of the composite = one event of the driver theory ---- *)
Theorem module_event_is_driver_event wfix t m spawn fire w :
  (exists ops, ops_wf t ops /\
     drv_of (module_event wfix t m spawn fire w) m =
     snd (event_body true t ops (if fire then sched_fire t (drv_of w m) else drv_of w m))) /\
  forall m', (m' =? 0) <> (m =? 0) -> drv_of (module_event wfix t m spawn fire w) m' = drv_of w m'.
Proof.
  unfold module_event, event_body.
  set (dr0 := if fire then sched_fire t (drv_of w m) else drv_of w m).
  destruct (activate t dr0) as [woken dr1].
  set (q := dedup (flat_map (owner_of (w_owner w)) (flat_map snd woken) ++ spawn)).
  set (w1 := set_drv w m dr1).
  destruct (run_queue_drv wfix (queue_fuel w1 q) t m q w1) as [H1 H2].
  set (w2 := run_queue wfix (queue_fuel w1 q) t m q w1) in *.
  destruct H1 as (ops & Hwf & Heq). unfold w1 in Heq at 1. rewrite drv_of_set_same in Heq.
  split.
  - exists ops. split; [exact Hwf|]. rewrite <- Heq.
    destruct (deactivate true (drv_of w2 m)) as [dr3 wk]. exact (drv_of_set_same w2 m dr3).
  - intros m' Hne. destruct (deactivate true (drv_of w2 m)) as [dr3 wk].
    transitivity (drv_of (set_drv w2 m dr3) m'); [reflexivity|].
    rewrite (drv_of_set_other _ _ _ _ Hne), (H2 m' Hne). unfold w1. exact (drv_of_set_other _ _ _ _ Hne).
Qed.

(* hence every event of the composite re-establishes the wake-up invariant of its module *)
Corollary module_event_inv wfix t m spawn (fire : bool) w :
  Pre t (if fire then sched_fire t (drv_of w m) else drv_of w m) ->
  Inv t (drv_of (module_event wfix t m spawn fire w) m).
Proof.
  intros Hpre. destruct (module_event_is_driver_event wfix t m spawn fire w) as [(ops & Hwf & ->) _].
  apply event_body_inv; assumption.
Qed.
