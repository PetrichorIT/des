(* What is proved of the composite timer model over C01's event-set specification (Timer/E2E*.v)
   holds of the same model over the concrete calendar queue (Timer/ModelCq.v), for every
   parameterisation n, t >= 1 of the queue: corollaries of the simulation of Timer/OverCq.v. *)
From Coq Require Import List NArith PArith Bool Lia.
From DesVerif Require Import Common.Fuel CQueue.Model CQueue.Spec CQueue.Refine
  Timer.Driver Timer.Futures Timer.Model Timer.ModelCq Timer.OverCq Timer.EvSet Timer.Frag Timer.E2EInv Timer.E2EPoll Timer.E2ELoop Timer.E2EInit.
Import ListNotations.
Open Scope N_scope.

Lemma run_tasks_cq_of n t ts0 w : n <> 0 -> t <> 0 -> run_tasks true ts0 = (w, true) ->
  exists cw, run_tasks_cq true n t ts0 = (cw, true) /\ w_tasks (c_w cw) = w_tasks w.
Proof.
  intros Hn Ht Hrun. destruct (run_tasks_sim true n t ts0 Hn Ht) as [HRel Eok]. rewrite Hrun in HRel, Eok.
  destruct (run_tasks_cq true n t ts0) as [cw ok]. cbn [fst snd] in *. subst ok.
  exists cw. split; [reflexivity|exact (Rel_tasks _ _ HRel)].
Qed.

(* the whole proved fragment, with channels *)
Theorem composite_exact_cq n t ts0 : n <> 0 -> t <> 0 -> chan_ok ts0 ->
  exists cw, run_tasks_cq true n t ts0 = (cw, true) /\ Forall2 (done_exact (arrivals ts0)) ts0 (w_tasks (c_w cw)).
Proof.
  intros Hn Ht Hok. destruct (composite_exact ts0 Hok) as (w & Hrun & Hdone).
  destruct (run_tasks_cq_of n t ts0 w Hn Ht Hrun) as (cw & Hc & Et). exists cw. rewrite Et. exact (conj Hc Hdone).
Qed.

(* ... without channels *)
Theorem composite_sleep_exact_cq n t ts0 : n <> 0 -> t <> 0 -> Forall init_ok ts0 ->
  exists cw, run_tasks_cq true n t ts0 = (cw, true) /\
    Forall2 (fun tk0 tk => t_fin tk = true /\ t_log tk = expected (fun _ => noarr) tk0) ts0 (w_tasks (c_w cw)).
Proof.
  intros Hn Ht Hinit. destruct (composite_sleep_exact ts0 Hinit) as (w & Hrun & Hdone).
  destruct (run_tasks_cq_of n t ts0 w Hn Ht Hrun) as (cw & Hc & Et). exists cw. rewrite Et. exact (conj Hc Hdone).
Qed.

(* the state a run is in after k iterations of its main loop, ended or not *)
Definition state_of {X} (x : X + X) : X := match x with inl c => c | inr c => c end.

(* related states fetch the same event, so what event_woken_exact says of the one holds of the other *)
Lemma woken_exact_rel A0 ts0 w cw : Rel w cw -> WInvE A0 ts0 (fun _ => False) w ->
  forall q' pay te, fetch_next (c_q cw) = (q', OFetched pay te) ->
  forall m fire, ev_module pay (w_tasks (c_w cw)) m fire ->
  forall d es, In (d, es) (fst (activate te (if fire then sched_fire te (drv_of (c_w cw) m) else drv_of (c_w cw) m))) ->
               es <> [] -> d = te.
Proof.
  intros [(hs & HR) Ew] HW q' pay te Hf m fire Hev d es Hin Hne.
  pose proof (R_fetch _ _ _ HR) as HF. rewrite Hf in HF. destruct (sp_fetch (w_fes w)) as [f o'] eqn:Ef. destruct HF as [<- _].
  rewrite Ew in Hev, Hin. exact (event_woken_exact _ _ _ _ _ _ _ _ HW Ef Hev d es Hin Hne).
Qed.

(* in the run over the calendar queue, whenever the queue hands out the next event: the slots with
   timers that this event's activation pops from its module's driver have exactly the deadline t
   the event is stamped with *)
Theorem woken_exactly_at_deadline_cq n t ts0 : n <> 0 -> t <> 0 -> chan_ok ts0 -> forall k,
  let cw := state_of (iter_nat k (loop_step_cq true) (sim_start_cq true (init_world_cq n t ts0))) in
  forall q' pay te, fetch_next (c_q cw) = (q', OFetched pay te) ->
  forall m fire, ev_module pay (w_tasks (c_w cw)) m fire ->
  forall d es, In (d, es) (fst (activate te (if fire then sched_fire te (drv_of (c_w cw) m) else drv_of (c_w cw) m))) ->
               es <> [] -> d = te.
Proof.
  intros Hn Ht Hok k. cbn zeta.
  pose proof (iter_sim true k _ _ (sim_start_sim true _ _ (init_sim n t ts0 Hn Ht))) as HS.
  pose proof (iter_winv (arrivals ts0) ts0 k _ (sim_start_winv ts0 Hok)) as HW.
  destruct (iter_nat k (loop_step true) (sim_start true (init_world ts0))) as [w|w],
           (iter_nat k (loop_step_cq true) (sim_start_cq true (init_world_cq n t ts0))) as [cw|cw];
    cbn [RelS] in HS; try contradiction; cbn [state_of].
  - exact (woken_exact_rel _ _ _ _ HS HW).
  - exact (woken_exact_rel _ _ _ _ HS (proj1 HW)).
Qed.
