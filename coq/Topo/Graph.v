(* Vocabulary for the C19 statements: what a world's gate graph says (endpoint
   gates, far ends, module reachability), what an exact view of it is, and
   the graph notions of a topology object (steps, walks, reachability); plus
   the list lemmas about [position] and [mem] every other file needs. *)
From Coq Require Import List Arith Bool Lia Relations.
From DesVerif Require Import Common.Lists Topo.Model.
Import ListNotations.

(* ---- position / mem ---- *)
Lemma mem_true_iff x l : mem x l = true <-> In x l.
Proof. apply existsb_eqb. Qed.

Lemma mem_false_iff x l : mem x l = false <-> ~ In x l.
Proof. rewrite <- mem_true_iff. destruct (mem x l); intuition congruence. Qed.

Lemma in_snoc {A} (l : list A) x y : In y (l ++ [x]) <-> In y l \/ y = x.
Proof. rewrite in_app_iff. cbn [In]. intuition. Qed.

Lemma NoDup_bounded_length (l : list nat) n : NoDup l -> (forall x, In x l -> x < n) -> length l <= n.
Proof.
  intros ND Hb. rewrite <- (seq_length n 0). apply NoDup_incl_length; [exact ND|].
  intros x Hx. apply in_seq. specialize (Hb x Hx). lia.
Qed.

Lemma position_Some x l i : position x l = Some i -> nth_error l i = Some x.
Proof.
  revert i. induction l as [|y r IH]; intros i H; cbn [position] in H; [discriminate|].
  destruct (Nat.eqb_spec y x) as [E|N].
  - inversion H. subst. reflexivity.
  - destruct (position x r) as [j|]; [|discriminate]. inversion H. subst. cbn [nth_error]. apply IH. reflexivity.
Qed.

Lemma position_first x l i : position x l = Some i -> forall j, j < i -> nth_error l j <> Some x.
Proof.
  revert i. induction l as [|y r IH]; intros i H j Hj; cbn [position] in H; [discriminate|].
  destruct (Nat.eqb_spec y x) as [E|N].
  - inversion H. subst. lia.
  - destruct (position x r) as [k|] eqn:P; [|discriminate]. inversion H. subst.
    destruct j as [|j]; cbn [nth_error].
    + intro E. inversion E. contradiction.
    + apply (IH k eq_refl). lia.
Qed.

Lemma position_In x l : In x l -> exists i, position x l = Some i.
Proof.
  induction l as [|y r IH]; intros H; [destruct H|]. cbn [position].
  destruct (Nat.eqb_spec y x) as [E|N]; [exists 0; reflexivity|].
  destruct H as [E|H]; [contradiction|]. destruct (IH H) as [i Hi]. rewrite Hi. exists (S i). reflexivity.
Qed.

Lemma position_None x l : position x l = None <-> ~ In x l.
Proof.
  split.
  - intros P H. destruct (position_In x l H) as [i Hi]. congruence.
  - intros H. destruct (position x l) as [i|] eqn:P; [|reflexivity].
    exfalso. apply H. eapply nth_error_In. apply position_Some. exact P.
Qed.

Lemma position_lt x l i : position x l = Some i -> i < length l.
Proof. intros H. apply position_Some in H. apply nth_error_Some. rewrite H. discriminate. Qed.

Lemma NoDup_nth_error_inj {A} (l : list A) i j x :
  NoDup l -> nth_error l i = Some x -> nth_error l j = Some x -> i = j.
Proof.
  intros ND Hi Hj. apply (proj1 (NoDup_nth_error l) ND).
  - apply nth_error_Some. rewrite Hi. discriminate.
  - rewrite Hi, Hj. reflexivity.
Qed.

Lemma position_NoDup x l i : NoDup l -> nth_error l i = Some x -> position x l = Some i.
Proof.
  intros ND H. destruct (position_In x l) as [j Hj]; [eapply nth_error_In; exact H|].
  rewrite Hj. f_equal. eapply NoDup_nth_error_inj; [exact ND| |exact H]. apply position_Some. exact Hj.
Qed.

Lemma position_app x l1 l2 :
  position x (l1 ++ l2) = match position x l1 with
                          | Some i => Some i
                          | None => match position x l2 with Some j => Some (length l1 + j) | None => None end
                          end.
Proof.
  induction l1 as [|y r IH]; cbn [app position length Nat.add].
  - destruct (position x l2); reflexivity.
  - destruct (y =? x); [reflexivity|]. rewrite IH.
    destruct (position x r); [reflexivity|]. destruct (position x l2); reflexivity.
Qed.

Lemma position_seq n m : m < n -> position m (seq 0 n) = Some m.
Proof.
  intros H. apply position_NoDup; [apply seq_NoDup|].
  rewrite nth_error_nth' with (d := 0); [|rewrite seq_length; exact H]. rewrite seq_nth; [reflexivity|exact H].
Qed.

(* ---- the gate graph of a world ---- *)
(* endpoint gates of module m in gate order, each with its chain *)
Fixpoint endpoints_from (m gi : nat) (gs : list gate) : list (gref * list gref) :=
  match gs with
  | [] => []
  | Endpoint c :: r => ((m, gi), c) :: endpoints_from m (S gi) r
  | _ :: r => endpoints_from m (S gi) r
  end.
Definition endpoints (w : world) (m : nat) : list (gref * list gref) := endpoints_from m 0 (gates_of w m).

(* the other end of the chain that starts at endpoint gate g with chain c *)
Definition far_end (g : gref) (c : list gref) : gref := last c g.

Lemma endpoints_from_In m gi gs g c :
  In (g, c) (endpoints_from m gi gs) <-> exists k, g = (m, gi + k) /\ nth_error gs k = Some (Endpoint c).
Proof.
  revert gi. induction gs as [|x r IH]; intros gi; cbn [endpoints_from].
  - split; [intros []|]. intros [k [_ H]]. destruct k; discriminate.
  - assert (R : In (g, c) (endpoints_from m (S gi) r) <->
                exists k, g = (m, gi + S k) /\ nth_error (x :: r) (S k) = Some (Endpoint c)).
    { rewrite IH. split; intros [k [E H]]; exists k; (split; [rewrite E, ?Nat.add_succ_r; reflexivity|exact H]). }
    destruct x as [| |c'].
    + rewrite R. split; intros [k [E H]]; [exists (S k); split; assumption|].
      destruct k as [|k]; [discriminate|]. exists k. split; assumption.
    + rewrite R. split; intros [k [E H]]; [exists (S k); split; assumption|].
      destruct k as [|k]; [discriminate|]. exists k. split; assumption.
    + cbn [In]. rewrite R. split.
      * intros [E|[k [E H]]]; [|exists (S k); split; assumption].
        inversion E. subst. exists 0. rewrite Nat.add_0_r. split; reflexivity.
      * intros [k [E H]]. destruct k as [|k]; [|right; exists k; split; assumption].
        left. cbn [nth_error] in H. inversion H. subst. rewrite Nat.add_0_r. reflexivity.
Qed.

Lemma endpoints_In w m g c :
  In (g, c) (endpoints w m) <-> exists gi, g = (m, gi) /\ nth_error (gates_of w m) gi = Some (Endpoint c).
Proof. unfold endpoints. rewrite endpoints_from_In. cbn [Nat.add]. tauto. Qed.

Lemma endpoints_from_starts_lt m gi gs g c : In (g, c) (endpoints_from m gi gs) -> fst g = m /\ gi <= snd g.
Proof. rewrite endpoints_from_In. intros [k [E _]]. subst. cbn [fst snd]. split; [reflexivity|lia]. Qed.

Lemma endpoints_from_NoDup m gi gs : NoDup (map fst (endpoints_from m gi gs)).
Proof.
  revert gi. induction gs as [|x r IH]; intros gi; cbn [endpoints_from map]; [constructor|].
  destruct x as [| |c]; try apply IH. cbn [map fst]. constructor; [|apply IH].
  intros H. apply in_map_iff in H. destruct H as [[g c'] [E H]]. cbn [fst] in E. subst g.
  apply endpoints_from_starts_lt in H. cbn [snd] in H. lia.
Qed.

Lemma endpoints_NoDup w m : NoDup (map fst (endpoints w m)).
Proof. apply endpoints_from_NoDup. Qed.

(* worlds the theorems are about: chains within the supported number of hops,
   and the far end of every chain is a gate of a module of the world *)
Definition short (w : world) : Prop :=
  forall m g c, In (g, c) (endpoints w m) -> length c <= MAX_HOPS.
Definition closed (w : world) : Prop :=
  forall m g c, In (g, c) (endpoints w m) -> fst (far_end g c) < length w.

(* module m' is the owner of the far end of a chain starting at a gate of m *)
Definition madj (w : world) (m m' : nat) : Prop :=
  exists g c, In (g, c) (endpoints w m) /\ fst (far_end g c) = m'.
Definition mreach (w : world) : nat -> nat -> Prop := clos_refl_trans_1n nat (madj w).

(* ---- exact views ---- *)
(* the edge a view must contain for endpoint gate g with chain c *)
Definition expected_edge (nds : list nat) (gc : gref * list gref) (e : edge) : Prop :=
  e_start e = fst gc /\ e_stop e = far_end (fst gc) (snd gc) /\
  nth_error nds (e_dst e) = Some (fst (far_end (fst gc) (snd gc))).

(* t is an exact view of the gate graph of w restricted to its node set:
   every module at most once; node i carries, in gate order, exactly one edge
   per endpoint gate of its module (whose far owner is [sel]ected), labelled
   with that gate and the far gate and leading to the node of the far owner *)
Definition exact_view_on (sel : gref * list gref -> bool) (w : world) (t : topo) : Prop :=
  NoDup (nodes t) /\ length (edges t) = length (nodes t) /\
  forall i m, nth_error (nodes t) i = Some m ->
              Forall2 (expected_edge (nodes t)) (filter sel (endpoints w m)) (bundle t i).
Definition exact_view : world -> topo -> Prop := exact_view_on (fun _ => true).

(* ---- graph notions of a topology object ---- *)
Definition topo_ok (t : topo) : Prop :=
  length (edges t) = length (nodes t) /\ forall i e, In e (bundle t i) -> e_dst e < length (nodes t).

Inductive walk (t : topo) : nat -> list edge -> nat -> Prop :=
| walk_nil u : walk t u [] u
| walk_cons u e p v : In e (bundle t u) -> walk t (e_dst e) p v -> walk t u (e :: p) v.

Definition treach (t : topo) (u v : nat) : Prop := exists p, walk t u p v.

Lemma walk_app t u p v q x : walk t u p v -> walk t v q x -> walk t u (p ++ q) x.
Proof. induction 1 as [u|u e p v Hin _ IH]; intros Hq; cbn [app]; [exact Hq|]. constructor; [exact Hin|apply IH; exact Hq]. Qed.

Lemma walk_snoc t u p v e : walk t u p v -> In e (bundle t v) -> walk t u (p ++ [e]) (e_dst e).
Proof. intros Hp He. eapply walk_app; [exact Hp|]. constructor; [exact He|constructor]. Qed.

Lemma treach_refl t u : treach t u u.
Proof. exists []. constructor. Qed.

Lemma treach_step t u e v : In e (bundle t u) -> treach t (e_dst e) v -> treach t u v.
Proof. intros He [p Hp]. exists (e :: p). constructor; assumption. Qed.

Lemma treach_trans t u v x : treach t u v -> treach t v x -> treach t u x.
Proof. intros [p Hp] [q Hq]. exists (p ++ q). eapply walk_app; eassumption. Qed.

Lemma bundle_In_lt t i e : In e (bundle t i) -> i < length (edges t).
Proof.
  unfold bundle. intros H. destruct (Nat.lt_ge_cases i (length (edges t))) as [L|G]; [exact L|].
  rewrite nth_overflow in H; [destruct H|exact G].
Qed.

Lemma walk_lt t u p v : topo_ok t -> u < length (nodes t) -> walk t u p v -> v < length (nodes t).
Proof. intros [_ Hd] Hu W. induction W as [u|u e p v Hin _ IH]; [exact Hu|]. apply IH. eapply Hd. exact Hin. Qed.

Lemma closed_walk t (vis : list nat) :
  (forall x, In x vis -> forall e, In e (bundle t x) -> In (e_dst e) vis) ->
  forall u p v, walk t u p v -> In u vis -> In v vis.
Proof.
  intros Hc u p v W. induction W as [u|u e p v He _ IH]; intros Hu; [exact Hu|].
  apply IH. eapply Hc; eassumption.
Qed.

Lemma Forall2_In_r {A B} (R : A -> B -> Prop) l1 l2 b :
  Forall2 R l1 l2 -> In b l2 -> exists a, In a l1 /\ R a b.
Proof.
  induction 1 as [|x y l1 l2 Hxy _ IH]; intros Hin; [destruct Hin|].
  destruct Hin as [E|Hin].
  - subst. exists x. split; [left; reflexivity|exact Hxy].
  - destruct (IH Hin) as [a [Ha Hr]]. exists a. split; [right; exact Ha|exact Hr].
Qed.

Lemma Forall2_In_l {A B} (R : A -> B -> Prop) l1 l2 a :
  Forall2 R l1 l2 -> In a l1 -> exists b, In b l2 /\ R a b.
Proof.
  induction 1 as [|x y l1 l2 Hxy _ IH]; intros Hin; [destruct Hin|].
  destruct Hin as [E|Hin].
  - subst. exists y. split; [left; reflexivity|exact Hxy].
  - destruct (IH Hin) as [b [Hb Hr]]. exists b. split; [right; exact Hb|exact Hr].
Qed.

Lemma exact_view_edge sel w t i e :
  exact_view_on sel w t -> In e (bundle t i) -> nth_error (nodes t) (e_dst e) = Some (fst (e_stop e)).
Proof.
  intros [_ [Hl Hb]] Hin.
  assert (Hi : i < length (nodes t)) by (rewrite <- Hl; eapply bundle_In_lt; exact Hin).
  destruct (nth_error (nodes t) i) as [m|] eqn:Hm; [|apply nth_error_None in Hm; lia].
  destruct (Forall2_In_r _ _ _ _ (Hb i m Hm) Hin) as [gc [_ [_ [Hs Hd]]]]. rewrite Hs. exact Hd.
Qed.

Lemma exact_view_on_ok sel w t : exact_view_on sel w t -> topo_ok t.
Proof.
  intros Hv. split; [exact (proj1 (proj2 Hv))|]. intros i e Hin.
  apply nth_error_Some. rewrite (exact_view_edge sel w t i e Hv Hin). discriminate.
Qed.
