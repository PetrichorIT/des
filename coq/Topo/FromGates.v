(* from_modules / Globals::topology produce exact views (C19, first clause): the bundle of a module
   is in Forall2 with its endpoint gates, those filtered by [sel_in] for a selection. *)
From Coq Require Import List Arith Bool Lia.
From DesVerif Require Import Common.Lists Topo.Model Topo.Graph.
Import ListNotations.

(* the far owner of an endpoint is among the modules considered *)
Definition sel_in (ms : list nat) (gc : gref * list gref) : bool :=
  mem (fst (far_end (fst gc) (snd gc))) ms.

Lemma fm_gates_spec ms m gi gs :
  (forall g c, In (g, c) (endpoints_from m gi gs) -> length c <= MAX_HOPS) ->
  Forall2 (expected_edge ms) (filter (sel_in ms) (endpoints_from m gi gs)) (fm_gates ms m gi gs).
Proof.
  revert gi. induction gs as [|x r IH]; intros gi Hs; cbn [endpoints_from fm_gates filter]; [constructor|].
  destruct x as [| |c]; try (apply IH; exact Hs).
  assert (Hr : forall g c', In (g, c') (endpoints_from m (S gi) r) -> length c' <= MAX_HOPS).
  { intros g c' H. apply (Hs g c'). cbn [endpoints_from]. right. exact H. }
  assert (Hc : length c <= MAX_HOPS) by (apply (Hs (m, gi) c); cbn [endpoints_from]; left; reflexivity).
  rewrite (firstn_all2 c Hc). cbn [filter]. unfold sel_in at 1. cbn [fst snd]. unfold far_end at 1.
  destruct (position (fst (last c (m, gi))) ms) as [d|] eqn:P.
  - assert (M : mem (fst (last c (m, gi))) ms = true).
    { apply mem_true_iff. eapply nth_error_In. apply position_Some. exact P. }
    rewrite M. constructor; [|apply IH; exact Hr].
    unfold expected_edge, far_end. cbn [e_start e_stop e_dst fst snd].
    split; [reflexivity|]. split; [reflexivity|]. apply position_Some. exact P.
  - assert (M : mem (fst (last c (m, gi))) ms = false).
    { apply mem_false_iff. apply position_None. exact P. }
    rewrite M. apply IH. exact Hr.
Qed.

Lemma bundle_from_modules w ms i m :
  nth_error ms i = Some m -> bundle (from_modules w ms) i = fm_gates ms m 0 (gates_of w m).
Proof.
  intros H. unfold bundle, from_modules. cbn [edges].
  apply nth_error_nth. apply (map_nth_error (fun m0 => fm_gates ms m0 0 (gates_of w m0))). exact H.
Qed.

(* any duplicate-free list of modules: one node per module, one edge per
   endpoint gate whose chain ends at one of these modules *)
Lemma from_modules_exact w ms :
  short w -> NoDup ms -> exact_view_on (sel_in ms) w (from_modules w ms).
Proof.
  intros Hs ND. split; [exact ND|]. split; [unfold from_modules; cbn [edges nodes]; apply map_length|].
  intros i m Hm. rewrite (bundle_from_modules w ms i m Hm). cbn [nodes from_modules].
  apply fm_gates_spec. intros g c H. eapply Hs. exact H.
Qed.

Lemma exact_view_on_all sel w t :
  exact_view_on sel w t ->
  (forall m gc, In m (nodes t) -> In gc (endpoints w m) -> sel gc = true) ->
  exact_view w t.
Proof.
  intros [ND [Hl Hb]] Hall. split; [exact ND|]. split; [exact Hl|]. intros i m Hm.
  specialize (Hb i m Hm).
  rewrite filter_all in Hb; [|intros gc Hgc; eapply Hall; [eapply nth_error_In; exact Hm|exact Hgc]].
  rewrite filter_all; [exact Hb|reflexivity].
Qed.

(* the global view: all modules in module order, every endpoint gate of every module *)
Theorem global_view_exact w :
  short w -> closed w ->
  nodes (global_topology w) = seq 0 (length w) /\ exact_view w (global_topology w).
Proof.
  intros Hs Hc. split; [reflexivity|].
  apply exact_view_on_all with (sel := sel_in (seq 0 (length w))).
  - apply from_modules_exact; [exact Hs|apply seq_NoDup].
  - intros m [g c] _ Hgc. unfold sel_in. cbn [fst snd]. apply mem_true_iff. apply in_seq.
    specialize (Hc m g c Hgc). lia.
Qed.
