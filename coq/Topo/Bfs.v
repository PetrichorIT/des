(* dijkstra is a breadth-first search: for every reachable node it records the
   first edge of a minimum-hop path (C19, last clause).

   The work list is FIFO and entries are deleted lazily (a popped node that is
   already visited is skipped).  Invariant: the distances in the work list are
   k..k,k+1..k+1 ("layered"), every entry is witnessed by a walk of that length
   whose first edge it carries, and every edge out of a visited node leads to
   a visited node or to a work-list entry at most one hop further.  When an
   unvisited node is popped, any shorter walk to it would have to leave the
   visited set through such an edge, whose entry cannot be behind the head. *)
From Coq Require Import List Arith Bool Lia.
From DesVerif Require Import Common.Lists Topo.Model Topo.Graph.
Import ListNotations.

Lemma map_nth_seq {A} (d : A) : forall l, map (fun i => nth i l d) (seq 0 (length l)) = l.
Proof.
  induction l as [|x r IH]; [reflexivity|].
  cbn [length seq map nth]. f_equal. rewrite <- seq_shift, map_map. exact IH.
Qed.

Lemma filter_len_le {A} (f : A -> bool) l : length (filter f l) <= length l.
Proof. induction l as [|x r IH]; cbn [filter length]; [lia|]. destruct (f x); cbn [length]; lia. Qed.

Lemma mem_app_snoc x V c : mem x (V ++ [c]) = mem x V || (x =? c).
Proof. unfold mem. rewrite existsb_app. cbn [existsb]. rewrite orb_false_r. reflexivity. Qed.

Section Bfs.
Variable t : topo.
Hypothesis Hok : topo_ok t.
Hypothesis Hnd : NoDup (nodes t).
Variable s : nat.
Hypothesis Hs : s < length (nodes t).

Definition key (v : nat) : nat := nth v (nodes t) 0.

Lemma key_inj u v : u < length (nodes t) -> v < length (nodes t) -> key u = key v -> u = v.
Proof. intros Hu Hv E. apply (proj1 (NoDup_nth (nodes t) 0) Hnd); assumption. Qed.

Definition src_el : qel := {| q_idx := s; q_dist := 0; q_next := None |}.
Definition first_of (p : list edge) : option hop := match p with [] => None | e :: _ => Some (s, e) end.

(* a work-list entry is witnessed by a walk from the source *)
Definition qel_ok (x : qel) : Prop :=
  exists p, walk t s p (q_idx x) /\ length p = q_dist x /\ q_next x = first_of p.

(* k is the minimum number of hops from the source to v *)
Definition mind (v k : nat) : Prop :=
  (exists p, walk t s p v /\ length p = k) /\ forall q, walk t s q v -> k <= length q.

Definition layered (Q : list qel) : Prop :=
  exists k A B, Q = A ++ B /\ (forall x, In x A -> q_dist x = k) /\ (forall x, In x B -> q_dist x = S k).

(* a visited node v: k is its minimum distance; nothing in the work list is nearer than k; every edge
   out of v leads to a visited node or to a work-list entry at most one hop further; the map holds
   nothing for the source and, for any other v, the first edge of a k-hop walk *)
Definition vis_ok (V : list nat) (Q : list qel) (M : list (nat * hop)) (v : nat) : Prop :=
  exists k, mind v k /\ (forall y, In y Q -> k <= q_dist y) /\
    (forall e, In e (bundle t v) ->
               In (e_dst e) V \/ exists y, In y Q /\ q_idx y = e_dst e /\ q_dist y <= S k) /\
    ((v = s /\ lookup (key v) M = None) \/
     (v <> s /\ exists e p, lookup (key v) M = Some (s, e) /\ walk t s (e :: p) v /\ length (e :: p) = k)).

Definition inv (V : list nat) (Q : list qel) (M : list (nat * hop)) : Prop :=
  NoDup V /\ (forall v, In v V -> v < length (nodes t)) /\
  Forall qel_ok Q /\ layered Q /\
  (forall v, In v V -> vis_ok V Q M v) /\
  (forall k h, lookup k M = Some h -> exists v, In v V /\ key v = k) /\
  ((V = [] /\ Q = [src_el] /\ M = []) \/ In s V).

Lemma walk_nil_inv u v : walk t u [] v -> u = v.
Proof. intros W. inversion W. reflexivity. Qed.

Lemma layered_cons cur q : layered (cur :: q) ->
  exists A B, q = A ++ B /\ (forall x, In x A -> q_dist x = q_dist cur) /\ (forall x, In x B -> q_dist x = S (q_dist cur)).
Proof.
  intros [k [A [B [E [HA HB]]]]]. destruct A as [|a A'].
  - cbn [app] in E. subst B. exists q, []. split; [rewrite app_nil_r; reflexivity|].
    split; [|intros x []]. intros x Hx. rewrite (HB cur (or_introl eq_refl)). apply HB. right. exact Hx.
  - cbn [app] in E. injection E as <- ->. rewrite (HA cur (or_introl eq_refl)). exists A', B. split; [reflexivity|].
    split; [|exact HB]. intros x Hx. apply HA. right. exact Hx.
Qed.

Lemma head_min cur q : layered (cur :: q) -> forall y, In y (cur :: q) -> q_dist cur <= q_dist y.
Proof.
  intros HL y [<-|Hy]; [apply le_n|]. destruct (layered_cons cur q HL) as [A [B [-> [HA HB]]]].
  apply in_app_or in Hy. destruct Hy as [Hy|Hy]; [rewrite (HA y Hy); apply le_n|rewrite (HB y Hy); apply le_S, le_n].
Qed.

Lemma layered_tail cur q : layered (cur :: q) -> layered q.
Proof. intros HL. destruct (layered_cons cur q HL) as [A [B H]]. exists (q_dist cur), A, B. exact H. Qed.

Lemma layered_push cur q new :
  layered (cur :: q) -> (forall x, In x new -> q_dist x = S (q_dist cur)) -> layered (q ++ new).
Proof.
  intros HL Hn. destruct (layered_cons cur q HL) as [A [B [-> [HA HB]]]].
  exists (q_dist cur), A, (B ++ new). split; [rewrite app_assoc; reflexivity|]. split; [exact HA|].
  intros x Hx. apply in_app_or in Hx. destruct Hx as [Hx|Hx]; [apply HB|apply Hn]; exact Hx.
Qed.

(* a walk that starts inside V and ends outside leaves V through some edge *)
Lemma frontier V : forall u q v, walk t u q v -> In u V -> ~ In v V ->
  exists q1 w e q2, q = q1 ++ e :: q2 /\ walk t u q1 w /\ In w V /\ In e (bundle t w) /\ ~ In (e_dst e) V.
Proof.
  intros u q v W. induction W as [u|u e p v He W IH]; intros Hu Hv; [contradiction|].
  destruct (in_dec Nat.eq_dec (e_dst e) V) as [I|N].
  - destruct (IH I Hv) as [q1 [w [e' [q2 [E [W1 H]]]]]].
    exists (e :: q1), w, e', q2. split; [rewrite E; reflexivity|]. split; [constructor; assumption|exact H].
  - exists [], u, e, p. split; [reflexivity|]. split; [constructor|]. repeat split; assumption.
Qed.

Lemma vis_ok_pop V cur q M V' new M' v :
  vis_ok V (cur :: q) M v -> incl V V' -> In (q_idx cur) V' ->
  (forall y, In y new -> q_dist cur <= q_dist y) ->
  lookup (key v) M' = lookup (key v) M ->
  vis_ok V' (q ++ new) M' v.
Proof.
  intros [k [Hm [Hle [He HM]]]] HV Hc Hn HL. exists k. split; [exact Hm|]. split; [|split; [|rewrite HL; exact HM]].
  - intros y Hy. apply in_app_or in Hy. destruct Hy as [Hy|Hy]; [apply Hle; right; exact Hy|].
    eapply Nat.le_trans; [apply Hle; left; reflexivity|apply Hn; exact Hy].
  - intros e Hin. destruct (He e Hin) as [I|[y [[<-|Hy] Hyd]]].
    + left. apply HV. exact I.
    + left. rewrite <- (proj1 Hyd). exact Hc.
    + right. exists y. split; [apply in_or_app; left; exact Hy|exact Hyd].
Qed.

Lemma cur_lt V cur q M : inv V (cur :: q) M -> q_idx cur < length (nodes t).
Proof.
  intros [_ [_ [HQ _]]]. inversion HQ as [|x l [p [Wp _]] _]. eapply walk_lt; [exact Hok|exact Hs|exact Wp].
Qed.

(* ---- pop of an entry whose node is visited already ---- *)
Lemma inv_skip V cur q M : inv V (cur :: q) M -> In (q_idx cur) V -> inv V q M.
Proof.
  intros [ND [Hb [HQ [HL [HV [HK Hi]]]]]] Hc.
  split; [exact ND|]. split; [exact Hb|]. split; [inversion HQ; assumption|]. split; [eapply layered_tail; exact HL|].
  split; [|split; [exact HK|]].
  - intros v Hv. rewrite <- (app_nil_r q).
    apply (vis_ok_pop V cur q M); [apply HV; exact Hv|apply incl_refl|exact Hc|intros y []|reflexivity].
  - destruct Hi as [[E _]|I]; [subst V; destruct Hc|right; exact I].
Qed.

(* ---- pop of an entry whose node is not visited yet ---- *)
Lemma pop_min V cur q M :
  inv V (cur :: q) M -> ~ In (q_idx cur) V -> mind (q_idx cur) (q_dist cur).
Proof.
  intros [ND [Hb [HQ [HL [HV [HK Hi]]]]]] Hc.
  assert (Hcur : qel_ok cur) by (inversion HQ; assumption).
  destruct Hcur as [p [Wp [Lp Np]]]. split; [exists p; split; assumption|]. intros r Wr.
  destruct Hi as [[EV [EQ EM]]|Is].
  - inversion EQ. subst cur. unfold src_el. cbn [q_dist]. lia.
  - destruct (frontier V _ _ _ Wr Is Hc) as [q1 [w [e [q2 [E [W1 [Hw [He Hn]]]]]]]].
    destruct (HV w Hw) as [kw [[_ Hmin] [_ [Hedge _]]]].
    destruct (Hedge e He) as [I|[y [Hy [Hyi Hyd]]]]; [contradiction|].
    pose proof (head_min cur q HL y Hy) as H1. pose proof (Hmin q1 W1) as H2.
    rewrite E, app_length. cbn [length]. lia.
Qed.

Lemma succ_In V' cur es y :
  In y (dj_succ V' cur es) <->
  exists e, In e es /\ ~ In (e_dst e) V' /\
            y = {| q_idx := e_dst e; q_dist := S (q_dist cur);
                   q_next := Some (match q_next cur with Some h => h | None => (q_idx cur, e) end) |}.
Proof.
  unfold dj_succ. rewrite in_map_iff. split.
  - intros [e [E H]]. apply filter_In in H. destruct H as [H1 H2]. exists e. split; [exact H1|].
    split; [|symmetry; exact E]. apply mem_false_iff. destruct (mem (e_dst e) V'); [discriminate|reflexivity].
  - intros [e [H1 [H2 E]]]. exists e. split; [symmetry; exact E|]. apply filter_In. split; [exact H1|].
    apply mem_false_iff in H2. rewrite H2. reflexivity.
Qed.

Lemma succ_dist V' cur es y : In y (dj_succ V' cur es) -> q_dist y = S (q_dist cur).
Proof. intros Hy. apply succ_In in Hy. destruct Hy as [e [_ [_ ->]]]. reflexivity. Qed.

Lemma succ_covers V' cur es e : In e es ->
  In (e_dst e) V' \/ exists y, In y (dj_succ V' cur es) /\ q_idx y = e_dst e /\ q_dist y <= S (q_dist cur).
Proof.
  intros He. destruct (in_dec Nat.eq_dec (e_dst e) V') as [I|N]; [left; exact I|right].
  eexists. split; [apply succ_In; exists e; split; [exact He|split; [exact N|reflexivity]]|].
  split; [reflexivity|apply le_n].
Qed.

Lemma succ_ok V' cur : qel_ok cur -> Forall qel_ok (dj_succ V' cur (bundle t (q_idx cur))).
Proof.
  intros [p [Wp [Lp Np]]]. apply Forall_forall. intros y Hy.
  apply succ_In in Hy. destruct Hy as [e [He [_ ->]]]. exists (p ++ [e]). cbn [q_idx q_dist q_next].
  split; [eapply walk_snoc; [exact Wp|exact He]|]. split; [rewrite app_length, Lp; apply Nat.add_1_r|].
  rewrite Np. destruct p as [|e0 p']; cbn [first_of app]; [|reflexivity].
  apply walk_nil_inv in Wp. rewrite <- Wp. reflexivity.
Qed.

(* `mapping.insert` of the popped entry's first hop, if it has one *)
Definition ins (k : nat) (o : option hop) (M : list (nat * hop)) : list (nat * hop) :=
  match o with Some h => (k, h) :: M | None => M end.

Lemma lookup_ins_same k o M : lookup k M = None -> lookup k (ins k o M) = o.
Proof. intros H. destruct o; cbn [ins lookup]; [rewrite Nat.eqb_refl; reflexivity|exact H]. Qed.

Lemma lookup_ins_other k k' o M : k <> k' -> lookup k' (ins k o M) = lookup k' M.
Proof. intros N. destruct o; cbn [ins lookup]; [|reflexivity]. apply Nat.eqb_neq in N. rewrite N. reflexivity. Qed.

(* the last clause of vis_ok, for a node whose map entry is the first edge of a minimal walk *)
Lemma first_hop_ok c p M : walk t s p c -> mind c (length p) -> lookup (key c) M = first_of p ->
  (c = s /\ lookup (key c) M = None) \/
  (c <> s /\ exists e p', lookup (key c) M = Some (s, e) /\ walk t s (e :: p') c /\ length (e :: p') = length p).
Proof.
  intros W [_ Hm] L. destruct p as [|e p'].
  - left. apply walk_nil_inv in W. split; [symmetry; exact W|exact L].
  - right. split; [|exists e, p'; repeat split; assumption].
    intros ->. exact (Nat.nle_succ_0 _ (Hm [] (walk_nil t s))).
Qed.

Lemma inv_visit V cur q M :
  inv V (cur :: q) M -> ~ In (q_idx cur) V ->
  inv (V ++ [q_idx cur])
      (q ++ dj_succ (V ++ [q_idx cur]) cur (bundle t (q_idx cur)))
      (ins (key (q_idx cur)) (q_next cur) M).
Proof.
  intros Hinv Hc. pose proof (pop_min V cur q M Hinv Hc) as Hmin. pose proof (cur_lt V cur q M Hinv) as Hcn.
  destruct Hinv as [ND [Hb [HQ [HL [HV [HK Hi]]]]]].
  apply Forall_cons_iff in HQ. destruct HQ as [Hcur HQ].
  set (c := q_idx cur) in *. set (new := dj_succ (V ++ [c]) cur (bundle t c)).
  assert (Hfresh : forall v, In v V -> key c <> key v).
  { intros v Hv E. apply key_inj in E; [subst v; contradiction|exact Hcn|apply Hb; exact Hv]. }
  assert (HnoM : lookup (key c) M = None).
  { destruct (lookup (key c) M) as [h|] eqn:L; [|reflexivity]. destruct (HK _ _ L) as [v [Hv Ev]].
    destruct (Hfresh v Hv). symmetry. exact Ev. }
  split; [apply NoDup_app_snoc; assumption|].
  split; [intros v Hv; apply in_snoc in Hv; destruct Hv as [Hv| ->]; [apply Hb; exact Hv|exact Hcn]|].
  split; [apply Forall_app; split; [exact HQ|apply succ_ok; exact Hcur]|].
  split; [apply (layered_push cur q new HL); apply succ_dist|].
  split; [|split].
  - intros v Hv. apply in_snoc in Hv. destruct Hv as [Hv| ->].
    + apply (vis_ok_pop V cur q M); [apply HV; exact Hv|apply incl_appl, incl_refl|apply in_snoc; right; reflexivity| |].
      * intros y Hy. rewrite (succ_dist _ _ _ _ Hy). apply Nat.le_succ_diag_r.
      * apply lookup_ins_other, Hfresh, Hv.
    + destruct Hcur as [p [Wp [Lp Np]]]. exists (q_dist cur). split; [exact Hmin|]. split; [|split].
      * intros y Hy. apply in_app_or in Hy. destruct Hy as [Hy|Hy].
        -- apply (head_min cur q HL). right. exact Hy.
        -- rewrite (succ_dist _ _ _ _ Hy). apply Nat.le_succ_diag_r.
      * intros e He. destruct (succ_covers (V ++ [c]) cur _ e He) as [I|[y [Hy Hd]]]; [left; exact I|].
        right. exists y. split; [apply in_or_app; right; exact Hy|exact Hd].
      * rewrite <- Lp in Hmin |- *. apply (first_hop_ok c p); [exact Wp|exact Hmin|].
        rewrite <- Np. apply lookup_ins_same, HnoM.
  - intros k h L. destruct (Nat.eq_dec (key c) k) as [E|N].
    + exists c. split; [apply in_snoc; right; reflexivity|exact E].
    + rewrite (lookup_ins_other _ _ _ _ N) in L. destruct (HK _ _ L) as [v [Hv Ev]].
      exists v. split; [apply in_snoc; left; exact Hv|exact Ev].
  - right. apply in_snoc. destruct Hi as [[_ [EQ _]]|I]; [right|left; exact I].
    injection EQ as -> _. reflexivity.
Qed.

(* ---- termination: each pop either shortens the work list or uses up the edges of a fresh node ---- *)
Definition deg_sum (l : list nat) : nat := length (concat (map (bundle t) l)).
Definition unv (V : list nat) : list nat := filter (fun w => negb (mem w V)) (seq 0 (length (nodes t))).
Definition mu (V : list nat) (Q : list qel) : nat := length Q + deg_sum (unv V).

Lemma deg_sum_cons x l : deg_sum (x :: l) = length (bundle t x) + deg_sum l.
Proof. unfold deg_sum. cbn [map concat]. apply app_length. Qed.

Lemma unv_same V c l : ~ In c l ->
  filter (fun w => negb (mem w (V ++ [c]))) l = filter (fun w => negb (mem w V)) l.
Proof.
  intros H. apply filter_ext_in. intros x Hx. rewrite mem_app_snoc.
  destruct (Nat.eqb_spec x c) as [E|N]; [subst; contradiction|]. rewrite orb_false_r. reflexivity.
Qed.

Lemma unv_step V c : ~ In c V -> forall l, NoDup l -> In c l ->
  deg_sum (filter (fun w => negb (mem w (V ++ [c]))) l) + length (bundle t c)
  = deg_sum (filter (fun w => negb (mem w V)) l).
Proof.
  intros Hc. induction l as [|x r IH]; intros ND Hin; [destruct Hin|].
  inversion ND as [|x' r' Hx ND']. subst. cbn [filter]. rewrite mem_app_snoc.
  destruct (Nat.eqb_spec x c) as [E|N].
  - subst x. rewrite orb_true_r. cbn [negb]. apply mem_false_iff in Hc. rewrite Hc. cbn [negb].
    rewrite deg_sum_cons, (unv_same V c r Hx). lia.
  - rewrite orb_false_r. destruct Hin as [E|Hin]; [congruence|]. specialize (IH ND' Hin).
    destruct (negb (mem x V)); [rewrite !deg_sum_cons; lia|exact IH].
Qed.

Lemma mu_init : mu [] [src_el] < dj_fuel t.
Proof.
  unfold mu, dj_fuel, unv, deg_sum. cbn [length].
  rewrite filter_all by (intros x _; reflexivity).
  destruct Hok as [Hl _]. rewrite <- Hl. unfold bundle. rewrite (map_nth_seq (@nil edge) (edges t)). lia.
Qed.

Lemma dj_loop_total : forall fuel V Q M,
  inv V Q M -> mu V Q < fuel ->
  exists M' V', dj_loop fuel t V Q M = Some M' /\ inv V' [] M'.
Proof.
  induction fuel as [|f IH]; intros V Q M Hinv Hmu; [lia|].
  destruct Q as [|cur q]; cbn [dj_loop]; [exists M, V; split; [reflexivity|exact Hinv]|].
  destruct (mem (q_idx cur) V) eqn:Mc.
  - apply mem_true_iff in Mc. apply IH; [eapply inv_skip; eassumption|]. unfold mu in *. cbn [length] in Hmu. lia.
  - apply mem_false_iff in Mc. apply IH; [apply inv_visit; assumption|].
    pose proof (cur_lt V cur q M Hinv) as Hcn.
    pose proof (unv_step V (q_idx cur) Mc (seq 0 (length (nodes t))) (seq_NoDup _ _)
                  (proj2 (in_seq _ _ _) (conj (Nat.le_0_l _) Hcn))) as Hstep.
    unfold mu in *. fold (unv (V ++ [q_idx cur])) in Hstep. fold (unv V) in Hstep.
    rewrite app_length. unfold dj_succ. rewrite map_length.
    pose proof (filter_len_le (fun e => negb (mem (e_dst e) (V ++ [q_idx cur]))) (bundle t (q_idx cur))) as Hle.
    cbn [length] in Hmu. lia.
Qed.

Lemma inv_init : inv [] [src_el] [].
Proof.
  split; [constructor|]. split; [intros v []|]. split; [|split; [|split; [intros v []|split]]].
  - constructor; [|constructor]. exists []. split; [constructor|]. split; reflexivity.
  - exists 0, [src_el], []. split; [reflexivity|]. split; [intros x [E|[]]; subst; reflexivity|intros x []].
  - intros k h L. discriminate.
  - left. repeat split.
Qed.

(* ---- what the final state says ---- *)
Lemma final_spec V M : inv V [] M ->
  forall v, v < length (nodes t) ->
    (v <> s -> treach t s v ->
       exists e p, lookup (key v) M = Some (s, e) /\ walk t s (e :: p) v /\
                   forall q, walk t s q v -> length (e :: p) <= length q) /\
    (v = s \/ ~ treach t s v -> lookup (key v) M = None).
Proof.
  intros [ND [Hb [_ [_ [HV [HK Hi]]]]]] v Hv.
  assert (Is : In s V) by (destruct Hi as [[_ [E _]]|I]; [discriminate|exact I]).
  assert (Hclosed : forall x, In x V -> forall e, In e (bundle t x) -> In (e_dst e) V).
  { intros x Hx e He. destruct (HV x Hx) as [k [_ [_ [Hedge _]]]].
    destruct (Hedge e He) as [I|[y [[] _]]]. exact I. }
  assert (Hreach : forall x, treach t s x -> In x V).
  { intros x [p W]. eapply closed_walk; [exact Hclosed|exact W|exact Is]. }
  split.
  - intros Hne R. destruct (HV v (Hreach v R)) as [k [[_ Hmin] [_ [_ [[E _]|[_ [e [p [L [W Lk]]]]]]]]]]; [contradiction|].
    exists e, p. split; [exact L|]. split; [exact W|]. rewrite Lk. exact Hmin.
  - intros [E|N].
    + subst v. destruct (HV s Is) as [k [_ [_ [_ [[_ L]|[Hne _]]]]]]; [exact L|congruence].
    + destruct (lookup (key v) M) as [h|] eqn:L; [|reflexivity]. exfalso.
      destruct (HK _ _ L) as [x [Hx Ex]]. apply key_inj in Ex; [|apply Hb; exact Hx|exact Hv]. subst x.
      destruct (HV v Hx) as [k [[[p [W _]] _] _]]. apply N. exists p. exact W.
Qed.

End Bfs.

(* For every topology with in-range edges and distinct nodes and every source
   node s: dijkstra terminates without panic; a node v <> s that s reaches is
   mapped to an edge e leaving s that is the first edge of a walk from s to v
   which no walk from s to v undercuts; the source and the nodes s does not
   reach are not in the map. *)
Theorem first_hop_of_shortest_path t s ms :
  topo_ok t -> NoDup (nodes t) -> nth_error (nodes t) s = Some ms ->
  exists m, dijkstra t ms = DjOk m /\
    forall v mv, nth_error (nodes t) v = Some mv ->
      (v <> s -> treach t s v ->
         exists e p, lookup mv m = Some (s, e) /\ walk t s (e :: p) v /\
                     forall q, walk t s q v -> length (e :: p) <= length q) /\
      (v = s \/ ~ treach t s v -> lookup mv m = None).
Proof.
  intros Hok Hnd Hs.
  assert (Hlt : s < length (nodes t)) by (apply nth_error_Some; rewrite Hs; discriminate).
  unfold dijkstra. rewrite (position_NoDup ms (nodes t) s Hnd Hs).
  destruct (dj_loop_total t Hok Hnd s Hlt (dj_fuel t) [] [src_el s] [] (inv_init t s) (mu_init t Hok s Hlt))
    as [M [V [E Hinv]]].
  unfold src_el in E. rewrite E. exists M. split; [reflexivity|]. intros v mv Hv.
  assert (Hvl : v < length (nodes t)) by (apply nth_error_Some; rewrite Hv; discriminate).
  pose proof (final_spec t Hnd s V M Hinv v Hvl) as F.
  unfold key in F. rewrite (nth_error_nth _ _ 0 Hv) in F. exact F.
Qed.
