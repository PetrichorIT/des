(* connected / bidirectional agree with their graph definitions (C19).  visit is a depth-first
   closure: [ext] says a call extends the visited list by nodes reachable from its start and
   closes it under edges; termination by the number of nodes not yet visited. *)
From Coq Require Import List Arith Bool Lia.
From DesVerif Require Import Common.Lists Topo.Model Topo.Graph.
Import ListNotations.

(* ---- bidirectional ---- *)
Lemma answered_spec t src v :
  existsb (fun e' => e_dst e' =? src) (bundle t v) = true <-> exists e', In e' (bundle t v) /\ e_dst e' = src.
Proof.
  rewrite existsb_exists. split; intros [e' [H1 H2]]; exists e'; (split; [exact H1|apply Nat.eqb_eq; exact H2]).
Qed.

Lemma bidi_from_spec t : forall bs src,
  bidi_from t src bs = true <->
  forall k e, In e (nth k bs []) -> exists e', In e' (bundle t (e_dst e)) /\ e_dst e' = src + k.
Proof.
  induction bs as [|b r IH]; intros src; cbn [bidi_from].
  - split; [|reflexivity]. intros _ k e H. destruct k; destruct H.
  - rewrite andb_true_iff, forallb_forall, IH. split.
    + intros [H0 Hr] [|k] e Hin; cbn [nth] in Hin.
      * rewrite Nat.add_0_r. apply answered_spec, H0, Hin.
      * rewrite <- Nat.add_succ_comm. apply Hr, Hin.
    + intros H. split.
      * intros e Hin. apply answered_spec. rewrite <- (Nat.add_0_r src). apply (H 0 e Hin).
      * intros k e Hin. rewrite Nat.add_succ_comm. apply (H (S k) e Hin).
Qed.

(* what the code tests: every edge u -> v is answered by some edge v -> u *)
Theorem bidirectional_iff t :
  bidirectional t = true <->
  forall u e, In e (bundle t u) -> exists e', In e' (bundle t (e_dst e)) /\ e_dst e' = u.
Proof. unfold bidirectional. rewrite bidi_from_spec. unfold bundle. cbn [Nat.add]. tauto. Qed.

(* ---- connected: the recursive visit is a depth-first search ---- *)
Section Visit.
Variable t : topo.
Hypothesis Hok : topo_ok t.
Let n := length (nodes t).

Definition bounded (l : list nat) : Prop := forall x, In x l -> x < n.

Definition ext (R : nat -> Prop) (vis vis' : list nat) : Prop :=
  NoDup vis' /\ bounded vis' /\ incl vis vis' /\
  (forall x, In x vis' -> ~ In x vis -> forall e, In e (bundle t x) -> In (e_dst e) vis') /\
  (forall x, In x vis' -> In x vis \/ R x).

Definition visit_post (i : nat) (vis vis' : list nat) : Prop := ext (treach t i) vis vis' /\ In i vis'.

Lemma ext_refl R vis : NoDup vis -> bounded vis -> ext R vis vis.
Proof.
  intros ND Hb. split; [exact ND|]. split; [exact Hb|]. split; [apply incl_refl|].
  split; [intros x H1 H2; contradiction|]. intros x H. left. exact H.
Qed.

Lemma ext_trans (R R' : nat -> Prop) a b c :
  (forall x, R x -> R' x) -> ext R a b -> ext R' b c -> ext R' a c.
Proof.
  intros HR [_ [_ [I1 [C1 R1]]]] [ND [Hb [I2 [C2 R2]]]]. split; [exact ND|]. split; [exact Hb|].
  split; [intros x H; apply I2; apply I1; exact H|]. split.
  - intros x Hx Hn e He. destruct (in_dec Nat.eq_dec x b) as [Ib|Nb]; [|eapply C2; eassumption].
    apply I2. eapply C1; eassumption.
  - intros x Hx. destruct (R2 x Hx) as [Ib|Rx]; [|right; exact Rx].
    destruct (R1 x Ib) as [Ia|Rx]; [left; exact Ia|right; apply HR; exact Rx].
Qed.

Lemma visit_fold f i :
  (forall j vis, NoDup vis -> bounded vis -> j < n -> n - length vis < f -> visit_post j vis (visit f t j vis)) ->
  forall es acc, incl es (bundle t i) -> NoDup acc -> bounded acc -> n - length acc < f ->
  let acc' := fold_left (fun v e => visit f t (e_dst e) v) es acc in
  ext (treach t i) acc acc' /\ forall e, In e es -> In (e_dst e) acc'.
Proof.
  intros IH. induction es as [|e es IHes]; intros acc Hes ND Hb Hf; cbn [fold_left].
  - split; [apply ext_refl; assumption|intros e []].
  - assert (Hei : In e (bundle t i)) by (apply Hes; left; reflexivity).
    destruct (IH (e_dst e) acc ND Hb (proj2 Hok i e Hei) Hf) as [X Hin].
    pose proof X as [ND2 [Hb2 [I2 _]]].
    assert (Hf2 : n - length (visit f t (e_dst e) acc) < f).
    { pose proof (NoDup_incl_length ND I2) as H1. lia. }
    destruct (IHes _ (fun e0 H => Hes e0 (or_intror H)) ND2 Hb2 Hf2) as [Y F]. split.
    + apply (ext_trans (treach t (e_dst e)) _ acc (visit f t (e_dst e) acc)); [|exact X|exact Y].
      intros x Rx. eapply treach_step; eassumption.
    + destruct Y as [_ [_ [I3 _]]]. intros e0 [E0|H0]; [subst e0; apply I3; exact Hin|apply F; exact H0].
Qed.

Lemma visit_spec : forall fuel i vis,
  NoDup vis -> bounded vis -> i < n -> n - length vis < fuel ->
  visit_post i vis (visit fuel t i vis).
Proof.
  induction fuel as [|f IH]; intros i vis ND Hb Hi Hf; [lia|]. cbn [visit].
  destruct (mem i vis) eqn:M.
  - apply mem_true_iff in M. split; [apply ext_refl; assumption|exact M].
  - apply mem_false_iff in M.
    assert (ND0 : NoDup (vis ++ [i])) by (apply NoDup_app_snoc; assumption).
    assert (Hb0 : bounded (vis ++ [i])).
    { intros x Hx. apply in_snoc in Hx. destruct Hx as [Hx|Hx]; [apply Hb; exact Hx|subst; exact Hi]. }
    assert (Hf0 : n - length (vis ++ [i]) < f).
    { pose proof (NoDup_bounded_length _ _ ND0 Hb0) as H2. rewrite last_length in *. lia. }
    destruct (visit_fold f i IH (bundle t i) (vis ++ [i]) (incl_refl _) ND0 Hb0 Hf0) as [[A [B [C [D E]]]] F].
    split; [|apply C; apply in_snoc; right; reflexivity].
    split; [exact A|]. split; [exact B|]. split; [intros x Hx; apply C; apply in_snoc; left; exact Hx|]. split.
    + (* the edges of i were all followed; other new nodes are new with respect to vis ++ [i] too *)
      intros x Hx Hnx e He. destruct (Nat.eq_dec x i) as [Ei|Ni]; [subst x; apply F; exact He|].
      eapply D; [exact Hx| |exact He]. intros H0. apply in_snoc in H0. destruct H0 as [H0|H0]; [contradiction|congruence].
    + intros x Hx. destruct (E x Hx) as [H0|R]; [|right; exact R].
      apply in_snoc in H0. destruct H0 as [H0|H0]; [left; exact H0|subst; right; apply treach_refl].
Qed.

(* started on the empty list, visit collects exactly what the start node reaches *)
Lemma visit_reach s : s < n ->
  let vis := visit (S n) t s [] in
  NoDup vis /\ bounded vis /\ forall v, In v vis <-> treach t s v.
Proof.
  intros Hs. destruct (visit_spec (S n) s [] (NoDup_nil _) (fun x H => match H with end) Hs) as [[A [B [_ [D E]]]] C].
  { cbn [length]. lia. }
  split; [exact A|]. split; [exact B|]. intros v. split.
  - intros H. destruct (E v H) as [[]|R]. exact R.
  - intros [p W]. eapply closed_walk; [|exact W|exact C].
    intros x Hx e He. eapply D; [exact Hx|intros []|exact He].
Qed.

Lemma full_length (l : list nat) : NoDup l -> bounded l -> (length l = n <-> forall v, v < n -> In v l).
Proof.
  intros ND Hb.
  assert (I1 : incl l (seq 0 n)) by (intros x Hx; apply in_seq; specialize (Hb x Hx); lia).
  split.
  - intros Hl v Hv.
    assert (I2 : incl (seq 0 n) l) by (apply (NoDup_length_incl ND); [rewrite seq_length; lia|exact I1]).
    apply I2. apply in_seq. lia.
  - intros H.
    assert (I2 : incl (seq 0 n) l) by (intros x Hx; apply in_seq in Hx; apply H; lia).
    pose proof (NoDup_incl_length (seq_NoDup n 0) I2) as H1. rewrite seq_length in H1.
    pose proof (NoDup_bounded_length _ _ ND Hb) as H2. lia.
Qed.

End Visit.

(* "a path from each arbitrary start node to each arbitrary end node" *)
Theorem connected_iff t :
  topo_ok t ->
  (connected t = true <->
   forall u v, u < length (nodes t) -> v < length (nodes t) -> treach t u v).
Proof.
  intros Hok. unfold connected. rewrite forallb_forall. split.
  - intros H u v Hu Hv. specialize (H u (proj2 (in_seq _ 0 u) (conj (Nat.le_0_l u) Hu))).
    apply Nat.eqb_eq in H. destruct (visit_reach t Hok u Hu) as [ND [Hb Hr]].
    apply Hr. apply (proj1 (full_length t _ ND Hb) H). exact Hv.
  - intros H s Hs. apply in_seq in Hs. apply Nat.eqb_eq.
    destruct (visit_reach t Hok s (proj2 Hs)) as [ND [Hb Hr]].
    apply (full_length t _ ND Hb). intros v Hv. apply Hr. apply H; [lia|exact Hv].
Qed.
