(* Histories (C19): wiring operations between the queries.  The view functions
   are functions of the gate graph, and the script interpreter applies them to
   the graph as it is when the query is made; so every view query of a history
   returns the exact view of the graph built by the header and the operations
   before it.  What the C19 theorems assume of a world holds of the world a
   script starts with and is kept by every operation it can make: every chain
   ends at a gate of a module of the world ([closed]: the owner index is in
   range), and chains connected with at most 16 hops keep it [short]; so the
   exactness theorems apply at every point of every history, in particular to
   every world a header wires (Model.build_world).  At the end: the module
   identities. *)
From Coq Require Import List NArith Arith Bool Lia.
From DesVerif Require Import Common.Lists Topo.Model Topo.Graph.
Import ListNotations.
Open Scope nat_scope.

Lemma upd_length {A} (f : A -> A) : forall l i, length (upd i f l) = length l.
Proof. induction l as [|x r IH]; intros i; [destruct i; reflexivity|]. destruct i; cbn [upd length]; [reflexivity|f_equal; apply IH]. Qed.

Lemma nth_error_upd {A} (f : A -> A) : forall l i j,
  nth_error (upd i f l) j = if i =? j then option_map f (nth_error l j) else nth_error l j.
Proof.
  induction l as [|x r IH]; intros i j.
  - destruct i, j; cbn; try reflexivity. destruct (i =? j); reflexivity.
  - destruct i as [|i], j as [|j]; cbn [upd nth_error Nat.eqb option_map]; try reflexivity. apply IH.
Qed.

Lemma gates_of_set w g x m :
  gates_of (set_gate w g x) m = if fst g =? m then upd (snd g) (fun _ => x) (gates_of w m) else gates_of w m.
Proof.
  unfold gates_of, set_gate. rewrite !nth_nth_error, nth_error_upd.
  destruct (fst g =? m); [|reflexivity]. destruct (nth_error w m); cbn [option_map]; [reflexivity|].
  destruct (snd g); reflexivity.
Qed.

Lemma gref_eqb_eq a b : gref_eqb a b = true <-> a = b.
Proof.
  unfold gref_eqb. rewrite andb_true_iff, !Nat.eqb_eq. destruct a, b; cbn [fst snd]. split.
  - intros [H1 H2]. subst. reflexivity.
  - intros E. inversion E. split; reflexivity.
Qed.

Lemma get_set w g x g' :
  get_gate (set_gate w g x) g' =
  if gref_eqb g g' then option_map (fun _ => x) (get_gate w g') else get_gate w g'.
Proof.
  unfold get_gate, gref_eqb. rewrite gates_of_set. destruct (fst g =? fst g'); cbn [andb]; [|reflexivity].
  apply nth_error_upd.
Qed.

Lemma set_gate_length w g x : length (set_gate w g x) = length w.
Proof. apply upd_length. Qed.

Lemma get_gate_lt w g x : get_gate w g = Some x -> fst g < length w.
Proof.
  unfold get_gate, gates_of. intros H. destruct (Nat.lt_ge_cases (fst g) (length w)) as [L|G]; [exact L|].
  rewrite nth_overflow in H by exact G. destruct (snd g); discriminate.
Qed.

Lemma get_new_gate w m g c :
  get_gate (new_gate w m) g = Some (Endpoint c) -> get_gate w g = Some (Endpoint c).
Proof.
  unfold get_gate, gates_of, new_gate. rewrite !nth_nth_error, nth_error_upd.
  destruct (m =? fst g); [|tauto]. destruct (nth_error w (fst g)) as [gs|]; cbn [option_map]; [|tauto].
  intros H. destruct (Nat.lt_ge_cases (snd g) (length gs)) as [L|G].
  - rewrite nth_error_app1 in H by exact L. exact H.
  - rewrite nth_error_app2 in H by exact G. destruct (snd g - length gs) as [|k]; [discriminate|destruct k; discriminate].
Qed.

Lemma new_gate_length w m : length (new_gate w m) = length w.
Proof. apply upd_length. Qed.

Lemma endpoints_get w m g c : In (g, c) (endpoints w m) -> get_gate w g = Some (Endpoint c).
Proof. intros H. apply endpoints_In in H. destruct H as [gi [E H]]. subst g. exact H. Qed.

Lemma fold_transit_length l : forall w, length (fold_left (fun w' g => set_gate w' g Transit) l w) = length w.
Proof. induction l as [|g l IH]; intros w; cbn [fold_left]; [reflexivity|]. rewrite IH. apply set_gate_length. Qed.

(* [closed] and [short] both say that the chain of every endpoint gate has a
   property Q that may depend on the number of modules.  Which chains are [ok]
   to connect depends on Q: the two ends of a new chain must have it. *)
Section Chains.
Variable Q : nat -> gref -> list gref -> Prop.
Variable ok : list gref -> Prop.

Definition all_ep (w : world) : Prop := forall g c, get_gate w g = Some (Endpoint c) -> Q (length w) g c.

Definition ends_ok : Prop := forall w g0 rest gh rrest,
  ok (g0 :: rest) -> valid_chain w (g0 :: rest) = true -> rev (g0 :: rest) = gh :: rrest ->
  Q (length w) g0 rest /\ Q (length w) gh rrest.
Hypothesis Q_ends : ends_ok.

Definition op_ok (o : op) : Prop := match o with OConnect c => ok c | _ => True end.

Lemma all_ep_endpoints w : all_ep w -> forall m g c, In (g, c) (endpoints w m) -> Q (length w) g c.
Proof. intros H m g c Hin. apply (H g c). eapply endpoints_get. exact Hin. Qed.

Lemma all_ep_set w g x :
  all_ep w -> (forall c, x = Endpoint c -> Q (length w) g c) -> all_ep (set_gate w g x).
Proof.
  intros H Hx g' c Hg. rewrite set_gate_length. rewrite get_set in Hg.
  destruct (gref_eqb g g') eqn:E; [|exact (H g' c Hg)].
  apply gref_eqb_eq in E. subst g'. destruct (get_gate w g); [|discriminate]. apply Hx. inversion Hg. reflexivity.
Qed.

Lemma all_ep_transit l : forall w, all_ep w -> all_ep (fold_left (fun w' g => set_gate w' g Transit) l w).
Proof.
  induction l as [|g l IH]; intros w H; cbn [fold_left]; [exact H|].
  apply IH. apply all_ep_set; [exact H|discriminate].
Qed.

Lemma all_ep_add_chain w c : ok c -> all_ep w -> all_ep (add_chain w c).
Proof.
  intros Hc H. unfold add_chain. destruct (valid_chain w c) eqn:V; [|exact H].
  destruct c as [|g0 rest]; [exact H|]. destruct (rev (g0 :: rest)) as [|gh rrest] eqn:R; [exact H|].
  destruct (Q_ends w g0 rest gh rrest Hc V R) as [H0 Hh].
  apply all_ep_set; [apply all_ep_set; [apply all_ep_transit; exact H|]|]; intros c E; inversion E; subst c.
  - rewrite fold_transit_length. exact H0.
  - rewrite set_gate_length, fold_transit_length. exact Hh.
Qed.

Lemma all_ep_apply_op w o : op_ok o -> all_ep w -> all_ep (apply_op w o).
Proof.
  intros Ho H. destruct o as [q|c|m|m|m k]; cbn [apply_op]; try exact H.
  - apply all_ep_add_chain; assumption.
  - destruct (can_new_gate w m); [|exact H]. intros g c Hg. rewrite new_gate_length.
    apply (H g c). eapply get_new_gate. exact Hg.
Qed.

Lemma all_ep_init counts : all_ep (init_world counts).
Proof.
  intros g c H. unfold get_gate, gates_of, init_world in H. apply nth_error_In in H.
  destruct (nth_in_or_default (fst g) (map (fun c => repeat Standalone (cl 40 c)) (firstn 24 counts)) []) as [I|E].
  - apply in_map_iff in I. destruct I as [n [E _]]. rewrite <- E in H. apply repeat_spec in H. discriminate.
  - rewrite E in H. destruct H.
Qed.

End Chains.

Definition ends_in (n : nat) (g : gref) (c : list gref) : Prop := fst (far_end g c) < n.
Definition within (_ : nat) (_ : gref) (c : list gref) : Prop := length c <= MAX_HOPS.

Lemma all_ep_closed w : all_ep ends_in w -> closed w.
Proof. exact (all_ep_endpoints ends_in w). Qed.
Lemma all_ep_short w : all_ep within w -> short w.
Proof. exact (all_ep_endpoints within w). Qed.

Lemma last_In {A} (l : list A) d : In (last l d) (d :: l).
Proof.
  induction l as [|x r IH]; [left; reflexivity|]. destruct r as [|y r']; [right; left; reflexivity|].
  destruct IH as [E|I]; [left; exact E|right; right; exact I].
Qed.

(* a valid chain connects existing gates: any chain keeps the world closed *)
Lemma closed_ends : ends_ok ends_in (fun _ => True).
Proof.
  intros w g0 rest gh rrest _ V R. unfold valid_chain in V. apply andb_true_iff in V. destruct V as [_ V].
  assert (Hin : forall g, In g (g0 :: rest) -> fst g < length w).
  { intros g Hg. rewrite forallb_forall in V. specialize (V g Hg). unfold is_free in V.
    destruct (get_gate w g) as [x|] eqn:G; [|discriminate]. eapply get_gate_lt. exact G. }
  split; apply Hin; [apply last_In|]. apply in_rev. rewrite R. apply last_In.
Qed.

Lemma rev_cons_length {A} (l : list A) x r : rev l = x :: r -> length l = S (length r).
Proof. intros E. rewrite <- (rev_length l), E. reflexivity. Qed.

(* chains of at most 16 hops (17 gates) keep it short *)
Lemma short_ends : ends_ok within (fun c => length c <= S MAX_HOPS).
Proof.
  intros w g0 rest gh rrest Hc _ R. apply rev_cons_length in R. cbn [length] in Hc, R. unfold within. lia.
Qed.

Definition world_after (w : world) (os : list op) : world := fold_left apply_op os w.
Definition state_after (s : hstate) (os : list op) : hstate := fold_left (fun s' o => fst (step s' o)) os s.

Lemma step_world s o : h_world (fst (step s o)) = apply_op (h_world s) o.
Proof.
  destruct o as [q|c|m|m|m k]; cbn [step apply_op].
  - destruct (exec (h_world s) (h_topo s) q). reflexivity.
  - reflexivity.
  - reflexivity.
  - destruct (h_rt s || (length (h_world s) =? 0)); reflexivity.
  - reflexivity.
Qed.

Lemma state_after_world os : forall s, h_world (state_after s os) = world_after (h_world s) os.
Proof.
  induction os as [|o r IH]; intros s; cbn [state_after world_after fold_left]; [reflexivity|].
  fold (state_after (fst (step s o)) r). rewrite IH, step_world. reflexivity.
Qed.

Definition op_short (o : op) : Prop := match o with OConnect c => length c <= S MAX_HOPS | _ => True end.

Lemma world_after_all_ep Q ok : ends_ok Q ok ->
  forall os w, Forall (op_ok ok) os -> all_ep Q w -> all_ep Q (world_after w os).
Proof.
  intros HQ. induction os as [|o r IH]; intros w Hs H; cbn [world_after fold_left]; [exact H|].
  inversion Hs. subst. apply IH; [assumption|]. apply (all_ep_apply_op Q ok HQ); assumption.
Qed.

Lemma build_world_after counts chains :
  build_world counts chains = world_after (init_world counts) (map (fun c => OConnect (pairs (tl c))) chains).
Proof.
  unfold build_world, world_after. generalize (init_world counts).
  induction chains as [|c r IH]; intros w; cbn [map fold_left]; [reflexivity|apply IH].
Qed.

Lemma world_after_app w a b : world_after (world_after w a) b = world_after w (a ++ b).
Proof. symmetry. apply fold_left_app. Qed.

Lemma script_world counts chains pre :
  let w := world_after (build_world counts chains) pre in
  closed w /\
  ((forall c, In c chains -> length (pairs (tl c)) <= S MAX_HOPS) -> Forall op_short pre -> short w).
Proof.
  cbn zeta. rewrite build_world_after, world_after_app. split.
  - apply all_ep_closed. apply (world_after_all_ep _ _ closed_ends); [|apply all_ep_init].
    apply Forall_forall. intros o _. destruct o; exact I.
  - intros Hc Hp. apply all_ep_short. apply (world_after_all_ep _ _ short_ends); [|apply all_ep_init].
    apply Forall_app. split; [|exact Hp]. apply Forall_map. apply Forall_forall. exact Hc.
Qed.

(* ---- from_modules is always asked for a duplicate-free list ---- *)
Lemma select_modules_NoDup n : forall ms seen,
  NoDup (select_modules n seen ms) /\ forall x, In x (select_modules n seen ms) -> ~ In x seen.
Proof.
  induction ms as [|m r IH]; intros seen; cbn [select_modules]; [split; [constructor|intros x []]|].
  destruct ((m <? n) && negb (mem m seen)) eqn:E.
  - apply andb_true_iff in E. destruct E as [_ E]. apply negb_true_iff in E. apply mem_false_iff in E.
    destruct (IH (m :: seen)) as [ND Hn]. split.
    + constructor; [|exact ND]. intros Hin. apply (Hn m Hin). left. reflexivity.
    + intros x [Ex|Hx]; [subst; exact E|]. intros Hs. apply (Hn x Hx). right. exact Hs.
  - apply IH.
Qed.

(* The model names a module by its index; the code by its ModuleId.  Ids come
   from a wrapping 16-bit counter: whatever its position, the (at most 2^16)
   modules of one simulation get pairwise distinct ids.  The runner reports
   the same fact about the real ids for every script. *)
Lemma gen_ids_from_NoDup p : forall n a,
  (N.of_nat (a + n) <= ID_SPACE)%N ->
  NoDup (map (fun i => ((p + N.of_nat i) mod ID_SPACE)%N) (seq a n)).
Proof.
  induction n as [|n IH]; intros a H; cbn [seq map]; [constructor|].
  constructor; [|apply IH; lia].
  intros Hin. apply in_map_iff in Hin. destruct Hin as [j [E Hj]]. apply in_seq in Hj.
  unfold ID_SPACE in *.
  pose proof (N.div_mod (p + N.of_nat j) 65536 ltac:(discriminate)) as D1.
  pose proof (N.div_mod (p + N.of_nat a) 65536 ltac:(discriminate)) as D2.
  rewrite E in D1. revert D1 D2.
  generalize ((p + N.of_nat j) / 65536)%N as q1, ((p + N.of_nat a) / 65536)%N as q2,
             ((p + N.of_nat a) mod 65536)%N as r.
  (* p + j and p + a have the same residue r and differ by j - a < 2^16: same quotient, so j = a *)
  intros q1 q2 r D1 D2. lia.
Qed.

Theorem gen_ids_NoDup p n : (N.of_nat n <= ID_SPACE)%N -> NoDup (gen_ids p n).
Proof. intros H. apply gen_ids_from_NoDup. exact H. Qed.

Lemma distinctb_true l : NoDup l -> distinctb l = true.
Proof.
  induction 1 as [|x l Hx _ IH]; cbn [distinctb]; [reflexivity|]. rewrite IH, andb_true_r.
  apply negb_true_iff. destruct (existsb (N.eqb x) l) eqn:E; [|reflexivity].
  apply existsb_exists in E. destruct E as [y [Hy Ey]]. apply N.eqb_eq in Ey. subst. contradiction.
Qed.
