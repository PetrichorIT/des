(* filter_nodes keeps exactly the selected nodes and the edges among them,
   re-indexed correctly (filter_exact); the lemmas behind the two other filter theorems
   of Properties/C19.v: fe_from_nth for filter_edges, Forall2_filter_map / filter_filter
   for the node-filtered exact view (C19). *)
From Coq Require Import List Arith Bool Lia.
From DesVerif Require Import Common.Lists Topo.Model Topo.Graph.
Import ListNotations.

(* new index of old node d: the number of kept nodes in front of it *)
Definition rank (p : nat -> bool) (ns : list nat) (d : nat) : nat := length (filter p (firstn d ns)).

(* the bundles at kept positions *)
Fixpoint select {A} (keep : list bool) (l : list A) : list A :=
  match keep, l with
  | k :: ks, x :: r => if k then x :: select ks r else select ks r
  | _, _ => []
  end.

Definition redst (p : nat -> bool) (ns : list nat) (e : edge) : edge :=
  {| e_dst := rank p ns (e_dst e); e_start := e_start e; e_stop := e_stop e |}.
Definition dst_kept (p : nat -> bool) (ns : list nat) (e : edge) : bool := p (nth (e_dst e) ns 0).

(* the id mapping computed by the first loop *)
Fixpoint fn_map (p : nat -> bool) (running : nat) (suf : list nat) : list (option nat) :=
  match suf with
  | [] => []
  | x :: r => if p x then Some running :: fn_map p (S running) r else None :: fn_map p running r
  end.

Lemma remove_at_app {A} n (pre : list A) x r : length pre = n -> remove_at n (pre ++ x :: r) = pre ++ r.
Proof. intros <-. induction pre as [|y pre IH]; cbn [length app remove_at]; [reflexivity|f_equal; exact IH]. Qed.

Lemma fn_loop_spec p : forall suf esuf pre (epre : list (list edge)),
  length epre = length pre -> length esuf = length suf ->
  fn_loop (map p suf) (length pre) (pre ++ suf) (epre ++ esuf)
  = (fn_map p (length pre) suf, pre ++ filter p suf, epre ++ select (map p suf) esuf).
Proof.
  induction suf as [|x r IH]; intros esuf pre epre H2 H3; cbn [map fn_loop fn_map filter].
  - destruct esuf; [|discriminate]. reflexivity.
  - destruct esuf as [|b er]; [discriminate|]. apply eq_add_S in H3. cbn [select].
    destruct (p x) eqn:Px.
    + rewrite <- (snoc_app pre x r), <- (snoc_app epre b er), <- (last_length pre x).
      rewrite IH; [|rewrite !last_length, H2; reflexivity|exact H3].
      rewrite !snoc_app. reflexivity.
    + rewrite (remove_at_app _ pre x r eq_refl), (remove_at_app _ epre b er H2).
      rewrite (IH er pre epre H2 H3). reflexivity.
Qed.

Lemma rank_cons p x r d : rank p (x :: r) (S d) = (if p x then 1 else 0) + rank p r d.
Proof. unfold rank. cbn [firstn filter]. destruct (p x); reflexivity. Qed.

(* the new index of a kept node is the running index plus the number of kept nodes in front of it:
   a kept head moves `running` by one and the rank of everything behind it by one the other way *)
Lemma fn_map_nth p : forall suf running d m,
  nth_error suf d = Some m ->
  nth d (fn_map p running suf) None = if p m then Some (running + rank p suf d) else None.
Proof.
  induction suf as [|x r IH]; intros running d m H; [destruct d; discriminate|].
  destruct d as [|d]; cbn [nth_error] in H.
  - injection H as ->. cbn [fn_map]. unfold rank. cbn [firstn filter length].
    destruct (p m); cbn [nth]; [f_equal; lia|reflexivity].
  - cbn [fn_map]. rewrite rank_cons. destruct (p x); cbn [nth]; rewrite (IH _ d m H); destruct (p m); try reflexivity; f_equal; lia.
Qed.

Lemma fn_retain_spec p ns b :
  (forall e, In e b -> e_dst e < length ns) ->
  fn_retain (fn_map p 0 ns) b = map (redst p ns) (filter (dst_kept p ns) b).
Proof.
  induction b as [|e r IH]; intros Hd; cbn [fn_retain filter map]; [reflexivity|].
  assert (He : e_dst e < length ns) by (apply Hd; left; reflexivity).
  destruct (nth_error ns (e_dst e)) as [m|] eqn:Hm; [|apply nth_error_None in Hm; lia].
  rewrite (fn_map_nth p ns 0 _ m Hm). unfold dst_kept at 1. rewrite (nth_error_nth _ _ 0 Hm).
  destruct (p m); cbn [map]; [f_equal|]; apply IH; intros e0 H0; apply Hd; right; exact H0.
Qed.

Lemma select_incl {A} : forall ks (l : list A) x, In x (select ks l) -> In x l.
Proof.
  induction ks as [|k ks IH]; intros [|y r] x H; cbn [select] in H; try contradiction.
  destruct k; [destruct H as [E|H]; [left; exact E|]|]; right; apply (IH r x H).
Qed.

(* filter_nodes as a function of the old topology *)
Lemma filter_nodes_eq p t :
  topo_ok t ->
  filter_nodes p t =
  {| nodes := filter p (nodes t);
     edges := map (fun b => map (redst p (nodes t)) (filter (dst_kept p (nodes t)) b))
                  (select (map p (nodes t)) (edges t)) |}.
Proof.
  intros [Hl Hd]. unfold filter_nodes.
  pose proof (fn_loop_spec p (nodes t) (edges t) [] [] eq_refl Hl) as E. cbn [app length] in E.
  rewrite E. f_equal.
  apply map_ext_in. intros b Hb. apply fn_retain_spec. intros e He.
  destruct (In_nth _ _ [] (select_incl _ _ _ Hb)) as [i [_ Ei]].
  apply (Hd i). unfold bundle. rewrite Ei. exact He.
Qed.

(* ---- what the new indices mean ---- *)
Lemma rank_kept p : forall ns d m,
  nth_error ns d = Some m -> p m = true -> nth_error (filter p ns) (rank p ns d) = Some m.
Proof.
  induction ns as [|x r IH]; intros d m H Pm; [destruct d; discriminate|].
  destruct d as [|d]; cbn [nth_error] in H.
  - injection H as ->. unfold rank. cbn [firstn filter length]. rewrite Pm. reflexivity.
  - rewrite rank_cons. cbn [filter]. destruct (p x); cbn [Nat.add nth_error]; apply IH; assumption.
Qed.

Lemma rank_surj p : forall ns j m,
  nth_error (filter p ns) j = Some m ->
  exists i, nth_error ns i = Some m /\ p m = true /\ rank p ns i = j.
Proof.
  induction ns as [|x r IH]; intros j m H; cbn [filter] in H; [destruct j; discriminate|].
  destruct (p x) eqn:Px.
  - destruct j as [|j]; cbn [nth_error] in H.
    + injection H as ->. exists 0. split; [reflexivity|]. split; [exact Px|reflexivity].
    + destruct (IH j m H) as [i [H1 [H2 H3]]]. exists (S i). split; [exact H1|]. split; [exact H2|].
      rewrite rank_cons, Px. lia.
  - destruct (IH j m H) as [i [H1 [H2 H3]]]. exists (S i). split; [exact H1|]. split; [exact H2|].
    rewrite rank_cons, Px. exact H3.
Qed.

Lemma select_nth {A} (p : nat -> bool) (d0 : A) : forall (ns : list nat) (es : list A) i m,
  length es = length ns -> nth_error ns i = Some m -> p m = true ->
  nth (rank p ns i) (select (map p ns) es) d0 = nth i es d0.
Proof.
  induction ns as [|x r IH]; intros es i m Hl H Pm; [destruct i; discriminate|].
  destruct es as [|b er]; [discriminate|]. cbn [length] in Hl. cbn [map select].
  destruct i as [|i]; cbn [nth_error] in H.
  - injection H as ->. rewrite Pm. unfold rank. cbn [firstn filter length nth]. reflexivity.
  - rewrite rank_cons. destruct (p x); cbn [Nat.add nth]; apply (IH er i m); try assumption; lia.
Qed.

Lemma select_length {A} (p : nat -> bool) : forall (ns : list nat) (es : list A),
  length es = length ns -> length (select (map p ns) es) = length (filter p ns).
Proof.
  induction ns as [|x r IH]; intros es Hl; [destruct es; reflexivity|].
  destruct es as [|b er]; [discriminate|]. cbn [length] in Hl. cbn [map select filter].
  destruct (p x); cbn [length]; rewrite IH by lia; reflexivity.
Qed.

Lemma redst_lt p ns e :
  e_dst e < length ns -> dst_kept p ns e = true -> e_dst (redst p ns e) < length (filter p ns).
Proof.
  intros Hd Hk. destruct (nth_error ns (e_dst e)) as [m|] eqn:Hm; [|apply nth_error_None in Hm; lia].
  unfold dst_kept in Hk. rewrite (nth_error_nth _ _ 0 Hm) in Hk.
  apply nth_error_Some. cbn [redst e_dst]. rewrite (rank_kept p ns _ m Hm Hk). discriminate.
Qed.

(* filtering keeps exactly the selected nodes (in their order); node number
   [rank i] of the result is the kept old node i; its edges are the old edges
   of i whose target is kept, with the target re-indexed; and the result is a
   well-formed topology again *)
Theorem filter_exact p t :
  topo_ok t ->
  let t' := filter_nodes p t in
  nodes t' = filter p (nodes t) /\ topo_ok t' /\
  (forall j m, nth_error (nodes t') j = Some m ->
               exists i, nth_error (nodes t) i = Some m /\ p m = true /\ rank p (nodes t) i = j) /\
  (forall i m, nth_error (nodes t) i = Some m -> p m = true ->
               nth_error (nodes t') (rank p (nodes t) i) = Some m /\
               bundle t' (rank p (nodes t) i)
               = map (redst p (nodes t)) (filter (dst_kept p (nodes t)) (bundle t i))).
Proof.
  intros Hok. cbn zeta. rewrite (filter_nodes_eq p t Hok). destruct Hok as [Hl Hd].
  set (t' := {| nodes := filter p (nodes t); edges := _ |}).
  assert (Hb : forall i m, nth_error (nodes t) i = Some m -> p m = true ->
    bundle t' (rank p (nodes t) i) = map (redst p (nodes t)) (filter (dst_kept p (nodes t)) (bundle t i))).
  { intros i m H Pm. unfold bundle, t'. cbn [edges].
    rewrite <- (select_nth p [] (nodes t) (edges t) i m Hl H Pm).
    exact (map_nth (fun b => map (redst p (nodes t)) (filter (dst_kept p (nodes t)) b)) _ [] _). }
  split; [reflexivity|]. split; [|split].
  - assert (Hlen : length (edges t') = length (filter p (nodes t))).
    { unfold t'. cbn [edges]. rewrite map_length. apply select_length. exact Hl. }
    split; [exact Hlen|]. change (nodes t') with (filter p (nodes t)). intros j e He.
    assert (Hj : j < length (filter p (nodes t))) by (rewrite <- Hlen; eapply bundle_In_lt; exact He).
    destruct (nth_error (filter p (nodes t)) j) as [m|] eqn:Hm; [|apply nth_error_None in Hm; lia].
    destruct (rank_surj p _ _ _ Hm) as [i [H1 [H2 H3]]]. subst j.
    rewrite (Hb i m H1 H2) in He. apply in_map_iff in He. destruct He as [e0 [E He0]]. subst e.
    apply filter_In in He0. destruct He0 as [Hin Hk]. apply redst_lt; [exact (Hd i e0 Hin)|exact Hk].
  - intros j m Hm. apply rank_surj. exact Hm.
  - intros i m H Pm. split; [apply (rank_kept p (nodes t) i m); assumption|apply (Hb i m); assumption].
Qed.

(* the re-indexed target is the same module as before *)
Lemma expected_edge_redst p ns gc e :
  expected_edge ns gc e -> dst_kept p ns e = true -> expected_edge (filter p ns) gc (redst p ns e).
Proof.
  intros [A [B C]] Hk. split; [exact A|]. split; [exact B|].
  unfold dst_kept in Hk. rewrite (nth_error_nth _ _ 0 C) in Hk. cbn [redst e_dst]. apply rank_kept; assumption.
Qed.

(* ---- filter_edges ---- *)
Lemma fe_from_nth f : forall bs src i, nth i (fe_from f src bs) [] = filter (f (src + i)) (nth i bs []).
Proof.
  induction bs as [|b r IH]; intros src i; cbn [fe_from].
  - destruct i; reflexivity.
  - destruct i as [|i]; cbn [nth]; [rewrite Nat.add_0_r; reflexivity|]. rewrite IH. f_equal. f_equal. lia.
Qed.

Lemma Forall2_filter_map {A B C} (R : A -> B -> Prop) (R' : A -> C -> Prop) fa fb (g : B -> C) :
  (forall a b, R a b -> fa a = fb b) -> (forall a b, R a b -> fb b = true -> R' a (g b)) ->
  forall l1 l2, Forall2 R l1 l2 -> Forall2 R' (filter fa l1) (map g (filter fb l2)).
Proof.
  intros H H' l1 l2 F. induction F as [|a b l1 l2 Hab _ IH]; cbn [filter]; [constructor|].
  rewrite (H a b Hab). destruct (fb b) eqn:E; [|exact IH]. constructor; [apply H'; assumption|exact IH].
Qed.

Lemma filter_filter {A} (f g : A -> bool) l : filter f (filter g l) = filter (fun x => g x && f x) l.
Proof.
  induction l as [|x r IH]; cbn [filter]; [reflexivity|].
  destruct (g x); cbn [filter andb]; [destruct (f x); [f_equal|]; exact IH|exact IH].
Qed.
