(* Topology::spanned (C19, second clause).  The loop hands out node indices for
   modules that are still pending.  The key fact: with a FIFO work list the
   concatenation  L = nodes ++ pending  never changes except by appending at its
   end, and every index handed out is the position of the module in L.  When
   the loop ends, L is the node list. *)
From Coq Require Import List Arith Bool Lia Relations.
From DesVerif Require Import Common.Lists Topo.Model Topo.Graph.
Import ListNotations.

(* ---- the index prediction ---- *)
Lemma sp_index_spec nds queue x i q' :
  nds <> [] -> NoDup (nds ++ queue) ->
  sp_index nds (length nds - 1) queue x = (i, q') ->
  exists ext, q' = queue ++ ext /\ (forall y, In y ext -> y = x) /\
              NoDup (nds ++ q') /\ position x (nds ++ q') = Some i.
Proof.
  intros Hne ND H. unfold sp_index in H.
  assert (Hl : length nds - 1 + 1 = length nds).
  { destruct nds; [contradiction|cbn [length]; lia]. }
  destruct (position x nds) as [j|] eqn:P1; [|destruct (position x queue) as [off|] eqn:P2]; inversion H; subst.
  - exists []. rewrite app_nil_r, position_app, P1. repeat split; [intros y []|exact ND].
  - exists []. rewrite app_nil_r, position_app, P1, P2. repeat split; [intros y []|exact ND|f_equal; lia].
  - exists [x]. rewrite position_app, P1, position_app, P2. cbn [position]. rewrite Nat.eqb_refl.
    apply position_None in P1. apply position_None in P2.
    repeat split; [intros y [Hy|[]]; symmetry; exact Hy| |f_equal; rewrite app_length; cbn [length]; lia].
    rewrite app_assoc. apply NoDup_app_snoc; [exact ND|]. rewrite in_app_iff. tauto.
Qed.

Lemma expected_edge_mono L ext gc e : expected_edge L gc e -> expected_edge (L ++ ext) gc e.
Proof.
  intros [H1 [H2 H3]]. split; [exact H1|]. split; [exact H2|].
  rewrite nth_error_app1; [exact H3|]. apply nth_error_Some. rewrite H3. discriminate.
Qed.

Lemma Forall2_expected_mono L ext l es :
  Forall2 (expected_edge L) l es -> Forall2 (expected_edge (L ++ ext)) l es.
Proof. induction 1; constructor; [apply expected_edge_mono; assumption|assumption]. Qed.

(* one module's gate loop *)
Lemma sp_gates_spec nds m gs : forall gi queue es q'',
  nds <> [] -> NoDup (nds ++ queue) ->
  sp_gates nds (length nds - 1) m gi gs queue = (es, q'') ->
  exists ext, q'' = queue ++ ext /\ NoDup (nds ++ q'') /\
    Forall2 (expected_edge (nds ++ q'')) (endpoints_from m gi gs) es /\
    (forall x, In x ext -> exists g c, In (g, c) (endpoints_from m gi gs) /\ fst (far_end g c) = x).
Proof.
  induction gs as [|x r IH]; intros gi queue es q'' Hne ND H; cbn [sp_gates endpoints_from] in H |- *.
  - injection H as <- <-. exists []. rewrite app_nil_r. split; [reflexivity|]. split; [exact ND|].
    split; [constructor|]. intros y [].
  - destruct x as [| |c]; try (apply IH; assumption).
    destruct (sp_index nds (length nds - 1) queue (fst (last c (m, gi)))) as [idx q1] eqn:SI.
    destruct (sp_gates nds (length nds - 1) m (S gi) r q1) as [es' q2] eqn:SG.
    injection H as <- <-.
    destruct (sp_index_spec _ _ _ _ _ Hne ND SI) as [ext1 [E1 [Hext1 [ND1 Hpos]]]].
    destruct (IH (S gi) q1 es' q2 Hne ND1 SG) as [ext [E2 [ND2 [F2 Hext]]]].
    exists (ext1 ++ ext). split; [subst q2 q1; rewrite app_assoc; reflexivity|]. split; [exact ND2|]. split.
    + constructor; [|exact F2].
      unfold expected_edge, far_end. cbn [e_start e_stop e_dst fst snd].
      split; [reflexivity|]. split; [reflexivity|].
      subst q2. rewrite app_assoc. rewrite nth_error_app1.
      * apply position_Some. exact Hpos.
      * eapply position_lt. exact Hpos.
    + intros y Hy. apply in_app_or in Hy. destruct Hy as [Hy|Hy].
      * exists (m, gi), c. split; [left; reflexivity|]. symmetry. apply Hext1. exact Hy.
      * destruct (Hext y Hy) as [g [c' [Hin Hf]]]. exists g, c'. split; [right; exact Hin|exact Hf].
Qed.

(* ---- module reachability ---- *)
Lemma mreach_snoc w a b c : mreach w a b -> madj w b c -> mreach w a c.
Proof.
  intros H Hbc. induction H as [x|x y z Hxy _ IH].
  - econstructor 2; [exact Hbc|constructor 1].
  - econstructor 2; [exact Hxy|apply IH; exact Hbc].
Qed.

Section Loop.
Variable w : world.
Variable root : nat.
Hypothesis Hclosed : closed w.

(* the loop invariant; L = nds ++ queue is the final node list in the making *)
Definition sp_inv (nds : list nat) (eds : list (list edge)) (queue : list nat) : Prop :=
  NoDup (nds ++ queue) /\ length eds = length nds /\
  (forall i m, nth_error nds i = Some m ->
               Forall2 (expected_edge (nds ++ queue)) (endpoints w m) (nth i eds [])) /\
  (forall m, In m (nds ++ queue) -> mreach w root m) /\
  (forall m m', In m nds -> madj w m m' -> In m' (nds ++ queue)) /\
  hd_error (nds ++ queue) = Some root /\
  (forall m, In m (nds ++ queue) -> m < length w).

Lemma sp_inv_step nds eds m q b q' :
  sp_inv nds eds (m :: q) ->
  sp_gates (nds ++ [m]) (length (nds ++ [m]) - 1) m 0 (gates_of w m) q = (b, q') ->
  sp_inv (nds ++ [m]) (eds ++ [b]) q'.
Proof.
  intros [ND [Hl [Hb [Hr [Hcl [Hhd Hlt]]]]]] SG.
  pose proof (snoc_app nds m q) as EL.
  assert (Hne : nds ++ [m] <> []) by (intros E; apply app_eq_nil in E; destruct E; discriminate).
  assert (ND' : NoDup ((nds ++ [m]) ++ q)) by (rewrite EL; exact ND).
  destruct (sp_gates_spec _ _ _ _ _ _ _ Hne ND' SG) as [ext [E [ND2 [F Hext]]]].
  assert (EL2 : (nds ++ [m]) ++ q' = (nds ++ m :: q) ++ ext) by (subst q'; rewrite app_assoc, EL; reflexivity).
  assert (Hm : mreach w root m) by (apply Hr; apply in_or_app; right; left; reflexivity).
  unfold sp_inv. rewrite EL2. rewrite EL2 in ND2, F.
  split; [exact ND2|]. split; [rewrite !app_length, Hl; reflexivity|]. split; [|split; [|split; [|split]]].
  - intros i m0 Hi. destruct (Nat.lt_ge_cases i (length nds)) as [Lt|Ge].
    + rewrite nth_error_app1 in Hi by exact Lt. rewrite app_nth1 by (rewrite Hl; exact Lt).
      apply Forall2_expected_mono. apply Hb. exact Hi.
    + rewrite nth_error_app2 in Hi by exact Ge.
      destruct (i - length nds) as [|k] eqn:Ek; [|destruct k; discriminate].
      cbn [nth_error] in Hi. inversion Hi. subst m0.
      assert (i = length eds) by lia. subst i. rewrite app_nth2 by lia. rewrite Nat.sub_diag. cbn [nth].
      exact F.
  - intros x Hx. apply in_app_or in Hx. destruct Hx as [Hx|Hx]; [apply Hr; exact Hx|].
    eapply mreach_snoc; [exact Hm|exact (Hext x Hx)].
  - intros x x' Hx Hadj. apply in_snoc in Hx. destruct Hx as [Hx|Hx].
    + apply in_or_app. left. eapply Hcl; eassumption.
    + subst x. destruct Hadj as [g [c [Hin Hf]]].
      destruct (Forall2_In_l _ _ _ _ F Hin) as [e [_ [_ [_ Hd]]]]. cbn [fst snd] in Hd.
      rewrite Hf in Hd. eapply nth_error_In. exact Hd.
  - destruct (nds ++ m :: q) as [|y l] eqn:E'; [discriminate|]. exact Hhd.
  - intros x Hx. apply in_app_or in Hx. destruct Hx as [Hx|Hx]; [apply Hlt; exact Hx|].
    destruct (Hext x Hx) as [g [c [Hin Hf]]]. rewrite <- Hf. eapply Hclosed. exact Hin.
Qed.

Definition sp_final (t : topo) : Prop :=
  exact_view w t /\ hd_error (nodes t) = Some root /\ forall m, In m (nodes t) <-> mreach w root m.

Lemma sp_inv_final nds eds : sp_inv nds eds [] -> sp_final {| nodes := nds; edges := eds |}.
Proof.
  unfold sp_inv. rewrite app_nil_r. intros [ND [Hl [Hb [Hr [Hcl [Hhd _]]]]]].
  split; [|split; [exact Hhd|]].
  - split; [exact ND|]. split; [exact Hl|]. intros i m Hm. cbn [nodes] in *.
    rewrite filter_all by reflexivity. unfold bundle. cbn [edges]. apply Hb. exact Hm.
  - intros m. cbn [nodes]. split; [apply Hr|].
    intros H. assert (Hroot : In root nds) by (destruct nds; [discriminate|inversion Hhd; left; reflexivity]).
    assert (Hclo : forall a b, mreach w a b -> In a nds -> In b nds).
    { intros a b Hab. induction Hab as [x|x y z Hxy _ IH]; intros Ha; [exact Ha|]. apply IH. eapply Hcl; eassumption. }
    apply (Hclo root m H Hroot).
Qed.

Lemma sp_loop_total fuel : forall nds eds queue,
  sp_inv nds eds queue -> S (length w) <= fuel + length nds ->
  exists t, sp_loop fuel w nds eds queue = Some t /\ sp_final t.
Proof.
  induction fuel as [|f IH]; intros nds eds queue Hinv Hf.
  - destruct queue as [|m q]; cbn [sp_loop].
    + eexists. split; [reflexivity|apply sp_inv_final; exact Hinv].
    + exfalso. destruct Hinv as [ND [_ [_ [_ [_ [_ Hlt]]]]]].
      pose proof (NoDup_bounded_length _ _ ND Hlt) as Hb. rewrite app_length in Hb. cbn [length] in Hb. lia.
  - destruct queue as [|m q]; cbn [sp_loop].
    + eexists. split; [reflexivity|apply sp_inv_final; exact Hinv].
    + destruct (sp_gates (nds ++ [m]) (length (nds ++ [m]) - 1) m 0 (gates_of w m) q) as [b q'] eqn:SG.
      apply IH; [eapply sp_inv_step; eassumption|]. rewrite app_length. cbn [length]. lia.
Qed.

End Loop.

Theorem spanned_exact w root :
  closed w -> root < length w ->
  exists t, spanned w root = Some t /\ exact_view w t /\ hd_error (nodes t) = Some root /\
            forall m, In m (nodes t) <-> mreach w root m.
Proof.
  intros Hc Hr. unfold spanned.
  apply (sp_loop_total w root Hc (S (length w)) [] [] [root]); [|cbn [length]; lia].
  unfold sp_inv. cbn [app length]. split; [constructor; [intros []|constructor]|]. split; [reflexivity|].
  split; [intros i m H; destruct i; discriminate|]. split; [intros m [E|[]]; subst; constructor 1|].
  split; [intros m m' []|]. split; [reflexivity|]. intros m [E|[]]. subst. exact Hr.
Qed.
