(* The declared module tree as a rose forest: children are kept in creation
   order ([f_ins] appends the new node as the LAST child of its parent), and
   [flatf] lists the forest in depth-first pre-order with full paths.  This is
   the specification the vector maintained by ModuleTree::add is compared with.
   Paths here are lists of names (a name is a byte string). *)
From Coq Require Import List NArith Arith Bool Lia.
From DesVerif Require Import Common.Lists Tree.Path Tree.PathLaws.
Import ListNotations.

Notation name_t := (list N) (only parsing).
Notation spath := (list (list N)) (only parsing).

Section Forest.
Variable A : Type.   (* what is attached to a node *)

Inductive tree := T (n : name_t) (a : A) (ks : list tree).
Definition tname (t : tree) := match t with T n _ _ => n end.
Definition tpay (t : tree) := match t with T _ a _ => a end.
Definition tkids (t : tree) := match t with T _ _ ks => ks end.

(* depth-first pre-order, node before its children, children left to right *)
Fixpoint flat (pre : spath) (t : tree) : list (spath * A) :=
  match t with
  | T n a ks => (pre ++ [n], a) :: flat_map (flat (pre ++ [n])) ks
  end.
Definition flatf (pre : spath) (ks : list tree) : list (spath * A) := flat_map (flat pre) ks.

Fixpoint upd_first (k : name_t) (f : tree -> tree) (ks : list tree) : list tree :=
  match ks with
  | [] => []
  | t :: r => if bytes_eqb (tname t) k then f t :: r else t :: upd_first k f r
  end.

(* new node n (with a) as the last child of the node at relative path q;
   q = [] : a new top-level node *)
Fixpoint f_ins (q : spath) (n : name_t) (a : A) (ks : list tree) : list tree :=
  match q with
  | [] => ks ++ [T n a []]
  | k :: q' => upd_first k (fun t => T (tname t) (tpay t) (f_ins q' n a (tkids t))) ks
  end.

(* sibling names are pairwise distinct, everywhere *)
Inductive twf : tree -> Prop :=
| twf_T n a ks : NoDup (map tname ks) -> Forall twf ks -> twf (T n a ks).
Definition fwf (ks : list tree) : Prop := NoDup (map tname ks) /\ Forall twf ks.

Fixpoint tree_ind' (P : tree -> Prop)
  (H : forall n a ks, Forall P ks -> P (T n a ks)) (t : tree) : P t :=
  match t with
  | T n a ks => H n a ks ((fix go (l : list tree) : Forall P l :=
                             match l with
                             | [] => Forall_nil P
                             | x :: r => Forall_cons x (tree_ind' P H x) (go r)
                             end) ks)
  end.

Definition paths (l : list (spath * A)) : list spath := map fst l.

Lemma flatf_app pre ks1 ks2 : flatf pre (ks1 ++ ks2) = flatf pre ks1 ++ flatf pre ks2.
Proof. unfold flatf. apply flat_map_app. Qed.

Lemma flatf_cons pre t ks : flatf pre (t :: ks) = flat pre t ++ flatf pre ks.
Proof. reflexivity. Qed.

Lemma flat_T pre n a ks : flat pre (T n a ks) = (pre ++ [n], a) :: flatf (pre ++ [n]) ks.
Proof. reflexivity. Qed.

Lemma flat_eta pre t : flat pre t = (pre ++ [tname t], tpay t) :: flatf (pre ++ [tname t]) (tkids t).
Proof. destruct t; reflexivity. Qed.

(* every path listed for a tree extends pre ++ [its name] *)
Lemma flat_prefix t : forall pre y, In y (flat pre t) -> exists r, fst y = pre ++ tname t :: r.
Proof.
  induction t as [n a ks IH] using tree_ind'. intros pre y Hin.
  rewrite flat_T in Hin. destruct Hin as [<-|Hin].
  - exists []. reflexivity.
  - unfold flatf in Hin. apply in_flat_map in Hin. destruct Hin as [t [Ht Hy]].
    rewrite Forall_forall in IH. destruct (IH t Ht _ _ Hy) as [r Hr].
    exists (tname t :: r). rewrite Hr, <- app_assoc. reflexivity.
Qed.

Lemma flatf_prefix pre ks y : In y (flatf pre ks) -> exists t r, In t ks /\ In y (flat pre t) /\ fst y = pre ++ tname t :: r.
Proof.
  intros Hin. unfold flatf in Hin. apply in_flat_map in Hin. destruct Hin as [t [Ht Hy]].
  destruct (flat_prefix t pre y Hy) as [r Hr]. exists t, r. auto.
Qed.

Lemma flatf_deeper pre ks : Forall (fun y => length pre < length (fst y)) (flatf pre ks).
Proof.
  apply Forall_forall. intros y Hy. destruct (flatf_prefix _ _ _ Hy) as [t [r [_ [_ Hr]]]].
  rewrite Hr, app_length. cbn [length]. lia.
Qed.

(* the list stops being deeper than d: it is empty or its head has depth <= d *)
Definition stops {B} (depth : B -> nat) (d : nat) (l : list B) : Prop :=
  match l with [] => True | y :: _ => depth y <= d end.

Lemma stops_app {B} (depth : B -> nat) d l l' : stops depth d l -> (l = [] -> stops depth d l') -> stops depth d (l ++ l').
Proof. destruct l; intros H H'; [apply H'; reflexivity|exact H]. Qed.

Lemma stops_flatf pre ks d : length pre + 1 <= d -> stops (fun y : spath * A => length (fst y)) d (flatf pre ks).
Proof.
  intros Hd. destruct ks as [|t ks]; [exact I|]. rewrite flatf_cons, flat_eta. cbn [app stops fst].
  rewrite app_length. cbn [length]. lia.
Qed.

(* ---- pre-order paths are pairwise distinct when sibling names are ---- *)
Lemma flatf_nodup_aux pre ks :
  NoDup (map tname ks) -> Forall (fun t => forall pre, NoDup (paths (flat pre t))) ks ->
  NoDup (paths (flatf pre ks)).
Proof.
  induction ks as [|t ks IHks]; intros Hnd Hall; [constructor|].
  inversion Hall as [|? ? Ht Hr]; subst. cbn [map] in Hnd. inversion Hnd as [|? ? Hnotin Hnd']; subst.
  rewrite flatf_cons. unfold paths. rewrite map_app. apply NoDup_app_intro.
  - apply Ht.
  - apply IHks; assumption.
  - intros x Hx Hx'. apply in_map_iff in Hx, Hx'. destruct Hx as [y [Hy Hyin]], Hx' as [y' [Hy' Hyin']].
    destruct (flat_prefix _ _ _ Hyin) as [r Hpr].
    destruct (flatf_prefix _ _ _ Hyin') as [t' [r' [Ht' [_ Hpr']]]].
    rewrite Hy in Hpr. rewrite Hy' in Hpr'. rewrite Hpr in Hpr'. apply app_inv_head in Hpr'.
    injection Hpr' as Hname _. apply Hnotin. rewrite Hname. apply in_map. exact Ht'.
Qed.

Lemma flat_nodup t : forall pre, twf t -> NoDup (paths (flat pre t)).
Proof.
  induction t as [n a ks IH] using tree_ind'. intros pre Hwf. inversion Hwf as [? ? ? Hnd Hks]; subst.
  rewrite flat_T. unfold paths. cbn [map fst]. constructor.
  - intros Hin. apply in_map_iff in Hin. destruct Hin as [y [Hy Hin]].
    pose proof (flatf_deeper (pre ++ [n]) ks) as Hd. rewrite Forall_forall in Hd.
    specialize (Hd y Hin). rewrite Hy in Hd. lia.
  - apply flatf_nodup_aux; [assumption|]. rewrite Forall_forall in *. intros t Ht pre'. apply IH; auto.
Qed.

Lemma flatf_nodup pre ks : fwf ks -> NoDup (paths (flatf pre ks)).
Proof.
  intros [Hnd Hks]. apply flatf_nodup_aux; [assumption|].
  rewrite Forall_forall in *. intros t Ht pre'. apply flat_nodup. auto.
Qed.

(* ---- inserting a node = inserting at the end of the parent's block ---- *)
Definition depth (y : spath * A) : nat := length (fst y).

Lemma upd_first_split k f ks1 t ks2 :
  Forall (fun t' => tname t' <> k) ks1 -> tname t = k ->
  upd_first k f (ks1 ++ t :: ks2) = ks1 ++ f t :: ks2.
Proof.
  intros H1 Ht. induction ks1 as [|x ks1 IH]; cbn [app upd_first].
  - destruct (bytes_eqb_spec (tname t) k); [reflexivity|contradiction].
  - inversion H1; subst. destruct (bytes_eqb_spec (tname x) (tname t)); [contradiction|].
    rewrite IH by assumption. reflexivity.
Qed.

Lemma in_nodup_split ks t : NoDup (map tname ks) -> In t ks ->
  exists ks1 ks2, ks = ks1 ++ t :: ks2 /\ Forall (fun t' => tname t' <> tname t) ks1.
Proof.
  intros Hnd Hin. destruct (in_split _ _ Hin) as [ks1 [ks2 ->]]. exists ks1, ks2. split; [reflexivity|].
  rewrite map_app in Hnd. cbn [map] in Hnd. apply NoDup_remove_2 in Hnd.
  apply Forall_forall. intros t' Ht' Heq. apply Hnd. apply in_or_app. left. rewrite <- Heq. apply in_map. exact Ht'.
Qed.

Lemma fwf_names_upd ks1 t t' ks2 :
  tname t' = tname t -> twf t' -> fwf (ks1 ++ t :: ks2) -> fwf (ks1 ++ t' :: ks2).
Proof.
  intros Hn Ht' [Hnd Hall]. split.
  - rewrite map_app in *. cbn [map] in *. rewrite Hn. exact Hnd.
  - apply Forall_app in Hall. destruct Hall as [H1 H2]. inversion H2; subst.
    apply Forall_app. split; [assumption|]. constructor; assumption.
Qed.

Lemma fwf_kids ks t : fwf ks -> In t ks -> fwf (tkids t).
Proof.
  intros [_ Hall] Hin. rewrite Forall_forall in Hall. specialize (Hall t Hin).
  inversion Hall; subst. split; assumption.
Qed.

Lemma tname_in_paths pre ks t : In t ks -> In (pre ++ [tname t]) (paths (flatf pre ks)).
Proof.
  intros Ht. apply in_map_iff. exists (pre ++ [tname t], tpay t). split; [reflexivity|].
  apply in_flat_map. exists t. split; [assumption|]. rewrite flat_eta. left. reflexivity.
Qed.

Lemma fwf_snoc pre ks n a : fwf ks -> ~ In (pre ++ [n]) (paths (flatf pre ks)) -> fwf (ks ++ [T n a []]).
Proof.
  intros [Hnd Hall] Hnew. split.
  - rewrite map_app. cbn [map tname]. apply NoDup_app_intro; [assumption|repeat constructor; intros []|].
    intros x Hx [<-|[]]. apply Hnew. apply in_map_iff in Hx. destruct Hx as [t [<- Ht]].
    apply tname_in_paths. exact Ht.
  - apply Forall_app. split; [assumption|]. repeat constructor.
Qed.

(* the node at pre ++ k :: q' lies in the one top-level tree named k, and f_ins
   descends into exactly that tree *)
Lemma f_ins_cons pre ks k q' n a : fwf ks -> In (pre ++ k :: q') (paths (flatf pre ks)) ->
  exists ks1 t ks2, ks = ks1 ++ t :: ks2 /\ tname t = k /\ Forall (fun t' => tname t' <> k) ks1 /\
    f_ins (k :: q') n a ks = ks1 ++ T k (tpay t) (f_ins q' n a (tkids t)) :: ks2 /\
    fwf (tkids t) /\
    (q' = [] \/ In ((pre ++ [k]) ++ q') (paths (flatf (pre ++ [k]) (tkids t)))).
Proof.
  intros Hwf Hin. apply in_map_iff in Hin. destruct Hin as [y [Hy Hyin]].
  destruct (flatf_prefix _ _ _ Hyin) as [t [r [Ht [Hyt Hpr]]]].
  rewrite Hy in Hpr. apply app_inv_head in Hpr. injection Hpr as -> ->.
  destruct (in_nodup_split ks t (proj1 Hwf) Ht) as [ks1 [ks2 [Hks Hks1]]].
  exists ks1, t, ks2. split; [exact Hks|]. split; [reflexivity|]. split; [exact Hks1|]. split; [|split].
  - cbn [f_ins]. rewrite Hks. apply upd_first_split; [assumption|reflexivity].
  - eapply fwf_kids; eassumption.
  - destruct r as [|k' r]; [left; reflexivity|right]. rewrite flat_eta in Hyt. destruct Hyt as [Heq|Hyt].
    + exfalso. rewrite <- Heq in Hy. cbn [fst] in Hy. apply app_inv_head in Hy. discriminate.
    + apply in_map_iff. exists y. split; [|assumption]. rewrite Hy, snoc_app. reflexivity.
Qed.

Lemma f_ins_decomp : forall q pre ks n a,
  fwf ks -> (q = [] \/ In (pre ++ q) (paths (flatf pre ks))) ->
  ~ In (pre ++ q ++ [n]) (paths (flatf pre ks)) ->
  fwf (f_ins q n a ks) /\
  exists l1 sub l2,
    flatf pre ks = l1 ++ sub ++ l2 /\
    flatf pre (f_ins q n a ks) = l1 ++ sub ++ (pre ++ q ++ [n], a) :: l2 /\
    Forall (fun y => length (pre ++ q) < depth y) sub /\
    stops depth (length (pre ++ q)) l2 /\
    match q with [] => l1 = [] /\ l2 = [] | _ => exists l0 aq, l1 = l0 ++ [(pre ++ q, aq)] end.
Proof.
  induction q as [|k q' IH]; intros pre ks n a Hwf Hin Hnew; cbn [f_ins].
  - split; [exact (fwf_snoc pre ks n a Hwf Hnew)|]. exists [], (flatf pre ks), [].
    rewrite flatf_app, !app_nil_r. repeat split. apply flatf_deeper.
  - destruct Hin as [Hin|Hin]; [discriminate|].
    destruct (f_ins_cons pre ks k q' n a Hwf Hin) as (ks1 & t & ks2 & Hks & <- & Hks1 & Hins & Hkids & Hin').
    cbn [f_ins] in Hins. rewrite Hins. subst ks. rewrite flatf_app, flatf_cons, flat_eta in Hnew |- *.
    destruct (IH (pre ++ [tname t]) (tkids t) n a Hkids Hin') as [Hwf' (l1 & sub & l2 & E1 & E2 & Hsub & Hstop & Hl1)].
    { intros H. apply Hnew. rewrite snoc_app in H. unfold paths. rewrite !map_app. cbn [map].
      apply in_or_app. right. apply in_or_app. left. right. exact H. }
    rewrite ?snoc_app in *. split.
    + apply (fwf_names_upd ks1 t _ ks2); [reflexivity| |exact Hwf]. destruct Hwf'. constructor; assumption.
    + exists (flatf pre ks1 ++ (pre ++ [tname t], tpay t) :: l1), sub, (l2 ++ flatf pre ks2).
      rewrite flatf_app, flatf_cons, flat_T, E1, E2. repeat split.
      1,2: cbn [app]; rewrite <- !app_assoc; reflexivity.
      * exact Hsub.
      * apply stops_app; [exact Hstop|]. intros _. apply stops_flatf. rewrite app_length. cbn [length]. lia.
      * destruct q' as [|k' q'].
        -- destruct Hl1 as [-> _]. exists (flatf pre ks1), (tpay t). reflexivity.
        -- destruct Hl1 as (l0 & aq & ->). exists (flatf pre ks1 ++ (pre ++ [tname t], tpay t) :: l0), aq.
           rewrite <- app_assoc. reflexivity.
Qed.

End Forest.
