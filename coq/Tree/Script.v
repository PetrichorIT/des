(* Scripts (Tree/Model.v `run_from`) versus insertion sequences: only `Node`
   operations change the builder's state, queries may be interleaved freely. *)
From Coq Require Import List NArith Bool.
From DesVerif Require Import Tree.Path Tree.PathLaws Tree.Model Tree.Forest Tree.Refine.
Import ListNotations.
Local Open Scope nat_scope.

Definition node_ins (ops : list op) : list (nat * list N) :=
  flat_map (fun o => match o with Node st p => [(st, p)] | _ => [] end) ops.

Fixpoint raw_strs (s : sim) (l : list (nat * list N)) : sim :=
  match l with
  | [] => s
  | (st, p) :: r => match raw s (from p) st with Ok s' => raw_strs s' r | Panic _ => raw_strs s r end
  end.

(* scripts that use plain sim.node(path, module) only; NDL described blocks: Tree/NdlBlock.v *)
Definition no_ndl (ops : list op) : Prop :=
  Forall (fun o => match o with NdlBlock _ _ _ => False | _ => True end) ops.

Lemma run_from_cons_fst s o ops : fst (run_from s (o :: ops)) = fst (run_from (fst (step s o)) ops).
Proof. cbn [run_from]. destruct (step s o) as [s' x]. cbn [fst]. destruct (run_from s' ops). reflexivity. Qed.

Lemma run_from_state ops : no_ndl ops -> forall s, fst (run_from s ops) = raw_strs s (node_ins ops).
Proof.
  induction ops as [|o ops IH]; intros Hn s; [reflexivity|]. inversion Hn as [|? ? Ho Hn']; subst.
  rewrite run_from_cons_fst, (IH Hn'). cbn [node_ins flat_map].
  destruct o as [st p|p|p nm|str|str nm|p lv sts]; cbn [step app raw_strs]; try contradiction; try reflexivity.
  - destruct (raw s (from p) st); reflexivity.
  - destruct (tree_get (modules s) (from p)); reflexivity.
  - destruct (tree_get (modules s) (from p)); reflexivity.
Qed.

Definition strs (l : list (nat * list (list N))) : list (nat * list N) :=
  map (fun x => (fst x, join (snd x))) l.

Lemma raw_all_strs l : forall s, fst (raw_all s l) = raw_strs s (strs l).
Proof.
  induction l as [|[st p] l IH]; intros s; [reflexivity|]. rewrite raw_all_cons. cbn [strs map raw_strs fst snd].
  destruct (raw s (from (join p)) st); apply IH.
Qed.

