(* ModuleTree::add / SimBuilder::raw (Tree/Model.v) against the declared tree
   (Tree/Forest.v): after any sequence of insertions of well-formed paths the
   module vector is the depth-first pre-order of the forest in which every
   accepted node was appended as the last child of its parent, and the builder
   rejects exactly duplicates and orphans.  The parent pointers and children
   maps it writes on the way resolve as the declared tree says (end of file). *)
From Coq Require Import List NArith Arith Bool Lia Permutation FinFun.
From DesVerif Require Import Common.Lists Tree.Path Tree.PathLaws Tree.Model Tree.Forest.
Import ListNotations.
Local Open Scope nat_scope.

(* ---- the vector algorithm on a block decomposition ---- *)
Lemma rposition_none {A} (f : A -> bool) l : Forall (fun y => f y = false) l -> rposition f l = None.
Proof.
  induction l as [|x l IH]; intros H; [reflexivity|]. inversion H as [|? ? Hx Hl]; subst.
  cbn [rposition]. rewrite IH by assumption. rewrite Hx. reflexivity.
Qed.

Lemma rposition_last {A} (f : A -> bool) l1 q l2 :
  f q = true -> Forall (fun y => f y = false) l2 -> rposition f (l1 ++ q :: l2) = Some (length l1).
Proof.
  intros Hq H2. induction l1 as [|x l1 IH]; cbn [app rposition length].
  - rewrite rposition_none by assumption. rewrite Hq. reflexivity.
  - rewrite IH. reflexivity.
Qed.

Definition mdepth (x : mref) : nat := len (mpath x).

Lemma skip_deeper_block d sub l2 :
  Forall (fun x => d < mdepth x) sub -> stops mdepth d l2 -> skip_deeper d (sub ++ l2) = length sub.
Proof.
  intros Hs H2. induction sub as [|x sub IH]; cbn [app skip_deeper length].
  - destruct l2 as [|y l2]; [reflexivity|]. cbn [stops] in H2. cbn [skip_deeper].
    unfold mdepth in H2. destruct (Nat.ltb_spec d (len (mpath y))); [lia|reflexivity].
  - inversion Hs as [|? ? Hx Hr]; subst. unfold mdepth in Hx.
    destruct (Nat.ltb_spec d (len (mpath x))); [|lia]. rewrite IH by assumption. reflexivity.
Qed.

Lemma insert_at_app {A} l1 (x : A) l2 : insert_at (length l1) x (l1 ++ l2) = l1 ++ x :: l2.
Proof.
  unfold insert_at. rewrite firstn_app, firstn_all, Nat.sub_diag. cbn [firstn]. rewrite app_nil_r.
  rewrite skipn_app, skipn_all, Nat.sub_diag. reflexivity.
Qed.

Lemma tree_add_block m par l1 q sub l2 :
  parent (mpath m) = Some par -> is_root par = false -> mpath q = par ->
  Forall (fun y => mpath y <> par) (sub ++ l2) ->
  Forall (fun x => len par < mdepth x) sub -> stops mdepth (len par) l2 ->
  tree_add (l1 ++ q :: sub ++ l2) m = Ok (l1 ++ q :: sub ++ m :: l2).
Proof.
  intros Hpar Hroot Hq Hne Hsub Hstop. unfold tree_add. rewrite Hpar, Hroot.
  rewrite (rposition_last _ l1 q (sub ++ l2)).
  - replace (length l1 + 1) with (length (l1 ++ [q])) by (rewrite app_length; reflexivity).
    replace (l1 ++ q :: sub ++ l2) with ((l1 ++ [q]) ++ sub ++ l2) by (rewrite <- app_assoc; reflexivity).
    rewrite skipn_app, skipn_all, Nat.sub_diag. cbn [skipn app].
    rewrite skip_deeper_block by assumption.
    rewrite <- app_length. rewrite app_assoc. rewrite insert_at_app.
    rewrite <- !app_assoc. reflexivity.
  - destruct (opath_eqb_spec (mpath q) par); [reflexivity|contradiction].
  - eapply Forall_impl; [|exact Hne]. intros y Hy. cbn beta in Hy.
    destruct (opath_eqb_spec (mpath y) par); [contradiction|reflexivity].
Qed.

(* ---- the declared tree ---- *)
Record pay := { p_ord : N; p_stages : nat; p_parent : option N }.
Notation node := (list (list N) * pay)%type.

Definition to_mref (y : node) : mref :=
  {| mpath := mk (fst y); mord := p_ord (snd y); mstages := p_stages (snd y); mparent := p_parent (snd y) |}.

Definition speqb (a b : list (list N)) : bool :=
  if list_eq_dec (list_eq_dec N.eq_dec) a b then true else false.

Lemma speqb_spec a b : reflect (a = b) (speqb a b).
Proof. unfold speqb. destruct (list_eq_dec (list_eq_dec N.eq_dec) a b); constructor; assumption. Qed.

(* a path one may hand to the builder: at least one element, all elements good names *)
Definition wf_path (p : list (list N)) : Prop := p <> [] /\ Forall good p.

(* the forest in which every declared node was appended as last child of its parent *)
Definition ins_node (F : list (tree pay)) (y : node) : list (tree pay) :=
  f_ins pay (removelast (fst y)) (last (fst y) []) (snd y) F.
Definition forest_of (d : list node) : list (tree pay) := fold_left ins_node d [].

(* depth-first pre-order of the declared tree, siblings in creation order *)
Definition preorder (d : list node) : list node := flatf pay [] (forest_of d).

Definition ord_of (d : list node) (q : list (list N)) : option N :=
  match find (fun y => speqb (fst y) q) d with Some y => Some (p_ord (snd y)) | None => None end.

Inductive verdict := Accept | RejDup | RejOrphan.

Definition declared (d : list node) (p : list (list N)) : bool := existsb (fun y => speqb (fst y) p) d.

(* the builder's contract, on the list of nodes declared so far *)
Definition judge (d : list node) (p : list (list N)) : verdict :=
  if declared d p then RejDup
  else if (2 <=? length p) && negb (declared d (removelast p)) then RejOrphan
  else Accept.

Definition new_node (d : list node) (st : nat) (p : list (list N)) : node :=
  (p, {| p_ord := N.of_nat (length d); p_stages := st; p_parent := ord_of d (removelast p) |}).

Definition site_of (v : verdict) : N :=
  match v with Accept => 0%N | RejDup => P_DUP | RejOrphan => P_ORPHAN end.

Fixpoint spec_run (d : list node) (l : list (nat * list (list N))) : list node * list verdict :=
  match l with
  | [] => (d, [])
  | (st, p) :: r =>
      let v := judge d p in
      let d' := match v with Accept => d ++ [new_node d st p] | _ => d end in
      let '(d'', vs) := spec_run d' r in (d'', v :: vs)
  end.

(* the builder, fed with the dotted strings *)
Fixpoint raw_all (s : sim) (l : list (nat * list (list N))) : sim * list N :=
  match l with
  | [] => (s, [])
  | (st, p) :: r =>
      match raw s (from (join p)) st with
      | Ok s' => let '(s'', o) := raw_all s' r in (s'', 0%N :: o)
      | Panic k => let '(s'', o) := raw_all s r in (s'', k :: o)
      end
  end.

(* ---- invariant ---- *)
(* inv_perm lets a lookup by path in the vector be answered from the declaration
   list (inv_get); inv_ords makes ordinals identify declarations (child lookup,
   distinct module identities for the life-cycle theorems). *)
Record Inv (s : sim) (d : list node) : Prop := {
  inv_vec : modules s = map to_mref (preorder d);
  inv_wf : fwf pay (forest_of d);
  inv_perm : Permutation (preorder d) d;
  inv_good : Forall (fun y => wf_path (fst y)) d;
  inv_next : next_ord s = N.of_nat (length d);
  inv_ords : map (fun y => p_ord (snd y)) d = map N.of_nat (seq 0 (length d)) }.

Lemma forest_of_snoc d q n a : forest_of (d ++ [(q ++ [n], a)]) = f_ins pay q n a (forest_of d).
Proof.
  unfold forest_of. rewrite fold_left_app. unfold ins_node at 1. cbn [fold_left fst snd].
  rewrite removelast_last, last_last. reflexivity.
Qed.

Lemma wf_path_snoc p : wf_path p -> exists q n, p = q ++ [n] /\ Forall good q /\ good n.
Proof.
  intros [Hne Hg]. destruct (exists_last Hne) as [q [n ->]]. exists q, n.
  apply Forall_app in Hg. destruct Hg as [Hq Hn]. inversion Hn; subst. auto.
Qed.

Lemma wf_path_snoc_intro q n : Forall good q -> good n -> wf_path (q ++ [n]).
Proof. intros Hq Hn. split; [destruct q; discriminate|apply good_snoc; assumption]. Qed.

Lemma find_map {A B} (f : B -> bool) (g : A -> B) l :
  find f (map g l) = option_map g (find (fun x => f (g x)) l).
Proof.
  induction l as [|x l IH]; [reflexivity|]. cbn [map find]. destruct (f (g x)); [reflexivity|exact IH].
Qed.

Lemma find_ext_in {A} (f g : A -> bool) l : (forall x, In x l -> f x = g x) -> find f l = find g l.
Proof.
  induction l as [|x l IH]; intros H; [reflexivity|]. cbn [find]. rewrite (H x (or_introl eq_refl)).
  destruct (g x); [reflexivity|]. apply IH. intros y Hy. apply H. right. exact Hy.
Qed.

Lemma tree_get_map (L : list node) q :
  Forall (fun y => Forall good (fst y)) L -> Forall good q ->
  tree_get (map to_mref L) (mk q) = option_map to_mref (find (fun y => speqb (fst y) q) L).
Proof.
  intros HL Hq. unfold tree_get. rewrite find_map. f_equal. apply find_ext_in.
  intros y Hy. rewrite Forall_forall in HL. cbn [to_mref mpath].
  rewrite opath_eqb_mk by auto. reflexivity.
Qed.

Lemma nodup_map_inj {A B} (f : A -> B) l x y : NoDup (map f l) -> In x l -> In y l -> f x = f y -> x = y.
Proof.
  induction l as [|z l IH]; intros Hnd Hx Hy Heq; [contradiction|].
  cbn [map] in Hnd. inversion Hnd as [|? ? Hnotin Hnd']; subst.
  destruct Hx as [<-|Hx], Hy as [<-|Hy]; [reflexivity| | |auto].
  - exfalso. apply Hnotin. rewrite Heq. apply in_map. assumption.
  - exfalso. apply Hnotin. rewrite <- Heq. apply in_map. assumption.
Qed.

Lemma find_path_spec (l : list node) q :
  match find (fun y => speqb (fst y) q) l with
  | Some y => In y l /\ fst y = q
  | None => ~ In q (map fst l)
  end.
Proof.
  destruct (find _ l) as [y|] eqn:E.
  - apply find_some in E. destruct E as [Hin Heq]. destruct (speqb_spec (fst y) q); [auto|discriminate].
  - intros Hin. apply in_map_iff in Hin. destruct Hin as [y [Hy Hin]].
    pose proof (find_none _ _ E y Hin) as H. cbn beta in H. destruct (speqb_spec (fst y) q); [discriminate|contradiction].
Qed.

Lemma find_path_some (l : list node) y :
  NoDup (map fst l) -> In y l -> find (fun y' => speqb (fst y') (fst y)) l = Some y.
Proof.
  intros Hnd Hin. pose proof (find_path_spec l (fst y)) as S. destruct (find _ l) as [y'|].
  - destruct S as [Hin' Heq]. f_equal. exact (nodup_map_inj fst l y' y Hnd Hin' Hin Heq).
  - exfalso. apply S, in_map, Hin.
Qed.

Lemma find_path_none (l : list node) q :
  ~ In q (map fst l) -> find (fun y' => speqb (fst y') q) l = None.
Proof.
  intros Hnot. pose proof (find_path_spec l q) as S. destruct (find _ l) as [y|]; [|reflexivity].
  destruct S as [Hin <-]. exfalso. apply Hnot, in_map, Hin.
Qed.

Lemma ord_of_undeclared d q : ~ In q (map fst d) -> ord_of d q = None.
Proof. intros H. unfold ord_of. rewrite find_path_none by assumption. reflexivity. Qed.

Lemma declared_iff d p : declared d p = true <-> In p (map fst d).
Proof.
  unfold declared. rewrite existsb_exists. split.
  - intros [y [Hy Heq]]. destruct (speqb_spec (fst y) p); [|discriminate]. subst. apply in_map. assumption.
  - intros Hin. apply in_map_iff in Hin. destruct Hin as [y [Heq Hy]]. exists y. split; [assumption|].
    destruct (speqb_spec (fst y) p); [reflexivity|contradiction].
Qed.

Lemma judge_spec d p :
  match judge d p with
  | RejDup => In p (map fst d)
  | RejOrphan => ~ In p (map fst d) /\ 2 <= length p /\ ~ In (removelast p) (map fst d)
  | Accept => ~ In p (map fst d) /\ (2 <= length p -> In (removelast p) (map fst d))
  end.
Proof.
  unfold judge. pose proof (declared_iff d p) as Hp. pose proof (declared_iff d (removelast p)) as Hq.
  destruct (declared d p); [apply Hp; reflexivity|].
  destruct (Nat.leb_spec 2 (length p)); cbn [andb].
  - destruct (declared d (removelast p)); cbn [negb]; intuition congruence.
  - split; [intuition congruence|lia].
Qed.

Lemma judge_accept_snoc d q n : judge d (q ++ [n]) = Accept ->
  ~ In (q ++ [n]) (map fst d) /\ (q = [] \/ In q (map fst d)).
Proof.
  intros H. pose proof (judge_spec d (q ++ [n])) as J. rewrite H, removelast_last, app_length in J.
  destruct J as [Hnew Hpar]. split; [exact Hnew|].
  destruct q; [left; reflexivity|right; apply Hpar; cbn [length]; lia].
Qed.

Lemma judge_complete d p :
  (In p (map fst d) -> judge d p = RejDup) /\
  (~ In p (map fst d) -> 2 <= length p -> ~ In (removelast p) (map fst d) -> judge d p = RejOrphan) /\
  (~ In p (map fst d) -> (2 <= length p -> In (removelast p) (map fst d)) -> judge d p = Accept).
Proof. pose proof (judge_spec d p) as J. destruct (judge d p); intuition. Qed.

(* finding by path gives the same node in the pre-order and in the declaration list *)
Lemma find_perm (l l' : list node) q :
  Permutation l l' -> NoDup (map fst l) ->
  find (fun y => speqb (fst y) q) l = find (fun y => speqb (fst y) q) l'.
Proof.
  intros Hp Hnd.
  assert (Hnd' : NoDup (map fst l')) by (eapply Permutation_NoDup; [apply Permutation_map; exact Hp|exact Hnd]).
  pose proof (find_path_spec l q) as S. destruct (find _ l) as [y|].
  - destruct S as [Hy <-]. symmetry. apply find_path_some; [exact Hnd'|exact (Permutation_in _ Hp Hy)].
  - symmetry. apply find_path_none. intros H. apply S.
    eapply Permutation_in; [apply Permutation_map, Permutation_sym; exact Hp|exact H].
Qed.

Lemma inv_nodup s d : Inv s d -> NoDup (map fst (preorder d)).
Proof. intros H. apply (flatf_nodup pay). apply (inv_wf _ _ H). Qed.

Lemma inv_paths s d x : Inv s d -> In x (paths pay (preorder d)) <-> In x (map fst d).
Proof.
  intros H. split; apply Permutation_in, Permutation_map; [|symmetry]; exact (inv_perm _ _ H).
Qed.

Lemma inv_good_pre s d : Inv s d -> Forall (fun y => Forall good (fst y)) (preorder d).
Proof.
  intros H. apply Forall_forall. intros y Hy.
  pose proof (inv_good _ _ H) as Hg. rewrite Forall_forall in Hg.
  apply (Hg y). eapply Permutation_in; [exact (inv_perm _ _ H)|exact Hy].
Qed.

Lemma inv_get s d q : Inv s d -> Forall good q ->
  tree_get (modules s) (mk q) = option_map to_mref (find (fun y => speqb (fst y) q) d).
Proof.
  intros H Hq. rewrite (inv_vec _ _ H). rewrite tree_get_map by (eauto using inv_good_pre).
  f_equal. apply find_perm; [exact (inv_perm _ _ H)|exact (inv_nodup _ _ H)].
Qed.

Lemma inv_ords_nodup s d : Inv s d -> NoDup (map (fun y : node => p_ord (snd y)) d).
Proof.
  intros HI. rewrite (inv_ords _ _ HI). apply Injective_map_NoDup; [|apply seq_NoDup].
  intros a b Hab. apply Nat2N.inj. exact Hab.
Qed.

Lemma inv_paths_nodup s d : Inv s d -> NoDup (map fst d).
Proof.
  intros HI. eapply Permutation_NoDup; [apply Permutation_map; exact (inv_perm _ _ HI)|exact (inv_nodup _ _ HI)].
Qed.

Lemma root_undeclared s d : Inv s d -> ~ In [] (map fst d).
Proof.
  intros HI Hin. apply in_map_iff in Hin. destruct Hin as [y [Hy Hin]].
  pose proof (inv_good _ _ HI) as Hg. rewrite Forall_forall in Hg. destruct (Hg y Hin) as [Hne _]. congruence.
Qed.

Lemma Forall_removelast {A} (P : A -> Prop) l : Forall P l -> Forall P (removelast l).
Proof.
  intros H. destruct l as [|a l]; [constructor|].
  destruct (exists_last (l := a :: l)) as [l' [x Heq]]; [discriminate|]. rewrite Heq in *.
  rewrite removelast_last. apply Forall_app in H. tauto.
Qed.

(* ModuleTree::add on a pre-order vector is insertion as last child in the forest *)
Lemma tree_add_flat F q n a :
  fwf pay F -> Forall (fun y => Forall good (fst y)) (flatf pay [] F) -> Forall good q ->
  (q = [] \/ In q (paths pay (flatf pay [] F))) -> ~ In (q ++ [n]) (paths pay (flatf pay [] F)) ->
  let F' := f_ins pay q n a F in
  tree_add (map to_mref (flatf pay [] F)) (to_mref (q ++ [n], a)) = Ok (map to_mref (flatf pay [] F')) /\
  fwf pay F' /\ Permutation (flatf pay [] F') (flatf pay [] F ++ [(q ++ [n], a)]).
Proof.
  intros Hwf Hg Hgq Hin Hnew F'.
  destruct (f_ins_decomp pay q [] F n a Hwf Hin Hnew) as [Hwf' (l1 & sub & l2 & E1 & E2 & Hsub & Hstop & Hl1)].
  fold F' in E2, Hwf'. cbn [app] in E2, Hsub, Hstop, Hl1. rewrite E2. split; [|split; [exact Hwf'|]].
  2:{ rewrite E1, !app_assoc. etransitivity; [symmetry; apply Permutation_middle|apply Permutation_cons_append]. }
  destruct q as [|k q].
  - destruct Hl1 as [-> ->]. unfold tree_add. cbn [to_mref mpath fst].
    rewrite parent_mk_snoc, is_root_mk by constructor. rewrite E1. cbn [app]. rewrite app_nil_r, map_app. reflexivity.
  - destruct Hl1 as (l0 & aq & ->). rewrite E1 in Hg |- *. rewrite !snoc_app in *.
    rewrite !map_app. cbn [map]. rewrite !map_app. cbn [map].
    apply tree_add_block with (par := mk (k :: q)).
    + apply parent_mk_snoc. exact Hgq.
    + reflexivity.
    + reflexivity.
    + rewrite <- map_app. apply Forall_map, Forall_forall. intros z Hz Heq. cbn [to_mref mpath] in Heq.
      pose proof (flatf_nodup pay [] F Hwf) as Hnd. unfold paths in Hnd. rewrite E1, map_app in Hnd. cbn [map fst] in Hnd.
      apply NoDup_remove_2 in Hnd. apply Hnd, in_or_app. right.
      rewrite Forall_forall in Hg. rewrite <- (mk_inj _ _ (Hg z ltac:(auto using in_or_app, in_cons)) Hgq Heq).
      apply in_map. exact Hz.
    + apply Forall_map. exact Hsub.
    + destruct l2; [exact I|exact Hstop].
Qed.

Lemma inv_snoc s d q n st pa : Inv s d -> Forall good q -> good n ->
  (q = [] \/ In q (map fst d)) -> ~ In (q ++ [n]) (map fst d) ->
  exists ms,
    tree_add (modules s) {| mpath := mk (q ++ [n]); mord := next_ord s; mstages := st; mparent := pa |} = Ok ms /\
    forall ch, Inv {| modules := ms; children := ch; next_ord := N.succ (next_ord s) |}
                   (d ++ [(q ++ [n], {| p_ord := N.of_nat (length d); p_stages := st; p_parent := pa |})]).
Proof.
  intros HI Hgq Hn Hin Hnew. rewrite <- (inv_paths _ _ _ HI) in Hin. rewrite <- (inv_paths _ _ _ HI) in Hnew.
  set (a := {| p_ord := N.of_nat (length d); p_stages := st; p_parent := pa |}).
  destruct (tree_add_flat (forest_of d) q n a (inv_wf _ _ HI) (inv_good_pre _ _ HI) Hgq Hin Hnew)
    as (Hadd & Hwf' & Hperm).
  rewrite (inv_vec _ _ HI), (inv_next _ _ HI). eexists. split; [exact Hadd|]. intros ch.
  constructor; cbn [modules next_ord]; unfold preorder; rewrite ?forest_of_snoc.
  - reflexivity.
  - exact Hwf'.
  - rewrite Hperm. apply Permutation_app_tail. exact (inv_perm _ _ HI).
  - apply Forall_app. split; [exact (inv_good _ _ HI)|]. constructor; [|constructor].
    apply wf_path_snoc_intro; assumption.
  - rewrite app_length. cbn [length]. lia.
  - rewrite app_length, map_app, seq_app, map_app, (inv_ords _ _ HI). reflexivity.
Qed.

Lemma raw_step s d st p : Inv s d -> wf_path p ->
  match judge d p with
  | RejDup => raw s (from (join p)) st = Panic P_DUP
  | RejOrphan => raw s (from (join p)) st = Panic P_ORPHAN
  | Accept => exists s', raw s (from (join p)) st = Ok s' /\ Inv s' (d ++ [new_node d st p])
  end.
Proof.
  intros HI Hp. destruct (wf_path_snoc p Hp) as (q & n & -> & Hgq & Hn).
  pose proof (good_snoc q n Hgq Hn) as Hg. pose proof (judge_spec d (q ++ [n])) as J.
  rewrite from_join by assumption. unfold raw, new_node. rewrite removelast_last in *.
  rewrite (inv_get _ _ _ HI Hg), nonzero_parent_mk_snoc by assumption.
  destruct (judge d (q ++ [n])); [| |destruct J as (Hnew & Hlen & Hpar)].
  - destruct J as [Hnew Hpar]. rewrite (find_path_none d _ Hnew). cbn [option_map].
    destruct q as [|k q].
    + rewrite (ord_of_undeclared d []) by exact (root_undeclared _ _ HI).
      destruct (inv_snoc s d [] n st None HI Hgq Hn (or_introl eq_refl) Hnew) as (ms & -> & HI').
      eexists. split; [reflexivity|apply HI'].
    + rewrite app_length in Hpar. specialize (Hpar ltac:(cbn [length]; lia)).
      rewrite (inv_get _ _ _ HI Hgq). unfold ord_of. pose proof (find_path_spec d (k :: q)) as Sq.
      destruct (find _ d) as [[py ay]|]; [|contradiction]. destruct Sq as [_ Hy]. cbn [fst] in Hy. subst py.
      cbn [option_map to_mref mpath mord fst snd]. rewrite name_mk_snoc, appended_mk by assumption.
      destruct (inv_snoc s d (k :: q) n st (Some (p_ord ay)) HI Hgq Hn (or_intror Hpar) Hnew) as (ms & -> & HI').
      eexists. split; [reflexivity|apply HI'].
  - pose proof (find_path_spec d (q ++ [n])) as S. destruct (find _ d); [reflexivity|contradiction].
  - rewrite (find_path_none d _ Hnew). cbn [option_map]. rewrite app_length in Hlen.
    destruct q as [|k q]; [cbn [length] in Hlen; lia|].
    rewrite (inv_get _ _ _ HI Hgq), (find_path_none d _ Hpar). reflexivity.
Qed.

(* ---- all insertion sequences ---- *)
Lemma inv_init : Inv sim_new [].
Proof.
  constructor; try reflexivity; try constructor; constructor.
Qed.

Lemma raw_all_cons s st p l :
  raw_all s ((st, p) :: l) =
  match raw s (from (join p)) st with
  | Ok s' => (fst (raw_all s' l), 0%N :: snd (raw_all s' l))
  | Panic k => (fst (raw_all s l), k :: snd (raw_all s l))
  end.
Proof. cbn [raw_all]. destruct (raw s (from (join p)) st) as [s'|k]; [destruct (raw_all s' l)|destruct (raw_all s l)]; reflexivity. Qed.

Lemma spec_run_cons d st p l :
  spec_run d ((st, p) :: l) =
  let d' := match judge d p with Accept => d ++ [new_node d st p] | _ => d end in
  (fst (spec_run d' l), judge d p :: snd (spec_run d' l)).
Proof. cbn [spec_run]. destruct (spec_run _ l). reflexivity. Qed.

(* The builder refines the contract, and every property of (state, declarations)
   that an accepted insertion preserves holds along the way. *)
Theorem raw_all_refines (P : sim -> list node -> Prop) :
  (forall s d st p s', Inv s d -> P s d -> wf_path p -> judge d p = Accept ->
     raw s (from (join p)) st = Ok s' -> P s' (d ++ [new_node d st p])) ->
  forall l s d, Inv s d -> P s d -> Forall (fun x => wf_path (snd x)) l ->
  Inv (fst (raw_all s l)) (fst (spec_run d l)) /\ P (fst (raw_all s l)) (fst (spec_run d l)) /\
  snd (raw_all s l) = map site_of (snd (spec_run d l)).
Proof.
  intros HS. induction l as [|[st p] l IH]; intros s d HI HP Hwf; [auto|].
  inversion Hwf as [|? ? Hp Hl]; subst. cbn [snd] in Hp.
  pose proof (raw_step s d st p HI Hp) as Hstep. rewrite raw_all_cons, spec_run_cons.
  destruct (judge d p) eqn:Hj; cbv zeta.
  1:{ destruct Hstep as (s' & Hraw & HI'). rewrite Hraw. cbn [fst snd map site_of].
      destruct (IH s' _ HI' (HS s d st p s' HI HP Hp Hj Hraw) Hl) as (H1 & H2 & ->). auto. }
  all: rewrite Hstep; cbn [fst snd map site_of]; destruct (IH s d HI HP Hl) as (H1 & H2 & ->); auto.
Qed.

(* the state the builder reaches, and the declarations it accepted *)
Definition built (l : list (nat * list (list N))) : sim := fst (raw_all sim_new l).
Definition accepted (l : list (nat * list (list N))) : list node := fst (spec_run [] l).

Definition wf_ins (l : list (nat * list (list N))) : Prop := Forall (fun x => wf_path (snd x)) l.

Lemma built_ind (P : sim -> list node -> Prop) :
  P sim_new [] ->
  (forall s d st p s', Inv s d -> P s d -> wf_path p -> judge d p = Accept ->
     raw s (from (join p)) st = Ok s' -> P s' (d ++ [new_node d st p])) ->
  forall l, wf_ins l -> P (built l) (accepted l).
Proof. intros H0 HS l Hl. exact (proj1 (proj2 (raw_all_refines P HS l sim_new [] inv_init H0 Hl))). Qed.

Lemma built_inv l : wf_ins l -> Inv (built l) (accepted l).
Proof. apply (built_ind Inv inv_init). intros s d st p s' HI _ Hp Hj Hraw.
  pose proof (raw_step s d st p HI Hp) as Hstep. rewrite Hj in Hstep. destruct Hstep as (s'' & E & HI'). congruence.
Qed.

Theorem add_is_preorder_thm : forall l, wf_ins l ->
  modules (built l) = map to_mref (preorder (accepted l)).
Proof. intros l H. exact (inv_vec _ _ (built_inv l H)). Qed.

Lemma built_ords_nodup l : wf_ins l -> NoDup (map mord (modules (built l))).
Proof.
  intros Hl. pose proof (built_inv l Hl) as HI. rewrite (inv_vec _ _ HI), map_map.
  change (fun x => mord (to_mref x)) with (fun y : list (list N) * pay => p_ord (snd y)).
  eapply Permutation_NoDup; [|exact (inv_ords_nodup _ _ HI)].
  apply Permutation_map, Permutation_sym. exact (inv_perm _ _ HI).
Qed.

(* ---- valid insertion sequences: each parent before its children, no repetition ---- *)
Fixpoint valid_from (seen : list (list (list N))) (l : list (nat * list (list N))) : Prop :=
  match l with
  | [] => True
  | (_, p) :: r => ~ In p seen /\ (2 <= length p -> In (removelast p) seen) /\ valid_from (seen ++ [p]) r
  end.
Definition valid (l : list (nat * list (list N))) : Prop := valid_from [] l.

Lemma spec_run_valid l : forall d, valid_from (map fst d) l ->
  map fst (fst (spec_run d l)) = map fst d ++ map snd l /\
  Forall (fun v => v = Accept) (snd (spec_run d l)).
Proof.
  induction l as [|[st p] l IH]; intros d Hv; [cbn; rewrite app_nil_r; split; [reflexivity|constructor]|].
  destruct Hv as [Hnew [Hpar Hrest]]. rewrite spec_run_cons.
  rewrite (proj2 (proj2 (judge_complete d p)) Hnew Hpar). cbv zeta. cbn [fst snd map].
  destruct (IH (d ++ [new_node d st p])) as [IH1 IH2]; [rewrite map_app; exact Hrest|].
  rewrite IH1, map_app, <- app_assoc. auto.
Qed.

Theorem valid_all_accepted : forall l, valid l ->
  map fst (accepted l) = map snd l /\ Forall (fun v => v = Accept) (snd (spec_run [] l)).
Proof. intros l Hv. exact (spec_run_valid l [] Hv). Qed.

(* conversely, a sequence the contract accepts entirely is valid: [valid] is decided by running the contract *)
Lemma all_accepted_valid l : forall d,
  Forall (fun v => v = Accept) (snd (spec_run d l)) -> valid_from (map fst d) l.
Proof.
  induction l as [|[st p] l IH]; intros d H; [exact I|]. rewrite spec_run_cons in H. cbn [snd] in H.
  inversion H as [|? ? Hj Hr]; subst. pose proof (judge_spec d p) as J. rewrite Hj in *. destruct J as [Hnew Hpar].
  repeat split; [exact Hnew|exact Hpar|]. specialize (IH _ Hr). rewrite map_app in IH. exact IH.
Qed.

Lemma find_app_none {B} (f : B -> bool) l l' : find f l = None -> find f (l ++ l') = find f l'.
Proof.
  induction l as [|z l IH]; intros H; [reflexivity|]. cbn [app find] in *.
  destruct (f z); [discriminate|]. apply IH. exact H.
Qed.

Definition edge (y : node) : list (N * list N * N) :=
  match p_parent (snd y) with
  | Some po => [(po, last (fst y) [], p_ord (snd y))]
  | None => []
  end.

Record LInv (s : sim) (d : list node) : Prop := {
  l_children : children s = rev (flat_map edge d);
  l_tree : forall y, In y d ->
    p_parent (snd y) = ord_of d (removelast (fst y)) /\
    (removelast (fst y) = [] \/ In (removelast (fst y)) (map fst d)) }.

Lemma raw_ok_children s path st s' : raw s path st = Ok s' ->
  children s' = match nonzero_parent path with
                | Some par => match tree_get (modules s) par with
                              | Some pm => (mord pm, name path, next_ord s) :: children s
                              | None => children s
                              end
                | None => children s
                end.
Proof.
  unfold raw. destruct (tree_get (modules s) path); [discriminate|].
  destruct (nonzero_parent path) as [par|].
  - destruct (tree_get (modules s) par) as [pm|]; [|discriminate].
    destruct (tree_add _ _); [|discriminate]. intros H. injection H as <-. reflexivity.
  - destruct (tree_add _ _); [|discriminate]. intros H. injection H as <-. reflexivity.
Qed.

Lemma ord_of_snoc d x q : fst x <> [] -> q = [] \/ In q (map fst d) -> ord_of (d ++ [x]) q = ord_of d q.
Proof.
  intros Hx Hq. unfold ord_of. pose proof (find_path_spec d q) as S.
  destruct (find _ d) as [y|] eqn:E; [rewrite (find_app_some _ _ _ _ E); reflexivity|].
  destruct Hq as [->|Hq]; [|contradiction]. rewrite (find_app_none _ _ _ E). cbn [find].
  destruct (speqb_spec (fst x) []); [contradiction|reflexivity].
Qed.

Lemma linv_step s d st p s' : Inv s d -> LInv s d -> wf_path p -> judge d p = Accept ->
  raw s (from (join p)) st = Ok s' -> LInv s' (d ++ [new_node d st p]).
Proof.
  intros HI HL Hp Hj Hraw. destruct (wf_path_snoc p Hp) as (q & n & -> & Hgq & Hn).
  destruct (judge_accept_snoc d q n Hj) as [_ Hq]. constructor.
  - rewrite (raw_ok_children _ _ _ _ Hraw), from_join, nonzero_parent_mk_snoc, name_mk_snoc by auto using good_snoc.
    rewrite flat_map_app, rev_app_distr. cbn [flat_map]. rewrite app_nil_r.
    unfold edge at 1, new_node. cbn [fst snd p_parent p_ord]. rewrite removelast_last, last_last.
    rewrite <- (l_children _ _ HL).
    destruct q as [|k q].
    + rewrite (ord_of_undeclared d []) by exact (root_undeclared _ _ HI). reflexivity.
    + rewrite (inv_get _ _ _ HI Hgq). unfold ord_of.
      destruct (find (fun y => speqb (fst y) (k :: q)) d) as [y|]; cbn [option_map rev app]; [|reflexivity].
      cbn [to_mref mord]. rewrite (inv_next _ _ HI). reflexivity.
  - intros y Hy.
    assert (H : p_parent (snd y) = ord_of d (removelast (fst y)) /\
                (removelast (fst y) = [] \/ In (removelast (fst y)) (map fst d))).
    { apply in_app_or in Hy. destruct Hy as [Hy|[<-|[]]]; [exact (l_tree _ _ HL y Hy)|].
      cbn [new_node fst snd p_parent]. rewrite removelast_last. auto. }
    destruct H as [H1 H2]. split.
    + rewrite H1. symmetry. apply ord_of_snoc; [destruct q; discriminate|exact H2].
    + destruct H2 as [H2|H2]; [left; exact H2|right]. rewrite map_app. apply in_or_app. left. exact H2.
Qed.

Lemma built_linv l : wf_ins l -> LInv (built l) (accepted l).
Proof. apply (built_ind LInv); [constructor; [reflexivity|intros y []]|exact linv_step]. Qed.

Theorem child_lookup_thm : forall l y n, wf_ins l -> In y (accepted l) ->
  ctx_child (built l) (to_mref y) n = ord_of (accepted l) (fst y ++ [n]).
Proof.
  intros l y n Hl Hy. set (d := accepted l) in *. set (s := built l).
  pose proof (built_inv l Hl) as HI. pose proof (built_linv l Hl) as HL. fold d s in HI, HL.
  pose proof (inv_paths_nodup _ _ HI) as Hndp.
  unfold ctx_child. cbn [to_mref mord].
  destruct (find _ (children s)) as [e|] eqn:E.
  - apply find_some in E. destruct E as [Hin Hm]. apply andb_prop in Hm. destruct Hm as [Ho Hn].
    apply N.eqb_eq in Ho. destruct (bytes_eqb_spec (snd (fst e)) n) as [Hn'|]; [|discriminate].
    rewrite (l_children _ _ HL) in Hin. apply in_rev, in_flat_map in Hin. destruct Hin as [y' [Hy' He]].
    unfold edge in He. destruct (p_parent (snd y')) as [po|] eqn:Epar; [|contradiction].
    destruct He as [<-|[]]. cbn [fst snd] in *. subst po.
    pose proof (proj1 (l_tree _ _ HL y' Hy')) as HP. rewrite Epar in HP.
    unfold ord_of in HP. pose proof (find_path_spec d (removelast (fst y'))) as S.
    destruct (find _ d) as [z|]; [|discriminate]. destruct S as [Hz Hzq]. injection HP as HP.
    assert (z = y) by (apply (nodup_map_inj _ d z y (inv_ords_nodup _ _ HI)); congruence). subst z.
    assert (Hne : fst y' <> []).
    { pose proof (inv_good _ _ HI) as Hg. rewrite Forall_forall in Hg. destruct (Hg y' Hy'). assumption. }
    assert (Hpath : fst y' = fst y ++ [n]).
    { rewrite (app_removelast_last [] Hne). rewrite <- Hzq, Hn'. reflexivity. }
    rewrite <- Hpath. unfold ord_of. rewrite (find_path_some d y' Hndp Hy'). reflexivity.
  - symmetry. apply ord_of_undeclared. intros Hin. apply in_map_iff in Hin. destruct Hin as [y' [Hpath Hy']].
    pose proof (proj1 (l_tree _ _ HL y' Hy')) as HP.
    rewrite Hpath, removelast_last in HP. unfold ord_of in HP. rewrite (find_path_some d y Hndp Hy) in HP.
    assert (Hin : In (p_ord (snd y), n, p_ord (snd y')) (children s)).
    { rewrite (l_children _ _ HL). apply -> in_rev. apply in_flat_map. exists y'. split; [assumption|].
      unfold edge. rewrite HP, Hpath, last_last. left. reflexivity. }
    pose proof (find_none _ _ E _ Hin) as Hf. cbn [fst snd] in Hf. rewrite N.eqb_refl in Hf.
    destruct (bytes_eqb_spec n n); [discriminate|congruence].
Qed.

