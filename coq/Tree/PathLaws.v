(* Laws of ObjectPath (Tree/Path.v) on well-formed paths: a path whose
   elements are non-empty and dot-free byte strings ("good" names; bytes are
   arbitrary numbers, so multi-byte UTF-8 names are included). *)
From Coq Require Import List NArith Arith Bool Lia.
From DesVerif Require Import Tree.Path.
Import ListNotations.

Definition good (n : list N) : Prop := n <> [] /\ ~ In DOT n.

(* "a.b.c" *)
Fixpoint join (l : list (list N)) : list N :=
  match l with
  | [] => []
  | n :: r => match r with [] => n | _ => n ++ DOT :: join r end
  end.

(* root.appended(n1).appended(n2)... *)
Definition of_segs (l : list (list N)) : opath := fold_left appended l root.

(* the record one expects for the path with elements l *)
Definition mk (l : list (list N)) : opath :=
  {| data := join l; leo := length (join l) - length (last l []); plen := length l |}.

Lemma join_snoc l n : l <> [] -> join (l ++ [n]) = join l ++ DOT :: n.
Proof.
  induction l as [|a l IH]; intros Hne; [congruence|].
  destruct l as [|b l]; [reflexivity|].
  change (join ((a :: b :: l) ++ [n])) with (a ++ DOT :: join ((b :: l) ++ [n])).
  rewrite IH by discriminate.
  change (join (a :: b :: l)) with (a ++ DOT :: join (b :: l)).
  rewrite <- app_assoc. reflexivity.
Qed.

Lemma join_single n : join [n] = n.
Proof. reflexivity. Qed.

Lemma mk_single n : mk [n] = {| data := n; leo := 0; plen := 1 |}.
Proof. unfold mk. cbn [join last length]. f_equal. lia. Qed.

Lemma mk_snoc l n : l <> [] ->
  mk (l ++ [n]) = {| data := join l ++ DOT :: n; leo := length (join l) + 1; plen := length l + 1 |}.
Proof.
  intros Hne. unfold mk. rewrite join_snoc by assumption. rewrite last_last.
  rewrite !app_length. cbn [length]. f_equal; lia.
Qed.

Lemma of_segs_snoc l n : of_segs (l ++ [n]) = appended (of_segs l) n.
Proof. unfold of_segs. rewrite fold_left_app. reflexivity. Qed.

Lemma of_segs_mk l : Forall good l -> of_segs l = mk l.
Proof.
  induction l as [|n l IH] using rev_ind; intros Hg; [reflexivity|].
  apply Forall_app in Hg. destruct Hg as [Hl Hn]. inversion Hn as [|? ? [Hne _] _]; subst.
  rewrite of_segs_snoc, IH by assumption.
  destruct n as [|c n]; [congruence|].
  destruct l as [|a l].
  - cbn [app]. rewrite mk_single. reflexivity.
  - rewrite mk_snoc by discriminate. unfold appended, mk. cbn [plen data leo length Nat.eqb].
    f_equal; lia.
Qed.

(* ---- From<&str> ---- *)
Lemma from_loop_app a b o l k :
  from_loop (a ++ b) o l k = let '(o', l', k') := from_loop a o l k in from_loop b o' l' k'.
Proof.
  revert o l k; induction a as [|c a IH]; intros o l k; [reflexivity|].
  cbn [app from_loop]. destruct (N.eqb c DOT); apply IH.
Qed.

Lemma from_loop_nodot n o l k : ~ In DOT n -> from_loop n o l k = (o + length n, l, k).
Proof.
  revert o; induction n as [|c n IH]; intros o Hn; cbn [from_loop length].
  - f_equal. f_equal. lia.
  - destruct (N.eqb_spec c DOT) as [->|_]; [exfalso; apply Hn; left; reflexivity|].
    rewrite IH by (intros H; apply Hn; right; exact H). f_equal. f_equal. lia.
Qed.

Lemma from_loop_join l : l <> [] -> Forall good l ->
  from_loop (join l) 0 0 0 = (length (join l), length (join l) - length (last l []), length l - 1).
Proof.
  induction l as [|n l IH] using rev_ind; intros Hne Hg; [congruence|].
  apply Forall_app in Hg. destruct Hg as [Hl Hn]. inversion Hn as [|? ? [_ Hnd] _]; subst.
  rewrite last_last. destruct l as [|a l].
  - cbn [app join]. rewrite from_loop_nodot by assumption. cbn [last length]. f_equal. f_equal. lia.
  - rewrite join_snoc by discriminate. rewrite from_loop_app, IH by (assumption || discriminate).
    cbn [from_loop]. rewrite N.eqb_refl. rewrite from_loop_nodot by assumption.
    rewrite !app_length. cbn [length]. f_equal; [f_equal|]; lia.
Qed.

Lemma last_good l : l <> [] -> Forall good l -> good (last l []).
Proof.
  intros Hne Hg. destruct (exists_last Hne) as [l' [n Heq]]. rewrite Heq in *.
  rewrite last_last. apply Forall_app in Hg. destruct Hg as [_ Hn]. inversion Hn; assumption.
Qed.

Lemma last_le_join l : length (last l []) <= length (join l).
Proof.
  destruct l as [|a l]; [cbn [last join length]; lia|].
  destruct (exists_last (l := a :: l)) as [l' [n Heq]]; [discriminate|]. rewrite Heq, last_last.
  destruct l' as [|b l']; [cbn [app join]; lia|]. rewrite join_snoc by discriminate.
  rewrite app_length. cbn [length]. lia.
Qed.

Lemma from_join l : Forall good l -> from (join l) = mk l.
Proof.
  intros Hg. destruct l as [|a l]; [reflexivity|].
  unfold from. rewrite from_loop_join by (assumption || discriminate).
  unfold mk. f_equal.
  pose proof (last_good (a :: l) ltac:(discriminate) Hg) as [Hne _].
  pose proof (last_le_join (a :: l)) as Hlen.
  destruct (last (a :: l) []) as [|c r]; [congruence|]. cbn [length] in *.
  destruct (Nat.eqb_spec (length (join (a :: l))) (length (join (a :: l)) - S (length r))) as [E|E]; lia.
Qed.

(* ---- parent / name / len ---- *)
Lemma rfind_dot_nodot n : ~ In DOT n -> rfind_dot n = None.
Proof.
  induction n as [|c n IH]; intros Hn; [reflexivity|]. cbn [rfind_dot].
  rewrite IH by (intros H; apply Hn; right; exact H).
  destruct (N.eqb_spec c DOT) as [->|_]; [exfalso; apply Hn; left; reflexivity|reflexivity].
Qed.

Lemma rfind_dot_last a n : ~ In DOT n -> rfind_dot (a ++ DOT :: n) = Some (length a).
Proof.
  intros Hn. induction a as [|c a IH].
  - cbn [app rfind_dot length]. rewrite rfind_dot_nodot by assumption. rewrite N.eqb_refl. reflexivity.
  - cbn [app rfind_dot length]. rewrite IH. reflexivity.
Qed.

Lemma plen_mk l : plen (mk l) = length l.
Proof. reflexivity. Qed.

Lemma is_root_mk l : is_root (mk l) = match l with [] => true | _ => false end.
Proof. destruct l; reflexivity. Qed.

Lemma parent_mk_nil : parent (mk []) = None.
Proof. reflexivity. Qed.

Lemma parent_mk_snoc l n : Forall good l -> parent (mk (l ++ [n])) = Some (mk l).
Proof.
  intros Hg. destruct l as [|a l].
  - cbn [app]. rewrite mk_single. reflexivity.
  - rewrite mk_snoc by discriminate. unfold parent. cbn [plen data leo].
    replace (length (a :: l) + 1 =? 0) with false by (symmetry; apply Nat.eqb_neq; lia).
    replace (length (join (a :: l)) + 1 - 1) with (length (join (a :: l)) + 0) by lia.
    rewrite firstn_app_2. cbn [firstn]. rewrite app_nil_r.
    unfold mk. f_equal. f_equal; [|lia].
    destruct (exists_last (l := a :: l)) as [l' [m Heq]]; [discriminate|]. rewrite Heq in *.
    apply Forall_app in Hg. destruct Hg as [_ Hm]. inversion Hm as [|? ? [_ Hmd] _]; subst.
    rewrite last_last. destruct l' as [|b l'].
    + cbn [app join]. rewrite rfind_dot_nodot by assumption. lia.
    + rewrite join_snoc by discriminate. rewrite rfind_dot_last by assumption.
      rewrite app_length. cbn [length]. lia.
Qed.

Lemma name_mk_snoc l n : name (mk (l ++ [n])) = n.
Proof.
  destruct l as [|a l].
  - cbn [app]. rewrite mk_single. reflexivity.
  - rewrite mk_snoc by discriminate. unfold name. cbn [data leo].
    replace (length (join (a :: l)) + 1) with (length (join (a :: l) ++ [DOT])) by (rewrite app_length; reflexivity).
    change (join (a :: l) ++ DOT :: n) with (join (a :: l) ++ [DOT] ++ n). rewrite app_assoc.
    rewrite skipn_app, skipn_all, Nat.sub_diag. reflexivity.
Qed.

Lemma good_snoc l n : Forall good l -> good n -> Forall good (l ++ [n]).
Proof. intros Hl Hn. apply Forall_app. split; [assumption|]. constructor; [assumption|constructor]. Qed.

Lemma appended_mk l n : Forall good l -> good n -> appended (mk l) n = mk (l ++ [n]).
Proof.
  intros Hl Hn. rewrite <- of_segs_mk by assumption. rewrite <- of_segs_snoc.
  apply of_segs_mk, good_snoc; assumption.
Qed.

Lemma nonzero_parent_mk_snoc l n : Forall good l ->
  nonzero_parent (mk (l ++ [n])) = match l with [] => None | _ => Some (mk l) end.
Proof.
  intros Hl. unfold nonzero_parent. rewrite parent_mk_snoc, is_root_mk by assumption. destruct l; reflexivity.
Qed.

Lemma mk_inj l l' : Forall good l -> Forall good l' -> mk l = mk l' -> l = l'.
Proof.
  revert l'. induction l as [|n l IH] using rev_ind; intros l' Hl Hl' Heq.
  - destruct l'; [reflexivity|]. apply (f_equal plen) in Heq. discriminate.
  - destruct l' as [|a l0].
    { apply (f_equal plen) in Heq. rewrite !plen_mk, app_length in Heq. cbn [length] in Heq. lia. }
    destruct (exists_last (l := a :: l0)) as [l'' [m Hm]]; [discriminate|]. rewrite Hm in *.
    apply Forall_app in Hl, Hl'. destruct Hl as [Hl _], Hl' as [Hl' _].
    pose proof (f_equal name Heq) as Hn. rewrite !name_mk_snoc in Hn.
    pose proof (f_equal parent Heq) as Hp. rewrite !parent_mk_snoc in Hp by assumption.
    assert (Hp' : mk l = mk l'') by congruence.
    rewrite (IH l'' Hl Hl' Hp'), Hn. reflexivity.
Qed.

(* ---- derived PartialEq ---- *)
Lemma bytes_eqb_spec a b : reflect (a = b) (bytes_eqb a b).
Proof. unfold bytes_eqb. destruct (list_eq_dec N.eq_dec a b); constructor; assumption. Qed.

Lemma opath_eqb_spec p q : reflect (p = q) (opath_eqb p q).
Proof.
  unfold opath_eqb. destruct p as [d1 l1 k1], q as [d2 l2 k2]. cbn [data leo plen].
  destruct (bytes_eqb_spec d1 d2) as [->|Hd]; [|constructor; congruence].
  destruct (Nat.eqb_spec l1 l2) as [->|Hl]; [|constructor; congruence].
  destruct (Nat.eqb_spec k1 k2) as [->|Hk]; constructor; congruence.
Qed.

Lemma opath_eqb_mk l l' : Forall good l -> Forall good l' ->
  opath_eqb (mk l) (mk l') = if list_eq_dec (list_eq_dec N.eq_dec) l l' then true else false.
Proof.
  intros Hl Hl'. destruct (opath_eqb_spec (mk l) (mk l')) as [E|E];
    destruct (list_eq_dec (list_eq_dec N.eq_dec) l l') as [E'|E']; try reflexivity.
  - exfalso. apply E'. apply mk_inj; assumption.
  - exfalso. apply E. rewrite E'. reflexivity.
Qed.
