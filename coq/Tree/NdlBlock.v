(* The second way of adding nodes: an NDL described block attached with
   sim.node(path, Ndl{..}) (SimBuilderScoped::ndl / SimBuilder::raw_ndl).  In every
   state the builder reaches from well-formed insertions, attaching a block whose
   root is acceptable equals inserting the block's nodes one by one with
   sim.node, in depth-first order; a block whose root is a duplicate or an orphan
   panics and changes nothing (C12_ndl_block_is_adds, C12_ndl_block_rejected in
   Properties/C12.v, from the lemmas here).  All theorems about insertion
   sequences (pre-order, lookups, life cycle) therefore cover NDL blocks. *)
From Coq Require Import List NArith Arith Bool Lia FinFun.
From Coq Require Ascii String DecimalString DecimalNat.
From DesVerif Require Import Common.Lists Tree.Path Tree.PathLaws Tree.Model Tree.Forest Tree.Refine.
Import ListNotations.
Local Open Scope nat_scope.

(* ---- instance names of a submodule entry ---- *)
Lemma uint_nodot d :
  ~ In DOT (map Ascii.N_of_ascii (String.list_ascii_of_string (DecimalString.NilEmpty.string_of_uint d))).
Proof.
  induction d as [|d IH|d IH|d IH|d IH|d IH|d IH|d IH|d IH|d IH|d IH];
    cbn [DecimalString.NilEmpty.string_of_uint String.list_ascii_of_string map];
    [intros []| | | | | | | | | |]; (intros [H|H]; [vm_compute in H; discriminate H|exact (IH H)]).
Qed.

Lemma decimal_nodot i : ~ In DOT (decimal i).
Proof. apply uint_nodot. Qed.

Lemma map_inj {A B} (f : A -> B) : (forall a b, f a = f b -> a = b) -> forall l l', map f l = map f l' -> l = l'.
Proof.
  intros Hf. induction l as [|a l IH]; intros [|b l'] H; try discriminate; [reflexivity|].
  cbn [map] in H. injection H as Ha Hl. rewrite (Hf _ _ Ha), (IH _ Hl). reflexivity.
Qed.

Lemma decimal_inj i j : decimal i = decimal j -> i = j.
Proof.
  unfold decimal. intros H. apply map_inj in H.
  2:{ intros a b Hab. rewrite <- (Ascii.ascii_N_embedding a), <- (Ascii.ascii_N_embedding b), Hab. reflexivity. }
  apply (f_equal String.string_of_list_ascii) in H. rewrite !String.string_of_list_ascii_of_string in H.
  apply (f_equal DecimalString.NilEmpty.uint_of_string) in H. rewrite !DecimalString.NilEmpty.usu in H.
  injection H as H. apply DecimalNat.Unsigned.to_uint_inj. exact H.
Qed.

Lemma sub_names_good k nm : good nm -> Forall good (sub_names k nm).
Proof.
  intros [Hne Hnd]. destruct k as [|k]; [repeat constructor; assumption|].
  unfold sub_names. apply Forall_forall. intros x Hx. apply in_map_iff in Hx. destruct Hx as [i [<- _]]. split.
  - destruct nm; discriminate.
  - rewrite in_app_iff. intros [H|[H|H]]; [contradiction|discriminate H|].
    rewrite in_app_iff in H. destruct H as [H|[H|[]]]; [exact (decimal_nodot i H)|discriminate H].
Qed.

Lemma sub_names_nodup k nm : NoDup (sub_names k nm).
Proof.
  destruct k as [|k]; [repeat constructor; intros []|]. unfold sub_names.
  apply Injective_map_NoDup; [|apply seq_NoDup].
  intros i j H. apply app_inv_head in H. injection H as H. apply app_inv_tail in H. apply decimal_inj. exact H.
Qed.

(* ---- the block's nodes in depth-first order, as lists of names ---- *)
Fixpoint block (q : list (list N)) (levels : list (nat * list N)) : list (list (list N)) :=
  q :: match levels with
       | [] => []
       | (k, nm) :: rest => flat_map (fun sub => block (q ++ [sub]) rest) (sub_names k nm)
       end.

Definition good_levels (levels : list (nat * list N)) : Prop := Forall (fun lv => good (snd lv)) levels.

Lemma map_flat_map {A B C} (h : B -> C) (g : A -> list B) l : map h (flat_map g l) = flat_map (fun a => map h (g a)) l.
Proof. induction l as [|a l IH]; [reflexivity|]. cbn [flat_map]. rewrite map_app, IH. reflexivity. Qed.

Lemma ndl_paths_mk levels : forall q, Forall good q -> good_levels levels ->
  ndl_paths (mk q) levels = map mk (block q levels).
Proof.
  induction levels as [|[k nm] rest IH]; intros q Hq Hl; [reflexivity|].
  inversion Hl as [|? ? Hnm Hrest]; subst. cbn [snd] in Hnm. cbn [ndl_paths block map]. f_equal.
  rewrite map_flat_map. apply flat_map_ext_in. intros sub Hsub.
  pose proof (sub_names_good k nm Hnm) as Hg. rewrite Forall_forall in Hg. specialize (Hg sub Hsub).
  rewrite appended_mk by assumption. apply IH; [|assumption].
  apply Forall_app. split; [assumption|]. constructor; [assumption|constructor].
Qed.

Lemma block_wf levels : forall q, wf_path q -> good_levels levels -> Forall wf_path (block q levels).
Proof.
  induction levels as [|[k nm] rest IH]; intros q Hq Hl; [cbn [block]; constructor; [assumption|constructor]|].
  inversion Hl as [|? ? Hnm Hrest]; subst. cbn [snd] in Hnm. cbn [block]. constructor; [assumption|].
  apply Forall_forall. intros p Hp. apply in_flat_map in Hp. destruct Hp as [sub [Hsub Hp]].
  pose proof (sub_names_good k nm Hnm) as Hg. rewrite Forall_forall in Hg. specialize (Hg sub Hsub).
  assert (Hw : wf_path (q ++ [sub])).
  { destruct Hq as [Hne Hgq]. split; [destruct q; discriminate|]. apply Forall_app. split; [assumption|].
    constructor; [assumption|constructor]. }
  specialize (IH (q ++ [sub]) Hw Hrest). rewrite Forall_forall in IH. apply IH. exact Hp.
Qed.

(* ---- the depth-first order is a valid insertion order ---- *)
Fixpoint valid_paths (seen ps : list (list (list N))) : Prop :=
  match ps with
  | [] => True
  | p :: r => ~ In p seen /\ (2 <= length p -> In (removelast p) seen) /\ valid_paths (seen ++ [p]) r
  end.

Lemma valid_from_paths l : forall seen, valid_from seen l <-> valid_paths seen (map snd l).
Proof.
  induction l as [|[st p] l IH]; intros seen; [tauto|]. cbn [valid_from valid_paths map snd].
  rewrite IH. tauto.
Qed.

Lemma valid_paths_app a : forall seen b, valid_paths seen (a ++ b) <-> valid_paths seen a /\ valid_paths (seen ++ a) b.
Proof.
  induction a as [|p a IH]; intros seen b; cbn [app valid_paths].
  - rewrite app_nil_r. tauto.
  - rewrite IH, <- app_assoc. cbn [app]. tauto.
Qed.

Definition ext (q p : list (list N)) : Prop := exists r, p = q ++ r.

Lemma block_ext levels : forall q p, In p (block q levels) -> ext q p.
Proof.
  induction levels as [|[k nm] rest IH]; intros q p Hp; cbn [block] in Hp.
  - destruct Hp as [<-|[]]. exists []. rewrite app_nil_r. reflexivity.
  - destruct Hp as [<-|Hp]; [exists []; rewrite app_nil_r; reflexivity|].
    apply in_flat_map in Hp. destruct Hp as [sub [_ Hp]]. destruct (IH _ _ Hp) as [r ->].
    exists (sub :: r). rewrite <- app_assoc. reflexivity.
Qed.

Lemma ext_snoc_same q x x' p : ext (q ++ [x]) p -> ext (q ++ [x']) p -> x = x'.
Proof.
  intros [r ->] [r' H]. rewrite <- !app_assoc in H. apply app_inv_head in H. injection H as H _. exact H.
Qed.

Lemma ext_snoc q x p : ext (q ++ [x]) p -> ext q p.
Proof. intros [r ->]. exists (x :: r). rewrite <- app_assoc. reflexivity. Qed.

Lemma block_valid levels : forall q seen,
  (forall p, In p seen -> ~ ext q p) -> (2 <= length q -> In (removelast q) seen) ->
  valid_paths seen (block q levels).
Proof.
  induction levels as [|[k nm] rest IH]; intros q seen Hext Hpar.
  - cbn [block valid_paths]. split; [|tauto]. intros Hin. apply (Hext q Hin). exists []. rewrite app_nil_r. reflexivity.
  - cbn [block valid_paths]. split; [|split; [exact Hpar|]].
    { intros Hin. apply (Hext q Hin). exists []. rewrite app_nil_r. reflexivity. }
    assert (Hinner : forall subs seen', NoDup subs -> In q seen' ->
              (forall p x, In p seen' -> In x subs -> ~ ext (q ++ [x]) p) ->
              valid_paths seen' (flat_map (fun sub => block (q ++ [sub]) rest) subs)).
    { induction subs as [|x subs IHs]; intros seen' Hnd Hq Hne; [exact I|].
      inversion Hnd as [|? ? Hx Hnd']; subst. cbn [flat_map]. apply valid_paths_app. split.
      - apply IH.
        + intros p Hp. apply (Hne p x Hp). left. reflexivity.
        + intros _. rewrite removelast_last. exact Hq.
      - apply IHs; [assumption|apply in_or_app; left; exact Hq|].
        intros p x' Hp Hx' He. apply in_app_or in Hp. destruct Hp as [Hp|Hp].
        + apply (Hne p x' Hp); [right; exact Hx'|exact He].
        + apply block_ext in Hp. rewrite (ext_snoc_same _ _ _ _ Hp He) in Hx. contradiction. }
    apply Hinner.
    + apply sub_names_nodup.
    + apply in_or_app. right. left. reflexivity.
    + intros p x Hp _ He. apply in_app_or in Hp. destruct Hp as [Hp|[<-|[]]].
      * apply (Hext p Hp). eapply ext_snoc. exact He.
      * destruct He as [r He]. apply (f_equal (@length _)) in He. rewrite !app_length in He. cbn [length] in He. lia.
Qed.

(* declared paths are closed under taking the parent *)
Lemma closed_no_ext (seen : list (list (list N))) q :
  (forall y, In y seen -> removelast y = [] \/ In (removelast y) seen) ->
  q <> [] -> ~ In q seen -> forall p, In p seen -> ~ ext q p.
Proof.
  intros Hcl Hne Hq p Hp [r ->]. revert Hp. induction r as [|x r IH] using rev_ind; intros Hp.
  - rewrite app_nil_r in Hp. contradiction.
  - specialize (Hcl _ Hp). rewrite app_assoc, removelast_last in Hcl. destruct Hcl as [H1|Hpar]; [|exact (IH Hpar)].
    destruct q; [congruence|discriminate].
Qed.

(* ---- raw_ndl versus raw ---- *)
Definition ndl_site (k : N) : N := if N.eqb k P_DUP then P_NDL_DUP else if N.eqb k P_ORPHAN then P_NDL_ORPHAN else k.

Lemma tree_add_site ms m k : tree_add ms m = Panic k -> k = P_TREE.
Proof.
  unfold tree_add. destruct (parent (mpath m)) as [par|]; [|discriminate].
  destruct (is_root par); [discriminate|]. destruct (rposition _ ms); [discriminate|]. congruence.
Qed.

Lemma raw_ndl_eq s p st : tree_get (modules s) (from []) = None ->
  raw_ndl s p st = match raw s p st with Ok s' => Ok s' | Panic k => Panic (ndl_site k) end.
Proof.
  intros Hroot. unfold raw_ndl, raw. rewrite Hroot. destruct (tree_get (modules s) p); [reflexivity|].
  destruct (nonzero_parent p) as [par|].
  - destruct (tree_get (modules s) par) as [pm|]; [|reflexivity].
    destruct (tree_add _ _) as [ms|k] eqn:E; [reflexivity|]. rewrite (tree_add_site _ _ _ E). reflexivity.
  - destruct (tree_add _ _) as [ms|k] eqn:E; [reflexivity|]. rewrite (tree_add_site _ _ _ E). reflexivity.
Qed.

Lemma no_root_module s d : Inv s d -> tree_get (modules s) (from []) = None.
Proof.
  intros HI. change (from []) with (mk []). rewrite (inv_get _ _ _ HI) by constructor.
  rewrite find_path_none; [reflexivity|exact (root_undeclared _ _ HI)].
Qed.

(* i-th node with the i-th stage count, 1 when the list is exhausted *)
Fixpoint zipd (ps : list (list (list N))) (sts : list nat) : list (nat * list (list N)) :=
  match ps with
  | [] => []
  | p :: r => (hd 1 sts, p) :: zipd r (tl sts)
  end.

Lemma zipd_paths ps : forall sts, map snd (zipd ps sts) = ps.
Proof. induction ps as [|p ps IH]; intros sts; [reflexivity|]. cbn [zipd map snd]. rewrite IH. reflexivity. Qed.

(* a valid list of sim.node insertions and the same nodes created through raw_ndl *)
Lemma ndl_all_adds ps : forall sts s d, Inv s d -> Forall wf_path ps -> valid_paths (map fst d) ps ->
  ndl_all s (map mk ps) sts = (fst (raw_all s (zipd ps sts)), None).
Proof.
  induction ps as [|p ps IH]; intros sts s d HI Hwf Hv; [reflexivity|].
  inversion Hwf as [|? ? Hp Hps]; subst. destruct Hv as [Hnew [Hpar Hrest]].
  pose proof (raw_step s d (hd 1 sts) p HI Hp) as Hstep.
  rewrite (proj2 (proj2 (judge_complete d p)) Hnew Hpar) in Hstep. destruct Hstep as [s' [Hraw HI']].
  cbn [map ndl_all zipd]. rewrite raw_all_cons, Hraw.
  rewrite (raw_ndl_eq s (mk p) (hd 1 sts) (no_root_module _ _ HI)).
  rewrite from_join in Hraw by (destruct Hp; assumption). rewrite Hraw.
  apply (IH (tl sts) s' _ HI' Hps). rewrite map_app. exact Hrest.
Qed.

Lemma raw_all_app l1 : forall s l2, fst (raw_all s (l1 ++ l2)) = fst (raw_all (fst (raw_all s l1)) l2).
Proof.
  induction l1 as [|[st p] l1 IH]; intros s l2; [reflexivity|]. cbn [app]. rewrite !raw_all_cons.
  destruct (raw s (from (join p)) st); apply IH.
Qed.

Lemma accepted_closed l : wf_ins l ->
  forall y, In y (map fst (accepted l)) -> removelast y = [] \/ In (removelast y) (map fst (accepted l)).
Proof.
  intros Hl y Hy. apply in_map_iff in Hy. destruct Hy as [z [<- Hz]].
  exact (proj2 (l_tree _ _ (built_linv l Hl) z Hz)).
Qed.

Lemma block_valid_accepted l q levels : wf_ins l -> wf_path q -> judge (accepted l) q = Accept ->
  valid_paths (map fst (accepted l)) (block q levels).
Proof.
  intros Hl Hq Hj. pose proof (judge_spec (accepted l) q) as J. rewrite Hj in J. destruct J as [Hnew Hpar].
  apply block_valid; [|exact Hpar].
  apply closed_no_ext; [exact (accepted_closed l Hl)|destruct Hq; assumption|exact Hnew].
Qed.
