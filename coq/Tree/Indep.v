(* The pre-order of the declared tree depends only on, for every parent, the
   order in which ITS children were declared: interleaving the declarations of
   children of different parents differently does not change the module vector. *)
From Coq Require Import List NArith Arith Bool Lia.
From DesVerif Require Import Common.Lists Tree.Path Tree.PathLaws Tree.Model Tree.Forest Tree.Refine.
Import ListNotations.
Local Open Scope nat_scope.

Section Shape.
Variable A : Type.
Notation tree := (tree A).

Definition has_name (k : list N) (t : tree) : bool := bytes_eqb (tname A t) k.

(* names of the children of the node at relative path q, left to right
   (q = [] : the top-level nodes; no such node : none) *)
Fixpoint child_names (q : list (list N)) (ks : list tree) : list (list N) :=
  match q with
  | [] => map (tname A) ks
  | k :: q' => match find (has_name k) ks with
               | Some t => child_names q' (tkids A t)
               | None => []
               end
  end.

Lemma find_first ks1 t ks2 k :
  Forall (fun t' => tname A t' <> k) ks1 -> tname A t = k -> find (has_name k) (ks1 ++ t :: ks2) = Some t.
Proof.
  intros H1 Ht. induction ks1 as [|x ks1 IH]; cbn [app find]; unfold has_name at 1.
  - destruct (bytes_eqb_spec (tname A t) k); [reflexivity|contradiction].
  - inversion H1; subst. destruct (bytes_eqb_spec (tname A x) (tname A t)); [contradiction|]. apply IH. assumption.
Qed.

Lemma find_absent ks k : ~ In k (map (tname A) ks) -> find (has_name k) ks = None.
Proof.
  intros Hnot. destruct (find (has_name k) ks) as [t|] eqn:E; [|reflexivity]. exfalso.
  apply find_some in E. destruct E as [Hin Hk]. unfold has_name in Hk.
  destruct (bytes_eqb_spec (tname A t) k); [|discriminate]. apply Hnot. subst k. apply in_map. exact Hin.
Qed.

Lemma find_skip {B} (f : B -> bool) l1 x l2 : f x = false -> find f (l1 ++ x :: l2) = find f (l1 ++ l2).
Proof.
  intros Hx. induction l1 as [|z l1 IH]; cbn [app find]; [rewrite Hx; reflexivity|].
  destruct (f z); [reflexivity|]. exact IH.
Qed.

Lemma find_at ks1 t ks2 k : Forall (fun t' => tname A t' <> tname A t) ks1 ->
  find (has_name k) (ks1 ++ t :: ks2) = if bytes_eqb (tname A t) k then Some t else find (has_name k) (ks1 ++ ks2).
Proof.
  intros H1. destruct (bytes_eqb_spec (tname A t) k) as [<-|Hne]; [apply find_first; auto|].
  apply find_skip. unfold has_name. destruct (bytes_eqb_spec (tname A t) k); [contradiction|reflexivity].
Qed.

Lemma child_names_nil q : child_names q [] = [].
Proof. destruct q; reflexivity. Qed.

(* ---- the pre-order is determined by the child-name function ---- *)
Definition Pdet (t1 : tree) : Prop :=
  forall pre t2, twf A t1 -> twf A t2 -> tname A t1 = tname A t2 ->
    (forall q, child_names q (tkids A t1) = child_names q (tkids A t2)) ->
    paths A (flat A pre t1) = paths A (flat A pre t2).

Lemma forest_det ks1 : Forall Pdet ks1 -> forall ks2 pre, fwf A ks1 -> fwf A ks2 ->
  (forall q, child_names q ks1 = child_names q ks2) ->
  paths A (flatf A pre ks1) = paths A (flatf A pre ks2).
Proof.
  induction ks1 as [|x r IH]; intros HP ks2 pre Hw1 Hw2 Hq.
  - pose proof (Hq []) as H0. cbn [child_names map] in H0. destruct ks2; [reflexivity|discriminate].
  - pose proof (Hq []) as H0. cbn [child_names map] in H0. destruct ks2 as [|x2 r2]; [discriminate|].
    cbn [map] in H0. injection H0 as Hx Hr.
    inversion HP as [|? ? HPx HPr]; subst.
    destruct Hw1 as [Hnd1 Hall1], Hw2 as [Hnd2 Hall2]. cbn [map] in Hnd1, Hnd2.
    inversion Hnd1 as [|? ? Hnot1 Hnd1']; subst. inversion Hnd2 as [|? ? Hnot2 Hnd2']; subst.
    inversion Hall1 as [|? ? Hwx Hwr]; subst. inversion Hall2 as [|? ? Hwx2 Hwr2]; subst.
    rewrite !flatf_cons. unfold paths. rewrite !map_app. f_equal.
    + apply HPx; [assumption|assumption|assumption|]. intros q. specialize (Hq (tname A x :: q)).
      cbn [child_names find] in Hq. unfold has_name at 1 3 in Hq.
      destruct (bytes_eqb_spec (tname A x) (tname A x)); [|congruence].
      destruct (bytes_eqb_spec (tname A x2) (tname A x)); [|congruence]. exact Hq.
    + apply (IH HPr r2 pre); [split; assumption|split; assumption|].
      intros [|k q]; [exact Hr|]. specialize (Hq (k :: q)). cbn [child_names find] in Hq |- *.
      unfold has_name at 1 3 in Hq.
      destruct (bytes_eqb_spec (tname A x) k) as [Ek|Ek].
      * rewrite (find_absent r k) by (rewrite <- Ek; assumption).
        rewrite (find_absent r2 k) by (rewrite <- Ek, Hx; assumption). reflexivity.
      * destruct (bytes_eqb_spec (tname A x2) k) as [Ek2|Ek2]; [congruence|]. exact Hq.
Qed.

Lemma tree_det t : Pdet t.
Proof.
  induction t as [n a ks IH] using tree_ind'. intros pre t2 Hw1 Hw2 Hn Hq.
  destruct t2 as [n2 a2 ks2]. cbn [tname tkids] in *. subst n2. rewrite !flat_T. unfold paths. cbn [map fst]. f_equal.
  inversion Hw1; subst. inversion Hw2; subst.
  apply (forest_det ks IH ks2 (pre ++ [n])); [split; assumption|split; assumption|exact Hq].
Qed.

Theorem flatf_determined ks1 ks2 pre : fwf A ks1 -> fwf A ks2 ->
  (forall q, child_names q ks1 = child_names q ks2) ->
  paths A (flatf A pre ks1) = paths A (flatf A pre ks2).
Proof.
  intros H1 H2 Hq. apply forest_det; try assumption. apply Forall_forall. intros t _. apply tree_det.
Qed.

(* ---- how one insertion changes the child-name function ---- *)
Lemma child_names_ins : forall q pre ks n a q0,
  fwf A ks -> (q = [] \/ In (pre ++ q) (paths A (flatf A pre ks))) ->
  child_names q0 (f_ins A q n a ks)
  = if speqb q0 q then child_names q0 ks ++ [n] else child_names q0 ks.
Proof.
  induction q as [|k q1 IH]; intros pre ks n a q0 Hwf Hin.
  - cbn [f_ins]. destruct q0 as [|k0 q0'].
    + cbn [child_names]. rewrite map_app. reflexivity.
    + destruct (speqb_spec (k0 :: q0') []); [discriminate|].
      cbn [child_names]. destruct (find (has_name k0) ks) as [t|] eqn:E.
      * rewrite (find_app_some _ _ _ _ E). reflexivity.
      * rewrite (find_app_none _ _ _ E). cbn [find].
        destruct (has_name k0 (T A n a [])); [|reflexivity]. cbn [tkids]. apply child_names_nil.
  - destruct Hin as [Hin|Hin]; [discriminate|].
    destruct (f_ins_cons A pre ks k q1 n a Hwf Hin) as (ks1 & t & ks2 & Hks & <- & Hks1 & Hins & Hkids & Hin').
    rewrite Hins, Hks. destruct q0 as [|k0 q0'].
    + destruct (speqb_spec [] (tname A t :: q1)); [discriminate|]. cbn [child_names]. rewrite !map_app. reflexivity.
    + cbn [child_names]. rewrite (find_at ks1 t), (find_at ks1 (T A (tname A t) _ _)) by assumption. cbn [tname].
      destruct (bytes_eqb_spec (tname A t) k0) as [<-|Ek].
      * cbn [tkids]. rewrite (IH (pre ++ [tname A t]) (tkids A t) n a q0' Hkids Hin').
        destruct (speqb_spec q0' q1) as [E|E];
          destruct (speqb_spec (tname A t :: q0') (tname A t :: q1)) as [E'|E']; try reflexivity; congruence.
      * destruct (speqb_spec (k0 :: q0') (tname A t :: q1)); [congruence|reflexivity].
Qed.

End Shape.

(* ---- the declared tree as "children of q, in declaration order" ---- *)
Definition kids_order (ps : list (list (list N))) (q : list (list N)) : list (list N) :=
  map (fun p => last p []) (filter (fun p => speqb (removelast p) q) ps).

Definition KidsInv (d : list node) : Prop :=
  forall q, child_names pay q (forest_of d) = kids_order (map fst d) q.

Lemma kids_step s d st p : Inv s d -> wf_path p -> judge d p = Accept -> KidsInv d ->
  KidsInv (d ++ [new_node d st p]).
Proof.
  intros HI Hp Hj HK q0. destruct (wf_path_snoc p Hp) as (q & n & -> & _).
  unfold new_node. rewrite forest_of_snoc.
  rewrite (child_names_ins pay q [] (forest_of d) n _ q0 (inv_wf _ _ HI)).
  2:{ rewrite (inv_paths _ _ _ HI). exact (proj2 (judge_accept_snoc d q n Hj)). }
  unfold kids_order. rewrite map_app, filter_app, map_app. cbn [map filter fst].
  rewrite removelast_last. rewrite (HK q0). unfold kids_order.
  destruct (speqb_spec q0 q) as [->|E].
  - destruct (speqb_spec q q); [|congruence]. cbn [map]. rewrite last_last. reflexivity.
  - destruct (speqb_spec q q0); [congruence|]. rewrite app_nil_r. reflexivity.
Qed.

(* the forest of the accepted declarations IS the declared tree: the children of
   every node, left to right, are its declared children in declaration order *)
Theorem forest_is_declared_tree : forall l, wf_ins l ->
  forall q, child_names pay q (forest_of (accepted l)) = kids_order (map fst (accepted l)) q.
Proof.
  intros l Hl. apply (built_ind (fun _ d => KidsInv d)); [| |exact Hl].
  - intros q. apply child_names_nil.
  - intros s d st p s' HI HK Hp Hj _. exact (kids_step s d st p HI Hp Hj HK).
Qed.

Theorem interleaving_independent_thm : forall l1 l2, wf_ins l1 -> wf_ins l2 ->
  (forall q, kids_order (map fst (accepted l1)) q = kids_order (map fst (accepted l2)) q) ->
  map mpath (modules (built l1)) = map mpath (modules (built l2)).
Proof.
  intros l1 l2 H1 H2 Hq. rewrite !add_is_preorder_thm by assumption. rewrite !map_map.
  change (fun x => mpath (to_mref x)) with (fun y : list (list N) * pay => mk (fst y)).
  rewrite <- !(map_map fst mk). f_equal. unfold preorder.
  apply (flatf_determined pay).
  - exact (inv_wf _ _ (built_inv l1 H1)).
  - exact (inv_wf _ _ (built_inv l2 H2)).
  - intros q. rewrite !forest_is_declared_tree by assumption. apply Hq.
Qed.

