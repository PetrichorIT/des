(* End-to-end corollaries: the lifecycle theorems of Tree/Stages.v instantiated
   with the vectors the builder produces (Tree/Refine.v). *)
From Coq Require Import List NArith.
From DesVerif Require Import Tree.Model Tree.Refine Tree.Stages.
Import ListNotations.
Local Open Scope nat_scope.

Lemma start_once_built : forall l m, wf_ins l -> In m (modules (built l)) ->
  filter (is_mod m) (at_sim_start (modules (built l))) = map (fun st => (m, st)) (seq 0 (mstages m)).
Proof. intros l m Hl Hm. apply start_once_per_declared_stage_thm; [apply built_ords_nodup; exact Hl|exact Hm]. Qed.

Lemma start_calls_declared : forall l c, In c (at_sim_start (modules (built l))) ->
  In (fst c) (modules (built l)) /\ snd c < mstages (fst c).
Proof. intros l c H. apply at_sim_start_in. exact H. Qed.

Lemma end_once_built : forall l, wf_ins l ->
  at_sim_end (modules (built l)) = map to_mref (preorder (accepted l)) /\
  NoDup (map mord (at_sim_end (modules (built l)))) /\
  (forall m, In m (modules (built l)) ->
     count_occ N.eq_dec (map mord (at_sim_end (modules (built l)))) (mord m) = 1).
Proof.
  intros l Hl. destruct (end_once_per_module_thm _ (built_ords_nodup l Hl)) as [H1 [H2 H3]].
  split; [rewrite H1; apply add_is_preorder_thm; exact Hl|]. split; assumption.
Qed.
