(* SimLifecycle::at_sim_start / at_sim_end (Tree/Model.v): the stage-major
   loop over the module vector.  Stated for every vector whose modules have
   pairwise distinct identities (true of every vector the builder produces,
   Refine.built_ords_nodup). *)
From Coq Require Import List NArith Arith Bool Lia Sorting.Sorted.
From DesVerif Require Import Common.Lists Tree.Path Tree.Model.
Import ListNotations.
Local Open Scope nat_scope.

Definition stage_row (ms : list mref) (stage : nat) : list (mref * nat) :=
  flat_map (fun m => if stage <? mstages m then [(m, stage)] else []) ms.

Lemma at_sim_start_rows ms : at_sim_start ms = flat_map (stage_row ms) (seq 0 (max_stage ms)).
Proof. reflexivity. Qed.

Lemma stage_row_map ms st :
  stage_row ms st = map (fun m => (m, st)) (filter (fun m => st <? mstages m) ms).
Proof.
  induction ms as [|m ms IH]; [reflexivity|]. unfold stage_row in *. cbn [flat_map filter].
  destruct (st <? mstages m); cbn [map app]; rewrite IH; reflexivity.
Qed.

Lemma stage_row_in ms st c : In c (stage_row ms st) <-> snd c = st /\ In (fst c) ms /\ st < mstages (fst c).
Proof.
  rewrite stage_row_map, in_map_iff. split.
  - intros [m [<- Hm]]. apply filter_In in Hm. destruct Hm as [Hin Hlt]. apply Nat.ltb_lt in Hlt. auto.
  - intros [Hst [Hin Hlt]]. exists (fst c). split; [destruct c; cbn in *; congruence|].
    apply filter_In. split; [assumption|]. apply Nat.ltb_lt. assumption.
Qed.

Lemma fold_max_ge (ms : list mref) a : a <= fold_left (fun acc m => Nat.max acc (mstages m)) ms a.
Proof.
  revert a; induction ms as [|m ms IH]; intros a; cbn [fold_left]; [lia|].
  specialize (IH (Nat.max a (mstages m))). lia.
Qed.

Lemma fold_max_in (ms : list mref) a m : In m ms -> mstages m <= fold_left (fun acc m => Nat.max acc (mstages m)) ms a.
Proof.
  revert a; induction ms as [|x ms IH]; intros a Hin; [contradiction|]. cbn [fold_left].
  destruct Hin as [->|Hin]; [|apply IH; assumption].
  pose proof (fold_max_ge ms (Nat.max a (mstages m))). lia.
Qed.

Lemma max_stage_ge ms m : In m ms -> mstages m <= max_stage ms.
Proof. apply fold_max_in. Qed.

(* every call in the log is a declared stage of a module of the vector *)
Lemma at_sim_start_in ms c : In c (at_sim_start ms) <-> In (fst c) ms /\ snd c < mstages (fst c).
Proof.
  rewrite at_sim_start_rows, in_flat_map. split.
  - intros [st [_ Hc]]. apply stage_row_in in Hc. destruct Hc as [-> [Hin Hlt]]. auto.
  - intros [Hin Hlt]. exists (snd c). split.
    + apply in_seq. pose proof (max_stage_ge ms _ Hin). lia.
    + apply stage_row_in. auto.
Qed.

(* ---- stage barrier ---- *)
Lemma rows_sorted ms : forall n a, StronglySorted le (map snd (flat_map (stage_row ms) (seq a n))).
Proof.
  induction n as [|n IH]; intros a; [constructor|]. cbn [seq flat_map]. rewrite map_app.
  assert (Hrow : forall x, In x (map snd (stage_row ms a)) -> x = a).
  { intros x Hx. apply in_map_iff in Hx. destruct Hx as [c [<- Hc]]. apply stage_row_in in Hc. tauto. }
  assert (Hrest : forall x, In x (map snd (flat_map (stage_row ms) (seq (S a) n))) -> S a <= x).
  { intros x Hx. apply in_map_iff in Hx. destruct Hx as [c [<- Hc]]. apply in_flat_map in Hc.
    destruct Hc as [st [Hst Hc]]. apply in_seq in Hst. apply stage_row_in in Hc. lia. }
  revert Hrow. generalize (map snd (stage_row ms a)) as r. induction r as [|x r IHr]; intros Hrow; [apply IH|].
  cbn [app]. constructor.
  - apply IHr. intros y Hy. apply Hrow. right. exact Hy.
  - apply Forall_forall. intros y Hy. apply in_app_or in Hy.
    rewrite (Hrow x (or_introl eq_refl)). destruct Hy as [Hy|Hy].
    + rewrite (Hrow y (or_intror Hy)). lia.
    + specialize (Hrest y Hy). lia.
Qed.

Lemma ss_split {A} (R : A -> A -> Prop) l1 x l2 : StronglySorted R (l1 ++ x :: l2) -> Forall (R x) l2.
Proof.
  induction l1 as [|a l1 IH]; cbn [app]; intros H; inversion H; subst; [assumption|auto].
Qed.

(* ---- within a stage: vector order ---- *)
(* the calls of stage st, in call order, are the modules declaring more than st
   stages, in vector order *)
Theorem stage_in_vector_order_thm : forall ms st,
  filter (fun c => snd c =? st) (at_sim_start ms)
  = map (fun m => (m, st)) (filter (fun m => st <? mstages m) ms).
Proof.
  intros ms st. rewrite at_sim_start_rows, filter_flat_map, <- stage_row_map.
  destruct (Nat.ltb_spec st (max_stage ms)) as [Hlt|Hge].
  - replace (max_stage ms) with (st + (1 + (max_stage ms - st - 1))) by lia.
    rewrite seq_app, flat_map_app. cbn [seq flat_map Nat.add].
    rewrite (flat_map_nil _ (seq 0 st)), (flat_map_nil _ (seq (S st) _)).
    + cbn [app]. rewrite app_nil_r. apply filter_all. intros c Hc. apply stage_row_in in Hc.
      apply Nat.eqb_eq. tauto.
    + intros a Ha. apply in_seq in Ha. apply filter_none. intros c Hc. apply stage_row_in in Hc.
      apply Nat.eqb_neq. lia.
    + intros a Ha. apply in_seq in Ha. apply filter_none. intros c Hc. apply stage_row_in in Hc.
      apply Nat.eqb_neq. lia.
  - rewrite flat_map_nil.
    + symmetry. rewrite stage_row_map. rewrite filter_none; [reflexivity|].
      intros m Hm. apply Nat.ltb_ge. pose proof (max_stage_ge ms m Hm). lia.
    + intros a Ha. apply in_seq in Ha. apply filter_none. intros c Hc. apply stage_row_in in Hc.
      apply Nat.eqb_neq. lia.
Qed.

(* ---- exactly once per declared stage ---- *)
Definition is_mod (m : mref) (c : mref * nat) : bool := N.eqb (mord (fst c)) (mord m).

Lemma row_of_module ms m st : NoDup (map mord ms) -> In m ms ->
  filter (is_mod m) (stage_row ms st) = if st <? mstages m then [(m, st)] else [].
Proof.
  induction ms as [|x ms IH]; intros Hnd Hin; [contradiction|].
  cbn [map] in Hnd. inversion Hnd as [|? ? Hnotin Hnd']; subst.
  unfold stage_row in *. cbn [flat_map]. rewrite filter_app.
  destruct Hin as [->|Hin].
  - rewrite (filter_none _ (flat_map _ ms)).
    + rewrite app_nil_r. destruct (st <? mstages m); [|reflexivity]. cbn [filter]. unfold is_mod. cbn [fst].
      rewrite N.eqb_refl. reflexivity.
    + intros c Hc. fold (stage_row ms st) in Hc. apply stage_row_in in Hc. unfold is_mod.
      apply N.eqb_neq. intros Heq. apply Hnotin. rewrite <- Heq. apply in_map. tauto.
  - rewrite IH by assumption. rewrite filter_none; [reflexivity|].
    intros c Hc. unfold is_mod. apply N.eqb_neq. intros Heq. apply Hnotin.
    destruct (st <? mstages x); [|contradiction]. destruct Hc as [<-|[]]. cbn [fst] in Heq.
    rewrite Heq. apply in_map. assumption.
Qed.

Lemma flat_map_singletons {A B} (f : A -> B) (g : A -> list B) l :
  (forall x, In x l -> g x = [f x]) -> flat_map g l = map f l.
Proof.
  induction l as [|x l IH]; intros H; [reflexivity|]. cbn [flat_map map].
  rewrite (H x (or_introl eq_refl)), IH; [reflexivity|]. intros y Hy. apply H. right. exact Hy.
Qed.

(* the calls made to module m are at_sim_start(0), at_sim_start(1), ...,
   at_sim_start(num_sim_start_stages - 1), each exactly once, in this order *)
Theorem start_once_per_declared_stage_thm : forall ms m,
  NoDup (map mord ms) -> In m ms ->
  filter (is_mod m) (at_sim_start ms) = map (fun st => (m, st)) (seq 0 (mstages m)).
Proof.
  intros ms m Hnd Hin. rewrite at_sim_start_rows, filter_flat_map.
  pose proof (max_stage_ge ms m Hin) as Hle.
  replace (max_stage ms) with (mstages m + (max_stage ms - mstages m)) by lia.
  rewrite seq_app, flat_map_app. rewrite (flat_map_nil _ (seq (0 + mstages m) _)).
  - rewrite app_nil_r. apply flat_map_singletons. intros st Hst. apply in_seq in Hst.
    rewrite row_of_module by assumption. destruct (Nat.ltb_spec st (mstages m)); [reflexivity|lia].
  - intros st Hst. apply in_seq in Hst. rewrite row_of_module by assumption.
    destruct (Nat.ltb_spec st (mstages m)); [lia|reflexivity].
Qed.

(* ---- tear-down ---- *)
Theorem end_once_per_module_thm : forall ms, NoDup (map mord ms) ->
  at_sim_end ms = ms /\ NoDup (map mord (at_sim_end ms)) /\
  (forall m, In m ms -> count_occ N.eq_dec (map mord (at_sim_end ms)) (mord m) = 1).
Proof.
  intros ms Hnd. split; [reflexivity|]. split; [exact Hnd|]. intros m Hm. unfold at_sim_end.
  apply NoDup_count_occ'; [exact Hnd|]. apply in_map. exact Hm.
Qed.
