(* Wake records: every queued task carries the instant at which it was made runnable.
   Invariant of one Harness::exec at instant [now], started with empty queues: every
   queued task was made runnable at [now], hence every poll record (task, woken, now)
   has woken = now.  Across a run in which every event fits the budgets the queues are
   empty between events, so this holds for every poll of the run: code that follows an
   await runs in the instant that satisfied the await. *)
From Coq Require Import List NArith Bool Arith.
From DesVerif Require Import Exec.Model Exec.Basics Exec.Measure Exec.Mode Exec.Budget.
Import ListNotations.
Local Open Scope N_scope.

Definition timely (r : trec) : Prop := match r with RPoll _ w n => w = n | _ => True end.
Definition polls_timely (tr : list trec) : Prop := Forall timely tr.

Definition qwk (now : N) (s : st) : Prop := forall j, In j (queues s) -> wk_of j s = now.
Definition inv (now : N) (s : st) : Prop := polls_timely (trace s) /\ qwk now s.

Lemma wk_of_upd_keep i f s j : (forall t, wk (f t) = wk t) -> wk_of j (upd_task i f s) = wk_of j s.
Proof.
  intros Hf. unfold wk_of. rewrite get_upd_task. destruct (Nat.eqb i j); [|reflexivity].
  destruct (get j s); cbn [option_map]; [apply Hf|reflexivity].
Qed.

Lemma inv_upd_keep now i f s : (forall t, wk (f t) = wk t) -> inv now s -> inv now (upd_task i f s).
Proof.
  intros Hf [Ht Hq]. split; [exact Ht|]. intros j Hj. rewrite wk_of_upd_keep by assumption. apply Hq. exact Hj.
Qed.

Lemma inv_add_trace now r s : timely r -> inv now s -> inv now (add_trace r s).
Proof. intros Hr [Ht Hq]. split; [constructor; assumption|exact Hq]. Qed.

Lemma queues_in j s : In j (queues s) <-> In j (lq s) \/ In j (cq s) \/ In j (inj s).
Proof. unfold queues. rewrite !in_app_iff. tauto. Qed.

(* task t gets the wake time [now] and joins some queue *)
Lemma inv_requeue now t s s' : inv now s ->
  trace s' = trace s -> (forall j, wk_of j s' = if Nat.eqb t j then now else wk_of j s) ->
  (forall j, In j (queues s') -> In j (queues s) \/ j = t) -> inv now s'.
Proof.
  intros [Ht Hq] Etr Hw Hin. split; [unfold polls_timely; rewrite Etr; exact Ht|].
  intros j Hj. rewrite Hw. destruct (Nat.eqb_spec t j); [reflexivity|].
  destruct (Hin j Hj) as [H|H]; [apply Hq; exact H|congruence].
Qed.

Lemma wk_of_set_wk now t s j : get t s <> None ->
  wk_of j (upd_task t (set_wk now) s) = if Nat.eqb t j then now else wk_of j s.
Proof.
  intros Hg. unfold wk_of. rewrite get_upd_task. destruct (Nat.eqb_spec t j); [|reflexivity].
  subst j. destruct (get t s); [reflexivity|contradiction].
Qed.

Lemma inv_enqueue ins now t s : inv now s -> inv now (fst (enqueue ins now t s)).
Proof.
  intros H. unfold enqueue. destruct (get t s) as [tk|] eqn:E; cbn [fst]; [|exact H].
  eapply inv_requeue; [exact H| | |].
  - unfold push; destruct (local tk); reflexivity.
  - intros j. unfold wk_of. rewrite get_push. fold (wk_of j (upd_task t (set_wk now) s)).
    apply wk_of_set_wk. rewrite E. discriminate.
  - intros j. rewrite !queues_in. unfold push; destruct (local tk); cbn [lq cq inj set_lq set_cq upd_task];
      rewrite ?in_app_iff; cbn [In]; intuition auto.
Qed.

Lemma inv_eff ins now i s o s' o' : Eff ins now i s o s' o' -> inv now s -> inv now s'.
Proof.
  intros E H. induction E; [exact H|apply inv_upd_keep; assumption|apply inv_add_trace; [exact I|assumption]|].
  apply inv_enqueue. assumption.
Qed.

(* a task that was made runnable now is polled now *)
Lemma inv_poll_task m ins now i s : inv now s -> wk_of i s = now -> inv now (fst (poll_task m ins now i s)).
Proof.
  intros H Hw. unfold poll_task. eapply inv_eff; [apply interp_eff|]. apply inv_add_trace; [exact Hw|exact H].
Qed.

Lemma inv_pop now loc s i s1 : pop loc s = Some (i, s1) -> inv now s -> inv now s1 /\ wk_of i s1 = now.
Proof.
  intros Ep [Ht Hq]. pose proof (pop_some _ _ _ _ Ep) as [_ [Hi [Hsub [_ [_ [Hts [Htr _]]]]]]].
  assert (Hw : forall j, wk_of j s1 = wk_of j s) by (intros j; unfold wk_of, get; rewrite Hts; reflexivity).
  assert (Hqi : forall l j, qin l j s -> In j (queues s)) by (intros [] j; unfold qin; rewrite queues_in; tauto).
  split; [split; [unfold polls_timely; rewrite Htr; exact Ht|]|rewrite Hw; apply Hq, (Hqi loc), Hi].
  intros j Hj. rewrite Hw. apply Hq. apply queues_in in Hj.
  assert (H : qin loc j s1 \/ qin (negb loc) j s1) by (destruct loc; cbn [qin negb]; tauto).
  destruct H as [H|H]; [apply (Hqi loc), Hsub, H|apply (Hqi (negb loc)), (pop_other _ _ _ _ _ Ep), H].
Qed.

Lemma inv_drain m loc now n s : inv now s -> inv now (dr_st (drain m loc n now s)).
Proof.
  apply drain_inv. clear s. intros s i s1 Ep H. destruct (inv_pop now loc s i s1 Ep H) as [H1 Hw].
  apply inv_poll_task; assumption.
Qed.

Lemma inv_do_act now s a : inv now s -> inv now (do_act now s a).
Proof.
  intros H. destruct a as [t|t|r]; cbn [do_act].
  - destruct (get t s) as [tq|]; [|exact H]. destruct (stat tq); try exact H.
    eapply (inv_eff true now 0 _ false); [apply Eff_wake, Eff_refl|]. apply inv_upd_keep; [reflexivity|exact H].
  - eapply (inv_eff true now 0 _ false); [apply Eff_send, Eff_refl|exact H].
  - exact H.
Qed.

Lemma inv_handler now acts : forall s, inv now s -> inv now (handler now acts s).
Proof.
  unfold handler. induction acts as [|a acts IH]; intros s H; cbn [fold_left]; [exact H|].
  apply IH. apply inv_do_act. exact H.
Qed.

Lemma inv_wake_deferred now dl : forall s, inv now s -> inv now (wake_deferred now dl s).
Proof.
  induction dl as [|i dl IH]; intros s H; cbn [wake_deferred]; [exact H|]. apply IH. apply inv_enqueue. exact H.
Qed.

Definition ee_st (x : st * list pinfo * list pinfo) : st := fst (fst x).

(* one Harness::exec, whatever the budgets *)
Lemma inv_exec_event bl br c now acts s : inv now s -> inv now (ee_st (exec_event bl br c now acts s)).
Proof.
  intros H. unfold exec_event.
  pose proof (inv_drain (Some c) true now bl _ (inv_handler now acts s H)) as H1.
  destruct (drain (Some c) true bl now (handler now acts s)) as [[s1 p2] d2]. unfold dr_st in H1; cbn [fst] in H1.
  pose proof (inv_drain (Some c) false now br _ H1) as H2.
  destruct (drain (Some c) false br now s1) as [[s2 p3] d3]. unfold dr_st in H2; cbn [fst] in H2.
  unfold ee_st; cbn [fst]. apply inv_wake_deferred. exact H2.
Qed.


Lemma quiescent_add_trace r s : quiescent (add_trace r s) = quiescent s.
Proof. reflexivity. Qed.

Lemma inv_end_turn now br p3 s : inv now s -> inv now (end_turn br p3 s).
Proof. intros H. unfold end_turn. destruct (length p3 <? br)%nat; exact H. Qed.

Lemma quiescent_end_turn br p3 s : quiescent (end_turn br p3 s) = quiescent s.
Proof. unfold end_turn. destruct (length p3 <? br)%nat; reflexivity. Qed.

(* a processing element's hook wakes tasks at the event's instant *)
Lemma inv_send_outside now t s : inv now s -> inv now (send_outside now t s).
Proof.
  intros H. unfold send_outside. destruct (get t s) as [tk|] eqn:E; [|exact H].
  assert (H1 : inv now (upd_task t (set_inbox (inbox tk + 1)) s)) by (apply inv_upd_keep; [reflexivity|exact H]).
  destruct (stat tk); try exact H1.
  set (s1 := upd_task t (set_stat Queued) (upd_task t (set_inbox (inbox tk + 1)) s)).
  assert (H2 : inv now s1) by (apply inv_upd_keep; [reflexivity|exact H1]).
  assert (Hg : get t s1 <> None) by (unfold s1; rewrite !get_upd_same, E; discriminate).
  destruct (local tk).
  - eapply inv_requeue; [exact H2|reflexivity| |].
    + intros j. unfold wk_of. rewrite get_push. fold (wk_of j (upd_task t (set_wk now) s1)). apply wk_of_set_wk. exact Hg.
    + intros j. rewrite !queues_in. unfold push; cbn [lq cq inj set_lq upd_task]. rewrite in_app_iff; cbn [In]. intuition auto.
  - eapply inv_requeue; [exact H2|reflexivity| |].
    + intros j. apply (wk_of_set_wk now t s1 j Hg).
    + intros j. rewrite !queues_in. cbn [lq cq inj set_inj upd_task]. rewrite in_app_iff; cbn [In]. intuition auto.
Qed.

Lemma inv_pre_hooks now pre : forall s, inv now s -> inv now (pre_hooks now pre s).
Proof.
  unfold pre_hooks. induction pre as [|a pre IH]; intros s H; cbn [fold_left]; [exact H|].
  apply IH. destruct a as [t|t|r]; cbn [do_pre]; [exact H|apply inv_send_outside; exact H|exact H].
Qed.

Lemma inv_run_exec b tag now acts s : inv now s -> inv now (run_exec b tag now acts s).
Proof.
  intros H. unfold run_exec.
  pose proof (inv_exec_event (b_local b) (b_rt b) (b_coop b) now acts s H) as H1.
  destruct (exec_event _ _ _ _ _ _) as [[s1 p2] p3]. unfold ee_st in H1; cbn [fst] in H1.
  unfold close. apply inv_add_trace; [exact I|]. apply inv_end_turn. exact H1.
Qed.

(* ---- runs ---- *)
(* the state in which the exec of message event e starts: the record and the element's hooks *)
Definition ev_state (s : st) (e : nat) (now : N) (pre : list act) : st :=
  pre_hooks now pre (add_trace (REvent e now) s).

Definition fits_exec (b : budgets) (now : N) (acts : list act) (s : st) : Prop :=
  ~ KnownClass {| e_b := b; e_now := now; e_acts := acts; e_st := s |}.

Lemma run_exec_quiescent b tag now acts s : fits_exec b now acts s -> quiescent (run_exec b tag now acts s) = true.
Proof.
  intros Hk. pose proof (quiescent_if_within_budget _ Hk) as [Hqa _].
  unfold queue_after, exec_bounded in Hqa; cbn [e_b e_now e_acts e_st] in Hqa.
  unfold run_exec. destruct (exec_event _ _ _ _ _ _) as [[s1 p2] p3]; cbn [fst] in Hqa.
  unfold close. rewrite quiescent_add_trace, quiescent_end_turn. apply queues_nil. exact Hqa.
Qed.

(* the invariant between events: all polls so far were timely, nothing is queued *)
Definition calm (s : st) : Prop := polls_timely (trace s) /\ quiescent s = true.

Lemma calm_inv now s : calm s -> inv now s.
Proof.
  intros [Ht Hq]. apply queues_nil in Hq. split; [exact Ht|]. intros j Hj. rewrite Hq in Hj. destruct Hj.
Qed.

Lemma inv_quiescent now now' s : inv now s -> quiescent s = true -> inv now' s.
Proof. intros [Ht _] Hq. apply calm_inv. split; assumption. Qed.

Lemma calm_run_exec b tag now acts s : inv now s -> fits_exec b now acts s -> calm (run_exec b tag now acts s).
Proof.
  intros Hi Hk. split; [apply (inv_run_exec b tag now acts s Hi)|apply run_exec_quiescent; exact Hk].
Qed.

Lemma calm_run_start b s now acts : calm s -> fits_exec b now acts (add_trace (RStart now) s) ->
  calm (run_start b s now acts).
Proof.
  intros Hc Hk. unfold run_start. apply calm_run_exec; [|exact Hk].
  apply inv_add_trace; [exact I|apply calm_inv; exact Hc].
Qed.

(* a shutdown leaves a fresh runtime: nothing queued, whatever was queued before *)
Lemma calm_do_shutdown b g ts now s : polls_timely (trace s) -> calm (do_shutdown b g ts now s).
Proof.
  intros Ht. unfold do_shutdown.
  set (s0 := {| tasks := tasks (init g ts); lq := []; cq := []; inj := []; stick := 0; gqi := g; trace := RReset now :: trace s |}).
  assert (Hi : inv now s0) by (split; [constructor; [exact I|exact Ht]|intros j Hj; destruct Hj]).
  assert (Hq : forall j, qin true j s0 \/ qin false j s0 -> False) by (intros j [H|[H|H]]; destruct H).
  pose proof (inv_exec_event (b_local b) (b_rt b) (b_coop b) now [] s0 Hi) as H1.
  unfold exec_event in *. cbn [handler fold_left] in *.
  rewrite (drain_empty (Some (b_coop b)) true (b_local b) now s0 eq_refl) in *.
  rewrite (drain_empty (Some (b_coop b)) false (b_rt b) now s0 eq_refl) in *.
  cbn [app wake_deferred] in *. unfold ee_st in H1; cbn [fst] in H1.
  split; [rewrite trace_end_turn; apply H1|rewrite quiescent_end_turn; reflexivity].
Qed.

(* every exec of the run, from the state the bounded executor is in, fits the budgets *)
Definition within_catch_up (b : budgets) (start : list act) (sm : st * mode) (t : N) : Prop :=
  match restart_due (snd sm) t with
  | Some r => fits_exec b r (no_shutdown start) (add_trace (RStart r) (fst sm))
  | None => True
  end.

Definition within_step (b : budgets) (start : list act) (sm : st * mode) (e : nat) (t : N) (k : bool) (pre acts : list act) : Prop :=
  within_catch_up b start sm t /\
  let sm' := catch_up b start sm t in
  match snd sm' with
  | Up => fits_exec b t (ev_acts k acts) (ev_state (fst sm') e t pre)
  | Down _ => True
  end.

Fixpoint all_within (b : budgets) (g : N) (ts : list (bool * list op)) (start : list act)
                    (sm : st * mode) (e : nat) (now : N) (evs : list mevent) : Prop :=
  match evs with
  | [] => match snd sm with
          | Down (Some r) => fits_exec b r (no_shutdown start) (add_trace (RStart r) (fst sm))
          | _ => True
          end
  | (d, k, pre, acts) :: r =>
      within_step b start sm e (now + d) k pre acts /\
      all_within b g ts start (step_event b g ts start sm e (now + d) k pre acts) (S e) (now + d) r
  end.

Lemma calm_after_exec b g ts now acts s : calm s -> calm (fst (after_exec b g ts now acts s)).
Proof.
  intros Hc. unfold after_exec. destruct (shutdown_req now acts) as [r|]; cbn [fst]; [|exact Hc].
  apply calm_do_shutdown. apply Hc.
Qed.

Lemma calm_catch_up b start sm t : calm (fst sm) -> within_catch_up b start sm t -> calm (fst (catch_up b start sm t)).
Proof.
  intros Hc Hw. unfold catch_up, within_catch_up in *. destruct (restart_due (snd sm) t) as [r|]; cbn [fst]; [|exact Hc].
  apply calm_run_start; assumption.
Qed.

Lemma calm_step_event b g ts start sm e t k pre acts :
  calm (fst sm) -> within_step b start sm e t k pre acts -> calm (fst (step_event b g ts start sm e t k pre acts)).
Proof.
  intros Hc [Hw1 Hw2]. unfold step_event. cbn zeta in Hw2.
  pose proof (calm_catch_up b start sm t Hc Hw1) as Hc'.
  destruct (snd (catch_up b start sm t)); [|exact Hc'].
  apply calm_after_exec. unfold run_event. apply calm_run_exec; [|exact Hw2].
  apply inv_pre_hooks. apply inv_add_trace; [exact I|apply calm_inv; exact Hc'].
Qed.

Lemma run_events_calm b g ts start : forall evs sm e now,
  calm (fst sm) -> all_within b g ts start sm e now evs ->
  let r := run_events b g ts start sm e now evs in
  calm (fst (last_restart b start (fst r) (snd r))).
Proof.
  induction evs as [|[[[d k] pre] acts] evs IH]; intros sm e now Hc Hw; cbn [run_events all_within] in *.
  - cbn zeta. cbn [fst snd]. unfold last_restart. destruct (snd sm) as [|[r|]]; cbn [fst]; try exact Hc.
    apply calm_run_start; assumption.
  - destruct Hw as [Hs Hw]. apply IH; [|exact Hw]. apply calm_step_event; assumption.
Qed.

Lemma run_end_inv b s now : inv now s -> polls_timely (trace (run_end b s now)).
Proof.
  intros H. unfold run_end.
  pose proof (inv_exec_event (b_local b) (b_rt b) (b_coop b) now [] s H) as H1.
  destruct (exec_event (b_local b) (b_rt b) (b_coop b) now [] s) as [[s1 p2] p3]. unfold ee_st in H1; cbn [fst] in H1.
  pose proof (inv_exec_event (b_local b) (b_rt b) (b_coop b) now [] _ (inv_end_turn now (b_rt b) p3 s1 H1)) as H2.
  destruct (exec_event (b_local b) (b_rt b) (b_coop b) now [] (end_turn (b_rt b) p3 s1)) as [[s2 q2] q3]. unfold ee_st in H2; cbn [fst] in H2.
  unfold close. constructor; [exact I|]. apply (inv_end_turn now (b_rt b) q3 s2 H2).
Qed.

(* a run: at_sim_start performing [start], the message events with shutdowns and restarts,
   the tear-down *)
Definition run_within (b : budgets) (g : N) (ts : list (bool * list op)) (start : list act) (evs : list mevent) : Prop :=
  fits_exec b 0 start (add_trace (RStart 0) (init g ts)) /\
  all_within b g ts start (boot b g ts start) O 0 evs.

(* [run_within] as a boolean, for closed runs: one evaluation decides all its conjuncts *)
Definition fits_execb (b : budgets) (now : N) (acts : list act) (s : st) : bool :=
  negb (over_budget {| e_b := b; e_now := now; e_acts := acts; e_st := s |}).

Definition within_stepb (b : budgets) (start : list act) (sm : st * mode) (e : nat) (t : N) (k : bool) (pre acts : list act) : bool :=
  match restart_due (snd sm) t with
  | Some r => fits_execb b r (no_shutdown start) (add_trace (RStart r) (fst sm))
  | None => true
  end &&
  let sm' := catch_up b start sm t in
  match snd sm' with
  | Up => fits_execb b t (ev_acts k acts) (ev_state (fst sm') e t pre)
  | Down _ => true
  end.

Fixpoint all_withinb (b : budgets) (g : N) (ts : list (bool * list op)) (start : list act)
                     (sm : st * mode) (e : nat) (now : N) (evs : list mevent) : bool :=
  match evs with
  | [] => match snd sm with
          | Down (Some r) => fits_execb b r (no_shutdown start) (add_trace (RStart r) (fst sm))
          | _ => true
          end
  | (d, k, pre, acts) :: r =>
      within_stepb b start sm e (now + d) k pre acts &&
      all_withinb b g ts start (step_event b g ts start sm e (now + d) k pre acts) (S e) (now + d) r
  end.

Lemma fits_execb_ok b now acts s : fits_execb b now acts s = true -> fits_exec b now acts s.
Proof. unfold fits_execb, fits_exec, KnownClass. intros H E. rewrite E in H. discriminate H. Qed.

Lemma all_withinb_ok b g ts start : forall evs sm e now,
  all_withinb b g ts start sm e now evs = true -> all_within b g ts start sm e now evs.
Proof.
  induction evs as [|[[[d k] pre] acts] evs IH]; intros sm e now H; cbn [all_withinb all_within] in *.
  - destruct (snd sm) as [|[r|]]; [exact I|apply fits_execb_ok; exact H|exact I].
  - apply andb_true_iff in H. destruct H as [Hs H]. split; [|apply IH; exact H].
    unfold within_stepb in Hs. apply andb_true_iff in Hs. destruct Hs as [H1 H2]. split.
    + unfold within_catch_up. destruct (restart_due (snd sm) (now + d)); [apply fits_execb_ok; exact H1|exact I].
    + cbn zeta in *. destruct (snd (catch_up b start sm (now + d))); [apply fits_execb_ok; exact H2|exact I].
Qed.

Lemma run_withinb_ok b g ts start evs :
  fits_execb b 0 start (add_trace (RStart 0) (init g ts)) && all_withinb b g ts start (boot b g ts start) O 0 evs = true ->
  run_within b g ts start evs.
Proof.
  intros H. apply andb_true_iff in H. destruct H as [H1 H2].
  split; [apply fits_execb_ok; exact H1|apply all_withinb_ok; exact H2].
Qed.

Theorem await_observes_enabling_instant b g ts start evs :
  run_within b g ts start evs -> polls_timely (run_model b g ts start evs).
Proof.
  intros [Hk Hw]. unfold run_model.
  assert (Hc0 : calm (init g ts)) by (split; [constructor|reflexivity]).
  assert (Hb : calm (fst (boot b g ts start))).
  { unfold boot. apply calm_after_exec. apply calm_run_start; assumption. }
  pose proof (run_events_calm b g ts start evs _ O 0 Hb Hw) as H. cbn zeta in H.
  destruct (run_events b g ts start (boot b g ts start) 0 0 evs) as [sm now]; cbn [fst snd] in H.
  destruct (last_restart b start sm now) as [s now']; cbn [fst] in H.
  unfold polls_timely. apply Forall_rev. apply run_end_inv. apply calm_inv. exact H.
Qed.

(* independently of any budget: an exec that starts with empty queues polls only tasks
   made runnable in that same exec *)
Theorem exec_from_quiescent_timely bl br c now now0 acts s :
  inv now0 s -> quiescent s = true -> polls_timely (trace (ee_st (exec_event bl br c now acts s))).
Proof.
  intros Hi Hq. apply (inv_exec_event bl br c now acts s). eapply inv_quiescent; eassumption.
Qed.

(* ... and so does an exec that starts with only tasks woken by the element hooks of the
   same event (the consumed-message path: hooks, then exec of an empty callback) *)
Theorem consumed_event_timely bl br c now now0 pre s :
  inv now0 s -> quiescent s = true ->
  polls_timely (trace (ee_st (exec_event bl br c now [] (pre_hooks now pre s)))).
Proof.
  intros Hi Hq. apply (inv_exec_event bl br c now [] _). apply inv_pre_hooks. eapply inv_quiescent; eassumption.
Qed.

(* a callback that requests a shutdown drives the runtime exactly like the same callback
   without the request: the request is only consumed after the event (buf_process) *)
Lemma handler_no_shutdown now acts : forall s, handler now acts s = handler now (no_shutdown acts) s.
Proof.
  unfold handler. induction acts as [|a acts IH]; intros s; cbn [no_shutdown filter fold_left]; [reflexivity|].
  destruct a as [t|t|r]; cbn [fold_left]; apply IH.
Qed.

Theorem shutdown_request_keeps_exec bl br c now acts s :
  exec_event bl br c now acts s = exec_event bl br c now (no_shutdown acts) s.
Proof. unfold exec_event. rewrite <- handler_no_shutdown. reflexivity. Qed.
