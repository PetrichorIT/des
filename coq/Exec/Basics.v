(* Elementary facts about the state primitives of Exec/Model.v, and the effect relation of one
   poll through which facts about them reach [interp]. *)
From Coq Require Import List NArith Bool Arith Lia.
From DesVerif Require Import Common.Lists Exec.Model.
Import ListNotations.
Local Open Scope nat_scope.

Lemma nth_error_upd {A} (f : A -> A) (l : list A) i j :
  nth_error (upd i f l) j = if Nat.eqb i j then option_map f (nth_error l j) else nth_error l j.
Proof.
  revert i j; induction l as [|x l IH]; intros i j.
  - destruct i, j; cbn; try reflexivity; destruct (Nat.eqb _ _); reflexivity.
  - destruct i as [|i], j as [|j]; cbn [upd nth_error Nat.eqb option_map]; try reflexivity. apply IH.
Qed.

Lemma upd_length {A} (f : A -> A) l i : length (upd i f l) = length l.
Proof. revert i; induction l as [|x l IH]; intros [|i]; cbn [upd length]; auto. Qed.

Lemma get_upd_task i f s j :
  get j (upd_task i f s) = if Nat.eqb i j then option_map f (get j s) else get j s.
Proof. unfold get, upd_task; cbn [tasks]. apply nth_error_upd. Qed.

Lemma get_upd_same i f s : get i (upd_task i f s) = option_map f (get i s).
Proof. rewrite get_upd_task, Nat.eqb_refl. reflexivity. Qed.

Lemma get_upd_other i f s j : i <> j -> get j (upd_task i f s) = get j s.
Proof. intros H. rewrite get_upd_task. destruct (Nat.eqb_spec i j); [contradiction|reflexivity]. Qed.

Lemma get_add_trace r s j : get j (add_trace r s) = get j s.
Proof. reflexivity. Qed.

Lemma get_push l i s j : get j (push l i s) = get j s.
Proof. unfold push; destruct l; reflexivity. Qed.

Lemma trace_end_turn br p3 s : trace (end_turn br p3 s) = trace s.
Proof. unfold end_turn. destruct (length p3 <? br)%nat; reflexivity. Qed.

(* queues: the LocalSet's local queue, or the scheduler's two queues taken together *)
Definition qlen (loc : bool) (s : st) : nat := if loc then length (lq s) else length (cq s) + length (inj s).
Definition qin (loc : bool) (i : nat) (s : st) : Prop := if loc then In i (lq s) else In i (cq s) \/ In i (inj s).

Lemma qlen_upd_task l i f s : qlen l (upd_task i f s) = qlen l s.
Proof. destruct l; reflexivity. Qed.
Lemma qlen_add_trace l r s : qlen l (add_trace r s) = qlen l s.
Proof. destruct l; reflexivity. Qed.
Lemma qlen_push l k i s : qlen l (push k i s) = if Bool.eqb l k then S (qlen l s) else qlen l s.
Proof. destruct l, k; unfold push, qlen; cbn [lq cq inj set_lq set_cq Bool.eqb]; rewrite ?app_length; cbn [length]; lia. Qed.

Lemma pop_none l s : pop l s = None <-> qlen l s = 0.
Proof.
  unfold pop, qlen; destruct l.
  - destruct (lq s); split; intros H; try reflexivity; discriminate.
  - destruct (next_tick s mod gqi s =? 0)%N; destruct (cq s), (inj s); cbn [length]; split; intros H;
      try reflexivity; try discriminate.
Qed.

Lemma pop_some l s i s' : pop l s = Some (i, s') ->
  qlen l s = S (qlen l s') /\ qin l i s /\ (forall j, qin l j s' -> qin l j s) /\
  qlen (negb l) s' = qlen (negb l) s /\ (l = false -> lq s' = lq s) /\
  tasks s' = tasks s /\ trace s' = trace s /\ gqi s' = gqi s.
Proof.
  unfold pop, qlen, qin; destruct l; cbn [negb].
  - destruct (lq s) as [|x q] eqn:E; [discriminate|]. intros H; inversion H; subst; cbn.
    repeat split; auto. discriminate.
  - destruct (next_tick s mod gqi s =? 0)%N; destruct (cq s) as [|x q] eqn:Ec, (inj s) as [|y r] eqn:Ei;
      try discriminate; intros H; inversion H; subst; cbn; rewrite ?Ec, ?Ei; cbn;
      repeat split; auto; try lia; intros j Hj; tauto.
Qed.

Lemma pop_other l s i s' j : pop l s = Some (i, s') -> qin (negb l) j s' -> qin (negb l) j s.
Proof.
  unfold pop, qin; destruct l; cbn [negb].
  - destruct (lq s); [discriminate|]. intros H; inversion H; subst. cbn. auto.
  - destruct (next_tick s mod gqi s =? 0)%N; destruct (cq s), (inj s); try discriminate; intros H; inversion H; subst; cbn; auto.
Qed.

Lemma get_pop l s i s' j : pop l s = Some (i, s') -> get j s' = get j s.
Proof. intros H. apply pop_some in H. unfold get. destruct H as [_ [_ [_ [_ [_ [H _]]]]]]. rewrite H. reflexivity. Qed.

(* the measure *)
Definition tw (ts : list task) : nat := fold_right (fun t a => weight t + a) 0 ts.
Definition cw (c : list op) : nat := fold_right (fun o a => opw o + a) 0 c.

Lemma measure_eq s : measure s = tw (tasks s) + length (lq s) + length (cq s) + length (inj s).
Proof. reflexivity. Qed.

Lemma weight_some t c : code t = Some c -> weight t = 2 + cw c.
Proof. unfold weight, cw; intros ->; reflexivity. Qed.
Lemma weight_none t : code t = None -> weight t = 0.
Proof. unfold weight; intros ->; reflexivity. Qed.

Lemma tw_upd f ts i t : nth_error ts i = Some t -> tw (upd i f ts) + weight t = tw ts + weight (f t).
Proof.
  revert i; induction ts as [|x ts IH]; intros [|i]; cbn [nth_error upd tw fold_right]; try discriminate.
  - intros H; inversion H; subst. lia.
  - intros H. specialize (IH _ H). unfold tw in IH. lia.
Qed.

Lemma upd_none {A} (f : A -> A) (l : list A) i : nth_error l i = None -> upd i f l = l.
Proof.
  revert i; induction l as [|x l IH]; intros [|i]; cbn [nth_error upd]; try reflexivity; try discriminate.
  intros H. rewrite IH by assumption. reflexivity.
Qed.

Lemma measure_upd_task i f s t : get i s = Some t ->
  measure (upd_task i f s) + weight t = measure s + weight (f t).
Proof.
  intros H. rewrite !measure_eq. unfold upd_task; cbn [tasks lq cq inj].
  pose proof (tw_upd f _ _ _ H). lia.
Qed.

Lemma upd_task_none i f s : get i s = None -> upd_task i f s = s.
Proof.
  intros H. unfold upd_task. unfold get in H. rewrite (upd_none _ _ _ H). destruct s; reflexivity.
Qed.

(* updates that leave the code alone leave the measure alone *)
Lemma measure_upd_keep i f s : (forall t, code (f t) = code t) -> measure (upd_task i f s) = measure s.
Proof.
  intros Hf. destruct (get i s) as [t|] eqn:E.
  - pose proof (measure_upd_task i f s t E) as H.
    assert (weight (f t) = weight t) by (unfold weight; rewrite Hf; reflexivity). lia.
  - rewrite upd_task_none by assumption. reflexivity.
Qed.

Lemma measure_add_trace r s : measure (add_trace r s) = measure s.
Proof. reflexivity. Qed.

Lemma measure_push l i s : measure (push l i s) = S (measure s).
Proof. rewrite !measure_eq. unfold push; destruct l; cbn [tasks lq cq inj set_lq set_cq]; rewrite app_length; cbn [length]; lia. Qed.

Lemma measure_pop l s i s' : pop l s = Some (i, s') -> measure s = S (measure s').
Proof.
  intros H. apply pop_some in H. destruct H as [H1 [_ [_ [H2 [_ [H3 _]]]]]].
  rewrite !measure_eq, H3. unfold qlen in *. destruct l; cbn [negb] in *; lia.
Qed.

Lemma measure_queue l s : qlen l s <= measure s.
Proof. rewrite measure_eq. destruct l; cbn [qlen]; lia. Qed.

(* code_of through the primitives *)
Lemma code_of_upd_keep i f s j : (forall t, code (f t) = code t) -> code_of j (upd_task i f s) = code_of j s.
Proof.
  intros Hf. unfold code_of. rewrite get_upd_task. destruct (Nat.eqb i j); [|reflexivity].
  destruct (get j s); cbn [option_map]; [apply Hf|reflexivity].
Qed.

(* ---- what one poll does to the state ----
   Every state [interp] passes through is reached from the first by table updates that keep
   the wake records, operation records of the polled task, and enqueues.  The pair threaded
   along is (state, "a LocalSet task was woken from outside" flag).  Facts about the primitives
   lift to polls by induction on this relation. *)
Definition woke (l : list nat) : bool := match l with [] => false | _ => true end.

Section Eff.
Variables (ins : bool) (now : N) (i : nat).

Inductive Eff (s : st) (o : bool) : st -> bool -> Prop :=
| Eff_refl : Eff s o s o
| Eff_upd j f s' o' : (forall t, wk (f t) = wk t) -> Eff s o s' o' -> Eff s o (upd_task j f s') o'
| Eff_op s' o' : Eff s o s' o' -> Eff s o (add_trace (ROp i now) s') o'
| Eff_enq t s' o' : Eff s o s' o' -> Eff s o (fst (enqueue ins now t s')) (o' || snd (enqueue ins now t s')).

Lemma Eff_trans s o s1 o1 s2 o2 : Eff s o s1 o1 -> Eff s1 o1 s2 o2 -> Eff s o s2 o2.
Proof. intros H1 H2. induction H2; [exact H1|constructor; assumption..]. Qed.

Lemma Eff_wake t s o s' o' : Eff s o s' o' -> Eff s o (fst (wake ins now t s')) (o' || snd (wake ins now t s')).
Proof. intros H. unfold wake. apply Eff_enq, Eff_upd; [reflexivity|exact H]. Qed.

Lemma Eff_send t s o s' o' : Eff s o s' o' -> Eff s o (fst (send ins now t s')) (o' || snd (send ins now t s')).
Proof.
  intros H. unfold send. destruct (get t s') as [tk|]; cbn [fst snd]; [|rewrite orb_false_r; exact H].
  assert (H1 : Eff s o (upd_task t (set_inbox (inbox tk + 1)) s') o') by (apply Eff_upd; [reflexivity|exact H]).
  destruct (stat tk); cbn [fst snd]; try (rewrite orb_false_r; exact H1). apply Eff_wake. exact H1.
Qed.

Lemma Eff_finish j s o s' o' : Eff s o s' o' -> Eff s o (fst (finish ins now j s')) (o' || snd (finish ins now j s')).
Proof.
  intros H. unfold finish.
  assert (H1 : Eff s o (upd_task j (fun t => set_stat Done (set_code None t)) s') o') by (apply Eff_upd; [reflexivity|exact H]).
  destruct (get j s') as [tj|]; cbn [fst snd]; [|rewrite orb_false_r; exact H1].
  destruct (jh tj) as [| |k]; cbn [fst snd]; try (rewrite orb_false_r; exact H1).
  destruct (get k s') as [tk|]; cbn [fst snd]; [|rewrite orb_false_r; exact H1].
  destruct (stat tk) as [| | |j'|]; cbn [fst snd]; try (rewrite orb_false_r; exact H1).
  destruct (Nat.eqb j' j); cbn [fst snd]; [apply Eff_wake|rewrite orb_false_r]; exact H1.
Qed.

#[local] Hint Resolve Eff_refl Eff_upd Eff_op Eff_enq Eff_send Eff_finish : eff.

Lemma step_op_eff m o r used out s :
  match step_op m ins now i o r used out s with
  | Cont s1 _ o1 => Eff s out s1 o1
  | Halt s1 p => Eff s out s1 (p_out p)
  end.
Proof.
  unfold step_op. destruct o as [| |t|t| |]; rewrite ?let_pair.
  - auto with eff.
  - destruct (get i s) as [ti|]; [|apply Eff_refl].
    destruct (exhausted m used); [apply Eff_refl|]. destruct (0 <? inbox ti)%N; cbn [p_out mkp]; auto with eff.
  - auto with eff.
  - destruct (get t s) as [tq|]; [|auto with eff].
    destruct (match jh tq with JNone => false | JTable => true | JHeld j => Nat.eqb j i end); [|auto with eff].
    destruct (exhausted m used); [cbn [p_out mkp]; auto with eff|]. destruct (stat tq); cbn [p_out mkp]; auto with eff.
  - destruct m; rewrite ?let_pair; cbn [p_out mkp]; auto with eff.
  - cbn [p_out mkp]. auto with eff.
Qed.

Lemma interp_eff f m : forall used out s,
  Eff s out (fst (interp f m ins now i used out s)) (p_out (snd (interp f m ins now i used out s))).
Proof.
  induction f as [|f IH]; intros used out s; cbn [interp]; [apply Eff_refl|].
  destruct (code_of i s) as [[|o r]|]; [| |apply Eff_refl].
  - rewrite let_pair. apply Eff_finish, Eff_refl.
  - pose proof (step_op_eff m o r used out s) as H.
    destruct (step_op m ins now i o r used out s) as [s1 u1 o1|s1 p]; [|exact H].
    eapply Eff_trans; [exact H|apply IH].
Qed.
End Eff.

Lemma Eff_lq now i s o s' o' : Eff false now i s o s' o' -> exists l, lq s' = lq s ++ l /\ o' = o || woke l.
Proof.
  induction 1 as [|j f s' o' Hf E IH|s' o' E IH|t s' o' E IH]; [exists []; rewrite app_nil_r, orb_false_r; auto|exact IH..|].
  destruct IH as [l [El Eo]]. unfold enqueue. destruct (get t s') as [tk|]; cbn [fst snd]; [|exists l; rewrite orb_false_r; auto].
  unfold push. destruct (local tk); cbn [lq set_lq set_cq upd_task andb negb]; [|exists l; rewrite orb_false_r; auto].
  exists (l ++ [t]). rewrite El, Eo, app_assoc. split; [reflexivity|]. destruct o, l; reflexivity.
Qed.
