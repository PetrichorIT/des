(* The cooperative budget and the poll budgets are invisible to work that fits them:
   a poll that attempts at most C resource operations and does not yield is the same
   poll with and without the budget C; a drain that empties its queue within b polls
   of that kind is the same drain with poll budget b. *)
From Coq Require Import List NArith Bool Arith Lia.
From DesVerif Require Import Common.Lists Exec.Model Exec.Basics Exec.Measure.
Import ListNotations.
Local Open Scope N_scope.

Definition ok (c : N) (p : pinfo) : Prop := p_ops p <= c /\ p_yld p = false.

Lemma step_op_ideal ins now i o r used out s :
  match step_op None ins now i o r used out s with
  | Cont _ u _ => used <= u
  | Halt _ p => used <= p_ops p /\ p_dfr p = false
  end.
Proof.
  unfold step_op. destruct o as [| |t|t| |]; rewrite ?let_pair; cbn [exhausted p_ops p_dfr mkp]; try lia; try (split; [lia|reflexivity]).
  - destruct (get i s) as [ti|]; [|cbn; split; [lia|reflexivity]].
    destruct (0 <? inbox ti); cbn; [lia|split; [lia|reflexivity]].
  - destruct (get t s) as [tq|]; [|lia].
    destruct (match jh tq with JNone => false | JTable => true | JHeld j => Nat.eqb j i end); [|lia].
    destruct (stat tq); cbn; try lia; split; try lia; reflexivity.
Qed.

Lemma interp_ideal f ins now i : forall used out s,
  used <= p_ops (snd (interp f None ins now i used out s)) /\ p_dfr (snd (interp f None ins now i used out s)) = false.
Proof.
  induction f as [|f IH]; intros used out s; cbn [interp]; [cbn; split; [lia|reflexivity]|].
  destruct (code_of i s) as [[|o r]|]; [rewrite let_pair| |]; try (cbn; split; [lia|reflexivity]).
  pose proof (step_op_ideal ins now i o r used out s) as H.
  destruct (step_op None ins now i o r used out s) as [s1 u1 o1|s1 p]; cbn [snd]; [|exact H].
  destruct (IH u1 o1 s1) as [H1 H2]. split; [lia|exact H2].
Qed.

Lemma exhausted_not c used : used + 1 <= c -> exhausted (Some c) used = false.
Proof. intros H. cbn [exhausted]. apply N.leb_gt. lia. Qed.

Definition deferred (r : sres) : Prop := match r with Halt _ p => p_dfr p = true | Cont _ _ _ => False end.

Lemma ok_dec c p : (p_ops p <=? c) && negb (p_yld p) = true <-> ok c p.
Proof. unfold ok. rewrite andb_true_iff, N.leb_le. destruct (p_yld p); cbn [negb]; intuition discriminate. Qed.

(* one operation without budget vs. with budget c: the same while the count of resource
   operations stays within c and the task does not yield; deferred otherwise.  The one fact
   behind every case: with used <= c, the budget is exhausted before the operation
   (c <= used) exactly when counting it would exceed c (not used + 1 <= c). *)
Lemma step_op_cmp c ins now i o r used out s : used <= c ->
  match step_op None ins now i o r used out s with
  | Cont s1 u o1 => if u <=? c then step_op (Some c) ins now i o r used out s = Cont s1 u o1
                    else deferred (step_op (Some c) ins now i o r used out s)
  | Halt s1 p => if (p_ops p <=? c) && negb (p_yld p) then step_op (Some c) ins now i o r used out s = Halt s1 p
                 else deferred (step_op (Some c) ins now i o r used out s)
  end.
Proof.
  intros Hu. apply N.leb_le in Hu.
  assert (Hx : (used + 1 <=? c) = negb (c <=? used)).
  { destruct (N.leb_spec c used); [apply N.leb_gt|apply N.leb_le]; lia. }
  unfold step_op. destruct o as [| |t|t| |]; rewrite ?let_pair; cbn [exhausted p_ops p_yld mkp negb]; rewrite ?Hu; try reflexivity.
  - destruct (get i s) as [ti|]; cbn [p_ops p_yld mkp negb]; [|rewrite ?Hu; reflexivity].
    destruct (0 <? inbox ti); cbn [p_ops p_yld mkp negb]; rewrite Hx; destruct (c <=? used); reflexivity.
  - destruct (get t s) as [tq|]; [|rewrite ?Hu; reflexivity].
    destruct (match jh tq with JNone => false | JTable => true | JHeld j => Nat.eqb j i end); [|rewrite ?Hu; reflexivity].
    destruct (stat tq); cbn [p_ops p_yld mkp negb]; rewrite Hx; destruct (c <=? used); reflexivity.
Qed.

Lemma interp_cmp c f ins now i : forall used out s, used <= c ->
  let p := snd (interp f None ins now i used out s) in
  if (p_ops p <=? c) && negb (p_yld p)
  then interp f (Some c) ins now i used out s = interp f None ins now i used out s
  else p_dfr (snd (interp f (Some c) ins now i used out s)) = true.
Proof.
  induction f as [|f IH]; intros used out s Hu; pose proof (proj2 (N.leb_le _ _) Hu) as Hb;
    cbn [interp]; [cbn; rewrite Hb; reflexivity|].
  destruct (code_of i s) as [[|o r]|]; [rewrite !let_pair; cbn; rewrite Hb; reflexivity| |cbn; rewrite Hb; reflexivity].
  pose proof (step_op_cmp c ins now i o r used out s Hu) as H.
  destruct (step_op None ins now i o r used out s) as [s1 u1 o1|s1 p].
  - destruct (N.leb_spec u1 c) as [Hu1|Hu1]; [rewrite H; apply IH; exact Hu1|].
    (* the count only grows: the poll as a whole is over c *)
    pose proof (proj1 (interp_ideal f ins now i u1 o1 s1)) as Hm. cbn zeta.
    rewrite (proj2 (N.leb_gt _ _)) by lia. cbn [andb].
    destruct (step_op (Some c) ins now i o r used out s); [contradiction|exact H].
  - cbn [snd]. destruct ((p_ops p <=? c) && negb (p_yld p)); [rewrite H; reflexivity|].
    destruct (step_op (Some c) ins now i o r used out s); [contradiction|exact H].
Qed.

Lemma poll_cmp c ins now i s :
  let p := snd (poll_task None ins now i s) in
  if (p_ops p <=? c) && negb (p_yld p)
  then poll_task (Some c) ins now i s = poll_task None ins now i s
  else p_dfr (snd (poll_task (Some c) ins now i s)) = true.
Proof. apply interp_cmp. apply N.le_0_l. Qed.

Lemma poll_task_mode c ins now i s :
  ok c (snd (poll_task None ins now i s)) -> poll_task (Some c) ins now i s = poll_task None ins now i s.
Proof. intros H. apply ok_dec in H. pose proof (poll_cmp c ins now i s) as Hc. cbn zeta in Hc. rewrite H in Hc. exact Hc. Qed.

Lemma poll_ideal_no_defer ins now i s : p_dfr (snd (poll_task None ins now i s)) = false.
Proof. apply interp_ideal. Qed.

Lemma drain_ideal_no_defer loc now : forall n s, dr_dl (drain None loc n now s) = [].
Proof.
  induction n as [|n IH]; intros s; [reflexivity|rewrite drain_S].
  destruct (pop loc s) as [[i s1]|]; [|reflexivity].
  cbn zeta. unfold dr_dl at 1; cbn [snd]. rewrite poll_ideal_no_defer. apply IH.
Qed.

(* a drain without budgets that empties its queue is reproduced under any budgets that
   cover it *)
Lemma drain_mode c loc now : forall n b s,
  qlen loc (dr_st (drain None loc n now s)) = 0%nat ->
  (length (dr_ps (drain None loc n now s)) <= b)%nat ->
  Forall (ok c) (dr_ps (drain None loc n now s)) ->
  drain (Some c) loc b now s = drain None loc n now s.
Proof.
  induction n as [|n IH]; intros b s Hq Hb Hok; [apply drain_empty; exact Hq|rewrite drain_S in *].
  destruct (pop loc s) as [[i s1]|] eqn:Ep; [|apply drain_empty, pop_none; exact Ep].
  cbn zeta in *. unfold dr_st, dr_ps in Hq, Hb, Hok; cbn [fst snd length] in Hq, Hb, Hok.
  inversion Hok as [|x l Hx Hl]; subst.
  destruct b as [|b]; [lia|]. rewrite drain_S, Ep. cbn zeta. rewrite (poll_task_mode c loc now i s1 Hx).
  rewrite IH; [reflexivity|exact Hq|exact (le_S_n _ _ Hb)|exact Hl].
Qed.
