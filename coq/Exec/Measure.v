(* Termination of the executor without budgets: every poll strictly decreases [measure]
   (twice the operations left, counting a yield double and the implicit return of every
   unfinished task, plus the queue lengths), so [measure] polls of fuel always empty the
   queue that is drained, and the ideal executor reaches quiescence. *)
From Coq Require Import List NArith Bool Arith Lia.
From DesVerif Require Import Common.Lists Exec.Model Exec.Basics.
Import ListNotations.
Local Open Scope nat_scope.

Lemma enqueue_measure ins now t s : measure (fst (enqueue ins now t s)) <= S (measure s).
Proof.
  unfold enqueue. destruct (get t s) as [tk|]; cbn [fst]; [|lia].
  rewrite measure_push, measure_upd_keep by reflexivity. lia.
Qed.

Lemma wake_measure ins now t s : measure (fst (wake ins now t s)) <= S (measure s).
Proof.
  unfold wake. etransitivity; [apply enqueue_measure|]. rewrite measure_upd_keep by reflexivity. lia.
Qed.

Lemma send_measure ins now t s : measure (fst (send ins now t s)) <= S (measure s).
Proof.
  unfold send. destruct (get t s) as [tk|]; cbn [fst]; [|lia].
  assert (E : measure (upd_task t (set_inbox (inbox tk + 1)) s) = measure s) by (apply measure_upd_keep; reflexivity).
  destruct (stat tk); cbn [fst]; try lia.
  etransitivity; [apply wake_measure|]. lia.
Qed.

Lemma finish_measure ins now i s c : code_of i s = Some c -> measure (fst (finish ins now i s)) + 1 <= measure s.
Proof.
  unfold code_of. destruct (get i s) as [ti|] eqn:E; [|discriminate]. intros Hc.
  pose proof (measure_upd_task i (fun t => set_stat Done (set_code None t)) s ti E) as H.
  rewrite (weight_some _ _ Hc) in H. rewrite (weight_none (set_stat Done (set_code None ti))) in H by reflexivity.
  unfold finish. rewrite E.
  set (s1 := upd_task i _ s) in *.
  assert (W : forall j, measure (fst (wake ins now j s1)) + 1 <= measure s)
    by (intros j; pose proof (wake_measure ins now j s1); lia).
  destruct (jh ti) as [| |j]; cbn [fst]; try lia.
  destruct (get j s) as [tj|]; cbn [fst]; try lia.
  destruct (stat tj) as [| | |i'|]; cbn [fst]; try lia.
  destruct (Nat.eqb i' i); cbn [fst]; [apply W|lia].
Qed.

Lemma shrink_measure i s o r : code_of i s = Some (o :: r) ->
  measure (upd_task i (set_code (Some r)) s) + opw o = measure s.
Proof.
  unfold code_of. destruct (get i s) as [ti|] eqn:E; [|discriminate]. intros Hc.
  pose proof (measure_upd_task i (set_code (Some r)) s ti E) as H.
  rewrite (weight_some _ _ Hc) in H. rewrite (weight_some (set_code (Some r) ti) r) in H by reflexivity.
  cbn [cw fold_right] in H. fold (cw r) in H. lia.
Qed.

Lemma opw_ge o : 2 <= opw o.
Proof. destruct o; cbn; lia. Qed.

Lemma step_op_measure m ins now i o r used out s :
  code_of i s = Some (o :: r) ->
  match step_op m ins now i o r used out s with
  | Cont s1 _ _ => measure s1 < measure s
  | Halt s1 _ => measure s1 <= measure s
  end.
Proof.
  intros Hc. pose proof (shrink_measure i s o r Hc) as Hsh. pose proof (opw_ge o) as Hw.
  unfold step_op. destruct o as [| |t|t| |].
  - rewrite measure_add_trace. lia.
  - destruct (get i s) as [ti|]; [|lia].
    destruct (exhausted m used); [lia|].
    destruct (0 <? inbox ti)%N.
    + rewrite measure_add_trace, measure_upd_keep by reflexivity. lia.
    + rewrite measure_upd_keep by reflexivity. lia.
  - rewrite let_pair, measure_add_trace. pose proof (send_measure ins now t (upd_task i (set_code (Some r)) s)). lia.
  - destruct (get t s) as [tq|]; [|rewrite measure_add_trace; lia].
    destruct (match jh tq with JNone => false | JTable => true | JHeld j => Nat.eqb j i end);
      [|rewrite measure_add_trace; lia].
    destruct (exhausted m used); [rewrite measure_upd_keep by reflexivity; lia|].
    destruct (stat tq); try (rewrite !measure_upd_keep by reflexivity; lia).
    rewrite measure_add_trace, measure_upd_keep by reflexivity. lia.
  - assert (H : measure (upd_task i (set_code (Some (Log :: r))) s) + 2 = measure s).
    { unfold code_of in Hc. destruct (get i s) as [ti|] eqn:E; [|discriminate].
      pose proof (measure_upd_task i (set_code (Some (Log :: r))) s ti E) as H.
      rewrite (weight_some _ _ Hc) in H. rewrite (weight_some (set_code (Some (Log :: r)) ti) (Log :: r)) in H by reflexivity.
      cbn [cw fold_right opw] in H. fold (cw r) in H. lia. }
    destruct m.
    + lia.
    + rewrite let_pair. pose proof (enqueue_measure ins now i (upd_task i (set_code (Some (Log :: r))) s)). lia.
  - rewrite let_pair. pose proof (finish_measure ins now i (add_trace (ROp i now) s) (End :: r) Hc) as H.
    rewrite measure_add_trace in H. lia.
Qed.

Lemma interp_measure f m ins now i : forall used out s,
  measure (fst (interp f m ins now i used out s)) <= measure s.
Proof.
  induction f as [|f IH]; intros used out s; cbn [interp]; [cbn; lia|].
  destruct (code_of i s) as [[|o r]|] eqn:Hc; [| |cbn; lia].
  - rewrite let_pair. pose proof (finish_measure ins now i s [] Hc). cbn [fst]. lia.
  - pose proof (step_op_measure m ins now i o r used out s Hc) as H.
    destruct (step_op m ins now i o r used out s) as [s1 u1 o1|s1 p]; cbn [fst]; [|lia].
    specialize (IH u1 o1 s1). lia.
Qed.

Lemma poll_task_measure m ins now i s : measure (fst (poll_task m ins now i s)) <= measure s.
Proof. unfold poll_task. etransitivity; [apply interp_measure|]. rewrite measure_add_trace. lia. Qed.

Definition dr_st (x : st * list pinfo * list nat) : st := fst (fst x).
Definition dr_ps (x : st * list pinfo * list nat) : list pinfo := snd (fst x).
Definition dr_dl (x : st * list pinfo * list nat) : list nat := snd x.

(* one more poll of fuel, with the results of the poll and of the rest of the drain as projections *)
Lemma drain_S m loc n now s : drain m loc (S n) now s =
  match pop loc s with
  | None => (s, [], [])
  | Some (i, s1) => let r := poll_task m loc now i s1 in let d := drain m loc n now (fst r) in
                    (dr_st d, snd r :: dr_ps d, if p_dfr (snd r) then dr_dl d ++ [i] else dr_dl d)
  end.
Proof. cbn [drain]. destruct (pop loc s) as [[i s1]|]; [rewrite !let_pair|]; reflexivity. Qed.

Lemma drain_inv (P : st -> Prop) m loc now :
  (forall s i s1, pop loc s = Some (i, s1) -> P s -> P (fst (poll_task m loc now i s1))) ->
  forall n s, P s -> P (dr_st (drain m loc n now s)).
Proof.
  intros Hs. induction n as [|n IH]; intros s H; [exact H|rewrite drain_S].
  destruct (pop loc s) as [[i s1]|] eqn:Ep; [|exact H]. apply IH, (Hs s i s1 Ep H).
Qed.

Lemma drain_measure m loc now : forall n s,
  measure (dr_st (drain m loc n now s)) + length (dr_ps (drain m loc n now s)) <= measure s.
Proof.
  induction n as [|n IH]; intros s; [cbn; lia|rewrite drain_S].
  destruct (pop loc s) as [[i s1]|] eqn:Ep; [|cbn; lia].
  pose proof (measure_pop _ _ _ _ Ep) as Hp. pose proof (poll_task_measure m loc now i s1) as Hq.
  specialize (IH (fst (poll_task m loc now i s1))). cbn zeta. unfold dr_st, dr_ps in *; cbn [fst snd length] in *. lia.
Qed.

Lemma drain_polls_pos m loc now n s : 0 < n -> 0 < qlen loc s -> 0 < length (dr_ps (drain m loc n now s)).
Proof.
  intros Hn Hq. destruct n as [|n]; [lia|]. rewrite drain_S.
  destruct (pop loc s) as [[i s1]|] eqn:Ep; [unfold dr_ps; cbn [fst snd length]; lia|]. apply pop_none in Ep. lia.
Qed.

(* fuel [measure s] empties the drained queue(s), in either mode *)
Lemma drain_sufficient m loc now : forall n s, measure s <= n -> qlen loc (dr_st (drain m loc n now s)) = 0.
Proof.
  induction n as [|n IH]; intros s Hn; [|rewrite drain_S].
  - unfold dr_st; cbn [drain fst]. pose proof (measure_queue loc s) as H. lia.
  - destruct (pop loc s) as [[i s1]|] eqn:Ep; [|apply pop_none; assumption].
    pose proof (measure_pop _ _ _ _ Ep) as Hp. pose proof (poll_task_measure m loc now i s1) as Hq.
    apply IH. lia.
Qed.

Lemma drain_empty m loc n now s : qlen loc s = 0 -> drain m loc n now s = (s, [], []).
Proof. intros H. destruct n; cbn [drain]; [reflexivity|]. apply pop_none in H. rewrite H. reflexivity. Qed.

Definition ir_st (x : st * list pinfo * list pinfo) : st := fst (fst x).

Lemma ideal_round_spec now s :
  ideal_round now s =
  let d1 := drain None true (measure s) now s in
  let d2 := drain None false (measure (dr_st d1)) now (dr_st d1) in
  (dr_st d2, dr_ps d1, dr_ps d2).
Proof.
  unfold ideal_round. cbn zeta. destruct (drain None true (measure s) now s) as [[s1 p2] d2].
  unfold dr_st, dr_ps; cbn [fst snd].
  destruct (drain None false (measure s1) now s1) as [[s2 p3] d3]. reflexivity.
Qed.

Lemma ideal_round_measure now s : measure (ir_st (ideal_round now s)) <= measure s.
Proof.
  rewrite ideal_round_spec. cbn zeta. unfold ir_st; cbn [fst].
  pose proof (drain_measure None true now (measure s) s).
  pose proof (drain_measure None false now (measure (dr_st (drain None true (measure s) now s))) (dr_st (drain None true (measure s) now s))).
  lia.
Qed.

Lemma quiescent_iff s : quiescent s = true <-> qlen true s = 0 /\ qlen false s = 0.
Proof.
  unfold quiescent, qlen. destruct (lq s), (cq s), (inj s); cbn [length]; split; intros H; try discriminate; auto;
    destruct H; lia.
Qed.

Lemma quiescent_nil s : quiescent s = true <-> lq s = [] /\ cq s = [] /\ inj s = [].
Proof.
  unfold quiescent. destruct (lq s), (cq s), (inj s); split; intros H; try discriminate; auto;
    destruct H as [H1 [H2 H3]]; discriminate.
Qed.

(* a round that starts with something runnable polls at least once *)
Lemma ideal_round_progress now s : quiescent s = false -> measure (ir_st (ideal_round now s)) < measure s.
Proof.
  intros Hq. rewrite ideal_round_spec. cbn zeta. unfold ir_st; cbn [fst].
  set (d1 := drain None true (measure s) now s).
  pose proof (drain_measure None true now (measure s) s) as H1. fold d1 in H1.
  pose proof (drain_measure None false now (measure (dr_st d1)) (dr_st d1)) as H2.
  destruct (qlen true s) as [|k] eqn:El.
  - (* nothing local: the first drain does nothing, the second must poll *)
    assert (Ed : d1 = (s, [], [])) by (apply drain_empty; exact El).
    rewrite Ed in *. unfold dr_st in *; cbn [fst] in *.
    assert (Hc : 0 < qlen false s).
    { destruct (qlen false s) eqn:Ec; [|lia]. exfalso.
      assert (quiescent s = true) by (apply quiescent_iff; auto). congruence. }
    assert (0 < measure s) by (pose proof (measure_queue false s); lia).
    pose proof (drain_polls_pos None false now (measure s) s H Hc). lia.
  - assert (Hc : 0 < qlen true s) by lia.
    assert (0 < measure s) by (pose proof (measure_queue true s); lia).
    pose proof (drain_polls_pos None true now (measure s) s H Hc) as H3. fold d1 in H3. lia.
Qed.

(* the ideal executor never runs out of fuel and ends with nothing runnable *)
Lemma ideal_rounds_quiescent now : forall f s, measure s < f ->
  exists s', ideal_rounds f now s = Some s' /\ quiescent s' = true.
Proof.
  induction f as [|f IH]; intros s Hf; [lia|]. cbn [ideal_rounds].
  destruct (ideal_round now s) as [[s2 p2] p3] eqn:Er.
  destruct (quiescent s2) eqn:Eq; [exists s2; auto|].
  apply IH.
  destruct (quiescent s) eqn:Eqs.
  - (* nothing was runnable: the round changed nothing *)
    exfalso. apply quiescent_iff in Eqs. destruct Eqs as [El Ec].
    rewrite ideal_round_spec in Er. cbn zeta in Er.
    rewrite (drain_empty None true (measure s) now s El) in Er. unfold dr_st, dr_ps in Er; cbn [fst snd] in Er.
    rewrite (drain_empty None false (measure s) now s Ec) in Er. cbn [fst snd] in Er.
    inversion Er; subst s2.
    assert (quiescent s = true) by (apply quiescent_iff; auto). congruence.
  - pose proof (ideal_round_progress now s Eqs) as H. rewrite Er in H. unfold ir_st in H; cbn [fst] in H. lia.
Qed.

Theorem ideal_event_quiescent now acts s :
  exists s', ideal_event now acts s = Some s' /\ quiescent s' = true.
Proof. unfold ideal_event. apply ideal_rounds_quiescent. lia. Qed.
