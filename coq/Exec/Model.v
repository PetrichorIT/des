(* Executable model of how des runs a module's async work (C06).

   Every module callback is  Harness::exec (des/src/net/runtime/unwind.rs):
       task_set.block_on(&rt, async { f(); tokio::task::yield_now().await })
   on the module's own current-thread runtime + LocalSet (des/src/net/module/ctx/rt.rs).
   With tokio 1.45.1 (task/local.rs, runtime/scheduler/current_thread/mod.rs,
   task/coop/mod.rs, runtime/scheduler/defer.rs) one such call is:

     phase 1  the root future is polled: f() runs (spawns, channel sends); yield_now
              defers its wake and returns Pending;
     phase 2  still inside that poll, RunUntil::poll calls LocalSet::tick once: at most
              MAX_TASKS_PER_TICK polls of tasks from the LocalSet's local queue;
     phase 3  the scheduler loop of CoreGuard::block_on: at most event_interval polls of
              tasks from the core queue (tokio::spawn);
     park     Defer::wake fires the deferred wakers, LAST deferred FIRST (Vec::pop); the
              root future is polled again, yield_now is Ready, block_on returns.

   Every poll runs under the cooperative budget Budget::initial(): each successful mpsc
   recv / JoinHandle poll consumes one unit; an operation attempted with none left
   returns Pending and defers the task's wake to the park.  yield_now inside a task
   defers in the same way.  Whatever is queued when block_on returns waits for the
   module's next callback.

   All wakes happen on the simulation thread, so LocalSet tasks always go to the
   LocalSet's LOCAL queue (Shared::schedule: first branch inside RunUntil::poll, second
   branch -- same thread -- otherwise); its remote queue stays empty and
   REMOTE_FIRST_INTERVAL has no effect.  A tokio::spawn task woken inside block_on goes
   to the scheduler's core queue (Handle::schedule with the core present); woken OUTSIDE
   block_on -- by a processing element's hook, which des runs before the exec
   (ModuleRef::handle_message: incoming_upstream; exec; incoming_downstream) -- it goes
   to the scheduler's INJECT queue.  Core::next_task takes from the inject queue first
   when the scheduler's tick counter (u32, incremented before every lookup, also the
   failing one that ends the turn) is a multiple of global_queue_interval, else from the
   core queue first.

   Entry points of des/src/net/runtime/events.rs, all of which run Harness::exec:
   at_sim_start(stage) = exec(handler.at_sim_start); handle_message = element hooks
   outside, then exec(handle_message) or, when an element consumed the message,
   exec(|| {}); async_wakeup = timer wakes outside, then exec(|| {}) (same shape as a
   consumed message; timers are C05's); at_sim_end = exec(at_sim_end) + block_on(yield_now);
   restart = the at_sim_start stages on the runtime created at shutdown.
   Shutdown: a callback that calls shutdown() / shutdow_and_restart_in(d) only sets a
   request; its exec drives the runtime as usual (tasks it woke ARE polled); buf_process
   consumes the request after the event: the runtime is dropped (all tasks cancelled), a
   fresh one is created, exec(Module::reset) runs on it, the module is inactive (messages
   are ignored, no hooks, no exec) until the restart event, if any.

   The argument [m : option N] of [step_op] .. [drain]: [Some c] is tokio with cooperative
   budget c; [None] is the executor without cooperative budget in which a yield re-queues at
   once -- used, with unbounded poll fuel, as the ideal executor the property is stated
   against.  (The type [mode] below is something else: module up / shut down.)
   No proofs in this file. *)
From Coq Require Import List NArith Bool Arith.
From DesVerif Require Import Common.Codec.
Import ListNotations.
Open Scope N_scope.

(* ---- task systems ---- *)
Inductive op := Log | Recv | Send (t : nat) | Join (t : nat) | Yield | End.
(* AShutdown None = current().shutdown(); AShutdown (Some d) = current().shutdow_and_restart_in(d) *)
Inductive act := Spawn (t : nat) | ASend (t : nat) | AShutdown (r : option N).
Inductive status := NotSpawned | Queued | BlockedRecv | BlockedJoin (t : nat) | Done.
(* where the JoinHandle of a task is: nowhere (not spawned / consumed), in the module's
   table, or taken by task i (which is awaiting it or about to) *)
Inductive jstate := JNone | JTable | JHeld (i : nat).

Record task := {
  local : bool;               (* spawn_local (LocalSet) or tokio::spawn (scheduler) *)
  code : option (list op);    (* what is left to run; None = finished *)
  stat : status;
  inbox : N;                  (* messages in the task's own unbounded channel *)
  jh : jstate;
  wk : N }.                   (* simulated time at which it was last made runnable *)

(* the records the instrumented runner (harness/src/bin/exec.rs) writes, with its codes:
   6 at_sim_start begins; 7 Module::reset begins; 3 message event e begins; 2 task i, woken at
   [woken], is polled; 1 task i completes an operation; RClose = an exec returned: tag 4 for a
   callback's exec, 5 for the tear-down, polls counted in the LocalSet tick / in the scheduler
   turn since the last close, and whether a woken task is still unpolled *)
Inductive trec :=
| RStart (now : N)
| RReset (now : N)
| REvent (e : nat) (now : N)
| RPoll (i : nat) (woken now : N)
| ROp (i : nat) (now : N)
| RClose (tag pl pr : N) (lf : bool).

Record st := {
  tasks : list task;
  lq : list nat;       (* LocalSet local queue *)
  cq : list nat;       (* scheduler core queue *)
  inj : list nat;      (* scheduler inject queue *)
  stick : N;           (* scheduler tick counter *)
  gqi : N;             (* global_queue_interval (constant) *)
  trace : list trec }.

(* what one poll did *)
Record pinfo := {
  p_ops : N;      (* resource operations attempted (successful ones + a final blocking one) *)
  p_dfr : bool;   (* wake deferred to the park (tokio mode only) *)
  p_yld : bool;   (* stopped at a yield_now *)
  p_out : bool }. (* woke a LocalSet task from outside the LocalSet's poll *)

(* ---- state primitives ---- *)
Fixpoint upd {A} (i : nat) (f : A -> A) (l : list A) : list A :=
  match l, i with
  | [], _ => []
  | x :: r, O => f x :: r
  | x :: r, S i' => x :: upd i' f r
  end.

Definition upd_task (i : nat) (f : task -> task) (s : st) : st :=
  {| tasks := upd i f (tasks s); lq := lq s; cq := cq s; inj := inj s; stick := stick s; gqi := gqi s; trace := trace s |}.
Definition add_trace (r : trec) (s : st) : st :=
  {| tasks := tasks s; lq := lq s; cq := cq s; inj := inj s; stick := stick s; gqi := gqi s; trace := r :: trace s |}.
Definition set_lq (q : list nat) (s : st) : st :=
  {| tasks := tasks s; lq := q; cq := cq s; inj := inj s; stick := stick s; gqi := gqi s; trace := trace s |}.
Definition set_cq (q : list nat) (s : st) : st :=
  {| tasks := tasks s; lq := lq s; cq := q; inj := inj s; stick := stick s; gqi := gqi s; trace := trace s |}.
Definition set_inj (q : list nat) (s : st) : st :=
  {| tasks := tasks s; lq := lq s; cq := cq s; inj := q; stick := stick s; gqi := gqi s; trace := trace s |}.
Definition set_stick (t : N) (s : st) : st :=
  {| tasks := tasks s; lq := lq s; cq := cq s; inj := inj s; stick := t; gqi := gqi s; trace := trace s |}.
Definition push (loc : bool) (i : nat) (s : st) : st :=
  if loc then set_lq (lq s ++ [i]) s else set_cq (cq s ++ [i]) s.
Definition next_tick (s : st) : N := (stick s + 1) mod 4294967296.
(* the lookup that finds nothing still advances the tick *)
Definition bump (s : st) : st := set_stick (next_tick s) s.
(* LocalSet::next_task (remote queue always empty) / Core::next_task *)
Definition pop (loc : bool) (s : st) : option (nat * st) :=
  if loc then match lq s with
              | [] => None
              | i :: r => Some (i, set_lq r s)
              end
  else
    let s' := bump s in
    if next_tick s mod gqi s =? 0 then
      match inj s, cq s with
      | i :: r, _ => Some (i, set_inj r s')
      | [], i :: r => Some (i, set_cq r s')
      | [], [] => None
      end
    else
      match cq s, inj s with
      | i :: r, _ => Some (i, set_cq r s')
      | [], i :: r => Some (i, set_inj r s')
      | [], [] => None
      end.

Definition set_code c (t : task) := {| local := local t; code := c; stat := stat t; inbox := inbox t; jh := jh t; wk := wk t |}.
Definition set_stat x (t : task) := {| local := local t; code := code t; stat := x; inbox := inbox t; jh := jh t; wk := wk t |}.
Definition set_inbox n (t : task) := {| local := local t; code := code t; stat := stat t; inbox := n; jh := jh t; wk := wk t |}.
Definition set_jh j (t : task) := {| local := local t; code := code t; stat := stat t; inbox := inbox t; jh := j; wk := wk t |}.
Definition set_wk w (t : task) := {| local := local t; code := code t; stat := stat t; inbox := inbox t; jh := jh t; wk := w |}.

Definition get (i : nat) (s : st) : option task := nth_error (tasks s) i.

(* make task t runnable now: onto the queue of its kind.  [inside] = the waker runs
   inside the LocalSet's poll (phases 1 and 2).  Result flag: a LocalSet task was woken
   from outside. *)
Definition enqueue (inside : bool) (now : N) (t : nat) (s : st) : st * bool :=
  match get t s with
  | None => (s, false)
  | Some tk => (push (local tk) t (upd_task t (set_wk now) s), local tk && negb inside)
  end.

Definition wake (inside : bool) (now : N) (t : nat) (s : st) : st * bool :=
  enqueue inside now t (upd_task t (set_stat Queued) s).

(* UnboundedSender::send: push + rx_waker.wake() *)
Definition send (inside : bool) (now : N) (t : nat) (s : st) : st * bool :=
  match get t s with
  | None => (s, false)
  | Some tk =>
      let s1 := upd_task t (set_inbox (inbox tk + 1)) s in
      match stat tk with
      | BlockedRecv => wake inside now t s1
      | _ => (s1, false)
      end
  end.

(* the task's future returned Ready: the JoinHandle's waker is woken *)
Definition finish (inside : bool) (now : N) (i : nat) (s : st) : st * bool :=
  let s1 := upd_task i (fun t => set_stat Done (set_code None t)) s in
  match get i s with
  | Some ti =>
      match jh ti with
      | JHeld j => match get j s with
                   | Some tj => match stat tj with
                                | BlockedJoin i' => if Nat.eqb i' i then wake inside now j s1 else (s1, false)
                                | _ => (s1, false)
                                end
                   | None => (s1, false)
                   end
      | _ => (s1, false)
      end
  | None => (s1, false)
  end.

Definition exhausted (m : option N) (used : N) : bool :=
  match m with Some c => c <=? used | None => false end.

Inductive sres :=
| Cont (s : st) (used : N) (out : bool)
| Halt (s : st) (p : pinfo).

Definition mkp ops d y o := {| p_ops := ops; p_dfr := d; p_yld := y; p_out := o |}.

(* one operation of task i, whose code in [s] is [o :: r] *)
Definition step_op (m : option N) (inside : bool) (now : N) (i : nat) (o : op) (r : list op)
                   (used : N) (out : bool) (s : st) : sres :=
  (* the operation completes: the code shrinks first, then its effect, then the record *)
  let sh := upd_task i (set_code (Some r)) s in
  let tr := add_trace (ROp i now) in
  match o with
  | Log => Cont (tr sh) used out
  | Recv =>
      match get i s with
      | Some ti => if exhausted m used then Halt s (mkp used true false out)
                   else if 0 <? inbox ti
                        then Cont (tr (upd_task i (set_inbox (inbox ti - 1)) sh)) (used + 1) out
                        else Halt (upd_task i (set_stat BlockedRecv) s) (mkp (used + 1) false false out)
      | None => Halt s (mkp used false false out)
      end
  | Send t => let '(s1, o1) := send inside now t sh in Cont (tr s1) used (out || o1)
  | Join t =>
      match get t s with
      | Some tq =>
          let mine := match jh tq with JTable => true | JHeld j => Nat.eqb j i | JNone => false end in
          if mine then
            if exhausted m used then Halt (upd_task t (set_jh (JHeld i)) s) (mkp used true false out)
            else match stat tq with
                 | Done => Cont (tr (upd_task t (set_jh JNone) sh)) (used + 1) out
                 | _ => Halt (upd_task i (set_stat (BlockedJoin t)) (upd_task t (set_jh (JHeld i)) s))
                             (mkp (used + 1) false false out)
                 end
          else Cont (tr sh) used out
      | None => Cont (tr sh) used out
      end
  | Yield =>
      (* the resumption completes the yield: it leaves one record, like Log *)
      let s1 := upd_task i (set_code (Some (Log :: r))) s in
      match m with
      | Some _ => Halt s1 (mkp used true true out)
      | None => let '(s2, o2) := enqueue inside now i s1 in Halt s2 (mkp used false true (out || o2))
      end
  | End => let '(s1, o1) := finish inside now i (tr s) in
           Halt s1 (mkp used false false (out || o1))
  end.

Definition code_of (i : nat) (s : st) : option (list op) :=
  match get i s with Some t => code t | None => None end.

(* run task i until it blocks, yields, exhausts the budget or finishes *)
Fixpoint interp (fuel : nat) (m : option N) (inside : bool) (now : N) (i : nat)
                (used : N) (out : bool) (s : st) : st * pinfo :=
  match fuel with
  | O => (s, mkp used false false out)
  | S f =>
      match code_of i s with
      | None => (s, mkp used false false out)
      | Some [] => let '(s1, o1) := finish inside now i s in (s1, mkp used false false (out || o1))
      | Some (o :: r) =>
          match step_op m inside now i o r used out s with
          | Cont s' used' out' => interp f m inside now i used' out' s'
          | Halt s' p => (s', p)
          end
      end
  end.

Definition code_len (i : nat) (s : st) : nat :=
  match code_of i s with Some c => length c | None => O end.
Definition wk_of (i : nat) (s : st) : N :=
  match get i s with Some t => wk t | None => 0 end.

Definition poll_task (m : option N) (inside : bool) (now : N) (i : nat) (s : st) : st * pinfo :=
  interp (S (code_len i s)) m inside now i 0 false (add_trace (RPoll i (wk_of i s) now) s).

(* at most n polls from the local queue (LocalSet::tick, [loc = true], polled inside the
   LocalSet's context) or from the core queue ([loc = false]).  Result: state, what each
   poll did, deferred tasks in the order Defer::wake will wake them (last deferred first). *)
Fixpoint drain (m : option N) (loc : bool) (n : nat) (now : N) (s : st) : st * list pinfo * list nat :=
  match n with
  | O => (s, [], [])
  | S n' =>
      match pop loc s with
      | None => (s, [], [])
      | Some (i, s1) =>
          let '(s2, p) := poll_task m loc now i s1 in
          let '(s3, ps, dl) := drain m loc n' now s2 in
          (s3, p :: ps, if p_dfr p then dl ++ [i] else dl)
      end
  end.

(* phase 1: the callback *)
Definition do_act (now : N) (s : st) (a : act) : st :=
  match a with
  | Spawn t => match get t s with
               | Some tq => match stat tq with
                            | NotSpawned => fst (wake true now t (upd_task t (set_jh JTable) s))
                            | _ => s
                            end
               | None => s
               end
  | ASend t => fst (send true now t s)
  | AShutdown _ => s      (* only sets ModuleContext::shutdown_task; see [shutdown_req] *)
  end.
Definition handler (now : N) (acts : list act) (s : st) : st := fold_left (do_act now) acts s.

Fixpoint wake_deferred (now : N) (dl : list nat) (s : st) : st :=
  match dl with
  | [] => s
  | i :: r => wake_deferred now r (fst (enqueue false now i s))
  end.

Definition quiescent (s : st) : bool :=
  match lq s, cq s, inj s with [], [], [] => true | _, _, _ => false end.

(* a processing element's hook (event_start / incoming), run by des BEFORE the exec, outside
   the runtime: a send wakes a LocalSet task onto the local queue (Shared::schedule, same
   thread) and a tokio::spawn task onto the inject queue (Handle::schedule without core).
   Spawning is impossible there (no runtime context). *)
Definition send_outside (now : N) (t : nat) (s : st) : st :=
  match get t s with
  | None => s
  | Some tk =>
      let s1 := upd_task t (set_inbox (inbox tk + 1)) s in
      match stat tk with
      | BlockedRecv =>
          let s2 := upd_task t (set_wk now) (upd_task t (set_stat Queued) s1) in
          if local tk then push true t s2 else set_inj (inj s2 ++ [t]) s2
      | _ => s1
      end
  end.
Definition do_pre (now : N) (s : st) (a : act) : st :=
  match a with ASend t => send_outside now t s | Spawn _ => s | AShutdown _ => s end.
Definition pre_hooks (now : N) (pre : list act) (s : st) : st := fold_left (do_pre now) pre s.

(* one Harness::exec under tokio's budgets *)
Definition exec_event (bl br : nat) (c : N) (now : N) (acts : list act) (s : st)
  : st * list pinfo * list pinfo :=
  let s0 := handler now acts s in
  let '(s1, p2, d2) := drain (Some c) true bl now s0 in
  let '(s2, p3, d3) := drain (Some c) false br now s1 in
  (wake_deferred now (d3 ++ d2) s2, p2, p3).

(* ---- the executor without budgets ---- *)
Definition opw (o : op) : nat := match o with Yield => 4 | _ => 2 end.
Definition weight (t : task) : nat :=
  match code t with Some c => 2 + fold_right (fun o a => opw o + a) 0 c | None => 0 end%nat.
(* upper bound on the number of polls still possible; used as fuel *)
Definition measure (s : st) : nat :=
  (fold_right (fun t a => weight t + a) 0 (tasks s) + length (lq s) + length (cq s) + length (inj s))%nat.

(* one unbounded LocalSet tick followed by one unbounded scheduler turn *)
Definition ideal_round (now : N) (s : st) : st * list pinfo * list pinfo :=
  let '(s1, p2, _) := drain None true (measure s) now s in
  let '(s2, p3, _) := drain None false (measure s1) now s1 in
  (s2, p2, p3).

(* ... repeated until nothing is runnable; only the final state is returned (what the polls of
   the first round did is Budget.ideal_first) *)
Fixpoint ideal_rounds (f : nat) (now : N) (s : st) : option st :=
  match f with
  | O => None
  | S f' => let '(s2, _, _) := ideal_round now s in
            if quiescent s2 then Some s2 else ideal_rounds f' now s2
  end.

Definition ideal_event (now : N) (acts : list act) (s : st) : option st :=
  let s0 := handler now acts s in ideal_rounds (S (measure s0)) now s0.

(* ---- a module run ---- *)
Definition close (tag : N) (pl pr : nat) (s : st) : st :=
  add_trace (RClose tag (N.of_nat pl) (N.of_nat pr) (negb (quiescent s))) s.

Record budgets := { b_local : nat; b_rt : nat; b_coop : N }.

(* the scheduler turn ends with a lookup that finds nothing (and advances the tick) unless
   all event_interval iterations polled a task *)
Definition end_turn (br : nat) (p3 : list pinfo) (s : st) : st :=
  if (length p3 <? br)%nat then bump s else s.

(* one Harness::exec, with the bookkeeping of the trace and of the tick *)
Definition run_exec (b : budgets) (tag : N) (now : N) (acts : list act) (s : st) : st :=
  let '(s1, p2, p3) := exec_event (b_local b) (b_rt b) (b_coop b) now acts s in
  close tag (length p2) (length p3) (end_turn (b_rt b) p3 s1).

(* a message event: (delay since the previous one, consumed by the element?, actions of the
   element's incoming hook, actions of handle_message).  A consumed message still runs
   exec(|| {}) -- ModuleRef::handle_message, the `else` branch. *)
Definition mevent : Type := N * bool * list act * list act.

Definition ev_acts (consumed : bool) (acts : list act) : list act := if consumed then [] else acts.

Definition run_event (b : budgets) (s : st) (e : nat) (now : N) (consumed : bool) (pre acts : list act) : st :=
  run_exec b 4 now (ev_acts consumed acts) (pre_hooks now pre (add_trace (REvent e now) s)).

(* at_sim_start (one stage) *)
Definition run_start (b : budgets) (s : st) (now : N) (acts : list act) : st :=
  run_exec b 4 now acts (add_trace (RStart now) s).

Definition mk_task (loc : bool) (c : list op) : task :=
  {| local := loc; code := Some c; stat := NotSpawned; inbox := 0; jh := JNone; wk := 0 |}.
Definition init (g : N) (ts : list (bool * list op)) : st :=
  {| tasks := map (fun x => mk_task (fst x) (snd x)) ts; lq := []; cq := []; inj := []; stick := 0; gqi := g; trace := [] |}.

(* ---- shutdown / restart ---- *)
(* the request left in ModuleContext::shutdown_task by a callback: the last call wins;
   Some None = shut down for good, Some (Some r) = restart at r *)
Definition shutdown_req (now : N) (acts : list act) : option (option N) :=
  fold_left (fun q a => match a with
                        | AShutdown None => Some None
                        | AShutdown (Some d) => Some (Some (now + d))
                        | _ => q
                        end) acts None.

(* buf_process consuming the request: runtime dropped, fresh runtime, exec(Module::reset) *)
Definition do_shutdown (b : budgets) (g : N) (ts : list (bool * list op)) (now : N) (s : st) : st :=
  let s0 := {| tasks := tasks (init g ts); lq := []; cq := []; inj := []; stick := 0; gqi := g;
               trace := RReset now :: trace s |} in
  let '(s1, _, p3) := exec_event (b_local b) (b_rt b) (b_coop b) now [] s0 in
  end_turn (b_rt b) p3 s1.

Inductive mode := Up | Down (restart : option N).

Definition after_exec (b : budgets) (g : N) (ts : list (bool * list op)) (now : N) (acts : list act) (s : st) : st * mode :=
  match shutdown_req now acts with
  | Some r => (do_shutdown b g ts now s, Down r)
  | None => (s, Up)
  end.

(* the restart replays at_sim_start; the harness' module requests no shutdown there *)
Definition no_shutdown (acts : list act) : list act :=
  filter (fun a => match a with AShutdown _ => false | _ => true end) acts.

(* the restart event is queued behind the messages already scheduled for its instant *)
Definition restart_due (m : mode) (t : N) : option N :=
  match m with Down (Some r) => if r <? t then Some r else None | _ => None end.

Definition catch_up (b : budgets) (start : list act) (sm : st * mode) (t : N) : st * mode :=
  match restart_due (snd sm) t with
  | Some r => (run_start b (fst sm) r (no_shutdown start), Up)
  | None => sm
  end.

Definition step_event (b : budgets) (g : N) (ts : list (bool * list op)) (start : list act)
                      (sm : st * mode) (e : nat) (t : N) (k : bool) (pre acts : list act) : st * mode :=
  let sm' := catch_up b start sm t in
  match snd sm' with
  | Up => after_exec b g ts t (ev_acts k acts) (run_event b (fst sm') e t k pre acts)
  | Down _ => sm'          (* inactive: the message is ignored *)
  end.

Fixpoint run_events (b : budgets) (g : N) (ts : list (bool * list op)) (start : list act)
                    (sm : st * mode) (e : nat) (now : N) (evs : list mevent) : st * mode * N :=
  match evs with
  | [] => (sm, now)
  | (d, k, pre, acts) :: r =>
      run_events b g ts start (step_event b g ts start sm e (now + d) k pre acts) (S e) (now + d) r
  end.

(* a restart still pending after the last message happens before the simulation ends *)
Definition last_restart (b : budgets) (start : list act) (sm : st * mode) (now : N) : st * N :=
  match snd sm with
  | Down (Some r) => (run_start b (fst sm) r (no_shutdown start), N.max now r)
  | _ => (fst sm, now)
  end.

(* the tear-down (ModuleRef::at_sim_end): exec(at_sim_end) and block_on(yield_now()),
   both at the time of the last event *)
Definition run_end (b : budgets) (s : st) (now : N) : st :=
  let '(s1, p2, p3) := exec_event (b_local b) (b_rt b) (b_coop b) now [] s in
  let s1' := end_turn (b_rt b) p3 s1 in
  let '(s2, q2, q3) := exec_event (b_local b) (b_rt b) (b_coop b) now [] s1' in
  close 5 (length p2 + length q2) (length p3 + length q3) (end_turn (b_rt b) q3 s2).

Definition boot (b : budgets) (g : N) (ts : list (bool * list op)) (start : list act) : st * mode :=
  after_exec b g ts 0 start (run_start b (init g ts) 0 start).

Definition run_model (b : budgets) (g : N) (ts : list (bool * list op)) (start : list act) (evs : list mevent) : list trec :=
  let '(sm, now) := run_events b g ts start (boot b g ts start) O 0 evs in
  let '(s, now') := last_restart b start sm now in
  rev (trace (run_end b s now')).

(* ---- wire format ---- *)
(* script: B_local B_rt C R G  nT (kind len op* )*  lp(start act* )  (delta kind lp(pre act* ) lp(act* ))*
   op = 0 Log | 1 Recv | 2 t Send | 3 t Join | 4 Yield | 5 End;
   act = 0 t Spawn | 1 t Send | 2 _ shutdown | 3 d shutdown and restart in d;
   kind odd = the processing element consumes the message.
   R (REMOTE_FIRST_INTERVAL) is carried for the record and has no effect (see above);
   G = global_queue_interval. *)
Definition tid (nt t : N) : nat := N.to_nat (N.min t nt).

Definition dec_op (nt : N) (l : list N) : option (op * list N) :=
  match l with
  | 0 :: r => Some (Log, r)
  | 1 :: r => Some (Recv, r)
  | 2 :: t :: r => Some (Send (tid nt t), r)
  | 3 :: t :: r => Some (Join (tid nt t), r)
  | 4 :: r => Some (Yield, r)
  | 5 :: r => Some (End, r)
  | _ => None
  end.

Definition dec_act (nt : N) (l : list N) : option (act * list N) :=
  match l with
  | 0 :: t :: r => Some (Spawn (tid nt t), r)
  | 1 :: t :: r => Some (ASend (tid nt t), r)
  | 2 :: _ :: r => Some (AShutdown None, r)
  | 3 :: d :: r => Some (AShutdown (Some (N.max d 1)), r)   (* restart delays are >= 1 ns *)
  | _ => None
  end.

Fixpoint dec_tasks (nt : N) (k : nat) (l : list N) : list (bool * list op) * list N :=
  match k, l with
  | O, _ => ([], l)
  | S _, [] => ([], [])
  | S k', kind :: r =>
      let '(blob, rest) := take_lp r in
      let '(ts, rest') := dec_tasks nt k' rest in
      ((N.odd kind, decode_all (dec_op nt) blob) :: ts, rest')
  end.

Definition dec_event (nt : N) (l : list N) : option (mevent * list N) :=
  match l with
  | [] => None
  | d :: r =>
      let k := match r with x :: _ => N.odd x | [] => false end in
      let '(pre, r2) := take_lp (tl r) in
      let '(blob, rest) := take_lp r2 in
      Some ((d, k, decode_all (dec_act nt) pre, decode_all (dec_act nt) blob), rest)
  end.

Definition enc_rec (r : trec) : list N :=
  match r with
  | RStart now => [6; 0; now]
  | RReset now => [7; 0; now]
  | REvent e now => [3; N.of_nat e; now]
  | RPoll i w now => [2; N.of_nat i; w; now]
  | ROp i now => [1; N.of_nat i; now]
  | RClose tag pl pr lf => [tag; pl; pr; b2n lf]
  end.

Definition run (input : list N) : list N :=
  match input with
  | bl :: br :: c :: _ :: g :: nt :: rest =>
      let k := N.to_nat (N.min nt (N.of_nat (length rest))) in
      (* ids are clamped to k: anything >= the table length is out of range *)
      let n := N.of_nat k in
      let '(ts, rest') := dec_tasks n k rest in
      let '(start, rest'') := take_lp rest' in
      let evs := decode_all (dec_event n) rest'' in
      flat_map enc_rec (run_model {| b_local := N.to_nat bl; b_rt := N.to_nat br; b_coop := c |} g ts
                                  (decode_all (dec_act n) start) evs)
  | _ => [7]
  end.
