(* C06: an event whose work fits tokio's budgets is executed by the bounded executor
   exactly as by the executor without budgets, and ends quiescent; one that does not fit
   leaves work behind. *)
From Coq Require Import List NArith Bool Arith Lia.
From DesVerif Require Import Common.Lists Exec.Model Exec.Basics Exec.Measure Exec.Mode.
Import ListNotations.
Local Open Scope N_scope.

Lemma poll_task_lq m now i s : exists l,
  lq (fst (poll_task m false now i s)) = lq s ++ l /\ p_out (snd (poll_task m false now i s)) = woke l.
Proof. unfold poll_task. exact (Eff_lq _ _ _ _ _ _ (interp_eff false now i _ m 0 false _)). Qed.

Lemma drain_lq m now : forall n s, exists l,
  lq (dr_st (drain m false n now s)) = lq s ++ l /\
  forallb (fun p => negb (p_out p)) (dr_ps (drain m false n now s)) = negb (woke l).
Proof.
  induction n as [|n IH]; intros s; cbn [drain]; [exists []; rewrite app_nil_r; auto|].
  destruct (pop false s) as [[i s1]|] eqn:Ep; [|exists []; rewrite app_nil_r; auto].
  apply pop_some in Ep. destruct Ep as [_ [_ [_ [_ [Hl _]]]]].
  rewrite !let_pair. unfold dr_st, dr_ps; cbn [fst snd forallb].
  destruct (poll_task_lq m now i s1) as [l1 [E1 F1]].
  destruct (IH (fst (poll_task m false now i s1))) as [l2 [E2 F2]]. unfold dr_st, dr_ps in E2, F2.
  exists (l1 ++ l2). rewrite E2, E1, F2, F1, Hl, app_assoc by reflexivity. split; [reflexivity|]. destruct l1; reflexivity.
Qed.

(* ---- the class of events that fit ---- *)
(* what the executor without budgets does in its first round -- one LocalSet tick and one
   scheduler turn, both unbounded -- must fit: *)
Definition fits (b : budgets) (p2 p3 : list pinfo) : Prop :=
  (length p2 <= b_local b)%nat /\            (* polls needed in phase 2 *)
  (length p3 <= b_rt b)%nat /\               (* polls needed in phase 3 *)
  Forall (ok (b_coop b)) (p2 ++ p3) /\       (* no poll attempts more than C resource operations; no yield *)
  Forall (fun p => p_out p = false) p3.      (* no LocalSet task is woken after the LocalSet's tick *)

Definition okb (c : N) (p : pinfo) : bool := (p_ops p <=? c) && negb (p_yld p).
Definition fitsb (b : budgets) (p2 p3 : list pinfo) : bool :=
  (length p2 <=? b_local b)%nat && (length p3 <=? b_rt b)%nat &&
  forallb (okb (b_coop b)) (p2 ++ p3) && forallb (fun p => negb (p_out p)) p3.

Lemma okb_ok c p : okb c p = true <-> ok c p.
Proof. apply ok_dec. Qed.

Lemma fitsb_spec b p2 p3 : fitsb b p2 p3 = true <-> fits b p2 p3.
Proof.
  unfold fitsb, fits. rewrite !andb_true_iff, !forallb_forall, !Forall_forall, !Nat.leb_le.
  split.
  - intros [[[H1 H2] H3] H4]. split; [exact H1|]. split; [exact H2|]. split.
    + intros p Hp. apply okb_ok. exact (H3 p Hp).
    + intros p Hp. specialize (H4 p Hp). destruct (p_out p); [discriminate|reflexivity].
  - intros [H1 [H2 [H3 H4]]]. split; [split; [split; [exact H1|exact H2]|]|].
    + intros p Hp. apply okb_ok. exact (H3 p Hp).
    + intros p Hp. rewrite (H4 p Hp). reflexivity.
Qed.

(* an event = budgets, instant, callback actions, state of the module's task system *)
Record event := { e_b : budgets; e_now : N; e_acts : list act; e_st : st }.

Definition ideal_first (x : event) : st * list pinfo * list pinfo :=
  ideal_round (e_now x) (handler (e_now x) (e_acts x) (e_st x)).
Definition polls_needed_local (x : event) : nat := length (snd (fst (ideal_first x))).
Definition polls_needed_rt (x : event) : nat := length (snd (ideal_first x)).

Definition over_budget (x : event) : bool :=
  negb (fitsb (e_b x) (snd (fst (ideal_first x))) (snd (ideal_first x))).

(* the known class (finding F4): the event's work exceeds tokio's budgets *)
Definition KnownClass (x : event) : Prop := over_budget x = true.

Lemma known_fits x : ~ KnownClass x <-> fits (e_b x) (snd (fst (ideal_first x))) (snd (ideal_first x)).
Proof.
  unfold KnownClass, over_budget. rewrite <- fitsb_spec. destruct (fitsb _ _ _); cbn [negb].
  - split; [reflexivity|discriminate].
  - split; [intros H; exfalso; apply H; reflexivity|discriminate].
Qed.

Definition exec_bounded (x : event) : st * list pinfo * list pinfo :=
  exec_event (b_local (e_b x)) (b_rt (e_b x)) (b_coop (e_b x)) (e_now x) (e_acts x) (e_st x).
Definition queues (s : st) : list nat := lq s ++ cq s ++ inj s.
Definition queue_after (x : event) : list nat := queues (fst (fst (exec_bounded x))).

Lemma queues_nil s : queues s = [] <-> quiescent s = true.
Proof.
  rewrite quiescent_nil. unfold queues. split.
  - intros H. apply app_eq_nil in H. destruct H as [H1 H2]. apply app_eq_nil in H2. tauto.
  - intros [-> [-> ->]]. reflexivity.
Qed.

Lemma wake_deferred_nil now s : wake_deferred now [] s = s.
Proof. reflexivity. Qed.

(* the bounded executor on an event that fits = the first round of the executor without
   budgets, and that round ends with nothing runnable *)
Lemma exec_fits x : ~ KnownClass x ->
  exec_bounded x = ideal_first x /\ quiescent (fst (fst (ideal_first x))) = true.
Proof.
  intros Hk. apply known_fits in Hk. revert Hk.
  unfold exec_bounded, ideal_first. destruct x as [b now acts s]; cbn [e_b e_now e_acts e_st].
  set (s0 := handler now acts s). rewrite ideal_round_spec. cbn zeta. cbn [fst snd].
  set (d1 := drain None true (measure s0) now s0).
  set (d2 := drain None false (measure (dr_st d1)) now (dr_st d1)).
  intros [H2 [H3 [Hok Hout]]].
  apply Forall_app in Hok. destruct Hok as [Hok2 Hok3].
  assert (Q1 : qlen true (dr_st d1) = 0%nat) by (apply drain_sufficient; lia).
  assert (Q2 : qlen false (dr_st d2) = 0%nat) by (apply drain_sufficient; lia).
  assert (E1 : drain (Some (b_coop b)) true (b_local b) now s0 = d1) by (apply drain_mode; assumption).
  assert (E2 : drain (Some (b_coop b)) false (b_rt b) now (dr_st d1) = d2) by (apply drain_mode; assumption).
  assert (D1 : dr_dl d1 = []) by apply drain_ideal_no_defer.
  assert (D2 : dr_dl d2 = []) by apply drain_ideal_no_defer.
  assert (L2 : qlen true (dr_st d2) = 0%nat).
  { destruct (drain_lq None now (measure (dr_st d1)) (dr_st d1)) as [l [El Ew]]. fold d2 in El, Ew.
    assert (F : forallb (fun p => negb (p_out p)) (dr_ps d2) = true)
      by (apply forallb_forall; intros p Hp; rewrite (proj1 (Forall_forall _ _) Hout p Hp); reflexivity).
    rewrite F in Ew. destruct l; [|discriminate]. unfold qlen. rewrite El, app_nil_r. exact Q1. }
  split.
  - unfold exec_event. fold s0. rewrite E1.
    destruct d1 as [[s1 p2] dl2] eqn:Ed1. unfold dr_st, dr_ps, dr_dl in *; cbn [fst snd] in *.
    rewrite E2. destruct d2 as [[s2 p3] dl3] eqn:Ed2. cbn [fst snd] in *. subst dl2 dl3. reflexivity.
  - apply quiescent_iff. split; [exact L2|exact Q2].
Qed.

Theorem quiescent_if_within_budget x : ~ KnownClass x ->
  queue_after x = [] /\
  ideal_event (e_now x) (e_acts x) (e_st x) = Some (fst (fst (exec_bounded x))) /\
  exec_bounded x = ideal_first x.
Proof.
  intros Hk. destruct (exec_fits x Hk) as [E Q].
  split; [|split; [|exact E]].
  - unfold queue_after. rewrite E. apply queues_nil. exact Q.
  - rewrite E. unfold ideal_event, ideal_first in *. cbn [ideal_rounds].
    destruct (ideal_round (e_now x) (handler (e_now x) (e_acts x) (e_st x))) as [[s2 p2] p3]. cbn [fst] in *.
    rewrite Q. reflexivity.
Qed.

(* ---- larger budgets change nothing for an event that fits ---- *)
Definition ble (b b' : budgets) : Prop :=
  (b_local b <= b_local b')%nat /\ (b_rt b <= b_rt b')%nat /\ b_coop b <= b_coop b'.

Definition with_budgets (b' : budgets) (x : event) : event :=
  {| e_b := b'; e_now := e_now x; e_acts := e_acts x; e_st := e_st x |}.

Lemma fits_mono b b' p2 p3 : ble b b' -> fits b p2 p3 -> fits b' p2 p3.
Proof.
  intros [H1 [H2 H3]] [F1 [F2 [F3 F4]]]. repeat split; try lia; try assumption.
  eapply Forall_impl; [|exact F3]. intros p [Ha Hb]. split; [lia|assumption].
Qed.

Theorem budget_monotone x b' : ~ KnownClass x -> ble (e_b x) b' ->
  ~ KnownClass (with_budgets b' x) /\ exec_bounded (with_budgets b' x) = exec_bounded x.
Proof.
  intros Hk Hle.
  assert (Hk' : ~ KnownClass (with_budgets b' x)) by (apply known_fits; exact (fits_mono _ _ _ _ Hle (proj1 (known_fits x) Hk))).
  split; [exact Hk'|].
  destruct (exec_fits x Hk) as [E _]. destruct (exec_fits _ Hk') as [E' _].
  rewrite E, E'. reflexivity.
Qed.

(* the class is tight: an event that is over budget always leaves work behind, so the bounded
   executor returns with every queue empty IF AND ONLY IF the event fits the budgets *)
Local Open Scope nat_scope.

Definition nt (s : st) : nat := length (tasks s).

(* a poll never removes a task from the table or an entry from a queue *)
Definition ext (s s' : st) : Prop := nt s' = nt s /\ qlen true s <= qlen true s' /\ qlen false s <= qlen false s'.

Lemma ext_refl s : ext s s.
Proof. unfold ext; lia. Qed.
Lemma ext_trans s1 s2 s3 : ext s1 s2 -> ext s2 s3 -> ext s1 s3.
Proof. unfold ext; lia. Qed.

Lemma ext_upd_task i f s : ext s (upd_task i f s).
Proof. unfold ext, nt, qlen, upd_task; cbn [tasks lq cq inj]. rewrite upd_length. lia. Qed.
Lemma ext_add_trace r s : ext s (add_trace r s).
Proof. unfold ext, nt, qlen; cbn. lia. Qed.
Lemma ext_push l i s : ext s (push l i s).
Proof. unfold ext, nt, qlen, push; destruct l; cbn [tasks lq cq inj set_lq set_cq]; rewrite ?app_length; cbn [length]; lia. Qed.

Lemma get_lt i s : get i s <> None <-> i < nt s.
Proof. unfold get, nt. apply nth_error_Some. Qed.

Lemma ext_enqueue ins now t s : ext s (fst (enqueue ins now t s)).
Proof.
  unfold enqueue. destruct (get t s); cbn [fst]; [|apply ext_refl].
  eapply ext_trans; [apply ext_upd_task|apply ext_push].
Qed.

Lemma enqueue_grows ins now t s : t < nt s ->
  qlen true s + qlen false s < qlen true (fst (enqueue ins now t s)) + qlen false (fst (enqueue ins now t s)).
Proof.
  intros H. apply get_lt in H. unfold enqueue. destruct (get t s) as [tk|]; [|contradiction]. cbn [fst].
  unfold qlen, push; destruct (local tk); cbn [lq cq inj set_lq set_cq upd_task]; rewrite app_length; cbn [length]; lia.
Qed.

Lemma ext_eff ins now i s o s' o' : Eff ins now i s o s' o' -> ext s s'.
Proof.
  induction 1; [apply ext_refl|eapply ext_trans; [eassumption|]..];
    [apply ext_upd_task|apply ext_add_trace|apply ext_enqueue].
Qed.

Lemma ext_poll_task m ins now i s : ext s (fst (poll_task m ins now i s)).
Proof. unfold poll_task. eapply ext_trans; [apply ext_add_trace|eapply ext_eff, interp_eff]. Qed.

Lemma ext_wake_deferred now dl : forall s, ext s (wake_deferred now dl s).
Proof.
  induction dl as [|i dl IH]; intros s; cbn [wake_deferred]; [apply ext_refl|].
  eapply ext_trans; [apply ext_enqueue|apply IH].
Qed.

Lemma wake_deferred_grows now dl s : dl <> [] -> Forall (fun i => i < nt s) dl ->
  0 < qlen true (wake_deferred now dl s) + qlen false (wake_deferred now dl s).
Proof.
  destruct dl as [|i dl]; [contradiction|]. intros _ H. cbn [wake_deferred].
  pose proof (enqueue_grows false now i s (Forall_inv H)) as Hg.
  pose proof (ext_wake_deferred now dl (fst (enqueue false now i s))) as [_ He]. lia.
Qed.

Lemma drain_ext_nt m loc now : forall n s, nt (dr_st (drain m loc n now s)) = nt s.
Proof.
  induction n as [|n IH]; intros s; [reflexivity|rewrite drain_S].
  destruct (pop loc s) as [[i s1]|] eqn:Ep; [|reflexivity].
  apply pop_some in Ep. destruct Ep as [_ [_ [_ [_ [_ [Ht _]]]]]].
  cbn zeta. unfold dr_st at 1; cbn [fst]. rewrite IH, (proj1 (ext_poll_task m loc now i s1)). unfold nt. rewrite Ht. reflexivity.
Qed.

Lemma drain_rt_local m now n s : qlen true s <= qlen true (dr_st (drain m false n now s)).
Proof. destruct (drain_lq m now n s) as [l [E _]]. unfold qlen. rewrite E, app_length. lia. Qed.

Lemma poll_deferred_exists m ins now i s : p_dfr (snd (poll_task m ins now i s)) = true -> i < nt s.
Proof.
  intros H. apply get_lt. intros Hg. unfold poll_task in H. cbn [interp] in H.
  unfold code_of in H. rewrite get_add_trace, Hg in H. discriminate.
Qed.

Lemma drain_dl_exist m loc now : forall n s, Forall (fun i => i < nt s) (dr_dl (drain m loc n now s)).
Proof.
  induction n as [|n IH]; intros s; [constructor|rewrite drain_S].
  destruct (pop loc s) as [[i s1]|] eqn:Ep; [|constructor].
  apply pop_some in Ep. destruct Ep as [_ [_ [_ [_ [_ [Ht _]]]]]].
  assert (E1 : nt s1 = nt s) by (unfold nt; rewrite Ht; reflexivity).
  specialize (IH (fst (poll_task m loc now i s1))). rewrite (proj1 (ext_poll_task m loc now i s1)), E1 in IH.
  cbn zeta. unfold dr_dl at 1; cbn [snd].
  destruct (p_dfr (snd (poll_task m loc now i s1))) eqn:Hd; [|exact IH]. apply Forall_app; split; [exact IH|].
  constructor; [|constructor]. rewrite <- E1. apply (poll_deferred_exists m loc now i s1 Hd).
Qed.


Definition coverb (c : N) (b : nat) (ps : list pinfo) : bool := (length ps <=? b) && forallb (okb c) ps.

Lemma coverb_spec c b ps : coverb c b ps = true <-> length ps <= b /\ Forall (ok c) ps.
Proof.
  unfold coverb. rewrite andb_true_iff, Nat.leb_le, forallb_forall, Forall_forall.
  split; intros [H1 H2]; (split; [exact H1|]); intros p Hp; apply okb_ok; auto.
Qed.

Lemma drain_over c loc now : forall n b s,
  coverb c b (dr_ps (drain None loc n now s)) = false ->
  0 < qlen loc (dr_st (drain (Some c) loc b now s)) \/ dr_dl (drain (Some c) loc b now s) <> [].
Proof.
  induction n as [|n IH]; intros b s Hc; [discriminate|rewrite drain_S in Hc].
  destruct (pop loc s) as [[i s1]|] eqn:Ep; [|discriminate].
  destruct b as [|b]; [left; destruct (qlen loc s) eqn:H; [apply pop_none in H; congruence|cbn; lia]|].
  rewrite drain_S, Ep. pose proof (poll_cmp c loc now i s1) as Hp. cbn zeta in *.
  unfold coverb, dr_ps in Hc; cbn [fst snd length forallb Nat.leb] in Hc. unfold okb at 1 in Hc.
  unfold dr_st, dr_dl; cbn [fst snd].
  destruct ((p_ops (snd (poll_task None loc now i s1)) <=? c)%N && negb (p_yld (snd (poll_task None loc now i s1)))).
  - rewrite Hp. cbn [andb] in Hc. destruct (IH b _ Hc) as [H|H]; [left; exact H|right].
    destruct (p_dfr (snd (poll_task None loc now i s1))); [|exact H].
    intros E. apply app_eq_nil in E. destruct E as [_ E]. discriminate.
  - right. rewrite Hp. intros E. apply app_eq_nil in E. destruct E as [_ E]. discriminate.
Qed.

Lemma queue_after_pos x :
  0 < qlen true (fst (fst (exec_bounded x))) + qlen false (fst (fst (exec_bounded x))) -> queue_after x <> [].
Proof.
  unfold queue_after, queues, qlen. intros H E. apply app_eq_nil in E. destruct E as [E1 E2].
  apply app_eq_nil in E2. destruct E2 as [E2 E3]. rewrite E1, E2, E3 in H. cbn in H. lia.
Qed.

(* what is still there when the exec returns: a task the LocalSet tick left queued, or deferred;
   one the scheduler turn left queued, or deferred; a LocalSet task woken during the scheduler turn *)
Lemma exec_leftover bl br c now s0 :
  let d1 := drain (Some c) true bl now s0 in
  let d2 := drain (Some c) false br now (dr_st d1) in
  0 < qlen true (dr_st d1) \/ dr_dl d1 <> [] \/ 0 < qlen false (dr_st d2) \/ dr_dl d2 <> [] \/ 0 < qlen true (dr_st d2) ->
  0 < qlen true (wake_deferred now (dr_dl d2 ++ dr_dl d1) (dr_st d2)) + qlen false (wake_deferred now (dr_dl d2 ++ dr_dl d1) (dr_st d2)).
Proof.
  intros d1 d2 H.
  pose proof (drain_dl_exist (Some c) true now bl s0) as X1. pose proof (drain_ext_nt (Some c) true now bl s0) as N1.
  pose proof (drain_dl_exist (Some c) false now br (dr_st d1)) as X2. pose proof (drain_ext_nt (Some c) false now br (dr_st d1)) as N2.
  pose proof (drain_rt_local (Some c) now br (dr_st d1)) as L. fold d1 in X1, N1, X2, N2, L. fold d2 in X2, N2, L.
  assert (Hall : Forall (fun i => i < nt (dr_st d2)) (dr_dl d2 ++ dr_dl d1))
    by (apply Forall_app; split; [rewrite N2; exact X2|rewrite N2, N1; exact X1]).
  pose proof (ext_wake_deferred now (dr_dl d2 ++ dr_dl d1) (dr_st d2)) as [_ [E1 E2]].
  assert (G : dr_dl d2 ++ dr_dl d1 <> [] -> 0 < qlen true (wake_deferred now (dr_dl d2 ++ dr_dl d1) (dr_st d2)) + qlen false (wake_deferred now (dr_dl d2 ++ dr_dl d1) (dr_st d2)))
    by (intros Hne; apply wake_deferred_grows; assumption).
  unfold qlen in *.
  destruct H as [H|[H|[H|[H|H]]]]; try lia; apply G; intros E; apply app_eq_nil in E; destruct E; contradiction.
Qed.

Theorem over_budget_leaves_work x : KnownClass x -> queue_after x <> [].
Proof.
  unfold KnownClass, over_budget. intros Hk. apply negb_true_iff in Hk.
  apply queue_after_pos. revert Hk.
  unfold exec_bounded, ideal_first. destruct x as [[bl br c] now acts s]; cbn [e_b e_now e_acts e_st b_local b_rt b_coop].
  set (s0 := handler now acts s). rewrite ideal_round_spec. cbn zeta. cbn [fst snd].
  set (d1 := drain None true (measure s0) now s0).
  set (d2 := drain None false (measure (dr_st d1)) now (dr_st d1)).
  intros Hk. unfold exec_event. fold s0. rewrite !let_pair. cbn [fst]. apply exec_leftover. cbn zeta.
  destruct (coverb c bl (dr_ps d1)) eqn:C2; [|destruct (drain_over c true now (measure s0) bl s0 C2); auto].
  (* the LocalSet tick fits: it is the ideal one *)
  apply coverb_spec in C2. destruct C2 as [L2 O2].
  assert (Q1 : qlen true (dr_st d1) = 0) by (apply drain_sufficient; lia).
  assert (E1 : drain (Some c) true bl now s0 = d1) by (apply drain_mode; assumption).
  rewrite E1. right; right.
  destruct (coverb c br (dr_ps d2)) eqn:C3; [|destruct (drain_over c false now (measure (dr_st d1)) br (dr_st d1) C3); auto].
  (* the scheduler turn fits as well: a LocalSet task was woken during it *)
  apply coverb_spec in C3. destruct C3 as [L3 O3].
  assert (Q2 : qlen false (dr_st d2) = 0) by (apply drain_sufficient; lia).
  assert (E2 : drain (Some c) false br now (dr_st d1) = d2) by (apply drain_mode; assumption).
  rewrite E2. right; right.
  assert (Hout : forallb (fun p => negb (p_out p)) (dr_ps d2) = false).
  { unfold fitsb in Hk; cbn [b_local b_rt b_coop] in Hk. change (snd (fst d2)) with (dr_ps d2) in Hk. change (snd (fst d1)) with (dr_ps d1) in Hk.
    rewrite (proj2 (Nat.leb_le _ _) L2), (proj2 (Nat.leb_le _ _) L3) in Hk. cbn [andb] in Hk.
    assert (F : forallb (okb c) (dr_ps d1 ++ dr_ps d2) = true).
    { rewrite forallb_app. apply andb_true_iff. split; apply forallb_forall; intros p Hp; apply okb_ok;
        [exact (proj1 (Forall_forall _ _) O2 p Hp)|exact (proj1 (Forall_forall _ _) O3 p Hp)]. }
    rewrite F in Hk. exact Hk. }
  destruct (drain_lq None now (measure (dr_st d1)) (dr_st d1)) as [l [El Ew]]. fold d2 in El, Ew. rewrite Hout in Ew.
  unfold qlen. rewrite El, app_length. destruct l; [discriminate|cbn [length]; lia].
Qed.

Theorem quiescent_iff_within_budget x : queue_after x = [] <-> ~ KnownClass x.
Proof.
  split.
  - intros Hq Hk. exact (over_budget_leaves_work x Hk Hq).
  - intros Hk. apply quiescent_if_within_budget. exact Hk.
Qed.

Lemma leftover_known x : queue_after x <> [] -> KnownClass x.
Proof.
  intros H. destruct (over_budget x) eqn:E; [exact E|]. exfalso. apply H, quiescent_iff_within_budget.
  unfold KnownClass. rewrite E. discriminate.
Qed.
