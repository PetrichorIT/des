(* Shape of the trace: every operation record (task, time) directly follows the poll
   record of that task at that time or another operation record of the same poll.  So
   the time an operation observes is the time of the poll it runs in. *)
From Coq Require Import List NArith Bool.
From DesVerif Require Import Exec.Model Exec.Basics Exec.Measure.
Import ListNotations.
Local Open Scope N_scope.

(* on the trace as stored: newest record first *)
Definition cur (tr : list trec) : option (nat * N) :=
  match tr with
  | ROp i t :: _ => Some (i, t)
  | RPoll i _ t :: _ => Some (i, t)
  | _ => None
  end.

Fixpoint ops_ok (tr : list trec) : Prop :=
  match tr with
  | [] => True
  | ROp i t :: r => cur r = Some (i, t) /\ ops_ok r
  | _ :: r => ops_ok r
  end.

Definition in_poll (i : nat) (now : N) (s : st) : Prop := ops_ok (trace s) /\ cur (trace s) = Some (i, now).

Lemma trace_push l i s : trace (push l i s) = trace s.
Proof. unfold push; destruct l; reflexivity. Qed.

Lemma trace_enqueue ins now t s : trace (fst (enqueue ins now t s)) = trace s.
Proof. unfold enqueue. destruct (get t s); cbn [fst]; [rewrite trace_push|]; reflexivity. Qed.

Lemma trace_wake ins now t s : trace (fst (wake ins now t s)) = trace s.
Proof. unfold wake. rewrite trace_enqueue. reflexivity. Qed.

Lemma trace_send ins now t s : trace (fst (send ins now t s)) = trace s.
Proof.
  unfold send. destruct (get t s) as [tk|]; cbn [fst]; [|reflexivity].
  destruct (stat tk); cbn [fst]; try reflexivity. rewrite trace_wake. reflexivity.
Qed.

Lemma in_poll_eff ins now i s o s' o' : Eff ins now i s o s' o' -> in_poll i now s -> in_poll i now s'.
Proof.
  intros E H. induction E as [|j f s' o' Hf E IH|s' o' E IH|t s' o' E IH]; [exact H|exact IH| |].
  - destruct IH as [H1 H2]. split; [split|]; auto.
  - unfold in_poll. rewrite trace_enqueue. exact IH.
Qed.

Lemma ops_ok_poll_task m ins now i s : ops_ok (trace s) -> ops_ok (trace (fst (poll_task m ins now i s))).
Proof.
  intros H. unfold poll_task.
  apply (in_poll_eff _ _ _ _ _ _ _ (interp_eff ins now i (S (code_len i s)) m 0 false (add_trace (RPoll i (wk_of i s) now) s))).
  split; [exact H|reflexivity].
Qed.

Lemma trace_pop loc s i s1 : pop loc s = Some (i, s1) -> trace s1 = trace s.
Proof. intros H. apply pop_some in H. apply H. Qed.

Lemma ops_ok_drain m loc now n s : ops_ok (trace s) -> ops_ok (trace (fst (fst (drain m loc n now s)))).
Proof.
  apply (drain_inv (fun s => ops_ok (trace s))). clear s. intros s i s1 Ep H.
  apply ops_ok_poll_task. rewrite (trace_pop _ _ _ _ Ep). exact H.
Qed.

Lemma trace_do_act now s a : trace (do_act now s a) = trace s.
Proof.
  destruct a as [t|t|r]; cbn [do_act].
  - destruct (get t s) as [tq|]; [|reflexivity]. destruct (stat tq); try reflexivity. rewrite trace_wake. reflexivity.
  - apply trace_send.
  - reflexivity.
Qed.

Lemma trace_handler now acts : forall s, trace (handler now acts s) = trace s.
Proof.
  unfold handler. induction acts as [|a acts IH]; intros s; cbn [fold_left]; [reflexivity|].
  rewrite IH. apply trace_do_act.
Qed.

Lemma trace_wake_deferred now dl : forall s, trace (wake_deferred now dl s) = trace s.
Proof.
  induction dl as [|i dl IH]; intros s; cbn [wake_deferred]; [reflexivity|]. rewrite IH. apply trace_enqueue.
Qed.

Lemma ops_ok_exec_event bl br c now acts s :
  ops_ok (trace s) -> ops_ok (trace (fst (fst (exec_event bl br c now acts s)))).
Proof.
  intros H. unfold exec_event. rewrite <- (trace_handler now acts s) in H.
  pose proof (ops_ok_drain (Some c) true now bl _ H) as H1.
  destruct (drain (Some c) true bl now (handler now acts s)) as [[s1 p2] d2]; cbn [fst] in H1.
  pose proof (ops_ok_drain (Some c) false now br _ H1) as H2.
  destruct (drain (Some c) false br now s1) as [[s2 p3] d3]; cbn [fst] in *.
  rewrite trace_wake_deferred. exact H2.
Qed.

Lemma trace_send_outside now t s : trace (send_outside now t s) = trace s.
Proof.
  unfold send_outside. destruct (get t s) as [tk|]; [|reflexivity].
  destruct (stat tk); try reflexivity. destruct (local tk); [rewrite trace_push|]; reflexivity.
Qed.

Lemma trace_pre_hooks now pre : forall s, trace (pre_hooks now pre s) = trace s.
Proof.
  unfold pre_hooks. induction pre as [|a pre IH]; intros s; cbn [fold_left]; [reflexivity|].
  rewrite IH. destruct a; cbn [do_pre]; [reflexivity|apply trace_send_outside|reflexivity].
Qed.

Lemma ops_ok_run_exec b tag now acts s : ops_ok (trace s) -> ops_ok (trace (run_exec b tag now acts s)).
Proof.
  intros H. unfold run_exec.
  pose proof (ops_ok_exec_event (b_local b) (b_rt b) (b_coop b) now acts s H) as H1.
  destruct (exec_event _ _ _ _ _ _) as [[s1 p2] p3]; cbn [fst] in H1.
  unfold close; cbn [add_trace trace ops_ok]. rewrite trace_end_turn. exact H1.
Qed.

Lemma ops_ok_run_event b s e now k pre acts : ops_ok (trace s) -> ops_ok (trace (run_event b s e now k pre acts)).
Proof.
  intros H. unfold run_event. apply ops_ok_run_exec. rewrite trace_pre_hooks. exact H.
Qed.

Lemma ops_ok_run_start b s now acts : ops_ok (trace s) -> ops_ok (trace (run_start b s now acts)).
Proof. intros H. unfold run_start. apply ops_ok_run_exec. exact H. Qed.

Lemma ops_ok_do_shutdown b g ts now s : ops_ok (trace s) -> ops_ok (trace (do_shutdown b g ts now s)).
Proof.
  intros H. unfold do_shutdown.
  set (s0 := {| tasks := tasks (init g ts); lq := []; cq := []; inj := []; stick := 0; gqi := g; trace := RReset now :: trace s |}).
  pose proof (ops_ok_exec_event (b_local b) (b_rt b) (b_coop b) now [] s0 H) as H1.
  destruct (exec_event _ _ _ _ _ _) as [[s1 p2] p3]; cbn [fst] in H1. rewrite trace_end_turn. exact H1.
Qed.

Lemma ops_ok_after_exec b g ts now acts s : ops_ok (trace s) -> ops_ok (trace (fst (after_exec b g ts now acts s))).
Proof.
  intros H. unfold after_exec. destruct (shutdown_req now acts); cbn [fst]; [apply ops_ok_do_shutdown|]; exact H.
Qed.

Lemma ops_ok_catch_up b start sm t : ops_ok (trace (fst sm)) -> ops_ok (trace (fst (catch_up b start sm t))).
Proof.
  intros H. unfold catch_up. destruct (restart_due (snd sm) t); cbn [fst]; [apply ops_ok_run_start|]; exact H.
Qed.

Lemma ops_ok_step_event b g ts start sm e t k pre acts :
  ops_ok (trace (fst sm)) -> ops_ok (trace (fst (step_event b g ts start sm e t k pre acts))).
Proof.
  intros H. unfold step_event. pose proof (ops_ok_catch_up b start sm t H) as H1.
  destruct (snd (catch_up b start sm t)); [|exact H1].
  apply ops_ok_after_exec. apply ops_ok_run_event. exact H1.
Qed.

Lemma ops_ok_run_events b g ts start : forall evs sm e now,
  ops_ok (trace (fst sm)) -> ops_ok (trace (fst (fst (run_events b g ts start sm e now evs)))).
Proof.
  induction evs as [|[[[d k] pre] acts] evs IH]; intros sm e now H; cbn [run_events fst]; [exact H|].
  apply IH. apply ops_ok_step_event. exact H.
Qed.

Lemma ops_ok_run_end b s now : ops_ok (trace s) -> ops_ok (trace (run_end b s now)).
Proof.
  intros H. unfold run_end.
  pose proof (ops_ok_exec_event (b_local b) (b_rt b) (b_coop b) now [] s H) as H1.
  destruct (exec_event (b_local b) (b_rt b) (b_coop b) now [] s) as [[s1 p2] p3]; cbn [fst] in H1.
  rewrite <- (trace_end_turn (b_rt b) p3 s1) in H1.
  pose proof (ops_ok_exec_event (b_local b) (b_rt b) (b_coop b) now [] _ H1) as H2.
  destruct (exec_event (b_local b) (b_rt b) (b_coop b) now [] (end_turn (b_rt b) p3 s1)) as [[s2 q2] q3]; cbn [fst] in H2.
  unfold close; cbn [add_trace trace ops_ok]. rewrite trace_end_turn. exact H2.
Qed.

(* [run_model] lists the records oldest first; [rev] puts the newest first again *)
Theorem ops_within_their_poll b g ts start evs : ops_ok (rev (run_model b g ts start evs)).
Proof.
  unfold run_model.
  assert (Hb : ops_ok (trace (fst (boot b g ts start)))).
  { unfold boot. apply ops_ok_after_exec. apply ops_ok_run_start. exact I. }
  pose proof (ops_ok_run_events b g ts start evs _ O 0 Hb) as H.
  destruct (run_events b g ts start (boot b g ts start) 0 0 evs) as [sm now]; cbn [fst] in H.
  assert (H2 : ops_ok (trace (fst (last_restart b start sm now)))).
  { unfold last_restart. destruct (snd sm) as [|[r|]]; cbn [fst]; try exact H. apply ops_ok_run_start. exact H. }
  destruct (last_restart b start sm now) as [s now']; cbn [fst] in H2.
  rewrite rev_involutive. apply ops_ok_run_end. exact H2.
Qed.
