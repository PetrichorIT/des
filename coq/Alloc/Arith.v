(* Address arithmetic of the allocator model: powers of two, align_up,
   size_align, regions (disjointness, inclusion) and pairwise disjointness of
   region lists up to permutation. *)
From Coq Require Import List NArith Lia Permutation.
From DesVerif Require Import Alloc.Model.
Import ListNotations.
Open Scope N_scope.

Definition pow2 (x : N) : Prop := exists k, x = 2 ^ k.

Lemma pow2_pos x : pow2 x -> 0 < x.
Proof. intros [k ->]. apply N.neq_0_lt_0. apply N.pow_nonzero. discriminate. Qed.

Lemma pow2_divide a b : pow2 a -> pow2 b -> a <= b -> (a | b).
Proof.
  intros [i ->] [j ->] Hle. apply N.pow_le_mono_r_iff in Hle; [|lia].
  exists (2 ^ (j - i)). rewrite <- N.pow_add_r. f_equal. lia.
Qed.

Lemma pow2_max a b : pow2 a -> pow2 b -> pow2 (N.max a b).
Proof. intros Ha Hb. destruct (N.max_spec a b) as [[_ ->]|[_ ->]]; assumption. Qed.

Lemma is_pow2_sound x : is_pow2 x = true -> pow2 x.
Proof.
  unfold is_pow2. intros H. apply andb_prop in H. destruct H as [_ H].
  apply N.eqb_eq in H. exists (N.log2 x). exact H.
Qed.

Lemma is_pow2_complete x : pow2 x -> is_pow2 x = true.
Proof.
  intros [k ->]. unfold is_pow2. rewrite N.log2_pow2 by lia. rewrite N.eqb_refl.
  assert (2 ^ k <> 0) by (apply N.pow_nonzero; discriminate).
  destruct (N.eqb_spec (2 ^ k) 0); [contradiction|reflexivity].
Qed.

(* ---- align_up ---- *)
Lemma align_up_eq a k : align_up a (2 ^ k) = ((a + 2 ^ k - 1) / 2 ^ k) * 2 ^ k.
Proof.
  unfold align_up.
  replace (2 ^ k - 1) with (N.ones k) by (rewrite N.ones_equiv, N.pred_sub; reflexivity).
  rewrite N.ldiff_ones_r, N.shiftl_mul_pow2, N.shiftr_div_pow2. reflexivity.
Qed.

Lemma align_up_spec a al : pow2 al -> a <= align_up a al /\ align_up a al < a + al /\ (al | align_up a al).
Proof.
  intros [k ->]. rewrite align_up_eq.
  assert (Hd : 2 ^ k <> 0) by (apply N.pow_nonzero; discriminate).
  set (d := 2 ^ k) in *. set (x := a + d - 1).
  pose proof (N.mul_div_le x d Hd) as H1. pose proof (N.mul_succ_div_gt x d Hd) as H2.
  set (q := x / d) in *. split; [|split].
  - unfold x in *. nia.
  - unfold x in *. nia.
  - exists q. reflexivity.
Qed.

Lemma align_up_fix a al : pow2 al -> (al | a) -> align_up a al = a.
Proof.
  intros [k ->] [z ->]. rewrite align_up_eq.
  assert (Hd : 2 ^ k <> 0) by (apply N.pow_nonzero; discriminate).
  set (d := 2 ^ k) in *. f_equal. symmetry. apply N.div_unique with (r := d - 1); lia.
Qed.

Lemma align_up_fix_inv a al : pow2 al -> align_up a al = a -> (al | a).
Proof. intros Hp H. rewrite <- H. apply align_up_spec. exact Hp. Qed.

(* ---- size_align ---- *)
Section SizeAlign.
Variables nsz nal : N.
Hypothesis Hnal : pow2 nal.
Hypothesis Hnsz_al : (nal | nsz).

Lemma size_align_spec l : pow2 (snd l) ->
  let s := fst (size_align nsz nal l) in
  let al := snd (size_align nsz nal l) in
  pow2 al /\ (nal | al) /\ (snd l | al) /\ nsz <= s /\ fst l <= s /\ (nal | s).
Proof.
  intros Hl. cbn [size_align fst snd].
  assert (Hm : pow2 (N.max (snd l) nal)) by (apply pow2_max; assumption).
  destruct (align_up_spec (fst l) _ Hm) as [H1 [_ H3]].
  split; [exact Hm|]. split; [apply pow2_divide; [assumption|assumption|lia]|].
  split; [apply pow2_divide; [assumption|assumption|lia]|].
  split; [lia|]. split; [lia|].
  assert (Hd : (nal | align_up (fst l) (N.max (snd l) nal))).
  { eapply N.divide_trans; [|exact H3]. apply pow2_divide; [assumption|assumption|lia]. }
  destruct (N.max_spec (align_up (fst l) (N.max (snd l) nal)) nsz) as [[_ ->]|[_ ->]]; assumption.
Qed.
End SizeAlign.

(* ---- regions ---- *)
Definition rend (r : region) : N := fst r + snd r.
Definition disj (r1 r2 : region) : Prop := rend r1 <= fst r2 \/ rend r2 <= fst r1.
Definition sub (r1 r2 : region) : Prop := fst r2 <= fst r1 /\ rend r1 <= rend r2.

Lemma disj_sym r1 r2 : disj r1 r2 -> disj r2 r1.
Proof. unfold disj. tauto. Qed.

Lemma disj_sub r r' x : sub r' r -> disj r x -> disj r' x.
Proof. unfold sub, disj. lia. Qed.

Lemma sub_trans a b c : sub a b -> sub b c -> sub a c.
Proof. unfold sub. lia. Qed.

Lemma Forall_disj_sub r r' X : sub r' r -> Forall (disj r) X -> Forall (disj r') X.
Proof. intros Hs. apply Forall_impl. intros x. apply disj_sub. exact Hs. Qed.

(* pairwise disjointness *)
Fixpoint PD (l : list region) : Prop :=
  match l with
  | [] => True
  | r :: t => Forall (disj r) t /\ PD t
  end.

Lemma PD_perm l l' : Permutation l l' -> PD l -> PD l'.
Proof.
  induction 1 as [|x l l' Hp IH|x y l|l l' l'' _ IH1 _ IH2]; cbn [PD]; intros H.
  - exact I.
  - destruct H as [H1 H2]. split; [|apply IH; exact H2].
    eapply Permutation_Forall; eassumption.
  - destruct H as [H1 [H2 H3]]. inversion H1 as [|? ? Hyx H1']; subst.
    split; [constructor; [apply disj_sym; exact Hyx|exact H2]|]. split; assumption.
  - apply IH2, IH1, H.
Qed.

Lemma PD_app_r l1 l2 : PD (l1 ++ l2) -> PD l2.
Proof. induction l1 as [|x l1 IH]; cbn [app PD]; [tauto|]. intros [_ H]. apply IH, H. Qed.

Lemma PD_app_l l1 l2 : PD (l1 ++ l2) -> PD l1.
Proof.
  induction l1 as [|x l1 IH]; cbn [app PD]; [tauto|]. intros [H1 H2]. split; [|apply IH, H2].
  apply Forall_app in H1. apply H1.
Qed.

Lemma PD_In_disj l1 l2 x y : PD (l1 ++ l2) -> In x l1 -> In y l2 -> disj x y.
Proof.
  induction l1 as [|z l1 IH]; cbn [app PD In]; [tauto|]. intros [H1 H2] [->|Hx] Hy.
  - rewrite Forall_forall in H1. apply H1. apply in_or_app. right. exact Hy.
  - apply IH; assumption.
Qed.

(* ---- list helpers ---- *)
Lemma remove_nth_split {A} (l : list A) k e :
  nth_error l k = Some e -> exists la lb, l = la ++ e :: lb /\ remove_nth k l = la ++ lb.
Proof.
  revert k. induction l as [|x l IH]; intros [|k]; cbn [nth_error remove_nth]; try discriminate.
  - intros [= ->]. exists [], l. split; reflexivity.
  - intros H. destruct (IH k H) as [la [lb [-> E]]]. exists (x :: la), lb. cbn [app]. rewrite E. split; reflexivity.
Qed.
