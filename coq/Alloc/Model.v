(* Concrete model of des-cqueue/src/stable/alloc.rs (the page allocator of the
   calendar queue) and of the way boxed.rs / linked_list.rs / mod.rs use it.
   Pure address arithmetic; function names and branch structure follow the
   Rust code.  The addresses `alloc_zeroed` returns for new pages are an
   ORACLE input [base : page index -> address]; everything else is computed.
   `size_of::<ListNode>()` and `align_of::<ListNode>()` are the parameters
   [nsz] and [nal] (16 and 8 on the target of the runs, reported by the harness).
   No proofs in this file. *)
From Coq Require Import List NArith Bool.
From DesVerif Require Import Common.Codec.
From DesVerif Require CQueue.Model.
Import ListNotations.
Open Scope N_scope.

Definition region := (N * N)%type.            (* start address, size in bytes *)
Definition layout := (N * N)%type.            (* Layout: size, align *)

Record st := {
  free : list region;          (* head.next chain of ListNodes, front first *)
  pages : list N;              (* Vec<*mut u8>, in acquisition order *)
  page_size : N;
  allocated_mem : N;
  live : list (N * layout)     (* ghost: (ptr, requested layout) of every allocation not yet
                                  deallocated, in allocation order; this is what the holders of
                                  the pointers (LocalBox, the harness) know *)
}.

Definition set_free (s : st) (f : list region) : st :=
  {| free := f; pages := pages s; page_size := page_size s; allocated_mem := allocated_mem s; live := live s |}.
Definition set_pages (s : st) (p : list N) : st :=
  {| free := free s; pages := p; page_size := page_size s; allocated_mem := allocated_mem s; live := live s |}.
Definition set_mem (s : st) (m : N) (l : list (N * layout)) : st :=
  {| free := free s; pages := pages s; page_size := page_size s; allocated_mem := m; live := l |}.

(* fn align_up(addr, align) = (addr + align - 1) & !(align - 1) *)
Definition align_up (addr align : N) : N := N.ldiff (addr + align - 1) (align - 1).

Fixpoint remove_nth {A} (k : nat) (l : list A) : list A :=
  match l, k with
  | [], _ => []
  | _ :: t, O => t
  | x :: t, S k' => x :: remove_nth k' t
  end.

(* the watchdog bound shared with harness/src/bin/alloc.rs: find_region gives up
   (model: OutOfFuel; harness: the observer aborts the call) after this many
   pages were added within one allocate call.  One suffices: Alloc/Inv.v
   find_region_spec, Alloc/Safety.v alloc_total. *)
Definition FUEL : nat := 4.

Section Alloc.
Variable base : N -> N.      (* oracle: address of the i-th page handed out by the system allocator *)
Variables nsz nal : N.       (* size_of::<ListNode>(), align_of::<ListNode>() *)

(* size_align: layout.align_to(align_of ListNode).pad_to_align(), size.max(size_of ListNode) *)
Definition size_align (l : layout) : N * N :=
  let al := N.max (snd l) nal in
  (N.max (align_up (fst l) al) nsz, al).

(* add_free_region: push at the FRONT of the list; None = one of its two assertions failed *)
Definition add_free_region (s : st) (addr size : N) : option st :=
  if negb (align_up addr nal =? addr) then None
  else if size <? nsz then None
  else Some (set_free s ((addr, size) :: free s)).

Definition add_page (s : st) : option st :=
  let block := base (N.of_nat (length (pages s))) in
  add_free_region (set_pages s (pages s ++ [block])) block (page_size s).

(* alloc_from_region (checked_add overflow is outside the model: addresses are unbounded) *)
Definition alloc_from_region (r : region) (size align : N) : option N :=
  let alloc_start := align_up (fst r) align in
  let alloc_end := alloc_start + size in
  if fst r + snd r <? alloc_end then None
  else
    let excess_size := fst r + snd r - alloc_end in
    if (0 <? excess_size) && (excess_size <? nsz) then None
    else Some alloc_start.

(* the `while let` of find_region: first region that fits is unlinked, order of the others kept *)
Fixpoint scan (l : list region) (size align : N) : option (region * N * list region) :=
  match l with
  | [] => None
  | r :: t =>
    match alloc_from_region r size align with
    | Some a => Some (r, a, t)
    | None => match scan t size align with
              | Some (r', a, t') => Some (r', a, r :: t')
              | None => None
              end
    end
  end.

Inductive found := Found (s : st) (r : region) (alloc_start : N) | FPanic | FOutOfFuel (s : st).

(* find_region: nothing fits -> add_page and try again (the Rust code recurses without bound) *)
Fixpoint find_region (fuel : nat) (s : st) (size align : N) : found :=
  match scan (free s) size align with
  | Some (r, a, rest) => Found (set_free s rest) r a
  | None =>
    match fuel with
    | O => FOutOfFuel s
    | S f => match add_page s with
             | Some s' => find_region f s' size align
             | None => FPanic
             end
    end
  end.

Inductive ares := AOk (s : st) (ptr : N) | AErr | APanic | AOutOfFuel (s : st).

(* CQueueLLAllocator::allocate *)
Definition allocate_f (fuel : nat) (s : st) (l : layout) : ares :=
  let '(size, align) := size_align l in
  if page_size s <? size then AErr else
  match find_region fuel s size align with
  | FPanic => APanic
  | FOutOfFuel s' => AOutOfFuel s'
  | Found s1 r alloc_start =>
    let alloc_end := alloc_start + size in
    let excess_size := fst r + snd r - alloc_end in
    let s2 := if (0 <? excess_size) && negb (excess_size <? size)
              then add_free_region s1 alloc_end excess_size   (* tail kept only if >= size *)
              else Some s1 in
    match s2 with
    | None => APanic
    | Some s2 => AOk (set_mem s2 (allocated_mem s2 + size) (live s2 ++ [(alloc_start, l)])) alloc_start
    end
  end.
Definition allocate := allocate_f FUEL.

Inductive dres := DOk (s : st) (ptr size : N) | DNone | DPanic.

(* CQueueLLAllocator::deallocate(ptr, layout) applied to the k-th live allocation *)
Definition deallocate (s : st) (k : nat) : dres :=
  match nth_error (live s) k with
  | None => DNone
  | Some (ptr, l) =>
    let size := fst (size_align l) in
    if allocated_mem s <? size then DPanic        (* `allocated_mem -= size` underflow (debug build) *)
    else match add_free_region (set_mem s (allocated_mem s - size) (remove_nth k (live s))) ptr size with
         | Some s' => DOk s' ptr size
         | None => DPanic
         end
  end.

(* CQueueLLAllocatorInner::with_page_size *)
Definition init (page : N) : option st :=
  add_page {| free := []; pages := []; page_size := page; allocated_mem := 0; live := [] |}.

(* ---- histories of the allocator (mode 1) ---- *)
Inductive op := OAlloc (size align : N) | OFree (k : N) | ODump.

Inductive rec :=
| RAlloc (ptr size align : N)     (* allocate returned ptr; adjusted size and alignment *)
| RFree (ptr size : N)            (* deallocate of that block *)
| RErr                            (* allocate returned Err: larger than a page *)
| RNoHandle                       (* free with nothing live: no call *)
| RBadLayout                      (* Layout::from_size_align rejects: no call *)
| RDump
| RPanic
| RFuel.

Definition is_pow2 (x : N) : bool := negb (x =? 0) && (x =? 2 ^ N.log2 x).

Definition halting (r : rec) : bool := match r with RPanic | RFuel => true | _ => false end.

Definition step (s : st) (o : op) : rec * st :=
  match o with
  | OAlloc size align =>
    if negb (is_pow2 align) then (RBadLayout, s) else
    match allocate s (size, align) with
    | AOk s' p => (RAlloc p (fst (size_align (size, align))) (snd (size_align (size, align))), s')
    | AErr => (RErr, s)
    | APanic => (RPanic, s)
    | AOutOfFuel s' => (RFuel, s')
    end
  | OFree k =>
    match live s with
    | [] => (RNoHandle, s)
    | _ => match deallocate s (N.to_nat (k mod N.of_nat (length (live s)))) with
           | DOk s' p sz => (RFree p sz, s')
           | DNone => (RNoHandle, s)
           | DPanic => (RPanic, s)
           end
    end
  | ODump => (RDump, s)
  end.

(* stops after a panic / fuel exhaustion, like the harness *)
Fixpoint run_ops (s : st) (ops : list op) : list (rec * st) :=
  match ops with
  | [] => []
  | o :: r => let '(x, s') := step s o in
              (x, s') :: (if halting x then [] else run_ops s' r)
  end.

(* ---- output: addresses relative to the pages of the run ---- *)
Fixpoint locate (ps : list N) (psz a i : N) : N * N :=
  match ps with
  | [] => (999999, a)
  | p :: t => if (p <=? a) && (a <? p + psz) then (i, a - p) else locate t psz a (i + 1)
  end.

Definition loc (s : st) (a : N) : list N := let '(i, off) := locate (pages s) (page_size s) a 0 in [i; off].

Definition tail1 (s : st) : list N :=
  [N.of_nat (length (pages s)); allocated_mem s; N.of_nat (length (free s))].

Definition lrange (e : N * layout) : region := (fst e, fst (size_align (snd e))).

Definition enc_rec (x : rec * st) : list N :=
  let s := snd x in
  match fst x with
  | RAlloc p size align => 1 :: loc s p ++ [size; align] ++ tail1 s
  | RFree p size => 2 :: loc s p ++ [size] ++ tail1 s
  | RErr => [3]
  | RNoHandle => [4]
  | RBadLayout => [6]
  | RDump => 5 :: N.of_nat (length (free s)) :: flat_map (fun r => loc s (fst r) ++ [snd r]) (free s)
               ++ N.of_nat (length (live s)) :: flat_map (fun e => loc s (fst e) ++ [snd (lrange e)]) (live s)
  | RPanic => [9]
  | RFuel => [8]
  end.

Definition dec_op (l : list N) : option (op * list N) :=
  match l with
  | 1 :: size :: align :: r => Some (OAlloc size align, r)
  | 2 :: k :: r => Some (OFree k, r)
  | 3 :: r => Some (ODump, r)
  | _ => None
  end.

Definition run1 (page : N) (ops : list op) : list N :=
  if negb (is_pow2 page) || (page <? nsz) then [7] else
  match init page with
  | None => [9]
  | Some s => flat_map enc_rec (run_ops s ops)
  end.

(* ---- mode 2: CQueue<P> whose bucket lists keep their nodes in this allocator ----
   No theorem speaks of this half (one computed example, C15_nonvacuous_queue): it is
   tied to the code by the differential run alone. *)
Section Queue.
Variable nl : layout.        (* Layout::new::<EventNode<P>>() *)
Variable hasdrop : bool.     (* P has a destructor the harness can count *)

Record qst := {
  qq : CQueue.Model.cq;
  qa : st;
  qsent : list (N * N);      (* per bucket: head and tail sentinel node *)
  qnodes : list (N * N);     (* event id -> node, for the events that sit in bucket lists *)
  qhandles : list (N * N)    (* EventHandle: (time, id) *)
}.

Fixpoint index_of (p : N) (l : list (N * layout)) : nat :=
  match l with
  | [] => O
  | e :: t => if fst e =? p then O else S (index_of p t)
  end.

Fixpoint lookup (id : N) (m : list (N * N)) : option N :=
  match m with
  | [] => None
  | (i, p) :: t => if i =? id then Some p else lookup id t
  end.

Fixpoint remove_key (id : N) (m : list (N * N)) : list (N * N) :=
  match m with
  | [] => []
  | (i, p) :: t => if i =? id then t else (i, p) :: remove_key id t
  end.

(* LocalBox::new_in / Drop for LocalBox *)
Definition alloc_node (a : st) : option (st * N) :=
  match allocate a nl with AOk a' p => Some (a', p) | _ => None end.
Definition free_node (a : st) (p : N) : option st :=
  match deallocate a (index_of p (live a)) with DOk a' _ _ => Some a' | _ => None end.

(* CQueue::new: DualLinkedList::new per bucket = EventNode::empty twice (head, tail) *)
Fixpoint new_buckets (k : nat) (a : st) : option (st * list (N * N) * list (N * N)) :=
  match k with
  | O => Some (a, [], [])
  | S k' =>
    match alloc_node a with None => None | Some (a1, h) =>
    match alloc_node a1 with None => None | Some (a2, t) =>
    match new_buckets k' a2 with None => None | Some (a3, sent, evs) =>
      Some (a3, (h, t) :: sent, (1, h) :: (1, t) :: evs)
    end end end
  end.

Definition enc_evs (a : st) (evs : list (N * N)) : list N :=
  N.of_nat (length evs) :: flat_map (fun e => fst e :: loc a (snd e)) evs.

Definition tail2 (q : qst) : list N :=
  [allocated_mem (qa q); N.of_nat (length (pages (qa q))); 1 (* links_ok *); CQueue.Model.qlen (qq q)].

Inductive qop := QAdd (dt : N) | QCancel (k : N) | QFetch.

(* None = the allocator refused / panicked / ran out of fuel: the run is abandoned *)
Definition qstep (q : qst) (o : qop) : option (qst * list N) :=
  match o with
  | QAdd dt =>
    let time := CQueue.Model.tcur (qq q) + dt in
    let id := CQueue.Model.next_id (qq q) in
    let '(cq', h, _) := CQueue.Model.add (qq q) time id in
    let hs := match h with Some h => qhandles q ++ [h] | None => qhandles q end in
    if dt =? 0 then   (* zero_event_bucket: a VecDeque on the global heap *)
      let q' := {| qq := cq'; qa := qa q; qsent := qsent q; qnodes := qnodes q; qhandles := hs |} in
      Some (q', 1 :: enc_evs (qa q) [] ++ tail2 q' ++ [0])
    else
      match alloc_node (qa q) with
      | None => None
      | Some (a', p) =>
        let q' := {| qq := cq'; qa := a'; qsent := qsent q; qnodes := (id, p) :: qnodes q; qhandles := hs |} in
        Some (q', 1 :: enc_evs a' [(1, p)] ++ tail2 q' ++ [0])
      end
  | QCancel k =>
    match CQueue.Model.pick_handle (qhandles q) k with
    | None => Some (q, 5 :: enc_evs (qa q) [] ++ tail2 q ++ [0])
    | Some (time, id) =>
      let cq' := CQueue.Model.cancel true (qq q) time id in
      let removed := CQueue.Model.qlen cq' <? CQueue.Model.qlen (qq q) in
      let drops := if removed && hasdrop then [1; id] else [0] in
      if removed && Nat.eqb (length (CQueue.Model.zero cq')) (length (CQueue.Model.zero (qq q))) then
        match lookup id (qnodes q) with
        | None => None
        | Some p =>
          match free_node (qa q) p with
          | None => None
          | Some a' =>
            let q' := {| qq := cq'; qa := a'; qsent := qsent q; qnodes := remove_key id (qnodes q); qhandles := qhandles q |} in
            Some (q', 5 :: enc_evs a' [(2, p)] ++ tail2 q' ++ drops)
          end
        end
      else
        let q' := {| qq := cq'; qa := qa q; qsent := qsent q; qnodes := qnodes q; qhandles := qhandles q |} in
        Some (q', 5 :: enc_evs (qa q) [] ++ tail2 q' ++ drops)
    end
  | QFetch =>
    if CQueue.Model.qlen (qq q) =? 0 then Some (q, [9]) else
    match CQueue.Model.zero (qq q), CQueue.Model.fetch_next (qq q) with
    | _ :: _, (cq', CQueue.Model.OFetched pay time) =>
      let q' := {| qq := cq'; qa := qa q; qsent := qsent q; qnodes := qnodes q; qhandles := qhandles q |} in
      Some (q', 2 :: pay :: time :: 1 :: enc_evs (qa q) [] ++ tail2 q' ++ [0])
    | [], (cq', CQueue.Model.OFetched pay time) =>
      match lookup pay (qnodes q) with
      | None => None
      | Some p =>
        match free_node (qa q) p with
        | None => None
        | Some a' =>
          let q' := {| qq := cq'; qa := a'; qsent := qsent q; qnodes := remove_key pay (qnodes q); qhandles := qhandles q |} in
          Some (q', 2 :: pay :: time :: 1 :: enc_evs a' [(2, p)] ++ tail2 q' ++ [0])
        end
      end
    | _, _ => None
    end
  end.

Fixpoint qrun (q : qst) (ops : list qop) : option (qst * list N) :=
  match ops with
  | [] => Some (q, [])
  | o :: r => match qstep q o with
              | None => None
              | Some (q', out) => match qrun q' r with
                                  | None => None
                                  | Some (q'', out') => Some (q'', out ++ out')
                                  end
              end
  end.

(* Drop for CQueue: the bucket lists are dropped in order (pop_min until empty,
   then the head and the tail sentinel), then the allocator, then the VecDeque *)
Fixpoint free_all (a : st) (ps : list N) : option st :=
  match ps with
  | [] => Some a
  | p :: r => match free_node a p with None => None | Some a' => free_all a' r end
  end.

Fixpoint bucket_ptrs (bs : list (list CQueue.Model.ev)) (sent : list (N * N)) (nodes : list (N * N)) : option (list N) :=
  match bs, sent with
  | b :: bs', (h, t) :: sent' =>
    match bucket_ptrs bs' sent' nodes with
    | None => None
    | Some r =>
      (fix evs (b : list CQueue.Model.ev) : option (list N) :=
         match b with
         | [] => Some (h :: t :: r)
         | e :: b' => match lookup (CQueue.Model.eid e) nodes, evs b' with
                      | Some p, Some l => Some (p :: l)
                      | _, _ => None
                      end
         end) b
    end
  | [], [] => Some []
  | _, _ => None
  end.

Fixpoint insert_n (x : N) (l : list N) : list N :=
  match l with [] => [x] | y :: t => if x <=? y then x :: l else y :: insert_n x t end.
Definition sort_n (l : list N) : list N := fold_right insert_n [] l.

Definition qdrop (q : qst) : option (list N) :=
  match bucket_ptrs (CQueue.Model.buckets (qq q)) (qsent q) (qnodes q) with
  | None => None
  | Some ps =>
    match free_all (qa q) ps with
    | None => None
    | Some a' =>
      let ids := sort_n (map CQueue.Model.eid (CQueue.Model.zero (qq q) ++ concat (CQueue.Model.buckets (qq q)))) in
      Some (10 :: enc_evs a' (map (fun p => (2, p)) ps) ++ [allocated_mem a'; N.of_nat (length (live a'))]
               ++ (if hasdrop then N.of_nat (length ids) :: ids else [0]) ++ [11; 1; 1; 1])
    end
  end.

Definition dec_qop (l : list N) : option (qop * list N) :=
  match l with
  | 1 :: dt :: r => Some (QAdd dt, r)
  | 2 :: k :: r => Some (QCancel k, r)
  | 3 :: r => Some (QFetch, r)
  | _ => None
  end.

Definition run2 (page n t : N) (ops : list qop) : list N :=
  if negb (is_pow2 page) || (page <? nsz) || (n =? 0) || (t =? 0) then [7] else
  match init page with
  | None => [8]
  | Some a0 =>
    match new_buckets (N.to_nat n) a0 with
    | None => [8]
    | Some (a, sent, evs) =>
      let q0 := {| qq := CQueue.Model.cq_new n t; qa := a; qsent := sent; qnodes := []; qhandles := [] |} in
      match qrun q0 ops with
      | None => [8]
      | Some (q, out) =>
        match qdrop q with
        | None => [8]
        | Some d => (20 :: enc_evs a evs ++ tail2 q0) ++ out ++ d
        end
      end
    end
  end.
End Queue.
End Alloc.

(* the oracle used by the runners: page i sits at (i+1) * 2^40.  Both runners print
   addresses as (page index, offset); that another page-aligned disjoint placement
   prints the same is not proved, only exercised by the differential run. *)
Definition sym_base (i : N) : N := (i + 1) * 2 ^ 40.

(* script:  1 page nsz nal op*                       op = 1 size align | 2 k | 3
            2 ptype hasdrop page nsz nal nsize nalign n t op*    op = 1 dt | 2 k | 3 *)
Definition run (input : list N) : list N :=
  match input with
  | 1 :: page :: nsz :: nal :: r =>
      if (nsz =? 0) || negb (is_pow2 nal) then [7] else run1 sym_base nsz nal page (decode_all dec_op r)
  | 2 :: _ :: hd :: page :: nsz :: nal :: nsize :: nalign :: n :: t :: r =>
      if (nsz =? 0) || negb (is_pow2 nal) || negb (is_pow2 nalign) then [7]
      else run2 sym_base nsz nal (nsize, nalign) (n2b hd) page n t (decode_all dec_qop r)
  | _ => [7]
  end.
