(* C15, memory half: the statements about every reachable allocator state and
   every history, derived from the invariant (Inv.v) and the trace lemmas
   (Hist.v); and the instances the runners use (ListNode 16/8, pages at
   (i+1) * 2^40). *)
From Coq Require Import List NArith Lia.
From DesVerif Require Import Alloc.Model Alloc.Arith Alloc.Inv Alloc.Hist.
Import ListNotations.
Open Scope N_scope.

Section Safety.
Variable base : N -> N.
Variables nsz nal page : N.
Hypothesis Hpar : params_ok nsz nal page.
Hypothesis Hora : oracle_ok base page.

Local Notation size_align := (size_align nsz nal).
Local Notation lrange := (lrange nsz nal).
Local Notation reach := (reach base nsz nal page).
Local Notation Inv := (Inv base nsz nal page).
Local Notation req_ok := (req_ok nsz nal page).
Local Notation op_ok := (op_ok nsz nal page).
Local Notation lranges := (lranges nsz nal).
Local Notation run_ops := (run_ops base nsz nal).
Local Notation reach_inv := (reach_inv base nsz nal page Hpar Hora).

Theorem live_disjoint s : reach s -> PD (lranges s).
Proof. intros H. apply reach_inv in H. eapply PD_app_r. apply (I_pd _ _ _ _ _ H). Qed.

Theorem aligned s : reach s -> forall p l, In (p, l) (live s) ->
  (snd l | p) /\ (nal | p) /\ (snd (size_align l) | p).
Proof.
  intros H p l Hin. apply reach_inv in H. pose proof (I_live _ _ _ _ _ H) as HL.
  rewrite Forall_forall in HL. destruct (HL _ Hin) as [H1 [H2 [H3 _]]]. cbn [fst snd] in *. tauto.
Qed.

Theorem inside_owned_page s : reach s ->
  pages s = map (fun i => base (N.of_nat i)) (seq 0 (length (pages s))) /\
  forall p l, In (p, l) (live s) ->
    exists b, In b (pages s) /\ b <= p /\ p + fst (size_align l) <= b + page.
Proof.
  intros H. apply reach_inv in H. split; [apply (I_pages _ _ _ _ _ H)|]. intros p l Hin.
  pose proof (I_live _ _ _ _ _ H) as HL. rewrite Forall_forall in HL.
  destruct (HL _ Hin) as [_ [_ [_ [b [Hb Hs]]]]]. exists b. split; [exact Hb|].
  unfold sub, rend in Hs. cbn [Model.lrange fst snd] in Hs. exact Hs.
Qed.

Theorem free_list_disjoint_from_live s : reach s ->
  PD (free s) /\
  (forall r e, In r (free s) -> In e (live s) -> disj r (lrange e)) /\
  (forall r, In r (free s) -> exists b, In b (pages s) /\ b <= fst r /\ fst r + snd r <= b + page).
Proof.
  intros H. apply reach_inv in H. pose proof (I_pd _ _ _ _ _ H) as HP. unfold ranges in HP. split; [|split].
  - eapply PD_app_l. exact HP.
  - intros r e Hr He. eapply PD_In_disj; [exact HP|exact Hr|]. unfold Inv.lranges. apply in_map. exact He.
  - intros r Hr. pose proof (I_free _ _ _ _ _ H) as HF. rewrite Forall_forall in HF.
    destruct (HF _ Hr) as [_ [_ [b [Hb Hs]]]]. exists b. split; [exact Hb|]. unfold sub, rend in Hs. cbn [fst snd] in Hs. lia.
Qed.

Theorem allocated_mem_formula s : reach s -> allocated_mem s = sum_sizes nsz nal (live s).
Proof. intros H. apply reach_inv in H. apply (I_mem _ _ _ _ _ H). Qed.

(* allocate terminates with ANY non-zero fuel (so the unbounded recursion of the
   Rust code returns) with the same result, does not panic and adds at most one
   page; a request larger than a page is refused without any effect *)
Theorem alloc_total s l : reach s -> req_ok l ->
  (page < fst (size_align l) /\ forall f, allocate_f base nsz nal f s l = AErr) \/
  (exists s' p, (forall f, allocate_f base nsz nal (S f) s l = AOk s' p) /\ reach s' /\
                (length (pages s') <= S (length (pages s)))%nat).
Proof.
  intros H Hok. pose proof (reach_inv _ H) as HI.
  destruct (allocate_ok base nsz nal page Hpar Hora s l HI Hok) as [[H1 H2]|[_ [s' [p [E [_ [_ [Hpg _]]]]]]]].
  - left. split; assumption.
  - right. exists s', p. split; [exact E|]. split.
    + pose proof (reach_step base nsz nal page s (OAlloc (fst l) (snd l)) H) as Hr.
      cbn [Hist.op_ok] in Hr. rewrite <- surjective_pairing in Hr. specialize (Hr Hok).
      cbn [Model.step] in Hr. destruct Hok as [Hp2 _]. rewrite (is_pow2_complete _ Hp2) in Hr. cbn [negb] in Hr.
      rewrite <- surjective_pairing in Hr. unfold allocate in Hr. change FUEL with (S 3) in Hr.
      rewrite E in Hr. exact Hr.
    + destruct Hpg as [->| ->]; [lia|]. rewrite app_length. cbn [length]. lia.
Qed.

(* deallocate of a live block does not panic *)
Theorem dealloc_total s k : reach s -> (k < length (live s))%nat ->
  exists s' p size, deallocate nsz nal s k = DOk s' p size /\ reach s'.
Proof.
  intros H Hk. pose proof (reach_inv _ H) as HI.
  destruct (nth_error (live s) k) as [[p l]|] eqn:En; [|apply nth_error_None in En; lia].
  destruct (deallocate_ok base nsz nal page Hpar Hora s k p l HI En) as [s' [E _]].
  exists s', p, (fst (size_align l)). split; [exact E|].
  pose proof (reach_step base nsz nal page s (OFree (N.of_nat k)) H I) as Hr. cbn [Model.step] in Hr.
  destruct (live s) as [|e0 lv] eqn:El; [cbn in Hk; lia|]. rewrite <- El in *.
  assert (Hm : N.to_nat (N.of_nat k mod N.of_nat (length (live s))) = k).
  { rewrite N.mod_small by lia. apply Nat2N.id. }
  rewrite Hm, E in Hr. exact Hr.
Qed.

(* no history that respects the guard panics or runs out of fuel: the run is as
   long as the script and every intermediate state is reachable-invariant *)
Theorem history_total s0 ops : init base nsz nal page = Some s0 -> Forall op_ok ops ->
  length (run_ops s0 ops) = length ops /\
  Forall (fun x => halting (fst x) = false /\ Inv (snd x)) (run_ops s0 ops).
Proof.
  intros Hi Hok. apply (run_ops_total base nsz nal page Hpar Hora); [|exact Hok].
  apply reach_inv. apply reach_init. exact Hi.
Qed.

(* memory is reused only after it was released: if two allocate calls of a
   history return overlapping blocks, the first block was deallocated in between *)
Theorem reuse_only_after_free s0 ops : init base nsz nal page = Some s0 -> Forall op_ok ops ->
  forall pre p1 s1 a1 st1 mid p2 s2 a2 st2 post,
    run_ops s0 ops = pre ++ (RAlloc p1 s1 a1, st1) :: mid ++ (RAlloc p2 s2 a2, st2) :: post ->
    In (RFree p1 s1) (map fst mid) \/ disj (p1, s1) (p2, s2).
Proof.
  intros Hi Hok. apply (reuse_only_after_free_from base nsz nal page Hpar Hora); [|exact Hok].
  apply reach_inv. apply reach_init. exact Hi.
Qed.

Theorem init_total : exists s0, init base nsz nal page = Some s0 /\ reach s0.
Proof.
  destruct (init_ok base nsz nal page Hpar Hora) as [s0 [E _]]. exists s0. split; [exact E|]. apply reach_init. exact E.
Qed.

End Safety.

Lemma params_ok_16_8 page : pow2 page -> 64 <= page -> params_ok 16 8 page.
Proof.
  intros Hp Hle. constructor; try lia; try assumption.
  - exists 3. reflexivity.
  - exists 2. reflexivity.
Qed.

Lemma sym_oracle_ok page : pow2 page -> page <= 2 ^ 40 -> oracle_ok sym_base page.
Proof.
  intros Hp Hle. assert (Hd : (page | 2 ^ 40)) by (apply pow2_divide; [assumption|exists 40; reflexivity|assumption]).
  constructor; unfold sym_base.
  - intros i. apply N.divide_mul_r. exact Hd.
  - intros i j Hne. set (B := 2 ^ 40) in *. nia.
Qed.
