(* Histories of the allocator: every reachable state satisfies the invariant,
   no operation panics or runs out of fuel (allocate terminates adding at most
   one page), and along every trace a block that overlaps an earlier block is
   handed out only after the earlier one was released. *)
From Coq Require Import List NArith Lia.
From DesVerif Require Import Alloc.Model Alloc.Arith Alloc.Inv.
Import ListNotations.
Open Scope N_scope.

Section Hist.
Variable base : N -> N.
Variables nsz nal page : N.

Local Notation size_align := (size_align nsz nal).
Local Notation lrange := (lrange nsz nal).
Local Notation step := (step base nsz nal).
Local Notation run_ops := (run_ops base nsz nal).
Local Notation allocate_f := (allocate_f base nsz nal).
Local Notation Inv := (Inv base nsz nal page).
Local Notation req_ok := (req_ok nsz nal page).
Local Notation lranges := (lranges nsz nal).

(* the guard on histories: every allocate request satisfies [req_ok] *)
Definition op_ok (o : op) : Prop :=
  match o with OAlloc size align => req_ok (size, align) | _ => True end.

Inductive reach : st -> Prop :=
| reach_init s : init base nsz nal page = Some s -> reach s
| reach_step s o : reach s -> op_ok o -> reach (snd (step s o)).

Hypothesis Hpar : params_ok nsz nal page.
Hypothesis Hora : oracle_ok base page.

Lemma step_facts s o : Inv s -> op_ok o ->
  let x := fst (step s o) in
  let s' := snd (step s o) in
  Inv s' /\ halting x = false /\
  (forall r1, In r1 (lranges s) -> In r1 (lranges s') \/ x = RFree (fst r1) (snd r1)) /\
  (forall p sz al, x = RAlloc p sz al -> Forall (disj (p, sz)) (lranges s) /\ In (p, sz) (lranges s')) /\
  (length (pages s') <= S (length (pages s)))%nat.
Proof.
  intros HI Hok. destruct o as [size align|k|]; cbn [Model.step].
  - cbn [op_ok] in Hok. pose proof Hok as [Hp2 _]. cbn [snd] in Hp2.
    rewrite (is_pow2_complete _ Hp2). cbn [negb]. unfold allocate. change FUEL with (S 3).
    destruct (allocate_ok base nsz nal page Hpar Hora s (size, align) HI Hok) as [[_ E]|[_ [s' [p [E [HI' [Hl [Hpg Hd]]]]]]]]; rewrite E; cbn [fst snd].
    + repeat apply conj; try assumption; try reflexivity; try lia.
      * intros r1 H. left. exact H.
      * intros p sz al [=].
    + repeat apply conj; try assumption; try reflexivity.
      * intros r1 H. left. unfold Inv.lranges in *. rewrite Hl, map_app. apply in_or_app. left. exact H.
      * intros p0 sz al [= <- <- <-]. split; [exact Hd|].
        unfold Inv.lranges. rewrite Hl, map_app. apply in_or_app. right. left. reflexivity.
      * destruct Hpg as [->| ->]; [lia|]. rewrite app_length. cbn [length]. lia.
  - destruct (live s) as [|e0 lv] eqn:El.
    + cbn [fst snd]. repeat apply conj; try assumption; try reflexivity; try lia.
      * intros r1 H. left. exact H.
      * intros p sz al [=].
    + rewrite <- El. set (idx := N.to_nat (k mod N.of_nat (length (live s)))).
      assert (Hidx : (idx < length (live s))%nat).
      { assert (Hn : N.of_nat (length (live s)) <> 0) by (rewrite El; cbn [length]; lia).
        pose proof (N.mod_lt k _ Hn). unfold idx. lia. }
      destruct (nth_error (live s) idx) as [[p l]|] eqn:En; [|apply nth_error_None in En; lia].
      destruct (deallocate_ok base nsz nal page Hpar Hora s idx p l HI En) as [s' [-> [HI' [Hl Hpg]]]]. cbn [fst snd].
      destruct (remove_nth_split _ _ _ En) as [la [lb [Ela Erm]]].
      repeat apply conj; try assumption; try reflexivity.
      * intros r1 H. unfold Inv.lranges in *. rewrite Hl, Erm. rewrite Ela in H. rewrite map_app in *. cbn [map] in H.
        apply in_app_or in H. destruct H as [H|[<-|H]].
        -- left. apply in_or_app. left. exact H.
        -- right. reflexivity.
        -- left. apply in_or_app. right. exact H.
      * intros p0 sz al [=].
      * rewrite Hpg. lia.
  - cbn [fst snd]. repeat apply conj; try assumption; try reflexivity; try lia.
    + intros r1 H. left. exact H.
    + intros p sz al [=].
Qed.

Theorem reach_inv s : reach s -> Inv s.
Proof.
  induction 1 as [s Hi|s o _ IH Hok].
  - destruct (init_ok base nsz nal page Hpar Hora) as [s0 [E [HI _]]].
    rewrite Hi in E. injection E as ->. exact HI.
  - apply (step_facts s o IH Hok).
Qed.

Lemma run_ops_cons s o ops : Inv s -> op_ok o -> run_ops s (o :: ops) = step s o :: run_ops (snd (step s o)) ops.
Proof.
  intros HI Hok. cbn [Model.run_ops]. destruct (step_facts s o HI Hok) as [_ [Hh _]].
  destruct (step s o) as [x s']. cbn [fst snd] in *. rewrite Hh. reflexivity.
Qed.

(* nothing halts: the run is as long as the script, every state satisfies the invariant *)
Theorem run_ops_total ops : forall s, Inv s -> Forall op_ok ops ->
  length (run_ops s ops) = length ops /\
  Forall (fun x => halting (fst x) = false /\ Inv (snd x)) (run_ops s ops).
Proof.
  induction ops as [|o ops IH]; intros s HI Hok; [split; [reflexivity|constructor]|].
  inversion Hok as [|? ? Ho Hops]; subst. rewrite run_ops_cons by assumption.
  destruct (step_facts s o HI Ho) as [HI' [Hh _]].
  destruct (IH _ HI' Hops) as [H1 H2]. cbn [length]. split; [rewrite H1; reflexivity|].
  constructor; [split; assumption|exact H2].
Qed.

(* a block live at the start of a run is disjoint from every block handed out
   during the run, unless it was released before *)
Lemma run_live ops : forall s, Inv s -> Forall op_ok ops ->
  forall mid p2 s2 a2 st2 post, run_ops s ops = mid ++ (RAlloc p2 s2 a2, st2) :: post ->
  forall r1, In r1 (lranges s) -> In (RFree (fst r1) (snd r1)) (map fst mid) \/ disj r1 (p2, s2).
Proof.
  induction ops as [|o ops IH]; intros s HI Hok mid p2 s2 a2 st2 post E r1 Hr1.
  - cbn in E. destruct mid; discriminate.
  - inversion Hok as [|? ? Ho Hops]; subst. rewrite run_ops_cons in E by assumption.
    destruct (step_facts s o HI Ho) as [HI' [_ [Hlive [Halloc _]]]].
    destruct mid as [|m mid]; cbn [app] in E; injection E as E1 E2.
    + right. apply disj_sym. assert (Hx : fst (step s o) = RAlloc p2 s2 a2) by (rewrite E1; reflexivity).
      destruct (Halloc _ _ _ Hx) as [Hd _]. rewrite Forall_forall in Hd. apply Hd, Hr1.
    + cbn [map In]. destruct (Hlive _ Hr1) as [Hin|Hfree].
      * destruct (IH _ HI' Hops _ _ _ _ _ _ E2 _ Hin) as [H|H]; [left; right; exact H|right; exact H].
      * left. left. rewrite <- E1. exact Hfree.
Qed.

Theorem reuse_only_after_free_from ops : forall s, Inv s -> Forall op_ok ops ->
  forall pre p1 s1 a1 st1 mid p2 s2 a2 st2 post,
    run_ops s ops = pre ++ (RAlloc p1 s1 a1, st1) :: mid ++ (RAlloc p2 s2 a2, st2) :: post ->
    In (RFree p1 s1) (map fst mid) \/ disj (p1, s1) (p2, s2).
Proof.
  induction ops as [|o ops IH]; intros s HI Hok pre p1 s1 a1 st1 mid p2 s2 a2 st2 post E.
  - cbn in E. destruct pre; discriminate.
  - inversion Hok as [|? ? Ho Hops]; subst. rewrite run_ops_cons in E by assumption.
    destruct (step_facts s o HI Ho) as [HI' [_ [_ [Halloc _]]]].
    destruct pre as [|m pre]; cbn [app] in E; injection E as E1 E2.
    + assert (Hx : fst (step s o) = RAlloc p1 s1 a1) by (rewrite E1; reflexivity).
      destruct (Halloc _ _ _ Hx) as [_ Hin].
      exact (run_live ops _ HI' Hops _ _ _ _ _ _ E2 _ Hin).
    + exact (IH _ HI' Hops _ _ _ _ _ _ _ _ _ _ _ E2).
Qed.

End Hist.
