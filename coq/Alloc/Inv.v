(* The representation invariant of the allocator model and its preservation by
   add_page, allocate and deallocate, for every page size that is a power of
   two, every node size/alignment, and every page oracle that hands out
   page-aligned pairwise disjoint pages. *)
From Coq Require Import List Arith NArith Lia Bool ZifyBool Permutation.
From DesVerif Require Import Alloc.Model Alloc.Arith.
Import ListNotations.
Open Scope N_scope.

(* the excluded corner: a fresh page leaves a tail of 1 .. nsz-1 bytes.  On such a
   request the code adds pages for ever (Refuted/C15.v); [req_ok] below rules it out. *)
Definition in_band (nsz page s : N) : Prop := s < page /\ page < s + nsz.

(* the parameters: page size and node alignment are powers of two, a node fits a page *)
Record params_ok (nsz nal page : N) : Prop := {
  P_page : pow2 page;
  P_nal : pow2 nal;
  P_nal_le : nal <= page;
  P_nsz_pos : 0 < nsz;
  P_nsz_al : (nal | nsz);
  P_nsz_le : nsz <= page
}.

(* the oracle assumption: the system allocator hands out page-aligned, pairwise disjoint pages *)
Record oracle_ok (base : N -> N) (page : N) : Prop := {
  O_aligned : forall i, (page | base i);
  O_disjoint : forall i j, i <> j -> base i + page <= base j \/ base j + page <= base i
}.

Section Inv.
Variable base : N -> N.
Variables nsz nal page : N.

Local Notation size_align := (size_align nsz nal).
Local Notation lrange := (lrange nsz nal).
Local Notation add_free_region := (add_free_region nsz nal).
Local Notation add_page := (add_page base nsz nal).
Local Notation alloc_from_region := (alloc_from_region nsz).
Local Notation scan := (scan nsz).
Local Notation find_region := (find_region base nsz nal).
Local Notation allocate_f := (allocate_f base nsz nal).
Local Notation deallocate := (deallocate nsz nal).

Definition in_page (ps : list N) (r : region) : Prop := exists p, In p ps /\ sub r (p, page).
Definition lranges (s : st) : list region := map lrange (live s).
Definition ranges (s : st) : list region := free s ++ lranges s.
Definition sum_sizes (l : list (N * layout)) : N := fold_right (fun e acc => snd (lrange e) + acc) 0 l.

Record Inv (s : st) : Prop := {
  I_psz : page_size s = page;
  I_pages : pages s = map (fun i => base (N.of_nat i)) (seq 0 (length (pages s)));
  I_free : Forall (fun r => (nal | fst r) /\ nsz <= snd r /\ in_page (pages s) r) (free s);
  I_live : Forall (fun e => (snd (size_align (snd e)) | fst e) /\ (snd (snd e) | fst e) /\ (nal | fst e) /\
                            in_page (pages s) (lrange e)) (live s);
  I_pd : PD (ranges s);
  I_mem : allocated_mem s = sum_sizes (live s)
}.

(* the guard on a request: power-of-two alignment that a page can satisfy, and
   an adjusted size outside the band (larger than a page is fine: refused) *)
Definition req_ok (l : layout) : Prop :=
  pow2 (snd l) /\ snd l <= page /\ ~ in_band nsz page (fst (size_align l)).

Hypothesis Hpage : pow2 page.
Hypothesis Hnal : pow2 nal.
Hypothesis Hnal_le : nal <= page.
Hypothesis Hnsz_pos : 0 < nsz.
Hypothesis Hnsz_al : (nal | nsz).
Hypothesis Hnsz_le : nsz <= page.
Hypothesis Hbase_al : forall i, (page | base i).
Hypothesis Hbase_disj : forall i j, i <> j -> base i + page <= base j \/ base j + page <= base i.

Lemma perm_snoc {A} (x : A) t X L : Permutation (x :: t ++ X ++ L) ((t ++ X) ++ L ++ [x]).
Proof. rewrite (app_assoc (t ++ X) L [x]), (app_assoc t X L). apply Permutation_cons_append. Qed.

Lemma in_page_mono ps ps' r : incl ps ps' -> in_page ps r -> in_page ps' r.
Proof. intros Hi [p [Hp Hs]]. exists p. split; [apply Hi, Hp|exact Hs]. Qed.

Lemma in_page_sub ps r r' : sub r' r -> in_page ps r -> in_page ps r'.
Proof. intros Hs [p [Hp Hr]]. exists p. split; [exact Hp|eapply sub_trans; eassumption]. Qed.

Lemma ranges_in_page s : Inv s -> Forall (in_page (pages s)) (ranges s).
Proof.
  intros HI. unfold ranges, lranges. apply Forall_app. split.
  - eapply Forall_impl; [|apply (I_free _ HI)]. cbn beta. tauto.
  - apply Forall_map. eapply Forall_impl; [|apply (I_live _ HI)]. cbn beta. tauto.
Qed.

Lemma sum_sizes_app l1 l2 : sum_sizes (l1 ++ l2) = sum_sizes l1 + sum_sizes l2.
Proof. induction l1 as [|x l1 IH]; cbn [app sum_sizes fold_right]; [reflexivity|]. fold (sum_sizes (l1 ++ l2)). fold (sum_sizes l1). lia. Qed.

Lemma sum_sizes_cons e l : sum_sizes (e :: l) = snd (lrange e) + sum_sizes l.
Proof. reflexivity. Qed.

Lemma add_free_region_ok s a sz : (nal | a) -> nsz <= sz ->
  add_free_region s a sz = Some (set_free s ((a, sz) :: free s)).
Proof.
  intros Ha Hs. unfold Model.add_free_region. rewrite (align_up_fix _ _ Hnal Ha), N.eqb_refl. cbn [negb].
  destruct (sz <? nsz) eqn:E; [lia|reflexivity].
Qed.

(* ---- add_page ---- *)
Lemma add_page_spec s : Inv s ->
  let b := base (N.of_nat (length (pages s))) in
  exists s', add_page s = Some s' /\ Inv s' /\ free s' = (b, page) :: free s /\ pages s' = pages s ++ [b] /\
             live s' = live s /\ allocated_mem s' = allocated_mem s.
Proof.
  intros HI b. unfold Model.add_page. fold b. rewrite (I_psz _ HI).
  assert (Hb : (nal | b)).
  { eapply N.divide_trans; [|apply Hbase_al]. apply pow2_divide; assumption. }
  rewrite add_free_region_ok by assumption. eexists. split; [reflexivity|].
  cbn [set_free set_pages free pages live allocated_mem page_size]. split; [|repeat split].
  assert (Hincl : incl (pages s) (pages s ++ [b])) by (intros x Hx; apply in_or_app; left; exact Hx).
  constructor; cbn [set_free set_pages free pages live allocated_mem page_size].
  - apply (I_psz _ HI).
  - rewrite app_length. cbn [length]. rewrite Nat.add_1_r, seq_S, map_app. cbn [map Nat.add].
    rewrite <- (I_pages _ HI). reflexivity.
  - constructor.
    + cbn [fst snd]. split; [exact Hb|]. split; [exact Hnsz_le|].
      exists b. split; [apply in_or_app; right; left; reflexivity|]. unfold sub, rend. cbn [fst snd]. lia.
    + eapply Forall_impl; [|apply (I_free _ HI)]. cbn beta. intros r [H1 [H2 H3]].
      split; [exact H1|]. split; [exact H2|]. eapply in_page_mono; eassumption.
  - eapply Forall_impl; [|apply (I_live _ HI)]. cbn beta. intros e [H1 [H2 [H3 H4]]].
    repeat split; try assumption. eapply in_page_mono; eassumption.
  - unfold ranges, lranges. cbn [free live app PD]. split; [|apply (I_pd _ HI)].
    eapply Forall_impl; [|apply (ranges_in_page _ HI)]. cbn beta. intros r [p [Hp Hs]].
    rewrite (I_pages _ HI) in Hp. apply in_map_iff in Hp. destruct Hp as [i [<- Hi]]. apply in_seq in Hi.
    assert (Hne : N.of_nat (length (pages s)) <> N.of_nat i) by lia.
    specialize (Hbase_disj _ _ Hne). fold b in Hbase_disj.
    unfold disj, sub, rend in *. cbn [fst snd] in *. lia.
  - apply (I_mem _ HI).
Qed.

(* ---- scan / alloc_from_region ---- *)
Lemma scan_spec l size al r a rest : scan l size al = Some (r, a, rest) ->
  exists l1 l2, l = l1 ++ r :: l2 /\ rest = l1 ++ l2 /\ alloc_from_region r size al = Some a.
Proof.
  revert r a rest. induction l as [|x l IH]; intros r a rest; cbn [Model.scan]; [discriminate|].
  destruct (alloc_from_region x size al) as [a0|] eqn:E.
  - intros [= <- <- <-]. exists [], l. repeat split. exact E.
  - destruct (scan l size al) as [[[r' a'] t']|] eqn:Es; [|discriminate].
    intros [= <- <- <-]. destruct (IH _ _ _ eq_refl) as [l1 [l2 [-> [-> H]]]].
    exists (x :: l1), l2. repeat split. exact H.
Qed.

Lemma afr_spec r size al a : pow2 al -> alloc_from_region r size al = Some a ->
  a = align_up (fst r) al /\ fst r <= a /\ a + size <= rend r /\ (al | a) /\
  (rend r - (a + size) = 0 \/ nsz <= rend r - (a + size)).
Proof.
  intros Hal. unfold Model.alloc_from_region, rend.
  destruct (align_up_spec (fst r) al Hal) as [H1 [H2 H3]].
  destruct (fst r + snd r <? align_up (fst r) al + size) eqn:E1; [discriminate|].
  destruct ((0 <? fst r + snd r - (align_up (fst r) al + size)) && (fst r + snd r - (align_up (fst r) al + size) <? nsz)) eqn:E2;
    [discriminate|].
  intros [= <-]. repeat split; try assumption; lia.
Qed.

Lemma afr_fresh b size al : (page | b) -> pow2 al -> al <= page -> size <= page -> ~ in_band nsz page size ->
  alloc_from_region (b, page) size al = Some b.
Proof.
  intros Hb Hal Hle Hs Hband. unfold Model.alloc_from_region. cbn [fst snd].
  assert (Hd : (al | b)) by (apply (N.divide_trans _ page); [apply pow2_divide; assumption|exact Hb]).
  rewrite (align_up_fix _ _ Hal Hd). unfold in_band in Hband.
  destruct (b + page <? b + size) eqn:E1; [lia|].
  destruct ((0 <? b + page - (b + size)) && (b + page - (b + size) <? nsz)) eqn:E2; [lia|reflexivity].
Qed.

Lemma find_region_found f s size al r a rest : scan (free s) size al = Some (r, a, rest) ->
  find_region f s size al = Found (set_free s rest) r a.
Proof. intros H. destruct f; cbn [Model.find_region]; rewrite H; reflexivity. Qed.

(* find_region terminates with any non-zero fuel, adding at most one page *)
Lemma find_region_spec s size al : Inv s -> pow2 al -> al <= page -> size <= page -> ~ in_band nsz page size ->
  exists s0 l1 r l2 a,
    (forall f, find_region (S f) s size al = Found (set_free s0 (l1 ++ l2)) r a) /\ Inv s0 /\ free s0 = l1 ++ r :: l2 /\
    alloc_from_region r size al = Some a /\ live s0 = live s /\ allocated_mem s0 = allocated_mem s /\
    (pages s0 = pages s \/ pages s0 = pages s ++ [base (N.of_nat (length (pages s)))]).
Proof.
  intros HI Hal Hle Hs Hband.
  destruct (scan (free s) size al) as [[[r a] rest]|] eqn:Es.
  - destruct (scan_spec _ _ _ _ _ _ Es) as [l1 [l2 [E1 [-> Ha]]]].
    exists s, l1, r, l2, a. repeat apply conj; try assumption; try reflexivity.
    + intros f. apply find_region_found. exact Es.
    + left. reflexivity.
  - destruct (add_page_spec s HI) as [s0 [E0 [HI0 [Hf0 [Hp0 [Hl0 Hm0]]]]]].
    set (b := base (N.of_nat (length (pages s)))) in *.
    assert (Hfit : alloc_from_region (b, page) size al = Some b) by (apply afr_fresh; try assumption; apply Hbase_al).
    assert (Es0 : scan (free s0) size al = Some ((b, page), b, free s)).
    { rewrite Hf0. cbn [Model.scan]. rewrite Hfit. reflexivity. }
    exists s0, [], (b, page), (free s), b. cbn [app].
    repeat apply conj; try assumption; try reflexivity.
    + intros f. cbn [Model.find_region]. rewrite Es, E0. apply find_region_found. exact Es0.
    + right. exact Hp0.
Qed.

(* ---- allocate ---- *)
Lemma allocate_f_unfold fuel s l :
  allocate_f fuel s l =
  let size := fst (size_align l) in
  let align := snd (size_align l) in
  if page_size s <? size then AErr else
  match find_region fuel s size align with
  | FPanic => APanic
  | FOutOfFuel s' => AOutOfFuel s'
  | Found s1 r alloc_start =>
    let excess_size := fst r + snd r - (alloc_start + size) in
    match (if (0 <? excess_size) && negb (excess_size <? size)
           then add_free_region s1 (alloc_start + size) excess_size else Some s1) with
    | None => APanic
    | Some s2 => AOk (set_mem s2 (allocated_mem s2 + size) (live s2 ++ [(alloc_start, l)])) alloc_start
    end
  end.
Proof. unfold Model.allocate_f. destruct (size_align l) as [size al]. reflexivity. Qed.

(* the state after the block [a, a+size) was carved out of the free region r,
   with the tail [tl] (empty, or the one region behind the block) put back *)
Lemma Inv_carve s0 l1 r l2 a l tl :
  Inv s0 -> free s0 = l1 ++ r :: l2 ->
  let size := fst (size_align l) in
  fst r <= a -> a + size <= rend r ->
  (snd (size_align l) | a) -> (snd l | a) -> (nal | a) -> nsz <= size ->
  (tl = [] \/ (tl = [(a + size, rend r - (a + size))] /\ (nal | a + size) /\ nsz <= rend r - (a + size))) ->
  Inv {| free := tl ++ l1 ++ l2; pages := pages s0; page_size := page_size s0;
         allocated_mem := allocated_mem s0 + size; live := live s0 ++ [(a, l)] |} /\
  Forall (disj (a, size)) (lranges s0).
Proof.
  intros HI Hfree size Hlo Hhi Hal Hreq Hnala Hsz Htl.
  pose proof (I_free _ HI) as HF. rewrite Hfree in HF.
  pose proof (Forall_elt _ _ _ HF) as [Hr1 [Hr2 Hr3]].
  assert (HF' : Forall (fun r => (nal | fst r) /\ nsz <= snd r /\ in_page (pages s0) r) (l1 ++ l2)).
  { apply Forall_app in HF. destruct HF as [HF1 HF2]. inversion HF2; subst. apply Forall_app. split; assumption. }
  pose proof (I_pd _ HI) as HP. unfold ranges in HP. rewrite Hfree in HP.
  assert (HP' : PD (r :: (l1 ++ l2) ++ lranges s0)).
  { eapply PD_perm; [|exact HP]. rewrite <- !app_assoc. cbn [app]. symmetry. apply Permutation_middle. }
  cbn [PD] in HP'. destruct HP' as [HrX HX].
  set (N0 := (a, size)).
  assert (HsubN : sub N0 r) by (unfold sub, rend, N0 in *; cbn [fst snd]; lia).
  assert (HNX : Forall (disj N0) ((l1 ++ l2) ++ lranges s0)) by (eapply Forall_disj_sub; eassumption).
  split.
  - constructor; cbn [free pages page_size allocated_mem live].
    + apply (I_psz _ HI).
    + apply (I_pages _ HI).
    + apply Forall_app. split; [|exact HF'].
      destruct Htl as [->|[-> [Ht1 Ht2]]]; constructor; [|constructor]. cbn [fst snd].
      split; [exact Ht1|]. split; [exact Ht2|]. eapply in_page_sub; [|exact Hr3].
      unfold sub, rend in *. cbn [fst snd]. lia.
    + apply Forall_app. split; [apply (I_live _ HI)|]. constructor; [|constructor]. cbn [fst snd].
      repeat split; try assumption. eapply in_page_sub; [|exact Hr3]. exact HsubN.
    + unfold ranges, lranges. cbn [free live]. rewrite map_app. cbn [map]. change (lrange (a, l)) with N0.
      fold (lranges s0).
      apply PD_perm with (l := N0 :: tl ++ (l1 ++ l2) ++ lranges s0); [apply perm_snoc|].
      destruct Htl as [->|[-> [Ht1 Ht2]]]; cbn [app].
      * cbn [PD]. split; assumption.
      * set (T := (a + size, rend r - (a + size))).
        assert (HsubT : sub T r) by (unfold sub, T, rend in *; cbn [fst snd]; lia).
        cbn [PD]. split; [constructor; [|exact HNX]|split; [eapply Forall_disj_sub; eassumption|exact HX]].
        unfold disj, N0, T, rend. cbn [fst snd]. lia.
    + rewrite sum_sizes_app. cbn [sum_sizes fold_right]. change (snd (lrange (a, l))) with size.
      rewrite (I_mem _ HI). lia.
  - apply Forall_app in HNX. apply HNX.
Qed.

Lemma size_align_al_le l : snd l <= page -> snd (size_align l) <= page.
Proof. cbn [Model.size_align snd]. lia. Qed.

Theorem allocate_spec s l : Inv s -> req_ok l ->
  let size := fst (size_align l) in
  (page < size /\ forall f, allocate_f f s l = AErr) \/
  (size <= page /\ exists s' p,
     (forall f, allocate_f (S f) s l = AOk s' p) /\ Inv s' /\ live s' = live s ++ [(p, l)] /\
     (pages s' = pages s \/ pages s' = pages s ++ [base (N.of_nat (length (pages s)))]) /\
     Forall (disj (p, size)) (lranges s)).
Proof.
  intros HI [Hp2 [Hle Hband]] size.
  destruct (size_align_spec nsz nal Hnal Hnsz_al l Hp2) as (Hal2 & Hnal_al & Hreq_al & Hs_ge & Hs_req & Hs_nal).
  fold size in Hs_ge, Hs_req, Hs_nal, Hband.
  destruct (page <? size) eqn:Epg.
  { left. split; [lia|]. intros f. rewrite allocate_f_unfold. cbn zeta. fold size. rewrite (I_psz _ HI), Epg. reflexivity. }
  right. split; [lia|].
  assert (Hsz : size <= page) by lia.
  destruct (find_region_spec s size _ HI Hal2 (size_align_al_le l Hle) Hsz Hband)
    as (s0 & l1 & r & l2 & a & Hfind & HI0 & Hfree0 & Hafr & Hlive0 & Hmem0 & Hpages0).
  destruct (afr_spec _ _ _ _ Hal2 Hafr) as (_ & Hlo & Hhi & Hala & Hex).
  assert (Hnala : (nal | a)) by (exact (N.divide_trans _ _ _ Hnal_al Hala)).
  assert (Hreqa : (snd l | a)) by (exact (N.divide_trans _ _ _ Hreq_al Hala)).
  assert (Hunf : forall f, allocate_f (S f) s l =
    match (if (0 <? fst r + snd r - (a + size)) && negb (fst r + snd r - (a + size) <? size)
           then add_free_region (set_free s0 (l1 ++ l2)) (a + size) (fst r + snd r - (a + size))
           else Some (set_free s0 (l1 ++ l2))) with
    | None => APanic
    | Some s2 => AOk (set_mem s2 (allocated_mem s2 + size) (live s2 ++ [(a, l)])) a
    end).
  { intros f. rewrite allocate_f_unfold. cbn zeta. fold size. rewrite (I_psz _ HI), Epg, Hfind. reflexivity. }
  unfold rend in *.
  destruct ((0 <? fst r + snd r - (a + size)) && negb (fst r + snd r - (a + size) <? size)) eqn:Etail.
  - assert (Hna : (nal | a + size)) by (apply N.divide_add_r; assumption).
    rewrite add_free_region_ok in Hunf by (try assumption; lia).
    cbn [set_free set_mem free pages page_size allocated_mem live] in Hunf.
    destruct (Inv_carve s0 l1 r l2 a l [(a + size, fst r + snd r - (a + size))] HI0 Hfree0) as [HI' Hd];
      try assumption; try (unfold rend; lia).
    { right. unfold rend. repeat split; try assumption. lia. }
    eexists _, a. split; [exact Hunf|]. split; [exact HI'|].
    cbn [set_free set_mem live pages]. rewrite Hlive0. split; [reflexivity|]. split; [exact Hpages0|].
    unfold lranges in *. rewrite <- Hlive0. exact Hd.
  - cbn [set_free set_mem free pages page_size allocated_mem live] in Hunf.
    destruct (Inv_carve s0 l1 r l2 a l [] HI0 Hfree0) as [HI' Hd];
      try assumption; try (unfold rend; lia).
    { left. reflexivity. }
    eexists _, a. split; [exact Hunf|]. split; [exact HI'|].
    cbn [set_free set_mem live pages]. rewrite Hlive0. split; [reflexivity|]. split; [exact Hpages0|].
    unfold lranges in *. rewrite <- Hlive0. exact Hd.
Qed.

(* ---- deallocate ---- *)
Theorem deallocate_spec s k p l : Inv s -> nth_error (live s) k = Some (p, l) ->
  exists s', deallocate s k = DOk s' p (fst (size_align l)) /\ Inv s' /\
             live s' = remove_nth k (live s) /\ pages s' = pages s.
Proof.
  intros HI Hk. unfold Model.deallocate. rewrite Hk.
  destruct (remove_nth_split _ _ _ Hk) as [la [lb [Ela Erm]]].
  pose proof (I_live _ HI) as HL. rewrite Ela in HL.
  pose proof (Forall_elt _ _ _ HL) as [He1 [He2 [He3 He4]]]. cbn [fst snd] in He1, He2, He3.
  set (size := fst (size_align l)) in *.
  assert (Hmem : allocated_mem s = sum_sizes (la ++ lb) + size).
  { rewrite (I_mem _ HI), Ela, !sum_sizes_app, sum_sizes_cons. change (snd (lrange (p, l))) with size. lia. }
  destruct (allocated_mem s <? size) eqn:E; [lia|].
  assert (Hsz : nsz <= size) by (unfold size; cbn [Model.size_align fst]; lia).
  rewrite add_free_region_ok by assumption. eexists. split; [reflexivity|].
  cbn [set_free set_mem free pages page_size allocated_mem live]. split; [|split; reflexivity].
  constructor; cbn [set_free set_mem free pages page_size allocated_mem live].
  - apply (I_psz _ HI).
  - apply (I_pages _ HI).
  - constructor; [|apply (I_free _ HI)]. cbn [fst snd]. repeat split; assumption.
  - rewrite Erm. apply Forall_app in HL. destruct HL as [HL1 HL2]. inversion HL2; subst. apply Forall_app. split; assumption.
  - pose proof (I_pd _ HI) as HP. unfold ranges, lranges in *. cbn [set_free set_mem free live]. rewrite Erm.
    rewrite Ela in HP. rewrite map_app in *. cbn [map] in HP. change (lrange (p, l)) with (p, size) in HP.
    eapply PD_perm; [|exact HP]. cbn [app].
    rewrite app_assoc. rewrite (app_assoc (free s)). symmetry. apply Permutation_middle.
  - rewrite Erm. lia.
Qed.

(* ---- with_page_size ---- *)
Theorem init_spec : exists s, init base nsz nal page = Some s /\ Inv s /\ live s = [] /\ length (pages s) = 1%nat.
Proof.
  set (e := {| free := []; pages := []; page_size := page; allocated_mem := 0; live := [] |}).
  assert (HIe : Inv e).
  { constructor; cbn; try constructor; reflexivity. }
  destruct (add_page_spec e HIe) as [s [E [HI [_ [Hp [Hl _]]]]]].
  exists s. unfold Model.init. fold e. split; [exact E|]. split; [exact HI|]. split; [exact Hl|]. rewrite Hp. reflexivity.
Qed.

End Inv.

(* The same three statements under the two records, which is how Hist.v and Safety.v
   take them.  Section Inv assumes the fields one by one so that `assumption` and `lia`
   find them in the context; each of its theorems depends on the fields it uses only. *)
Section Bundled.
Variable base : N -> N.
Variables nsz nal page : N.
Hypothesis Hpar : params_ok nsz nal page.
Hypothesis Hora : oracle_ok base page.

Lemma allocate_ok s l : Inv base nsz nal page s -> req_ok nsz nal page l ->
  let size := fst (size_align nsz nal l) in
  (page < size /\ forall f, allocate_f base nsz nal f s l = AErr) \/
  (size <= page /\ exists s' p,
     (forall f, allocate_f base nsz nal (S f) s l = AOk s' p) /\ Inv base nsz nal page s' /\ live s' = live s ++ [(p, l)] /\
     (pages s' = pages s \/ pages s' = pages s ++ [base (N.of_nat (length (pages s)))]) /\
     Forall (disj (p, size)) (lranges nsz nal s)).
Proof. destruct Hpar, Hora. apply allocate_spec; assumption. Qed.

Lemma deallocate_ok s k p l : Inv base nsz nal page s -> nth_error (live s) k = Some (p, l) ->
  exists s', deallocate nsz nal s k = DOk s' p (fst (size_align nsz nal l)) /\ Inv base nsz nal page s' /\
             live s' = remove_nth k (live s) /\ pages s' = pages s.
Proof. destruct Hpar, Hora. apply deallocate_spec; assumption. Qed.

Lemma init_ok : exists s, init base nsz nal page = Some s /\ Inv base nsz nal page s /\ live s = [] /\ length (pages s) = 1%nat.
Proof. destruct Hpar, Hora. apply init_spec; assumption. Qed.
End Bundled.
