(* C09 fresh_after_restart.  What a module keeps across shutdown / restart is made explicit ([kept]); everything
   else of its state is that of a newly created module ([fresh]).  A restart event finds the module in such a
   state and runs on it the very callback the first start runs (at_sim_start), at the time of the restart. *)
From Coq Require Import List NArith Bool Lia.
From DesVerif Require Import Common.Fuel Life.Model Life.Step Life.Trace Life.Inert Life.Restart.
Import ListNotations.
Open Scope N_scope.

(* the pieces that survive Module::reset and the dropping of the tokio runtime: the user struct (here: incarnation
   counter and budget), the time driver's next_wakeup, the JoinHandles given to join / try_join, the stereotype *)
Record kept := { k_inc : N; k_bud : N; k_nw : option N; k_hnd : list (N * N); k_catch : bool }.

Definition fresh (v : kept) (a : bool) : mst :=
  {| active := a; inc := k_inc v; bud := k_bud v; shut := None; nw := k_nw v; timers := []; ready := [];
     hnd := k_hnd v; catchf := k_catch v |}.

Definition kept_of (x : mst) : kept :=
  {| k_inc := inc x; k_bud := bud x; k_nw := nw x; k_hnd := hnd x; k_catch := catchf x |}.
Definition kept0 (c : modcfg) : kept :=
  {| k_inc := 0; k_bud := c_bud c; k_nw := None; k_hnd := []; k_catch := c_catch c |}.

(* a module as first created *)
Lemma mst0_fresh c : mst0 c = fresh (kept0 c) true.
Proof. reflexivity. Qed.

(* consuming a shutdown request leaves exactly a fresh (inactive) module around the kept pieces: no task, no timer,
   no request; the incarnation counter is bumped, next_wakeup is dropped if it is due *)
Lemma shutdown_leaves_fresh c now m w r : shut (w_mod w m) = Some r ->
  w_mod (fst (shutdown_part c now m w)) m =
  fresh {| k_inc := inc (w_mod w m) + 1; k_bud := bud (w_mod w m); k_nw := nw_bump now (nw (w_mod w m));
           k_hnd := hnd (w_mod w m); k_catch := catchf (w_mod w m) |} false.
Proof.
  intros H. unfold shutdown_part. rewrite H. cbn [fst]. rewrite ifse_mod. destruct r; cbn [w_mod set_fes set_fin set_mod]; rewrite N.eqb_refl; reflexivity.
Qed.

(* a panicking Module::reset (it runs under Harness::pass) changes nothing of the shutdown / restart bookkeeping: compared
   with the same module whose reset does not panic, the world differs in the error list only -- one PanicError more,
   whatever the stereotype --, and the record of the event in one item, the reset-panic record *)
Definition with_rsend (c : modcfg) (b : bool) : modcfg :=
  {| c_catch := c_catch c; c_stages := c_stages c; c_bud := c_bud c; c_start := c_start c; c_msg := c_msg c;
     c_tasks := c_tasks c; c_end := c_end c; c_join := c_join c; c_rsend := b |}.

Lemma reset_panic_frame c now m w r : shut (w_mod w m) = Some r ->
  let wa := fst (shutdown_part (with_rsend c false) now m w) in
  fst (shutdown_part (with_rsend c true) now m w) = set_err wa (w_err wa ++ [(0, m)]) /\
  snd (shutdown_part (with_rsend c true) now m w) = snd (shutdown_part (with_rsend c false) now m w) ++ [IResetPanic m].
Proof.
  intros H wa. subst wa. unfold shutdown_part. rewrite H. cbn [fst snd c_rsend with_rsend rpanic]. split; [reflexivity|].
  rewrite <- !app_assoc. cbn [app]. reflexivity.
Qed.

Lemma Down_fresh m w : Down m w -> w_mod w m = fresh (kept_of (w_mod w m)) false.
Proof. intros [a b c d]. destruct (w_mod w m). cbn in *. subst. reflexivity. Qed.

(* the restart callback of a module with one start-up stage: activate, then at_sim_start(0) -- the callback of the
   first start ([start_cb]) with the time of the restart in place of 0 *)
Lemma module_restart_single k c now m s : c_stages c = 1 ->
  module_restart k c now m s =
  fst (at_sim_start k c now m 0 (on_w (fun w => set_mod w m (set_active (w_mod w m) true)) s)).
Proof. intros H. unfold module_restart. rewrite H. reflexivity. Qed.

(* in general: the stages in order, each the first start's callback for that stage, until one returns an error or
   leaves the module inactive *)
Lemma module_restart_stages k c now m s :
  module_restart k c now m s =
  fst (fold_left (fun (acc : xs * bool) stage =>
                    if snd acc then acc
                    else (fst (at_sim_start k c now m stage (fst acc)),
                          snd (at_sim_start k c now m stage (fst acc)) ||
                          negb (active (w_mod (x_w (fst (at_sim_start k c now m stage (fst acc)))) m))))
                 (stage_list (c_stages c))
                 (on_w (fun w => set_mod w m (set_active (w_mod w m) true)) s, false)).
Proof. reflexivity. Qed.

Theorem fresh_after_restart_full sc pre e post m :
  trace sc = pre ++ e :: post -> e_kind e = KLoop (EvRestart m) ->
  exists w1 f1 v, Gen sc w1 pre /\ fes_fetch (w_fes w1) = Some (e_time e, EvRestart m, f1) /\
    (* the module is a fresh one around the kept pieces *)
    w_mod w1 m = fresh v false /\
    (* and the event runs the restart callback on it, inside the usual activate / deactivate / buf_process *)
    let r := around sc (e_time e) m (module_restart (nmods sc) (cfg sc m) (e_time e) m) (set_fes w1 f1) in
    e_items e = snd r ++ [ISample (e_time e) (mask sc (fst r))].
Proof.
  intros E Hk. destruct (restart_step sc pre e post m E Hk) as (w & f & HG & HD & Hf & Hi).
  exists w, f, (kept_of (w_mod w m)). split; [exact HG|]. split; [exact Hf|]. split; [apply Down_fresh, HD|].
  cbn zeta. rewrite Hi. reflexivity.
Qed.
