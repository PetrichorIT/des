(* C09: a shut-down module is inert until its restart.  [Down m w]: module m is inactive, has
   no tasks, no timers and no pending request.  The event that resets m establishes it; only
   an event that (re)starts m ends it; while it holds, no event produces a record of m. *)
From Coq Require Import List NArith Bool Lia.
From DesVerif Require Import Life.Model Life.Base Life.Step Life.Trace.
Import ListNotations.
Open Scope N_scope.

(* ---- reading the trace ---- *)
Definition is_reset (m : N) (i : item) : bool := match i with IReset m' _ _ => m' =? m | _ => false end.
Definition resets (m : N) (e : erec) : bool := existsb (is_reset m) (e_items e).

(* the record (re)starts m: its restart event, or stage 0 of the initial start-up *)
Definition starts (m : N) (e : erec) : bool :=
  match e_kind e with
  | KLoop (EvRestart m') => m' =? m
  | KStart st m' => (st =? 0) && (m' =? m)
  | _ => false
  end.

Definition down_step (m : N) (d : bool) (e : erec) : bool :=
  if resets m e then true else if starts m e then false else d.

(* after the trace [tr], module m has been reset (shut down) and not (re)started since *)
Definition down_after (m : N) (tr : list erec) : bool := fold_left (down_step m) tr false.

(* a message handler, a task step or a timer completion of module m *)
Definition is_run (m : N) (i : item) : bool :=
  match i with
  | ICall m' (CbMsg _) _ _ | ICall m' (CbTask _ _) _ _ | ICall m' (CbTimer _ _) _ _ => m' =? m
  | _ => false
  end.

Definition of_mod (m : N) (i : item) : bool :=
  match item_mod i with Some m' => m' =? m | None => false end.

Lemma is_run_of_mod m i : is_run m i = true -> of_mod m i = true.
Proof. destruct i as [m' c t a| | | | | | | | | | | | |]; try discriminate. destruct c; try discriminate; exact (fun H => H). Qed.

Lemma own_not_of_mod m1 m l : Own m1 l -> m1 <> m -> forallb (fun i => negb (of_mod m i)) l = true.
Proof.
  intros Ho Hn. apply forallb_forall. intros i Hi. unfold Own in Ho. rewrite Forall_forall in Ho.
  unfold of_mod. rewrite (Ho i Hi). apply N.eqb_neq in Hn. rewrite Hn. reflexivity.
Qed.

Lemma own_no_reset m1 m l : Own m1 l -> m1 <> m -> existsb (is_reset m) l = false.
Proof.
  intros Ho Hn. apply not_true_is_false. intros H. apply existsb_exists in H. destruct H as (i & Hi & Hr).
  unfold Own in Ho. rewrite Forall_forall in Ho. specialize (Ho i Hi).
  destruct i; try discriminate. cbn in Ho, Hr. apply N.eqb_eq in Hr. congruence.
Qed.

Lemma usr_no_reset m1 m l : Forall (Usr m1) l -> existsb (is_reset m) l = false.
Proof.
  intros Hu. apply not_true_is_false. intros H. apply existsb_exists in H. destruct H as (i & Hi & Hr).
  rewrite Forall_forall in Hu. destruct (Hu i Hi) as [_ Hs]. destruct i; discriminate.
Qed.

(* ---- the state of a module that is down ---- *)
Record Down (m : N) (w : world) : Prop := {
  dn_active : active (w_mod w m) = false;
  dn_ready : ready (w_mod w m) = [];
  dn_timers : timers (w_mod w m) = [];
  dn_shut : shut (w_mod w m) = None }.

Lemma Down_ext m w w' : w_mod w' m = w_mod w m -> Down m w -> Down m w'.
Proof. intros E [a b c d]. constructor; rewrite E; assumption. Qed.

Lemma activate_mod_down now m w : Down m w ->
  w_mod (activate now m w) m = set_nw (w_mod w m) (nw_bump now (nw (w_mod w m))).
Proof.
  intros [a b c d]. unfold activate. rewrite c. cbn [split_due]. wsimpl. rewrite N.eqb_refl.
  rewrite b. destruct (w_mod w m); cbn in *. subst. reflexivity.
Qed.

Lemma activate_down now m w : Down m w -> Down m (activate now m w).
Proof. intros H. pose proof H as [a b c d]. constructor; rewrite activate_mod_down by exact H; assumption. Qed.

Lemma deactivate_mod_down m w : Down m w -> w_mod (deactivate m w) m = w_mod w m.
Proof. intros [a b c d]. unfold deactivate. rewrite c. reflexivity. Qed.

Lemma deactivate_down m w : Down m w -> Down m (deactivate m w).
Proof. intros H. eapply Down_ext; [apply deactivate_mod_down, H|exact H]. Qed.

Lemma buf_process_down c now m w : Down m w ->
  Down m (fst (buf_process c now m w)) /\ snd (buf_process c now m w) = [].
Proof.
  intros H. pose proof H as [a b c' d]. unfold buf_process, shutdown_part. wsimpl. rewrite d. cbn [fst snd].
  split; [|reflexivity]. eapply Down_ext; [|exact H]. reflexivity.
Qed.

(* the event that consumes a request of m leaves m down *)
Lemma shutdown_part_resets c now m w m' :
  existsb (is_reset m') (snd (shutdown_part c now m w)) = true -> m' = m /\ Down m (fst (shutdown_part c now m w)).
Proof.
  intros H. destruct (N.eq_dec m m') as [<-|E]; [|rewrite (own_no_reset m m' _ (shutdown_part_own c now m w) E) in H; discriminate].
  split; [reflexivity|]. destruct (shut (w_mod w m)) as [r|] eqn:Es.
  - destruct (shutdown_frame c now m w r Es) as (_ & _ & _ & _ & _ & a & b & c' & d). constructor; assumption.
  - unfold shutdown_part in H. rewrite Es in H. discriminate.
Qed.

Lemma buf_process_resets c now m w m' :
  existsb (is_reset m') (snd (buf_process c now m w)) = true -> m' = m /\ Down m (fst (buf_process c now m w)).
Proof. apply shutdown_part_resets. Qed.

Lemma around_resets sc now m f w m' : CbOK m f ->
  existsb (is_reset m') (snd (around sc now m f w)) = true -> m' = m /\ Down m (fst (around sc now m f w)).
Proof.
  intros Hf H. rewrite around_log, existsb_app, (usr_no_reset m m' _ (cb_log m f _ Hf)), orb_false_l in H.
  rewrite around_world. exact (buf_process_resets _ _ _ _ _ H).
Qed.

(* ---- callbacks on a module that is down ---- *)
Definition no_run (m : N) (l : list item) : Prop := forallb (fun i => negb (is_run m i)) l = true.

Lemma start_cb_down sc stage m s : stage <> 0 -> Down m (x_w s) ->
  Down m (x_w (start_cb sc stage m s)) /\
  x_log (start_cb sc stage m s) = x_log s ++ [ICall m (CbStart stage) 0 false].
Proof.
  intros Hst H. pose proof H as [a b c d]. unfold start_cb, at_sim_start.
  apply N.eqb_neq in Hst. rewrite Hst. unfold exec, spawn_all, spawn_items. cbn [combine seq length map run_prog].
  unfold poll_ready. wsimpl. rewrite !N.eqb_refl. wsimpl. rewrite b. cbn [app fold_left catch fst].
  wsimpl. rewrite a, !app_nil_r. split; [|reflexivity].
  constructor; cbn [w_mod set_mod]; rewrite !N.eqb_refl; cbn [active ready timers shut set_ready set_hnd]; first [assumption|reflexivity].
Qed.

(* ---- one step ---- *)
Lemma around_down sc now m f w : Down m w ->
  (forall s, Down m (x_w s) -> Down m (x_w (f s))) ->
  Down m (fst (around sc now m f w)) /\
  snd (around sc now m f w) = x_log (f {| x_w := activate now m w; x_log := [] |}).
Proof.
  intros H Hf. rewrite around_world, around_log.
  destruct (buf_process_down (cfg sc m) now m (deactivate m (x_w (f {| x_w := activate now m w; x_log := [] |})))) as [H1 H2].
  { apply deactivate_down, Hf, activate_down, H. }
  rewrite H2, app_nil_r. auto.
Qed.

Lemma around_inert sc now m f w : Down m w -> (forall s, active (w_mod (x_w s) m) = false -> f s = s) ->
  Down m (fst (around sc now m f w)) /\ snd (around sc now m f w) = [].
Proof.
  intros H Hf. destruct (around_down sc now m f w H) as [H1 H2].
  - intros s Hs. rewrite Hf; [exact Hs|apply Hs].
  - split; [exact H1|]. rewrite H2, Hf; [reflexivity|apply (activate_down now m w H)].
Qed.

Lemma around_down_oth sc now m1 f w m : CbOK m1 f -> m1 <> m -> Down m w ->
  Down m (fst (around sc now m1 f w)) /\ forallb (fun i => negb (of_mod m i)) (snd (around sc now m1 f w)) = true.
Proof.
  intros Hf Hn Hd. split; [eapply Down_ext; [|exact Hd]; apply around_oth; auto|].
  apply (own_not_of_mod m1 m _ (around_own sc now m1 f w Hf) Hn).
Qed.

Lemma not_of_mod_no_run m l : forallb (fun i => negb (of_mod m i)) l = true -> no_run m l.
Proof.
  intros H. unfold no_run. apply forallb_forall. intros i Hi. rewrite forallb_forall in H. specialize (H i Hi).
  destruct (is_run m i) eqn:Er; [|reflexivity]. apply is_run_of_mod in Er. rewrite Er in H. discriminate.
Qed.

(* a tear-down record *)
Definition is_end (e : erec) : bool := match e_kind e with KEnd _ => true | _ => false end.

Lemma gen_no_end sc : forall w tr, Gen sc w tr -> filter (fun e => negb (is_end e)) tr = tr.
Proof.
  apply (gen_inv sc (fun _ tr => filter (fun e => negb (is_end e)) tr = tr)); [reflexivity|].
  intros w tr e w' _ IH Hs. rewrite filter_app, IH. destruct Hs; reflexivity.
Qed.

Lemma end_seq_all_end sc now : forall ms w, filter (fun e => negb (is_end e)) (snd (end_seq sc now ms w)) = [].
Proof.
  intros ms w. induction (end_seq_forall sc now (fun e => is_end e = true) (fun i w0 => f_equal is_end (end_rec_snd sc now i w0)) ms w)
    as [|e l He _ IH]; cbn [filter]; [reflexivity|]. rewrite He. exact IH.
Qed.

(* a step that does not (re)start m keeps m down and produces no record of m at all: the start-up
   sweep skips inactive modules, message and wake-up events of an inactive module do nothing *)
Lemma step_down sc w e w' m : step sc w e w' -> Down m w -> starts m e = false ->
  Down m w' /\ forallb (fun i => negb (of_mod m i)) (e_items e) = true.
Proof.
  intros Hs. pattern w, e, w'. revert w e w' Hs. apply step_cases.
  - intros stage m1 w _ Hactive Hd _. cbn [e_items].
    apply around_down_oth; [apply start_cb_ok| |exact Hd]. intros ->. rewrite (dn_active _ _ Hd) in Hactive. discriminate.
  - intros w Hd _. split; [exact Hd|reflexivity].
  - intros w t ev f m1 cb _ E Hd Hst. cbn [e_items]. rewrite forallb_app. cbn [forallb of_mod item_mod negb]. rewrite andb_true_r.
    pose proof (callback_ok _ _ _ _ _ E) as Hok.
    assert (Hd' : Down m (set_fes w f)) by (eapply Down_ext; [|exact Hd]; reflexivity).
    destruct (N.eq_dec m1 m) as [->|Hn]; [|apply around_down_oth; assumption].
    destruct (around_inert sc t m cb (set_fes w f) Hd') as [H1 H2]; [|rewrite H2; auto].
    intros s. apply (callback_inactive sc m t ev cb s E). intros ->. cbn [starts e_kind] in Hst. rewrite N.eqb_refl in Hst. discriminate.
  - intros w t m1 far x f w1 _ Hw Hd _. split; [|reflexivity].
    eapply Down_ext; [|exact Hd]. destruct Hw as [->|(dst & ->)]; reflexivity.
Qed.

Lemma step_resets sc w e w' m : step sc w e w' -> resets m e = true -> Down m w'.
Proof.
  intros Hs. unfold resets. pattern w, e, w'. revert w e w' Hs. apply step_cases; cbn [e_items]; try discriminate.
  - intros stage m1 w _ _ Hr. destruct (around_resets sc 0 m1 _ w m (start_cb_ok _ _ _ _ _) Hr) as [-> H]. exact H.
  - intros w t ev f m1 cb _ E Hr. rewrite existsb_app in Hr. cbn [existsb is_reset] in Hr. rewrite !orb_false_r in Hr.
    destruct (around_resets sc t m1 cb (set_fes w f) m (callback_ok _ _ _ _ _ E) Hr) as [-> H]. exact H.
Qed.

(* the trace-level flag implies the state-level fact *)
Lemma down_after_snoc m tr e : down_after m (tr ++ [e]) = down_step m (down_after m tr) e.
Proof. unfold down_after. rewrite fold_left_app. reflexivity. Qed.

Lemma gen_down sc m : forall w tr, Gen sc w tr -> down_after m tr = true -> Down m w.
Proof.
  apply (gen_inv sc (fun w tr => down_after m tr = true -> Down m w)); [discriminate|].
  intros w tr e w' HG IH Hs. rewrite down_after_snoc. unfold down_step.
  destruct (resets m e) eqn:Er; [intros _; eapply step_resets; eauto|].
  destruct (starts m e) eqn:Est; [discriminate|]. intros Hd. eapply (proj1 (step_down sc w e w' m Hs (IH Hd) Est)).
Qed.

Lemma end_rec_resets sc now m1 w m : resets m (snd (end_rec sc now m1 w)) = false.
Proof. apply (usr_no_reset m1 m), end_rec_usr. Qed.

Lemma end_rec_starts sc now m1 w m : starts m (snd (end_rec sc now m1 w)) = false.
Proof. rewrite end_rec_snd. reflexivity. Qed.

Lemma end_seq_down_after sc now m ms w d : fold_left (down_step m) (snd (end_seq sc now ms w)) d = d.
Proof.
  apply fold_left_fixed, end_seq_forall. intros m1 w1 d1. unfold down_step. rewrite end_rec_resets, end_rec_starts. reflexivity.
Qed.

(* a module without woken tasks: a callback that spawns nothing polls nothing, so apart from the callback's own
   call record the log has no call record *)
Lemma poll_ready_idle k now m s : ready (w_mod (x_w s) m) = [] ->
  poll_ready k now m s = on_w (fun w => set_mod w m (set_ready (w_mod w m) [])) s.
Proof. intros H. unfold poll_ready. rewrite H. reflexivity. Qed.

Lemma exec_idle k now m c p s : ready (w_mod (x_w s) m) = [] ->
  ready (w_mod (x_w (fst (exec k now m c [] p s))) m) = [] /\
  LogExtP (UsrC m (fun _ => False)) (say (ICall m c now (active (w_mod (x_w s) m))) s) (fst (exec k now m c [] p s)).
Proof.
  intros Hr. unfold exec.
  match goal with |- context [run_prog false k now m 0 p ?s0] =>
    pose proof (run_prog_LogExt (fun _ => False) false k now m 0 p s0) as HL;
    pose proof (fp_ready _ _ _ (run_prog_FrP false k now m 0 p s0)) as HF; destruct (run_prog false k now m 0 p s0) as [s2 r] end.
  cbn [fst] in HL, HF. unfold spawn_all in HF. cbn [say say_all on_w x_w length seq combine map] in HF.
  rewrite mod_same in HF. cbn [ready set_ready set_hnd] in HF. rewrite Hr in HF. cbn [app] in HF.
  assert (H0 : LogExtP (UsrC m (fun _ => False)) (say (ICall m c now (active (w_mod (x_w s) m))) s) s2).
  { eapply LogExt_trans; [apply LogExt_on_w|]. eapply LogExt_trans; [apply LogExt_say_all; constructor|exact HL]. }
  assert (H1 : ready (w_mod (x_w (on_w (fun w => set_mod w m (set_ready (w_mod w m) [])) s2)) m) = [] /\
               LogExtP (UsrC m (fun _ => False)) (say (ICall m c now (active (w_mod (x_w s) m))) s)
                       (on_w (fun w => set_mod w m (set_ready (w_mod w m) [])) s2)).
  { split; [cbn [on_w x_w]; rewrite mod_same; reflexivity|eapply LogExt_trans; [exact H0|apply LogExt_on_w]]. }
  destruct r; cbn [fst]; rewrite ?poll_ready_idle, ?HF by exact HF; auto.
Qed.

Lemma no_call_no_run m m' l : Forall (UsrC m (fun _ => False)) l -> no_run m' l.
Proof.
  intros H. apply forallb_forall. intros i Hi. rewrite Forall_forall in H. destruct (H i Hi) as [_ Hc].
  destruct i; try reflexivity. destruct Hc.
Qed.

(* ---- tear-down records of a module that is down ---- *)
Lemma end_rec_down sc now m w : Down m w -> no_run m (e_items (snd (end_rec sc now m w))).
Proof.
  intros Hd. pose proof (activate_down now m w Hd) as [_ b _ _].
  rewrite end_rec_snd. cbn [e_items]. unfold at_sim_end.
  destruct (exec_idle (nmods sc) now m CbEnd (c_end (cfg sc m)) {| x_w := activate now m w; x_log := [] |} b) as [R1 (l & Hl & Al)].
  destruct (exec (nmods sc) now m CbEnd [] (c_end (cfg sc m)) {| x_w := activate now m w; x_log := [] |}) as [s1 p]. cbn [fst] in R1, Hl.
  assert (Hn : no_run m (x_log s1)) by (rewrite Hl; apply (no_call_no_run m m l Al)).
  assert (R2 : ready (w_mod (fst (catch (cfg sc m) m p (x_w s1))) m) = []).
  { unfold catch. destruct p; [|exact R1]. destruct (catchf (w_mod (x_w s1) m)); cbn [fst set_err w_mod]; rewrite mod_same; exact R1. }
  destruct (catch (cfg sc m) m p (x_w s1)) as [w2 e]. cbn [fst] in R2. destruct e; [exact Hn|].
  rewrite poll_ready_idle by exact R2. exact Hn.
Qed.

(* ---- C09 inert_while_down ---- *)
Theorem inert_while_down sc m pre e post :
  trace sc = pre ++ e :: post -> down_after m pre = true -> starts m e = false ->
  no_run m (e_items e) /\
  (is_end e = false -> forallb (fun i => negb (of_mod m i)) (e_items e) = true).
Proof.
  intros E Hd Hst.
  destruct (trace_cases sc pre e post E) as [(w1 & w2 & HG & Hs)|(w & tr & now & ms1 & m1 & ms2 & HG & _ & Ems & -> & ->)].
  - destruct (step_down sc w1 e w2 m Hs (gen_down sc m w1 pre HG Hd) Hst) as [_ H]. split; [apply not_of_mod_no_run, H|intros _; exact H].
  - (* a tear-down record *)
    split; [|discriminate].
    assert (Hdw : Down m w).
    { apply (gen_down sc m w tr HG). unfold down_after in *. rewrite fold_left_app, end_seq_down_after in Hd. exact Hd. }
    destruct (N.eq_dec m1 m) as [->|Hn].
    + apply end_rec_down. eapply Down_ext; [|exact Hdw]. apply (end_seq_mod sc now ms1 m ms2 w Ems).
    + apply not_of_mod_no_run. apply (own_not_of_mod m1 m); [apply end_rec_own|exact Hn].
Qed.
