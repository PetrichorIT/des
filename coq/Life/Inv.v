(* One invariant of the script interpreter, carried through every callback of an event of
   module m.  It ties the samples written into the log to the state they were taken from:
   - every call record carries active = true unless the callback of this event panicked before
     (C09 handler_runs_only_if_active),
   - every task record carries the module's current incarnation, as do all live tasks
     (C09 old_incarnation_silent),
   - a shutdown request is pending iff the log of the event holds a request record
     (C09 reset_once_per_shutdown). *)
From Coq Require Import List NArith Bool Lia.
From DesVerif Require Import Life.Model Life.Base Life.Step Life.Strip.
Import ListNotations.
Open Scope N_scope.

(* ---- reading one event's log ---- *)
(* [act_st p l]: scan l; p = "the callback panicked before"; None = some call record carries
   active = false although nothing panicked before it *)
Fixpoint act_st (p : bool) (l : list item) : option bool :=
  match l with
  | [] => Some p
  | ICall _ _ _ a :: r => if a || p then act_st p r else None
  | IPanic _ 0 _ :: r => act_st true r
  | _ :: r => act_st p r
  end.

Lemma act_st_app p a : forall b, act_st p (a ++ b) = match act_st p a with Some q => act_st q b | None => None end.
Proof.
  revert p. induction a as [|i a IH]; intros p b; cbn [app act_st]; [reflexivity|].
  destruct i as [m c t x| | | | | |m who cc| | | | | | |]; try apply IH.
  - destruct (x || p); [apply IH|reflexivity].
  - destruct who; apply IH.
Qed.

Definition tag_ok (j : N) (i : item) : Prop :=
  match i with
  | ICall _ (CbTask _ j') _ _ | ICall _ (CbTimer _ j') _ _ => j' = j
  | _ => True
  end.

Definition is_req (i : item) : bool := match i with IShut _ _ _ | IQuiet _ => true | _ => false end.

Definition some_b {A} (o : option A) : bool := match o with Some _ => true | None => false end.

(* the request standing after a log (the last shutdown()/restart_in() wins; quiet keeps an earlier one) *)
Definition shut_step (now : N) (acc : option (option N)) (i : item) : option (option N) :=
  match i with
  | IShut _ _ None => Some None
  | IShut _ _ (Some d) => Some (Some (now + d))
  | IQuiet _ => match acc with Some r => Some r | None => Some None end
  | _ => acc
  end.
Definition shut_of (now : N) (l : list item) : option (option N) := fold_left (shut_step now) l None.

Lemma shut_of_snoc now l i : shut_of now (l ++ [i]) = shut_step now (shut_of now l) i.
Proof. unfold shut_of. rewrite fold_left_app. reflexivity. Qed.

Lemma shut_of_req now l : some_b (shut_of now l) = existsb is_req l.
Proof.
  unfold shut_of. change (existsb is_req l) with (some_b (@None (option N)) || existsb is_req l). generalize (@None (option N)).
  induction l as [|i l IH]; intros acc; cbn [fold_left existsb]; [symmetry; apply orb_false_r|].
  rewrite IH, orb_assoc. f_equal. destruct i as [| | | | |mm ww [dd|]| | | | | | | |], acc; reflexivity.
Qed.

(* The invariant inside a callback of module m at time now, j the incarnation.  [b] says whether the clause about
   the active flags of the call records (ci_act, what C09 handler_runs_only_if_active reads) is tracked: it is switched on
   at the start of an event of an active module, while the log is still empty ([CInv_strengthen]), and read off at the
   end ([CInv_out]); b = false in events of an inactive module and during tear-down ([CInv_weaken]). *)
Record CInv (b : bool) (now m j : N) (s : xs) : Prop := {
  ci_inc : inc (w_mod (x_w s) m) = j;
  ci_ready : Forall (fun tk => tk_inc tk = j) (ready (w_mod (x_w s) m));
  ci_timers : Forall (fun p => tk_inc (snd p) = j) (timers (w_mod (x_w s) m));
  ci_tags : Forall (tag_ok j) (x_log s);
  ci_act : b = true -> exists p, act_st false (x_log s) = Some p /\ (active (w_mod (x_w s) m) = true \/ p = true);
  ci_shut : shut (w_mod (x_w s) m) = shut_of now (x_log s) }.

(* a record that is neither a call, nor a callback panic, nor a request *)
Definition plain (i : item) : bool :=
  match i with ICall _ _ _ _ | IPanic _ 0 _ | IShut _ _ _ | IQuiet _ => false | _ => true end.

Lemma act_st_plain i p : plain i = true -> act_st p [i] = Some p.
Proof. destruct i as [| | | | | |m who cc| | | | | | |]; try discriminate; try reflexivity. destruct who; [discriminate|reflexivity]. Qed.

Lemma plain_tag j i : plain i = true -> tag_ok j i.
Proof. destruct i; try discriminate; exact (fun _ => I). Qed.

(* the world may change as long as the fields the invariant reads stay put *)
Lemma CInv_world b now m j s w' :
  inc (w_mod w' m) = inc (w_mod (x_w s) m) -> ready (w_mod w' m) = ready (w_mod (x_w s) m) ->
  timers (w_mod w' m) = timers (w_mod (x_w s) m) -> active (w_mod w' m) = active (w_mod (x_w s) m) ->
  shut (w_mod w' m) = shut (w_mod (x_w s) m) ->
  CInv b now m j s -> CInv b now m j {| x_w := w'; x_log := x_log s |}.
Proof.
  intros e1 e2 e3 e4 e5 [a b0 c d e g]. constructor; cbn [x_w x_log]; rewrite ?e1, ?e2, ?e3, ?e4, ?e5; assumption.
Qed.

Lemma CInv_say_plain b now m j i s : plain i = true -> CInv b now m j s -> CInv b now m j (say i s).
Proof.
  intros Hp [a b0 c d e g]. constructor; cbn [say x_w x_log]; try assumption.
  - apply Forall_app. split; [exact d|constructor; [apply plain_tag, Hp|constructor]].
  - intros Hb. destruct (e Hb) as (p & e1 & e2). exists p. rewrite act_st_app, e1, (act_st_plain i p Hp). auto.
  - rewrite shut_of_snoc, <- g. destruct i as [| | | | |mm ww [dd|]| | | | | | | |]; try discriminate; reflexivity.
Qed.

Lemma FrP_shut_inv b now m j s w' : FrP m (x_w s) w' -> shut (w_mod w' m) = shut (w_mod (x_w s) m) ->
  CInv b now m j s -> CInv b now m j {| x_w := w'; x_log := x_log s |}.
Proof.
  intros [[_ _ _ _ fa fi _ _] ft fr _] Hs. apply CInv_world; assumption.
Qed.

Lemma spend_shut m w : shut (w_mod (spend m w) m) = shut (w_mod w m).
Proof. unfold spend. rewrite mod_same. reflexivity. Qed.

Lemma CInv_req_item b now m j s i w' :
  is_req i = true -> FrP m (x_w s) w' ->
  shut (w_mod w' m) = shut_step now (shut (w_mod (x_w s) m)) i ->
  CInv b now m j s -> CInv b now m j (say i {| x_w := w'; x_log := x_log s |}).
Proof.
  intros Hr [[_ _ _ _ fa fi _] ft fr _] Hs [a b0 c d e g].
  constructor; cbn [say x_w x_log]; rewrite ?fi, ?fr, ?ft, ?fa; try assumption.
  - apply Forall_app; split; [exact d|constructor; [destruct i; try discriminate; exact I|constructor]].
  - intros Hb. destruct (e Hb) as (p & e1 & e2). exists p. rewrite act_st_app, e1.
    destruct i; try discriminate; cbn [act_st]; auto.
  - rewrite Hs, shut_of_snoc, g. reflexivity.
Qed.

Lemma do_act_CInv b k now m who a j s : CInv b now m j s -> CInv b now m j (do_act k now m who a s).
Proof.
  intros H. destruct a; cbn [do_act]; try exact H; try (destruct (broke m s); [exact H|]).
  - apply CInv_say_plain; [reflexivity|exact H].
  - apply CInv_say_plain; [reflexivity|]. apply FrP_shut_inv; [|rewrite buf_send_at_mod; apply spend_shut|exact H].
    eapply FrP_trans; [apply FrP_spend|apply FrP_buf_send_at].
  - apply CInv_say_plain; [reflexivity|]. apply FrP_shut_inv; [|apply spend_shut|exact H].
    eapply FrP_trans; [apply FrP_spend|apply FrP_buf_push; exact I].
  - apply (CInv_req_item b now m j s (IShut m who None) (request m None (spend m (x_w s)))); [reflexivity| | |exact H].
    + eapply FrP_trans; [apply FrP_spend|apply FrP_request].
    + unfold request. rewrite mod_same. reflexivity.
  - apply (CInv_req_item b now m j s (IShut m who (Some d)) (request m (Some (now + d)) (spend m (x_w s)))); [reflexivity| | |exact H].
    + eapply FrP_trans; [apply FrP_spend|apply FrP_request].
    + unfold request. rewrite mod_same. reflexivity.
  - apply CInv_say_plain; [reflexivity|]. apply FrP_shut_inv; [apply FrP_set; reflexivity|rewrite mod_same; reflexivity|exact H].
Qed.

Lemma quiet_CInv b now m j s : CInv b now m j s -> CInv b now m j (quiet m s).
Proof.
  intros H. unfold quiet. destruct (shut (w_mod (x_w s) m)) as [r|] eqn:Es.
  - destruct s as [w l]. apply (CInv_req_item b now m j {| x_w := w; x_log := l |} (IQuiet m) w); [reflexivity|apply FrP_refl| |exact H].
    cbn [x_w] in *. rewrite Es. reflexivity.
  - apply (CInv_req_item b now m j s (IQuiet m) (request m None (x_w s))); [reflexivity|apply FrP_request| |exact H].
    unfold request. rewrite mod_same, Es. reflexivity.
Qed.

(* a callback panic is recorded in the scan state *)
Definition panicked_st (s : xs) : Prop := act_st false (x_log s) = Some true.

Lemma run_prog_CInv b tk k now m who j : (tk = true -> who <> 0) -> (tk = false -> who = 0) -> forall p s, CInv b now m j s ->
  CInv b now m j (fst (run_prog tk k now m who p s)) /\
  (b = true -> tk = false -> snd (run_prog tk k now m who p s) = RPanic -> panicked_st (fst (run_prog tk k now m who p s))).
Proof.
  intros Hw Hw0. induction p as [|a p IH]; intros s H; cbn [run_prog fst snd]; [split; [exact H|discriminate]|].
  destruct a; try (apply IH, do_act_CInv, H).
  - destruct (tk && (0 <? d)); cbn [fst snd]; [split; [exact H|discriminate]|apply IH, H].
  - cbn [fst snd]. destruct tk.
    + split; [|discriminate]. apply CInv_say_plain; [|exact H]. specialize (Hw eq_refl). destruct who; [contradiction|reflexivity].
    + rewrite (Hw0 eq_refl) in *. destruct H as [a b0 c d e g]. split.
      * constructor; cbn [say x_w x_log]; try assumption.
        -- apply Forall_app. split; [exact d|constructor; [exact I|constructor]].
        -- intros Hb. destruct (e Hb) as (p0 & e1 & e2). exists true. rewrite act_st_app, e1. cbn [act_st]. auto.
        -- rewrite shut_of_snoc, <- g. reflexivity.
      * intros Hb _ _. destruct (e Hb) as (p0 & e1 & e2). unfold panicked_st. cbn [say x_log]. rewrite act_st_app, e1. reflexivity.
  - destruct tk; cbn [fst snd]; [apply IH, H|]. split; [apply quiet_CInv, H|discriminate].
Qed.

(* ---- tasks ---- *)
Lemma tins_forall (P : N * task -> Prop) t tk : forall l, P (t, tk) -> Forall P l -> Forall P (tins t tk l).
Proof.
  intros l. apply (ins_forall tins); reflexivity.
Qed.

Lemma CInv_call b m j s c now : tag_ok j (ICall m c now (active (w_mod (x_w s) m))) ->
  CInv b now m j s -> CInv b now m j (say (ICall m c now (active (w_mod (x_w s) m))) s).
Proof.
  intros Ht [a b0 c0 d e g]. constructor; cbn [say x_w x_log]; try assumption.
  - apply Forall_app. split; [exact d|constructor; [exact Ht|constructor]].
  - intros Hb. destruct (e Hb) as (p & e1 & e2). exists p. rewrite act_st_app, e1. cbn [act_st]. destruct e2 as [-> | ->]; [|rewrite orb_true_r]; auto.
  - rewrite shut_of_snoc, <- g. reflexivity.
Qed.

Lemma end_task_CInv b now m j how s tk : CInv b now m j s -> CInv b now m j (end_task m how s tk).
Proof.
  intros H. unfold end_task. apply CInv_say_plain; [reflexivity|]. destruct s as [w1 l1].
  apply (CInv_world b now m j {| x_w := w1; x_log := l1 |}); try exact H; reflexivity.
Qed.

Lemma fold_end_task_CInv b now m j : forall l s, CInv b now m j s -> CInv b now m j (fold_left (end_task m 0) l s).
Proof. induction l as [|tk l IH]; intros s H; cbn [fold_left]; [exact H|]. apply IH, end_task_CInv, H. Qed.

Lemma poll1_CInv b k now m j s tk : tk_inc tk = j -> CInv b now m j s -> CInv b now m j (poll1 k now m s tk).
Proof.
  intros Hj H. unfold poll1.
  assert (H0 : CInv b now m j (say (ICall m (if tk_new tk then CbTask (tk_id tk) (tk_inc tk) else CbTimer (tk_id tk) (tk_inc tk)) now
                                     (active (w_mod (x_w s) m))) s))
    by (apply CInv_call; [destruct (tk_new tk); exact Hj|exact H]).
  assert (Hw : true = true -> 1 + tk_id tk <> 0) by (intros _; lia).
  assert (Hw0 : true = false -> 1 + tk_id tk = 0) by discriminate.
  match goal with |- context [run_prog true k now m ?who ?p ?s0] =>
    destruct (run_prog_CInv b true k now m who j Hw Hw0 p s0 H0) as [H1 _];
    destruct (run_prog true k now m who p s0) as [s1 r] end.
  cbn [fst] in H1. destruct r; try (apply end_task_CInv; exact H1).
  - destruct H1 as [a b0 c d0 e g]. constructor; cbn [on_w x_w x_log]; rewrite ?mod_same; cbn [inc ready timers active shut set_timers]; try assumption.
    apply tins_forall; [exact Hj|exact c].
Qed.

Lemma fold_poll1_CInv b k now m j : forall l s, Forall (fun tk => tk_inc tk = j) l -> CInv b now m j s ->
  CInv b now m j (fold_left (poll1 k now m) l s).
Proof.
  induction l as [|tk l IH]; intros s Hl H; cbn [fold_left]; [exact H|].
  inversion Hl; subst. apply IH; [assumption|]. apply poll1_CInv; [reflexivity|exact H].
Qed.

Lemma CInv_set_ready b now m j s l : Forall (fun tk => tk_inc tk = j) l -> CInv b now m j s ->
  CInv b now m j (on_w (fun w => set_mod w m (set_ready (w_mod w m) l)) s).
Proof.
  intros Hl [a b0 c d e g]. constructor; cbn [on_w x_w x_log]; rewrite ?mod_same; cbn [inc ready timers active shut set_ready]; assumption.
Qed.

Lemma poll_ready_CInv b k now m j s : CInv b now m j s -> CInv b now m j (poll_ready k now m s).
Proof.
  intros H. unfold poll_ready. apply fold_poll1_CInv; [apply (ci_ready _ _ _ _ _ H)|].
  apply CInv_set_ready; [constructor|exact H].
Qed.

Lemma spawn_all_CInv b now m j ps s : CInv b now m j s -> CInv b now m j (on_w (spawn_all m ps) s).
Proof.
  intros H. unfold spawn_all. pose proof H as [a b0 c d e g].
  constructor; cbn [on_w x_w x_log]; rewrite ?mod_same; cbn [inc ready timers active shut set_ready set_hnd]; try assumption.
  apply Forall_app. split; [exact b0|].
  apply Forall_forall. intros tk Hin. apply in_map_iff in Hin. destruct Hin as (ip & <- & _). cbn [tk_inc]. exact a.
Qed.

Lemma CInv_say_all_plain b now m j : forall l s, forallb plain l = true -> CInv b now m j s -> CInv b now m j (say_all l s).
Proof.
  induction l as [|i l IH] using rev_ind; intros s Hl H.
  - unfold say_all. rewrite app_nil_r. destruct s; exact H.
  - rewrite forallb_app in Hl. apply andb_prop in Hl. destruct Hl as [Hl Hi]. cbn [forallb] in Hi. rewrite andb_true_r in Hi.
    assert (E : say_all (l ++ [i]) s = say i (say_all l s)) by (unfold say_all, say; cbn [x_w x_log]; rewrite app_assoc; reflexivity).
    rewrite E. apply CInv_say_plain; [exact Hi|apply IH; assumption].
Qed.

Lemma spawn_items_plain m i ps : forallb plain (spawn_items m i ps) = true.
Proof. unfold spawn_items. induction (combine (seq 0 (length ps)) ps) as [|x l IH]; [reflexivity|exact IH]. Qed.

(* the callbacks' own call records carry no incarnation *)
Definition cb_plain (c : cb) : Prop := match c with CbTask _ _ | CbTimer _ _ => False | _ => True end.

Lemma exec_CInv b k now m c sp p j s : cb_plain c -> CInv b now m j s ->
  CInv b now m j (fst (exec k now m c sp p s)) /\
  (b = true -> snd (exec k now m c sp p s) = true -> panicked_st (fst (exec k now m c sp p s))).
Proof.
  intros Hc H. unfold exec.
  assert (H0 : CInv b now m j (say_all (spawn_items m (inc (w_mod (x_w s) m)) sp)
                                 (on_w (spawn_all m sp) (say (ICall m c now (active (w_mod (x_w s) m))) s)))).
  { apply CInv_say_all_plain; [apply spawn_items_plain|]. apply spawn_all_CInv, CInv_call; [destruct c; try exact I; destruct Hc|exact H]. }
  assert (Hw : false = true -> 0 <> 0) by discriminate.
  destruct (run_prog_CInv b false k now m 0 j Hw (fun _ => eq_refl) p _ H0) as [H1 H2].
  destruct (run_prog false k now m 0 p _) as [s2 r]. cbn [fst snd] in *.
  destruct r; cbn [fst snd].
  - split; [apply poll_ready_CInv, H1|discriminate].
  - split; [exact H1|]. intros Hb _. apply H2; auto.
  - split; [apply fold_end_task_CInv, CInv_set_ready; [constructor|exact H1]|discriminate].
  - split; [apply poll_ready_CInv, H1|discriminate].
Qed.

Lemma catch_CInv b now c m p j s : CInv b now m j s -> (b = true -> p = true -> panicked_st s) ->
  CInv b now m j {| x_w := fst (catch c m p (x_w s)); x_log := x_log s |}.
Proof.
  intros H Hp. unfold catch. destruct p; cbn [fst]; [|destruct s; exact H].
  assert (G : CInv b now m j {| x_w := set_mod (x_w s) m (set_active (w_mod (x_w s) m) false); x_log := x_log s |}).
  { destruct H as [a b0 c0 d e g]. constructor; cbn [x_w x_log]; rewrite ?mod_same; cbn [inc ready timers active shut set_active]; try assumption.
    intros Hb. exists true. split; [apply Hp; auto|auto]. }
  destruct (catchf (w_mod (x_w s) m)); cbn [fst]; [exact G|].
  destruct G as [a b0 c0 d e g]. constructor; cbn [x_w x_log set_err w_mod] in *; assumption.
Qed.

Lemma at_sim_start_CInv b k c now m stage j s : CInv b now m j s -> CInv b now m j (fst (at_sim_start k c now m stage s)).
Proof.
  intros H. rewrite at_sim_start_eq. destruct (start_prog c stage (inc (w_mod (x_w s) m))) as [sp p]. cbn [fst snd].
  destruct (exec_CInv b k now m (CbStart stage) sp p j s I H) as [H1 H2]. apply catch_CInv; [exact H1|]. intros Hb Hp. auto.
Qed.

Lemma restart_fold_CInv b k c now m j : forall l s e, CInv b now m j s ->
  CInv b now m j (fst (fold_left (fun (acc : xs * bool) stage => if snd acc then acc else restart_stage k c now m stage (fst acc)) l (s, e))).
Proof.
  apply (restart_fold_rel k c now m (fun s s' => CInv b now m j s -> CInv b now m j s')); auto.
  intros stage s. apply at_sim_start_CInv.
Qed.

Lemma CInv_weaken b now m j s : CInv b now m j s -> CInv false now m j s.
Proof. intros [a b0 c d e g]. constructor; try assumption. discriminate. Qed.

Lemma CInv_strengthen now m j s : CInv false now m j s -> x_log s = [] -> active (w_mod (x_w s) m) = true -> CInv true now m j s.
Proof. intros [a b0 c d e g] Hl Ha. constructor; try assumption. intros _. exists false. rewrite Hl. auto. Qed.

(* callbacks of dispatched events: the scan of the event's log never fails *)
Definition scan_ok (s : xs) : Prop := act_st false (x_log s) <> None.

Lemma CInv_scan now m j s : CInv true now m j s -> scan_ok s.
Proof. intros H. destruct (ci_act _ _ _ _ _ H eq_refl) as (p & e & _). unfold scan_ok. rewrite e. discriminate. Qed.

Lemma CInv_out now m j s : CInv true now m j s -> CInv false now m j s /\ scan_ok s.
Proof. intros H. split; [apply (CInv_weaken true now), H|apply (CInv_scan now m j), H]. Qed.

Lemma handle_message_CInv k c now m x j s : CInv false now m j s -> x_log s = [] ->
  CInv false now m j (handle_message k c now m x s) /\ scan_ok (handle_message k c now m x s).
Proof.
  intros H Hl. unfold handle_message. destruct (active (w_mod (x_w s) m)) eqn:Ea.
  - pose proof (CInv_strengthen now m j s H Hl Ea) as Ht.
    destruct (exec_CInv true k now m (CbMsg x) [] (pick_msg c x) j s I Ht) as [H1 H2].
    destruct (exec k now m (CbMsg x) [] (pick_msg c x) s) as [s1 p]. cbn [fst snd] in *.
    assert (G : CInv true now m j {| x_w := fst (catch c m p (x_w s1)); x_log := x_log s1 |}).
    { apply catch_CInv; [exact H1|]. intros _ ->. auto. }
    exact (CInv_out now m j _ G).
  - split; [exact H|]. unfold scan_ok. rewrite Hl. discriminate.
Qed.

Lemma async_wakeup_CInv k now m j s : CInv false now m j s -> x_log s = [] ->
  CInv false now m j (async_wakeup k now m s) /\ scan_ok (async_wakeup k now m s).
Proof.
  intros H Hl. unfold async_wakeup. destruct (active (w_mod (x_w s) m)) eqn:Ea.
  - pose proof (poll_ready_CInv true k now m j s (CInv_strengthen now m j s H Hl Ea)) as G.
    exact (CInv_out now m j _ G).
  - split; [exact H|]. unfold scan_ok. rewrite Hl. discriminate.
Qed.

Lemma module_restart_CInv k c now m j s : CInv false now m j s -> x_log s = [] ->
  CInv false now m j (module_restart k c now m s) /\ scan_ok (module_restart k c now m s).
Proof.
  intros H Hl. unfold module_restart.
  assert (Ht : CInv true now m j (on_w (fun w => set_mod w m (set_active (w_mod w m) true)) s)).
  { destruct H as [a b0 c0 d e g]. constructor; cbn [on_w x_w x_log]; rewrite ?mod_same; cbn [inc ready timers active shut set_active]; try assumption.
    intros _. exists false. rewrite Hl. auto. }
  pose proof (restart_fold_CInv true k c now m j (stage_list (c_stages c)) _ false Ht) as G.
  exact (CInv_out now m j _ G).
Qed.

Lemma at_sim_end_CInv k c now m j s : CInv false now m j s -> CInv false now m j (at_sim_end k c now m s).
Proof.
  intros H. unfold at_sim_end.
  destruct (exec_CInv false k now m CbEnd [] (c_end c) j s I H) as [H1 _].
  destruct (exec k now m CbEnd [] (c_end c) s) as [s1 p]. cbn [fst] in H1.
  pose proof (catch_CInv false now c m p j s1 H1) as H3.
  destruct (catch c m p (x_w s1)) as [w2 e2]. cbn [fst] in H3.
  assert (G : CInv false now m j {| x_w := w2; x_log := x_log s1 |}) by (apply H3; discriminate).
  destruct e2; [exact G|].
  pose proof (poll_ready_CInv false k now m j _ G) as [a b0 c0 d e g].
  constructor; cbn [on_w x_w x_log set_err w_mod] in *; assumption.
Qed.
