(* Nothing is scheduled into the past.  Along a run (start-up sweep at time 0, then the event loop) the event set is
   well formed, its clock is the time of the last dispatched event, and every queued event lies at or after it;
   timer queues are sorted.  Hence the horizon [L] -- the later of the clock and the latest queued event -- never
   decreases, and the run ends exactly at its final horizon. *)
From Coq Require Import List NArith Bool Lia Sorted.
From DesVerif Require Import Common.Fuel Life.Model Life.Base Life.Step Life.Trace Life.Inv Life.Agree Life.Strip Life.Wake Life.Walk.
Import ListNotations.
Open Scope N_scope.

(* ---- the horizon of an event set ---- *)
Fixpoint tmaxl (l : list (N * fev)) : N := match l with [] => 0 | p :: r => N.max (fst p) (tmaxl r) end.
Definition L (f : fes) : N := N.max (f_tcur f) (tmaxl (fes_order f)).

Lemma tmaxl_app a b : tmaxl (a ++ b) = N.max (tmaxl a) (tmaxl b).
Proof. induction a as [|p a IH]; cbn [app tmaxl]; [lia|]. rewrite IH. lia. Qed.

Lemma tmaxl_ge l p : In p l -> fst p <= tmaxl l.
Proof. induction l as [|q l IH]; intros H; [destruct H|]. cbn [tmaxl]. destruct H as [->|H]; [lia|specialize (IH H); lia]. Qed.

Lemma L_add t e f : L (fes_add t e f) = N.max (L f) t.
Proof.
  unfold L. rewrite fes_add_tcur. destruct (fes_add_order t e f) as (l1 & l2 & E1 & E2). rewrite E1, E2, !tmaxl_app.
  cbn [tmaxl fst]. rewrite (N.max_comm t), !N.max_assoc. reflexivity.
Qed.

Lemma L_flush : forall l f, L (fes_flush l f) = N.max (L f) (tmaxl l).
Proof.
  induction l as [|p l IH]; intros f; cbn [fes_flush fold_left tmaxl]; [lia|].
  fold (fes_flush l (fes_add (fst p) (snd p) f)). rewrite IH, L_add. symmetry. apply N.max_assoc.
Qed.

Lemma L_flush_mono l f f' : L f' <= L f -> L (fes_flush l f') <= L (fes_flush l f).
Proof. intros H. rewrite !L_flush. lia. Qed.

(* fetching never raises the horizon ... *)
Lemma L_fetch_le f t ev f1 : fes_fetch f = Some (t, ev, f1) -> L f1 <= L f.
Proof.
  unfold fes_fetch, L, fes_order. destruct (f_zero f) as [|x z] eqn:Ez.
  - destruct (f_rest f) as [|x r] eqn:Er; [discriminate|]. intros H. injection H as -> <-. cbn [f_tcur f_zero f_rest app tmaxl fst].
    lia.
  - intros H. injection H as -> <-. cbn [f_tcur f_zero f_rest app tmaxl]. lia.
Qed.

(* ... and keeps it when no queued event lies before the clock *)
Lemma L_fetch_eq f t ev f1 : WF f -> (forall p, In p (fes_order f) -> f_tcur f <= fst p) ->
  fes_fetch f = Some (t, ev, f1) -> L f1 = L f.
Proof.
  intros [Wz Ws] Hfut. unfold fes_fetch, L, fes_order in *. destruct (f_zero f) as [|x z] eqn:Ez.
  - destruct (f_rest f) as [|x r] eqn:Er; [discriminate|]. intros H. injection H as -> <-. cbn [f_tcur f_zero f_rest app tmaxl fst].
    specialize (Hfut (t, ev) (or_introl eq_refl)). cbn [fst] in Hfut. lia.
  - intros H. injection H as -> <-. cbn [f_tcur f_zero f_rest app tmaxl].
    inversion Wz; subst. cbn [fst] in *. lia.
Qed.

Lemma L_empty f : fes_fetch f = None -> L f = f_tcur f.
Proof. intros H. unfold L. rewrite (fetch_none_order f H). cbn. lia. Qed.

(* ---- inside a callback of module j at time [now]: buffered events, new timers and a requested restart lie ahead ---- *)
Definition tm_le (a b : N * task) : Prop := fst a <= fst b.
Definition shut_ok (now : N) (s : option (option N)) : Prop := match s with Some (Some t) => now <= t | _ => True end.

Record FC (now j : N) (s : xs) : Prop := {
  fc_buf : Forall (fun p => now <= fst p) (w_buf (x_w s));
  fc_tm : Forall (fun p : N * task => now < fst p) (timers (w_mod (x_w s) j));
  fc_sorted : StronglySorted tm_le (timers (w_mod (x_w s) j));
  fc_shut : shut_ok now (shut (w_mod (x_w s) j)) }.

Lemma FC_same now j s s' : w_buf (x_w s') = w_buf (x_w s) -> timers (w_mod (x_w s') j) = timers (w_mod (x_w s) j) ->
  shut (w_mod (x_w s') j) = shut (w_mod (x_w s) j) -> FC now j s -> FC now j s'.
Proof. intros A B C [a b c d]. constructor; rewrite ?A, ?B, ?C; assumption. Qed.

Lemma FC_say now j i s : FC now j s -> FC now j (say i s).
Proof. apply FC_same; reflexivity. Qed.

Lemma FC_say_all now j l s : FC now j s -> FC now j (say_all l s).
Proof. apply FC_same; reflexivity. Qed.

Lemma FC_push now j p s : now <= fst p -> FC now j s -> FC now j (on_w (buf_push p) s).
Proof. intros H [a b c d]. constructor; try assumption. unfold buf_push. wsimpl. apply Forall_app. split; [exact a|constructor; [exact H|constructor]]. Qed.

Lemma FC_spend now j s : FC now j s -> FC now j (on_w (spend j) s).
Proof. apply FC_same; wset. Qed.

Lemma FC_send k now j far d x s : FC now j s -> FC now j (on_w (fun w => buf_send_at k now j far d x (spend j w)) s).
Proof.
  intros [a b c e].
  constructor; cbn [on_w x_w]; rewrite ?buf_send_at_mod; unfold spend; wsimpl; rewrite ?N.eqb_refl; wsimpl; try assumption.
  unfold buf_send_at, buf_push. destruct (d =? 0); [destruct (walk k _ j far)|]; wsimpl; try exact a;
    (apply Forall_app; split; [exact a|constructor; [cbn [fst]; lia|constructor]]).
Qed.

Lemma do_act_FC k now j who a s : FC now j s -> FC now j (do_act k now j who a s).
Proof.
  intros H. destruct a; cbn [do_act]; try exact H; try (destruct (broke j s); [exact H|]); apply FC_say.
  - exact H.
  - apply FC_send, H.
  - change (on_w (fun w => buf_schedule_at now j d x (spend j w)) s) with (on_w (buf_push (now + d, EvDeliver j x)) (on_w (spend j) s)).
    apply FC_push; [cbn [fst]; lia|apply FC_spend, H].
  - destruct H as [a b c d]. constructor; wset; try assumption; try exact I.
  - destruct H as [a b c d0]. constructor; wset; try assumption; try (cbn [shut_ok]; lia).
  - revert H. apply FC_same; wset.
Qed.

Lemma quiet_FC now j s : FC now j s -> FC now j (quiet j s).
Proof.
  intros H. unfold quiet. apply FC_say. destruct (shut (w_mod (x_w s) j)) eqn:E; [exact H|].
  destruct H as [a b c d]. constructor; wset; try assumption; try exact I.
Qed.

Lemma tins_sorted t tk l : StronglySorted tm_le l -> StronglySorted tm_le (tins t tk l).
Proof. apply (ins_sorted tins); reflexivity. Qed.

Lemma FC_closed k now j : Closed k now j (fun _ => True) (fun s s' => FC now j s -> FC now j s').
Proof.
  constructor.
  - auto.
  - auto.
  - apply do_act_FC.
  - intros who s _. apply FC_say.
  - apply quiet_FC.
  - intros c b s. apply FC_say.
  - intros sp s H. apply FC_say_all. revert H. apply FC_same; unfold spawn_all; wset.
  - intros s. apply FC_same; wset.
  - intros how s tk H. unfold end_task. apply FC_say. revert H. apply FC_same; reflexivity.
  - intros d tk s Hd [a b c e]. constructor; wset; try assumption.
    + apply tins_forall; [cbn [fst]; lia|exact b].
    + apply tins_sorted, c.
  - intros c p s. apply FC_same; unfold catch; destruct p; try reflexivity; destruct (catchf (w_mod (x_w s) j)); cbn [fst]; wset.
  - intros s. apply FC_same; wset.
  - intros c s. apply FC_same; reflexivity.
Qed.

Lemma callback_FC sc j now knd f : callback sc j now knd f -> forall s, FC now j s -> FC now j (f s).
Proof. exact (callback_R sc j now knd f _ (FC_closed (nmods sc) now j)). Qed.

(* ---- the world between two events ---- *)
Record FW (now : N) (w : world) : Prop := {
  fw_wf : WF (w_fes w);
  fw_clock : f_tcur (w_fes w) = now;
  fw_fut : forall p, InF p (w_fes w) -> now <= fst p;
  fw_sorted : forall j, StronglySorted tm_le (timers (w_mod w j));
  fw_buf : w_buf w = [];
  fw_shut : forall j, shut (w_mod w j) = None }.

Lemma split_due_gt now : forall l d q, StronglySorted tm_le l -> split_due now l = (d, q) ->
  Forall (fun p : N * task => now < fst p) q /\ StronglySorted tm_le q.
Proof.
  induction l as [|x l IH]; intros d q Hs; cbn [split_due].
  - intros H. injection H as <- <-. split; constructor.
  - inversion Hs as [|y r Hs' Hf]; subst. destruct (fst x <=? now) eqn:E.
    + destruct (split_due now l) as [d0 q0] eqn:Es. intros H. injection H as <- <-. apply (IH d0 q0 Hs' eq_refl).
    + intros H. injection H as <- <-. apply N.leb_gt in E. split; [|exact Hs]. constructor; [exact E|].
      eapply Forall_impl; [|exact Hf]. intros y Hy. unfold tm_le in Hy. lia.
Qed.

(* what one module event adds to the event set *)
Definition adds_of (now i : N) (f : xs -> xs) (w : world) : list (N * fev) :=
  let s := f {| x_w := activate now i w; x_log := [] |} in
  wake_of i (w_mod (x_w s) i) ++ w_buf (x_w s) ++ restart_of i (w_mod (deactivate i (x_w s)) i).

Lemma around_adds sc now i f w : CbOK i f ->
  w_fes (fst (around sc now i f w)) = fes_flush (adds_of now i f w) (w_fes w).
Proof.
  intros Hok. destruct (Hok {| x_w := activate now i w; x_log := [] |}) as [[_ Ff _ _ _ _] _]. cbn [x_w] in Ff. rewrite activate_fes in Ff.
  rewrite around_world, buf_process_events, deactivate_buf, deactivate_fes, Ff. unfold adds_of, restart_of. cbv zeta. rewrite !fes_flush_app.
  destruct (shut (w_mod (deactivate i (x_w (f {| x_w := activate now i w; x_log := [] |}))) i)) as [[t|]|]; reflexivity.
Qed.

(* module i after its own event: either untouched apart from next_wakeup, or reset *)
Lemma around_self sc now i f w :
  (timers (w_mod (fst (around sc now i f w)) i) = timers (w_mod (x_w (f {| x_w := activate now i w; x_log := [] |})) i) \/
   timers (w_mod (fst (around sc now i f w)) i) = []) /\
  shut (w_mod (fst (around sc now i f w)) i) = None.
Proof.
  rewrite around_world, buf_process_self. generalize (f {| x_w := activate now i w; x_log := [] |}). intros s.
  destruct (deactivate_mod i (x_w s)) as (n & ->). cbn [shut set_nw].
  destruct (shut (w_mod (x_w s) i)) eqn:Es; [split; [right|]; reflexivity|split; [left; reflexivity|exact Es]].
Qed.

Lemma activate_FC now i w : FW now w -> FC now i {| x_w := activate now i w; x_log := [] |}.
Proof.
  intros [Wf Hc Hfut Hso Hb Hsh]. unfold activate. destruct (split_due now (timers (w_mod w i))) as [d q] eqn:Es.
  destruct (split_due_gt now _ d q (Hso i) Es) as [Q1 Q2].
  constructor; cbn [x_w w_buf w_mod set_cur set_mod]; rewrite ?N.eqb_refl; cbn [timers shut set_nw set_ready set_timers].
  - rewrite Hb. constructor.
  - exact Q1.
  - exact Q2.
  - rewrite Hsh. exact I.
Qed.

Lemma adds_ge now i f w : FC now i (f {| x_w := activate now i w; x_log := [] |}) -> Forall (fun p => now <= fst p) (adds_of now i f w).
Proof.
  unfold adds_of. cbv zeta. generalize (f {| x_w := activate now i w; x_log := [] |}). intros s [Fb Ft Fs Fsh].
  apply Forall_app. split; [|apply Forall_app; split; [exact Fb|]].
  - unfold wake_of. destruct (timers (w_mod (x_w s) i)) as [|[t tk] r]; [constructor|]. destruct (lt_nw t (nw (w_mod (x_w s) i))); [|constructor].
    inversion Ft; subst. cbn [fst] in *. constructor; [cbn [fst]; lia|constructor].
  - destruct (deactivate_mod i (x_w s)) as (n & ->). unfold restart_of, shut_ok in *. cbn [shut set_nw].
    destruct (shut (w_mod (x_w s) i)) as [[t|]|]; constructor; [exact Fsh|constructor].
Qed.

Lemma around_FW sc now i f w : FW now w -> CbOK i f -> (forall s, FC now i s -> FC now i (f s)) ->
  FW now (fst (around sc now i f w)) /\ L (w_fes w) <= L (w_fes (fst (around sc now i f w))).
Proof.
  intros HW Hok Hfc. pose proof (Hfc _ (activate_FC now i w HW)) as HF. pose proof (adds_ge now i f w HF) as Hadds.
  destruct HW as [Wf Hc Hfut Hso Hb Hsh]. pose proof (around_adds sc now i f w Hok) as Ha.
  destruct (around_self sc now i f w) as (Sa & Sb). apply fc_sorted in HF.
  pose proof (fun j => around_oth sc now i f w j Hok) as Ho. pose proof (proj2 (around_glob sc now i f w)) as Hg.
  (* from here on the world after the event is a variable: nothing below looks into [around] *)
  revert Ha Sa Sb Ho Hg HF. generalize (fst (around sc now i f w)), (f {| x_w := activate now i w; x_log := [] |}).
  intros w' s Ha Sa Sb Ho Hg HF. split.
  - constructor.
    + rewrite Ha. apply WF_flush, Wf.
    + rewrite Ha, fes_flush_tcur. exact Hc.
    + intros p Hp. unfold InF in *. rewrite Ha in Hp. apply InF_flush in Hp. destruct Hp as [Hp|Hp]; [|apply Hfut, Hp].
      rewrite Forall_forall in Hadds. apply Hadds, Hp.
    + intros j. destruct (N.eq_dec j i) as [->|Hj]; [|rewrite (Ho j Hj); apply Hso].
      destruct Sa as [-> | ->]; [exact HF|constructor].
    + exact Hg.
    + intros j. destruct (N.eq_dec j i) as [->|Hj]; [exact Sb|rewrite (Ho j Hj); apply Hsh].
  - rewrite Ha, L_flush. lia.
Qed.

Lemma module_event_FW sc now i knd f w : FW now w -> callback sc i now knd f ->
  FW now (fst (around sc now i f w)) /\ L (w_fes w) <= L (w_fes (fst (around sc now i f w))).
Proof. intros HW Hcb. apply around_FW; [exact HW|apply (callback_ok _ _ _ _ _ Hcb)|apply (callback_FC _ _ _ _ _ Hcb)]. Qed.

Lemma init_FW sc : FW 0 (init_world sc).
Proof.
  unfold init_world. constructor; cbn [w_fes w_mod w_buf].
  - apply WF_flush. constructor; cbn; constructor.
  - rewrite fes_flush_tcur. reflexivity.
  - intros p _. lia.
  - intros j. constructor.
  - reflexivity.
  - intros j. reflexivity.
Qed.

Lemma start_one_FW sc stage m acc : FW 0 (fst acc) -> FW 0 (fst (start_one sc stage m acc)).
Proof.
  intros H. destruct acc as [w tr]. rewrite start_one_eq. cbn [fst] in *.
  destruct ((stage <? c_stages (cfg sc m)) && active (w_mod w m)); [|exact H]. rewrite fst_pair, start_rec_fst.
  apply (module_event_FW sc 0 m _ _ w H (cb_start sc m stage)).
Qed.

Lemma fetch_FW now w t ev f : FW now w -> fes_fetch (w_fes w) = Some (t, ev, f) -> FW t (set_fes w f).
Proof.
  intros [Wf Hc Hfut Hso Hb Hsh] Hf. destruct (WF_fetch _ _ _ _ Wf Hf) as [W1 Et].
  constructor; cbn [w_fes w_mod w_buf set_fes]; try assumption.
  intros p Hp. unfold InF in Hp. destruct Wf as [Wz Ws]. unfold fes_fetch in Hf. unfold fes_order in *.
  destruct (f_zero (w_fes w)) as [|x z] eqn:Ez.
  - destruct (f_rest (w_fes w)) as [|x r] eqn:Er; [discriminate|]. injection Hf as -> <-. cbn [f_zero f_rest app] in Hp.
    inversion Ws as [|y r' _ Hall]; subst. rewrite Forall_forall in Hall. specialize (Hall p Hp). unfold time_le in Hall. exact Hall.
  - injection Hf as -> <-. cbn [f_zero f_rest] in Hp. inversion Wz; subst. cbn [fst] in *.
    assert (Hin : InF p (w_fes w)) by (unfold InF, fes_order; rewrite Ez; cbn [app]; right; exact Hp).
    specialize (Hfut p Hin). lia.
Qed.

Lemma loop_FW sc now w t ev f : FW now w -> fes_fetch (w_fes w) = Some (t, ev, f) ->
  FW t (fst (loop_rec sc (set_fes w f) t ev)) /\ L (w_fes w) <= L (w_fes (fst (loop_rec sc (set_fes w f) t ev))) /\ L f = L (w_fes w).
Proof.
  intros HW Hf. pose proof (fetch_FW now w t ev f HW Hf) as HW1.
  assert (HL : L f = L (w_fes w)).
  { apply (L_fetch_eq _ t ev); [apply (fw_wf _ _ HW)|rewrite (fw_clock _ _ HW); apply (fw_fut _ _ HW)|exact Hf]. }
  rewrite loop_rec_fst, <- HL. split; [|split; [|reflexivity]];
    destruct (process_cases sc (set_fes w f) t ev) as [(m & far & x & ->)|(m & fcb & _ & Hcb & ->)];
    try apply (module_event_FW sc t m _ _ _ HW1 Hcb); cbn [process fst].
  - destruct (walk (nmods sc) (set_fes w f) m far); [|exact HW1].
    destruct HW1 as [a b c d e g]. constructor; cbn [w_fes w_mod w_buf set_fes] in *; try assumption.
    + apply WF_add, a.
    + rewrite fes_add_tcur. exact b.
    + intros p Hp. apply InF_add in Hp. destruct Hp as [->|Hp]; [cbn [fst]; lia|apply c, Hp].
  - destruct (walk (nmods sc) (set_fes w f) m far); cbn [w_fes set_fes]; [rewrite L_add|]; lia.
Qed.

(* the loop ends in such a world: its clock is the end time *)
Lemma iter_FW sc : forall k w now tr wf nf trf, FW now w ->
  iter_nat k (loop_step sc) (w, now, tr) = inr (wf, nf, trf) -> FW nf wf /\ fes_fetch (w_fes wf) = None.
Proof.
  induction k as [|k IH]; intros w now tr wf nf trf H E; cbn [iter_nat] in E; [discriminate|].
  rewrite loop_step_eq in E. destruct (fes_fetch (w_fes w)) as [[[t ev] f1]|] eqn:Hf.
  - apply (IH _ _ _ _ _ _ (proj1 (loop_FW sc now w t ev f1 H Hf)) E).
  - injection E as <- <- <-. auto.
Qed.

(* the end time of a run is its final horizon *)
Lemma end_time_L now w : FW now w -> fes_fetch (w_fes w) = None -> L (w_fes w) = now.
Proof. intros H E. rewrite (L_empty _ E). apply (fw_clock _ _ H). Qed.
