(* Event sets up to events that are inert because module m is inactive for good (its wake-ups,
   messages for it, messages leaving its gates): such events change nothing but the event set,
   and only by further inert events (for Life/Silent.v).  Also: well-formed
   event sets and insertion into a time-sorted queue, which Life/Future.v and Life/CqSim.v use as well. *)
From Coq Require Import List NArith Bool Lia Sorting.Sorted.
From DesVerif Require Import Life.Model.
Import ListNotations.
Open Scope N_scope.

Section Strip.
Variable m : N.

Definition inert (ev : fev) : bool :=
  match ev with EvWake i | EvDeliver i _ | EvExit i _ _ => i =? m | EvRestart _ => false end.
Definition keep (p : N * fev) : bool := negb (inert (snd p)).
Definition strip (l : list (N * fev)) : list (N * fev) := filter keep l.

Lemma strip_app a b : strip (a ++ b) = strip a ++ strip b.
Proof. apply filter_app. Qed.

Definition time_le (a b : N * fev) : Prop := fst a <= fst b.
Definition Sorted_t (l : list (N * fev)) : Prop := StronglySorted time_le l.

(* insertion behind all entries that are not later, whatever is queued: [fes_ins] for events, [tins] for tasks *)
Section Ins.
Context {B : Type} (ins : N -> B -> list (N * B) -> list (N * B)).
Hypothesis ins_nil : forall t b, ins t b [] = [(t, b)].
Hypothesis ins_cons : forall t b x r, ins t b (x :: r) = if t <? fst x then (t, b) :: x :: r else x :: ins t b r.

Lemma ins_forall (P : N * B -> Prop) t b : forall l, P (t, b) -> Forall P l -> Forall P (ins t b l).
Proof.
  induction l as [|x l IH]; intros Hp Hl; [rewrite ins_nil; constructor; [exact Hp|constructor]|].
  rewrite ins_cons. inversion Hl; subst. destruct (t <? fst x); [constructor; [exact Hp|exact Hl]|constructor; [assumption|apply IH; assumption]].
Qed.

Lemma ins_sorted t b l : StronglySorted (fun x y : N * B => fst x <= fst y) l ->
  StronglySorted (fun x y : N * B => fst x <= fst y) (ins t b l).
Proof.
  induction 1 as [|x r Hs IH Hf]; [rewrite ins_nil; repeat constructor|]. rewrite ins_cons.
  destruct (t <? fst x) eqn:E.
  - apply N.ltb_lt in E. constructor; [constructor; assumption|]. constructor; [cbn [fst]; lia|].
    eapply Forall_impl; [|exact Hf]. intros y Hy. cbn [fst] in *. lia.
  - apply N.ltb_ge in E. constructor; [exact IH|]. apply ins_forall; [exact E|exact Hf].
Qed.
End Ins.

Lemma fes_ins_sorted t e l : Sorted_t l -> Sorted_t (fes_ins t e l).
Proof. apply (ins_sorted fes_ins); reflexivity. Qed.

(* inserting at the front of a list whose entries are all later *)
Lemma fes_ins_front t e l : Forall (fun y => t < fst y) l -> fes_ins t e l = (t, e) :: l.
Proof. intros H. destruct l as [|x r]; [reflexivity|]. inversion H; subst. cbn [fes_ins]. apply N.ltb_lt in H2. rewrite H2. reflexivity. Qed.

Lemma strip_forall (P : N * fev -> Prop) l : Forall P l -> Forall P (strip l).
Proof. intros H. apply Forall_forall. intros y Hy. apply filter_In in Hy. rewrite Forall_forall in H. apply H, Hy. Qed.

Lemma strip_ins t e : forall l, Sorted_t l ->
  strip (fes_ins t e l) = if keep (t, e) then fes_ins t e (strip l) else strip l.
Proof.
  induction 1 as [|x r Hs IH Hf]; cbn [fes_ins].
  - cbn [strip filter]. destruct (keep (t, e)); reflexivity.
  - destruct (t <? fst x) eqn:E.
    + apply N.ltb_lt in E. change (strip ((t, e) :: x :: r)) with (if keep (t, e) then (t, e) :: strip (x :: r) else strip (x :: r)).
      destruct (keep (t, e)); [|reflexivity]. symmetry. apply fes_ins_front. apply strip_forall. constructor; [exact E|].
      rewrite Forall_forall in *. intros y Hy. specialize (Hf y Hy). unfold time_le in Hf. lia.
    + change (strip (x :: fes_ins t e r)) with (if keep x then x :: strip (fes_ins t e r) else strip (fes_ins t e r)).
      change (strip (x :: r)) with (if keep x then x :: strip r else strip r).
      rewrite IH. destruct (keep (t, e)); destruct (keep x); try reflexivity. cbn [fes_ins]. rewrite E. reflexivity.
Qed.

(* ---- well-formed event sets ---- *)
Record WF (f : fes) : Prop := {
  wf_zero : Forall (fun p => fst p = f_tcur f) (f_zero f);
  wf_sorted : Sorted_t (f_rest f) }.

Lemma WF_add t e f : WF f -> WF (fes_add t e f).
Proof.
  intros [a b]. unfold fes_add. destruct (t =? f_tcur f) eqn:E; constructor; cbn [f_tcur f_zero f_rest]; try assumption.
  - apply Forall_app. split; [exact a|]. constructor; [cbn [fst]; apply N.eqb_eq, E|constructor].
  - apply fes_ins_sorted, b.
Qed.

Lemma WF_flush : forall ps f, WF f -> WF (fes_flush ps f).
Proof. induction ps as [|p ps IH]; intros f H; cbn [fes_flush fold_left]; [exact H|]. apply IH, WF_add, H. Qed.

Lemma WF_fetch f t ev f' : WF f -> fes_fetch f = Some (t, ev, f') -> WF f' /\ f_tcur f' = t.
Proof.
  intros [a b]. unfold fes_fetch. destruct (f_zero f) as [|x z] eqn:Ez.
  - destruct (f_rest f) as [|x r] eqn:Er; [discriminate|]. intros H. injection H as -> <-.
    inversion b; subst. split; [constructor; cbn [f_tcur f_zero f_rest]; [constructor|assumption]|reflexivity].
  - intros H. injection H as -> <-. inversion a; subst. split; [constructor; cbn [f_tcur f_zero f_rest]; assumption|].
    cbn [f_tcur fst] in *. congruence.
Qed.

(* ---- event sets related up to inert events ---- *)
Record FesRel (f f' : fes) : Prop := {
  fr_zero : strip (f_zero f) = strip (f_zero f');
  fr_rest : strip (f_rest f) = strip (f_rest f') }.

Lemma FesRel_refl f : FesRel f f.
Proof. constructor; reflexivity. Qed.

Lemma FesRel_add t e f f' : FesRel f f' -> WF f -> WF f' -> f_tcur f = f_tcur f' -> FesRel (fes_add t e f) (fes_add t e f').
Proof.
  intros [a b] [_ s1] [_ s2] Et. unfold fes_add. rewrite <- Et. destruct (t =? f_tcur f); constructor; cbn [f_zero f_rest]; try assumption.
  - rewrite !strip_app, a. reflexivity.
  - rewrite !strip_ins by assumption. rewrite b. reflexivity.
Qed.

Lemma fes_add_tcur t e f : f_tcur (fes_add t e f) = f_tcur f.
Proof. unfold fes_add. destruct (t =? f_tcur f); reflexivity. Qed.

Lemma fes_flush_tcur : forall ps f, f_tcur (fes_flush ps f) = f_tcur f.
Proof. induction ps as [|p ps IH]; intros f; cbn [fes_flush fold_left]; [reflexivity|]. fold (fes_flush ps (fes_add (fst p) (snd p) f)). rewrite IH. apply fes_add_tcur. Qed.

Lemma FesRel_flush : forall ps f f', FesRel f f' -> WF f -> WF f' -> f_tcur f = f_tcur f' ->
  FesRel (fes_flush ps f) (fes_flush ps f').
Proof.
  induction ps as [|p ps IH]; intros f f' H W W' Et; cbn [fes_flush fold_left]; [exact H|].
  apply IH; [apply FesRel_add; assumption|apply WF_add, W|apply WF_add, W'|rewrite !fes_add_tcur; exact Et].
Qed.

(* adding an inert event on one side only *)
Lemma FesRel_add_l t e f f' : inert e = true -> FesRel f f' -> WF f -> FesRel (fes_add t e f) f'.
Proof.
  intros Hi [a b] [_ s1]. unfold fes_add. destruct (t =? f_tcur f); constructor; cbn [f_zero f_rest]; try assumption.
  - rewrite strip_app. cbn [strip filter]. unfold keep at 1. cbn [snd]. rewrite Hi. cbn [negb]. rewrite app_nil_r. exact a.
  - rewrite strip_ins by assumption. unfold keep. cbn [snd]. rewrite Hi. exact b.
Qed.

Lemma FesRel_sym f f' : FesRel f f' -> FesRel f' f.
Proof. intros [a b]. constructor; symmetry; assumption. Qed.

Lemma FesRel_add_r t e f f' : inert e = true -> FesRel f f' -> WF f' -> FesRel f (fes_add t e f').
Proof. intros Hi H W. apply FesRel_sym, FesRel_add_l; [exact Hi|apply FesRel_sym, H|exact W]. Qed.

(* ---- fetching ---- *)
Lemma fetch_inert_l f f' t ev f1 : fes_fetch f = Some (t, ev, f1) -> inert ev = true -> FesRel f f' -> FesRel f1 f'.
Proof.
  unfold fes_fetch. intros H Hi [a b]. destruct (f_zero f) as [|x z] eqn:Ez.
  - destruct (f_rest f) as [|x r] eqn:Er; [discriminate|]. injection H as Hx <-. constructor; cbn [f_zero f_rest]; [exact a|].
    rewrite <- b. cbn [strip filter]. unfold keep. rewrite Hx. cbn [snd]. rewrite Hi. reflexivity.
  - injection H as Hx <-. constructor; cbn [f_zero f_rest]; [|exact b].
    rewrite <- a. cbn [strip filter]. unfold keep. rewrite Hx. cbn [snd]. rewrite Hi. reflexivity.
Qed.

Lemma fetch_inert_r f f' t ev f1 : fes_fetch f' = Some (t, ev, f1) -> inert ev = true -> FesRel f f' -> FesRel f f1.
Proof. intros H Hi R. apply FesRel_sym. eapply fetch_inert_l; eauto. apply FesRel_sym, R. Qed.

Lemma fetch_none_l f f' t ev f1 : fes_fetch f = None -> FesRel f f' -> fes_fetch f' = Some (t, ev, f1) -> inert ev = true.
Proof.
  unfold fes_fetch. intros H [a b]. destruct (f_zero f); [|discriminate]. destruct (f_rest f); [|discriminate]. cbn [strip filter] in a, b.
  destruct (f_zero f') as [|x z].
  - destruct (f_rest f') as [|x r]; [discriminate|]. intros E. injection E as Hx _. cbn [strip filter] in b.
    unfold keep in b. rewrite Hx in b. cbn [snd] in b. destruct (inert ev); [reflexivity|discriminate].
  - intros E. injection E as Hx _. cbn [strip filter] in a. unfold keep in a. rewrite Hx in a. cbn [snd] in a.
    destruct (inert ev); [reflexivity|discriminate].
Qed.

Lemma fetch_none_r f f' t ev f1 : fes_fetch f' = None -> FesRel f f' -> fes_fetch f = Some (t, ev, f1) -> inert ev = true.
Proof. intros H R. eapply fetch_none_l; [exact H|apply FesRel_sym, R]. Qed.

(* both sides fetch an event that is not inert: it is the same event *)
Lemma fetch_common f f' t ev f1 t' ev' f1' :
  FesRel f f' -> fes_fetch f = Some (t, ev, f1) -> inert ev = false ->
  fes_fetch f' = Some (t', ev', f1') -> inert ev' = false ->
  t' = t /\ ev' = ev /\ FesRel f1 f1'.
Proof.
  unfold fes_fetch. intros [a b] H Hi H' Hi'.
  assert (K : forall tt e l, inert e = false -> strip ((tt, e) :: l) = (tt, e) :: strip l)
    by (intros tt e l He; cbn [strip filter]; unfold keep; cbn [snd]; rewrite He; reflexivity).
  destruct (f_zero f) as [|x z] eqn:Ez; destruct (f_zero f') as [|x' z'] eqn:Ez'.
  - destruct (f_rest f) as [|x r] eqn:Er; [discriminate|]. destruct (f_rest f') as [|x' r'] eqn:Er'; [discriminate|].
    injection H as -> <-. injection H' as -> <-. rewrite !K in b by assumption. injection b as -> -> b.
    repeat split; try reflexivity; cbn [f_zero f_rest]; assumption.
  - injection H' as -> <-. rewrite K in a by assumption. discriminate.
  - injection H as -> <-. rewrite K in a by assumption. discriminate.
  - injection H as -> <-. injection H' as -> <-. rewrite !K in a by assumption. injection a as -> -> a.
    repeat split; try reflexivity; cbn [f_zero f_rest]; assumption.
Qed.

End Strip.
