(* The stereotype in force.  Every panic record [IPanic m who c] carries the module's
   on_panic_catch flag at the moment of the panic (that is the flag Harness::catch reads, see
   Panic.v).  Here: that flag is the one of the last [ISetCatch m _ b] record of the module before
   the panic, or the configured one if there is none -- set_stereotyp takes effect at once, in the
   very callback that panics as well, and survives shutdown / restart. *)
From Coq Require Import List NArith Bool Lia.
From DesVerif Require Import Common.Fuel Life.Model Life.Base Life.Step Life.Trace Life.Events Life.Walk.
Import ListNotations.
Open Scope N_scope.

Definition sc1 (m : N) (b : bool) (i : item) : bool :=
  match i with ISetCatch m' _ x => if m' =? m then x else b | _ => b end.
Definition force (m : N) (b : bool) (l : list item) : bool := fold_left (sc1 m) l b.

Fixpoint pan_ok (m : N) (b : bool) (l : list item) : Prop :=
  match l with
  | [] => True
  | i :: r => match i with IPanic m' _ c => m' = m -> c = b | _ => True end /\ pan_ok m (sc1 m b i) r
  end.

Lemma force_app m b x y : force m b (x ++ y) = force m (force m b x) y.
Proof. apply fold_left_app. Qed.

Lemma pan_ok_app m : forall x b y, pan_ok m b (x ++ y) <-> pan_ok m b x /\ pan_ok m (force m b x) y.
Proof.
  induction x as [|i x IH]; intros b y; cbn [app pan_ok force fold_left]; [tauto|].
  fold (force m (sc1 m b i) x). rewrite IH. tauto.
Qed.

(* records that neither set m's stereotype nor report a panic of m *)
Definition neutral (m : N) (i : item) : Prop :=
  match i with IPanic m' _ _ | ISetCatch m' _ _ => m' <> m | _ => True end.

Lemma neutral_ok m : forall l b, Forall (neutral m) l -> force m b l = b /\ pan_ok m b l.
Proof.
  induction l as [|i l IH]; intros b H; cbn [force fold_left pan_ok]; [auto|].
  inversion H as [|x y Hi Hl]; subst. fold (force m (sc1 m b i) l).
  assert (E : sc1 m b i = b).
  { destruct i; cbn [sc1 neutral] in *; try reflexivity. apply N.eqb_neq in Hi. rewrite Hi. reflexivity. }
  rewrite E. destruct (IH b Hl) as [A B]. split; [exact A|split; [|exact B]].
  destruct i; cbn [neutral] in *; auto. intros ->. contradiction.
Qed.

Lemma Own_neutral i m l : i <> m -> Own i l -> Forall (neutral m) l.
Proof.
  intros Hi. apply Forall_impl. intros it H. destruct it; cbn [neutral item_mod] in *; auto; injection H as ->; exact Hi.
Qed.

(* ---- one step of the world: the records it writes, judged from the flags before it ---- *)
Definition WStep (w : world) (l : list item) (w' : world) : Prop :=
  forall m, pan_ok m (catchf (w_mod w m)) l /\ catchf (w_mod w' m) = force m (catchf (w_mod w m)) l.

(* ---- inside a callback of module i ---- *)
Definition SI (i : N) (s s' : xs) : Prop :=
  exists l, x_log s' = x_log s ++ l /\ pan_ok i (catchf (w_mod (x_w s) i)) l /\
            catchf (w_mod (x_w s') i) = force i (catchf (w_mod (x_w s) i)) l.

Lemma SI_same i s s' : x_log s' = x_log s -> catchf (w_mod (x_w s') i) = catchf (w_mod (x_w s) i) -> SI i s s'.
Proof. intros A B. exists []. rewrite app_nil_r. cbn [pan_ok force fold_left]. auto. Qed.

Lemma SI_refl i s : SI i s s.
Proof. apply SI_same; reflexivity. Qed.

Lemma SI_trans i s1 s2 s3 : SI i s1 s2 -> SI i s2 s3 -> SI i s1 s3.
Proof.
  intros (a & A1 & A2 & A3) (b & B1 & B2 & B3). exists (a ++ b). rewrite B1, A1, app_assoc. split; [reflexivity|].
  rewrite pan_ok_app, force_app, <- A3. auto.
Qed.

Lemma SI_say i it s : neutral i it -> SI i s (say it s).
Proof.
  intros H. exists [it]. split; [reflexivity|]. destruct (neutral_ok i [it] (catchf (w_mod (x_w s) i))) as [A B]; [auto|].
  cbn [say x_w]. auto.
Qed.

Lemma SI_on_w i f s : catchf (w_mod (f (x_w s)) i) = catchf (w_mod (x_w s) i) -> SI i s (on_w f s).
Proof. intros H. apply SI_same; [reflexivity|exact H]. Qed.

Lemma do_act_SI k now i who a s : SI i s (do_act k now i who a s).
Proof.
  destruct a; cbn [do_act]; try apply SI_refl; try (destruct (broke i s); [apply SI_refl|]).
  - apply SI_say. exact I.
  - eapply SI_trans; [apply SI_on_w|apply SI_say; exact I]. cbv beta. rewrite buf_send_at_mod. wset.
  - eapply SI_trans; [apply SI_on_w|apply SI_say; exact I]. wset.
  - eapply SI_trans; [apply SI_on_w|apply SI_say; exact I]. wset.
  - eapply SI_trans; [apply SI_on_w|apply SI_say; exact I]. wset.
  - exists [ISetCatch i who b]. split; [reflexivity|]. cbn [pan_ok force fold_left sc1 say on_w x_w]. rewrite N.eqb_refl, mod_same. auto.
Qed.

Lemma catch_cf c i p w : catchf (w_mod (fst (catch c i p w)) i) = catchf (w_mod w i).
Proof. unfold catch. destruct p; [|reflexivity]. destruct (catchf (w_mod w i)) eqn:E; cbn [fst]; wset; exact E. Qed.

Lemma spawn_items_neutral i j n ps : Forall (neutral i) (spawn_items j n ps).
Proof. unfold spawn_items. apply Forall_forall. intros it H. apply in_map_iff in H. destruct H as (ip & <- & _). exact I. Qed.

Lemma SI_closed k now i : Closed k now i (fun _ => True) (SI i).
Proof.
  constructor.
  - apply SI_refl.
  - apply SI_trans.
  - apply do_act_SI.
  - intros who s _. exists [IPanic i who (catchf (w_mod (x_w s) i))]. split; [reflexivity|]. cbn [pan_ok force fold_left sc1 say x_w]. auto.
  - intros s. unfold quiet. destruct (shut (w_mod (x_w s) i)); [apply SI_say; exact I|].
    eapply SI_trans; [apply SI_on_w|apply SI_say; exact I]. wset.
  - intros c b s. apply SI_say. exact I.
  - intros sp s. exists (spawn_items i (inc (w_mod (x_w s) i)) sp). split; [reflexivity|].
    destruct (neutral_ok i _ (catchf (w_mod (x_w s) i)) (spawn_items_neutral i i (inc (w_mod (x_w s) i)) sp)) as [A B].
    unfold spawn_all. wset. auto.
  - intros s. apply SI_on_w. wset.
  - intros how s tk. unfold end_task. eapply SI_trans; [apply SI_on_w|apply SI_say; exact I]. reflexivity.
  - intros d tk s _. apply SI_on_w. wset.
  - intros c p s. apply SI_same; [reflexivity|apply catch_cf].
  - intros s. apply SI_on_w. wset.
  - intros c s. apply SI_on_w. reflexivity.
Qed.

Lemma callback_SI sc i now knd f : callback sc i now knd f -> forall s, SI i s (f s).
Proof. apply callback_R, SI_closed. Qed.

(* ---- the runtime around a callback ---- *)
Lemma activate_cf now m w j : catchf (w_mod (activate now m w) j) = catchf (w_mod w j).
Proof. apply (activate_field catchf). reflexivity. Qed.

Lemma deactivate_cf m w j : catchf (w_mod (deactivate m w) j) = catchf (w_mod w j).
Proof. apply (deactivate_field catchf). reflexivity. Qed.

Lemma buf_process_cf c now m w j : catchf (w_mod (fst (buf_process c now m w)) j) = catchf (w_mod w j).
Proof.
  destruct (N.eq_dec j m) as [->|Hj]; [|rewrite buf_process_oth by exact Hj; reflexivity].
  rewrite buf_process_self. destruct (shut (w_mod w m)); reflexivity.
Qed.

Lemma buf_process_neutral c now m w j : Forall (neutral j) (snd (buf_process c now m w)).
Proof.
  rewrite buf_process_items. destruct (shut (w_mod w m)) as [r|]; [|constructor].
  apply Forall_app. split; [|unfold rpanic; destruct (c_rsend c); repeat constructor]. apply Forall_forall. intros it Hin.
  destruct (cancelled_in _ _ _ _ Hin) as [(id & ->)|(id & ->)]; exact I.
Qed.

Lemma around_WStep sc now i f w : CbOK i f -> (forall s, SI i s (f s)) -> WStep w (snd (around sc now i f w)) (fst (around sc now i f w)).
Proof.
  intros Hok Hsi m. destruct (N.eq_dec m i) as [->|Hm].
  - rewrite around_world, around_log. destruct (Hsi {| x_w := activate now i w; x_log := [] |}) as (l & Hl & Hp & Hc).
    revert Hl Hp Hc. generalize (f {| x_w := activate now i w; x_log := [] |}). intros s Hl Hp Hc.
    cbn [x_w x_log app] in Hl, Hp, Hc. rewrite activate_cf in Hp, Hc.
    destruct (neutral_ok i _ (force i (catchf (w_mod w i)) l) (buf_process_neutral (cfg sc i) now i (deactivate i (x_w s)) i)) as [N1 N2].
    rewrite Hl, pan_ok_app, force_app, N1, buf_process_cf, deactivate_cf, Hc. auto.
  - rewrite (around_oth sc now i f w m Hok Hm).
    destruct (neutral_ok m _ (catchf (w_mod w m)) (Own_neutral i m _ (fun E => Hm (eq_sym E)) (around_own sc now i f w Hok))) as [A B]. auto.
Qed.

Lemma WStep_nil w w' : (forall m, catchf (w_mod w' m) = catchf (w_mod w m)) -> WStep w [] w'.
Proof. intros H m. cbn [pan_ok force fold_left]. auto. Qed.

Lemma WStep_sample w l w' t x : WStep w l w' -> WStep w (l ++ [ISample t x]) w'.
Proof.
  intros H m. destruct (H m) as [A B]. destruct (neutral_ok m [ISample t x] (force m (catchf (w_mod w m)) l)) as [C D]; [repeat constructor|].
  rewrite pan_ok_app, force_app, C. auto.
Qed.

Lemma step_WStep sc w e w' : step sc w e w' -> WStep w (e_items e) w'.
Proof.
  revert w e w'. apply step_cases; cbn [boot_rec e_items].
  - intros stage m w _ _. apply around_WStep; [apply start_cb_ok|apply (callback_SI sc m 0 _ _ (cb_start sc m stage))].
  - intros w. apply (WStep_sample w [] w), WStep_nil. reflexivity.
  - intros w t ev f m cb _ Hcb. apply WStep_sample.
    exact (around_WStep sc t m cb (set_fes w f) (callback_ok _ _ _ _ _ Hcb) (callback_SI _ _ _ _ _ Hcb)).
  - intros w t m far x f w1 _ Hw1. apply (WStep_sample w [] w1), WStep_nil. intros j. destruct Hw1 as [->|(dst & ->)]; reflexivity.
Qed.

(* the world's flags are those in force after the trace so far, and every panic record of the
   trace carries the flag in force when it was written *)
Definition WS (sc : script) (w : world) (tr : list erec) : Prop :=
  forall m, pan_ok m (c_catch (cfg sc m)) (items tr) /\ catchf (w_mod w m) = force m (c_catch (cfg sc m)) (items tr).

Lemma WS_step sc w tr l w' : WS sc w tr -> WStep w l w' -> forall m,
  pan_ok m (c_catch (cfg sc m)) (items tr ++ l) /\ catchf (w_mod w' m) = force m (c_catch (cfg sc m)) (items tr ++ l).
Proof. intros H S m. destruct (H m) as [A B], (S m) as [C D]. rewrite pan_ok_app, force_app, <- B. auto. Qed.

Lemma gen_WS sc : forall w tr, Gen sc w tr -> WS sc w tr.
Proof.
  apply gen_inv.
  - intros m. cbn [items flat_map pan_ok force fold_left]. split; [exact I|]. unfold init_world. cbn [w_mod]. reflexivity.
  - intros w tr e w' _ H S m. rewrite items_snoc. apply (WS_step sc w tr (e_items e) w' H (step_WStep sc w e w' S)).
Qed.

Lemma end_rec_WStep sc now m w : WStep w (e_items (snd (end_rec sc now m w))) (fst (end_rec sc now m w)).
Proof.
  intros j. destruct (N.eq_dec j m) as [->|Hj].
  - destruct (at_sim_end_steps _ _ _ _ (SI_closed (nmods sc) now m) (cfg sc m) {| x_w := activate now m w; x_log := [] |}) as (l & Hl & Hp & Hc).
    cbn [x_w x_log app] in Hl, Hp, Hc. rewrite activate_cf in Hp, Hc. rewrite end_rec_fst, end_rec_snd, deactivate_cf. cbn [e_items]. rewrite Hl. auto.
  - rewrite (end_rec_oth sc now m w j Hj).
    destruct (neutral_ok j _ (catchf (w_mod w j)) (Own_neutral m j _ (fun E => Hj (eq_sym E)) (end_rec_own sc now m w))) as [A B]. auto.
Qed.

Lemma end_seq_WS sc now : forall ms w tr, WS sc w tr -> forall m,
  pan_ok m (c_catch (cfg sc m)) (items (tr ++ snd (end_seq sc now ms w))).
Proof.
  induction ms as [|m0 ms IH]; intros w tr H m.
  - cbn [end_seq snd]. rewrite app_nil_r. apply H.
  - rewrite end_seq_snd. specialize (IH (fst (end_rec sc now m0 w)) (tr ++ [snd (end_rec sc now m0 w)])).
    rewrite <- app_assoc in IH. apply IH. intros j. rewrite items_snoc. apply (WS_step sc w tr _ _ H (end_rec_WStep sc now m0 w)).
Qed.

(* every panic record of the run carries the flag in force where it stands *)
Theorem trace_pan_ok sc m : pan_ok m (c_catch (cfg sc m)) (items (trace sc)).
Proof.
  destruct (run_decomp sc) as (w & tr & HG & [(_ & _ & now & Et & _)|(_ & Et & _)]); rewrite Et.
  - apply end_seq_WS, gen_WS, HG.
  - apply (gen_WS sc w tr HG).
Qed.

Theorem stereotype_in_force sc m l1 who c l2 :
  items (trace sc) = l1 ++ IPanic m who c :: l2 -> c = force m (c_catch (cfg sc m)) l1.
Proof.
  intros E. pose proof (trace_pan_ok sc m) as H.
  rewrite E in H. apply pan_ok_app in H. destruct H as [_ H]. cbn [pan_ok] in H. apply H. reflexivity.
Qed.
