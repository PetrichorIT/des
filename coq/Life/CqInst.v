(* The event-set instances of the generic life-cycle event loop (Life/ModelCq.v):
     - the two-list specification of des-cqueue (CQueue/Spec.v [sp]) with an event store,
     - the concrete calendar queue (CQueue/Model.v [cq]) with an event store,
   both simulate the event set [fes] of Life/Sim.v (for the calendar queue through the refinement
   relation of C01, CQueue/Client.v).  Hence the life-cycle run over the calendar
   queue produces the result of the run over the specification, for all n, t >= 1, and every
   theorem of C09 / C13 about [run_script] holds for the run over the calendar queue itself.
   (The relation between [fes] and [sp] is the one of CQueue/Client.v, at the events of this model.) *)
From Coq Require Import List Arith NArith PArith Bool Lia Permutation.
From DesVerif Require Import Common.Fuel CQueue.Model CQueue.Spec CQueue.ListX CQueue.Refine CQueue.Client
  Life.Model Life.ModelCq Life.CqSim.
Import ListNotations.
Open Scope N_scope.

(* the specification of des-cqueue with an event store (CQueue/Client.v at the
   events of this model; [fes_ins] is [tins] and [spq_add], [spq_fetch], [cq_add], [cq_fetch] are
   its operations, by conversion) *)
Definition sps := (sp * list fev)%type.
Definition spq_add (t : N) (e : fev) (qs : sps) : sps :=
  (fst (fst (sp_add (fst qs) t (N.of_nat (length (snd qs))))), snd qs ++ [e]).
Definition spq_fetch (qs : sps) : option (N * fev * sps) :=
  if sp_len (fst qs) =? 0 then None
  else match sp_fetch (fst qs) with
       | (s', OFetched p t) => Some (t, nth (N.to_nat p) (snd qs) (EvWake 0), (s', snd qs))
       | _ => None
       end.
Definition RQs (f : fes) (qs : sps) : Prop := Client.RQs fev (EvWake 0) (f_tcur f) (f_zero f) (f_rest f) qs.

Lemma spq_add_sim f qs t e : RQs f qs -> f_tcur f <= t -> RQs (fes_add t e f) (spq_add t e qs).
Proof.
  intros HR Hge. generalize (sp_store_add_sim fev (EvWake 0) _ _ _ qs t e HR Hge). unfold RQs, fes_add.
  destruct (t =? f_tcur f); intros H; exact H.
Qed.

Lemma spq_fetch_sim f qs : RQs f qs ->
  match fes_fetch f with
  | Some (t, e, f') => exists q', spq_fetch qs = Some (t, e, q') /\ RQs f' q'
  | None => spq_fetch qs = None
  end.
Proof.
  intros HR. generalize (sp_store_fetch_sim fev (EvWake 0) _ _ _ qs HR). unfold fetch_sim, fes_fetch.
  destruct (f_zero f) as [|[t e] z]; [destruct (f_rest f) as [|[t e] r]|]; intros H; exact H.
Qed.

Definition run_script_sp (sc : script) : result := grun_script sps spq_add spq_fetch (sp_new_at 0, []) sc.

Theorem run_over_sp_eq sc : run_script_sp sc = run_script sc.
Proof. apply (run_script_sim sps spq_add spq_fetch RQs spq_add_sim spq_fetch_sim). exact (SpRel_new fev (EvWake 0)). Qed.

(* the calendar queue, through the refinement relation of C01 *)
Definition RQc (f : fes) (qs : cqs) : Prop := Client.RQc fev (EvWake 0) (f_tcur f) (f_zero f) (f_rest f) qs.

Lemma cq_add_sim f qs t e : RQc f qs -> f_tcur f <= t -> RQc (fes_add t e f) (cq_add t e qs).
Proof.
  intros HR Hge. generalize (cq_store_add_sim fev (EvWake 0) _ _ _ qs t e HR Hge). unfold RQc, fes_add.
  destruct (t =? f_tcur f); intros H; exact H.
Qed.

Lemma cq_fetch_sim f qs : RQc f qs ->
  match fes_fetch f with
  | Some (t, e, f') => exists q', cq_fetch qs = Some (t, e, q') /\ RQc f' q'
  | None => cq_fetch qs = None
  end.
Proof.
  intros HR. generalize (cq_store_fetch_sim fev (EvWake 0) _ _ _ qs HR). unfold fetch_sim, fes_fetch.
  destruct (f_zero f) as [|[t e] z]; [destruct (f_rest f) as [|[t e] r]|]; intros H; exact H.
Qed.

Lemma RQc_init n t : n <> 0 -> t <> 0 -> RQc {| f_tcur := 0; f_zero := []; f_rest := [] |} (cq_init n t).
Proof. exact (Client.RQc_init fev (EvWake 0) n t). Qed.

(* every trace, and the termination flag, whatever calendar-queue parameters are chosen *)
Theorem run_script_over_cqueue n t sc : n <> 0 -> t <> 0 -> run_script_cq n t sc = run_script sc.
Proof.
  intros Hn Ht. apply (run_script_sim cqs cq_add cq_fetch RQc cq_add_sim cq_fetch_sim). apply RQc_init; assumption.
Qed.

Theorem run_over_cqueue n t input : n <> 0 -> t <> 0 -> run_cq n t input = Life.Model.run input.
Proof. intros Hn Ht. unfold run_cq, Life.Model.run. rewrite !run_script_over_cqueue by assumption.
  destruct (variant input); [rewrite run_script_over_cqueue by assumption|]; reflexivity. Qed.

Theorem flat_log_over_cqueue n t sc : n <> 0 -> t <> 0 -> flat_log_cq n t sc = flat_log sc.
Proof. intros Hn Ht. unfold flat_log_cq, flat_log, trace_cq, trace. rewrite run_script_over_cqueue by assumption. reflexivity. Qed.

Theorem trace_over_cqueue n t sc : n <> 0 -> t <> 0 -> trace_cq n t sc = trace sc.
Proof. intros Hn Ht. unfold trace_cq, trace. rewrite run_script_over_cqueue by assumption. reflexivity. Qed.
