(* A potential for the termination of the event loop of coq/Life/Sim.v.  Every budget unit
   of a module is worth U, every pending event its weight, every remaining action of a live
   task 4, every pending timer 2 more, the time driver's next_wakeup 1, a timer queue whose
   head is not covered by next_wakeup 2, a pending restart request the weight of the restart
   event.  This file: the part of one module and what the script interpreter does to it. *)
From Coq Require Import List NArith PArith Bool Lia.
From DesVerif Require Import Life.Model Life.Base Life.Step.
Import ListNotations.
Open Scope N_scope.

Section Pot.
Variable sc : script.

Definition RR : N := 4 * cfg_unit sc.
Definition UU : N := RR + 4.

Definition wt (e : fev) : N :=
  match e with EvExit _ _ _ => 2 | EvDeliver _ _ => 1 | EvWake _ => 1 | EvRestart _ => 1 + RR end.
Fixpoint wl (l : list (N * fev)) : N := match l with [] => 0 | p :: r => wt (snd p) + wl r end.
Definition wsum (f : fes) : N := wl (f_zero f) + wl (f_rest f).

Lemma wl_app a b : wl (a ++ b) = wl a + wl b.
Proof. induction a as [|x a IH]; cbn [wl app]; [reflexivity|]. rewrite IH. lia. Qed.

Lemma wl_ins t e l : wl (fes_ins t e l) = wt e + wl l.
Proof.
  induction l as [|x r IH]; cbn [fes_ins]; [reflexivity|]. destruct (t <? fst x); [reflexivity|].
  cbn [wl]. rewrite IH. lia.
Qed.

Lemma wsum_add t e f : wsum (fes_add t e f) = wt e + wsum f.
Proof.
  unfold wsum, fes_add. destruct (t =? f_tcur f); cbn [f_zero f_rest].
  - rewrite wl_app. cbn [wl snd]. lia.
  - rewrite wl_ins. lia.
Qed.

Lemma wsum_flush ps : forall f, wsum (fes_flush ps f) = wl ps + wsum f.
Proof.
  induction ps as [|p ps IH]; intros f; cbn [fes_flush fold_left]; [reflexivity|].
  fold (fes_flush ps (fes_add (fst p) (snd p) f)). rewrite IH, wsum_add. cbn [wl]. lia.
Qed.

Lemma wsum_fetch f t ev f' : fes_fetch f = Some (t, ev, f') -> wsum f = wt ev + wsum f'.
Proof.
  unfold fes_fetch, wsum. destruct (f_zero f) as [|[tx ex] z].
  - destruct (f_rest f) as [|[tx ex] r]; [discriminate|]. intros H. injection H as <- <- <-. cbn. reflexivity.
  - intros H. injection H as <- <- <-. cbn [f_zero f_rest wl snd]. lia.
Qed.

(* ---- one module ---- *)
Definition tkw (tk : task) : N := 4 * N.of_nat (length (tk_rest tk)).
Fixpoint rdw (l : list task) : N := match l with [] => 0 | tk :: r => tkw tk + rdw r end.
Fixpoint tmw (l : list (N * task)) : N := match l with [] => 0 | p :: r => tkw (snd p) + 2 + tmw r end.
Definition nwf (n : option N) : N := match n with Some _ => 1 | None => 0 end.
(* the head of the timer queue is not the time next_wakeup stands at *)
Definition stale (l : list (N * task)) (n : option N) : N :=
  match l with
  | [] => 0
  | (t, _) :: _ => match n with Some u => if u =? t then 0 else 2 | None => 2 end
  end.
Definition shw (s : option (option N)) : N := match s with Some (Some _) => 1 + RR | _ => 0 end.

Definition part (x : mst) : N :=
  UU * bud x + rdw (ready x) + tmw (timers x) + nwf (nw x) + stale (timers x) (nw x) + shw (shut x).

Lemma rdw_app a b : rdw (a ++ b) = rdw a + rdw b.
Proof. induction a as [|x a IH]; cbn [rdw app]; [reflexivity|]. rewrite IH. lia. Qed.

Lemma tmw_app a b : tmw (a ++ b) = tmw a + tmw b.
Proof. induction a as [|x a IH]; cbn [tmw app]; [reflexivity|]. rewrite IH. lia. Qed.

Lemma tmw_tins t tk l : tmw (tins t tk l) = tkw tk + 2 + tmw l.
Proof.
  induction l as [|x r IH]; cbn [tins]; [reflexivity|]. destruct (t <? fst x); [reflexivity|].
  cbn [tmw]. rewrite IH. lia.
Qed.

Lemma stale_le l n : stale l n <= 2.
Proof. unfold stale. destruct l as [|[t tk] r]; [lia|]. destruct n as [u|]; [destruct (u =? t)|]; lia. Qed.

(* the potential seen from module m: its part, the event buffer, the event set *)
Definition pm (m : N) (w : world) : N := part (w_mod w m) + wl (w_buf w) + wsum (w_fes w).

Lemma pm_set_mod m w x : pm m (set_mod w m x) = part x + wl (w_buf w) + wsum (w_fes w).
Proof. unfold pm. rewrite mod_same. reflexivity. Qed.

Lemma part_set_ready x l : part (set_ready x l) + rdw (ready x) = part x + rdw l.
Proof. unfold part. cbn [bud ready timers nw shut set_ready]. lia. Qed.

Lemma RR_pos : 1 <= UU.
Proof. unfold UU. lia. Qed.

(* ---- scripted actions ---- *)
Lemma spend_pm m w : bud (w_mod w m) <> 0 -> pm m (spend m w) + UU = pm m w.
Proof.
  intros H. unfold spend. rewrite pm_set_mod. unfold pm, part. cbn [bud ready timers nw shut set_bud].
  assert (E : UU * bud (w_mod w m) = UU * (bud (w_mod w m) - 1) + UU) by nia. lia.
Qed.

Lemma buf_push_pm m p w : pm m (buf_push p w) = pm m w + wt (snd p).
Proof. unfold pm, buf_push. cbn [w_mod w_buf w_fes set_buf]. rewrite wl_app. cbn [wl]. lia. Qed.

Lemma buf_send_at_pm k now m far d x w : pm m (buf_send_at k now m far d x w) <= pm m w + 2.
Proof.
  unfold buf_send_at. destruct (d =? 0); [|rewrite buf_push_pm; cbn [snd wt]; lia].
  destruct (walk k w m far); [rewrite buf_push_pm; cbn [snd wt]|]; lia.
Qed.

Lemma request_pm m r w : pm m (request m r w) <= pm m w + 1 + RR.
Proof.
  unfold request. rewrite pm_set_mod. unfold pm, part. cbn [bud ready timers nw shut set_shut].
  assert (shw (Some r) <= 1 + RR) by (destruct r; cbn [shw]; lia). lia.
Qed.

Lemma do_act_pm k now m who a s : pm m (x_w (do_act k now m who a s)) <= pm m (x_w s).
Proof.
  destruct a; cbn [do_act]; try apply N.le_refl;
    try (cbn [say on_w x_w]; rewrite pm_set_mod; apply N.le_refl); unfold broke; destruct (bud (w_mod (x_w s) m) =? 0) eqn:E; try apply N.le_refl;
    apply N.eqb_neq in E; pose proof (spend_pm m (x_w s) E) as Hs; cbn [say on_w x_w]; unfold UU in *.
  - pose proof (buf_send_at_pm k now m far d x (spend m (x_w s))). lia.
  - unfold buf_schedule_at. rewrite buf_push_pm. cbn [snd wt]. lia.
  - pose proof (request_pm m None (spend m (x_w s))). lia.
  - pose proof (request_pm m (Some (now + d)) (spend m (x_w s))). lia.
Qed.

Lemma quiet_pm m s : pm m (x_w (quiet m s)) = pm m (x_w s).
Proof.
  unfold quiet. destruct (shut (w_mod (x_w s) m)) eqn:E; cbn [say on_w x_w]; [reflexivity|].
  unfold request. rewrite pm_set_mod. unfold pm, part. cbn [bud ready timers nw shut set_shut]. rewrite E. cbn [shw]. lia.
Qed.

(* a program: what is left of it is returned when it goes to sleep *)
Definition inflight (r : res) : N := match r with RSleep _ rest => 4 * N.of_nat (length rest) + 4 | _ => 0 end.

Lemma run_prog_pm tk k now m who : forall p s,
  pm m (x_w (fst (run_prog tk k now m who p s))) + inflight (snd (run_prog tk k now m who p s)) <=
  pm m (x_w s) + (if tk then 4 * N.of_nat (length p) else 0).
Proof.
  induction p as [|a p IH]; intros s; cbn [run_prog fst snd length inflight]; [lia|].
  assert (Hd : forall s', pm m (x_w s') <= pm m (x_w s) ->
            pm m (x_w (fst (run_prog tk k now m who p s'))) + inflight (snd (run_prog tk k now m who p s')) <=
            pm m (x_w s) + (if tk then 4 * N.of_nat (S (length p)) else 0)) by (intros s' Hs'; specialize (IH s'); destruct tk; lia).
  assert (Ha : forall a, pm m (x_w (fst (run_prog tk k now m who p (do_act k now m who a s)))) +
                         inflight (snd (run_prog tk k now m who p (do_act k now m who a s))) <=
                         pm m (x_w s) + (if tk then 4 * N.of_nat (S (length p)) else 0)) by (intros a0; apply Hd, do_act_pm).
  destruct a.
  - apply Ha.
  - apply Ha.
  - apply Ha.
  - (* a callback never sleeps *)
    destruct tk; cbn [andb]; [|apply Hd, N.le_refl]. destruct (0 <? d); cbn [fst snd inflight]; [lia|apply Hd, N.le_refl].
  - apply Ha.
  - apply Ha.
  - cbn [fst snd inflight say x_w]. destruct tk; lia.
  - apply Ha.
  - destruct tk; cbn [fst snd inflight]; [apply Hd, N.le_refl|rewrite quiet_pm; lia].
Qed.

(* a task that goes to sleep: its timer entry, and possibly a stale queue head *)
Lemma part_tins x t tk : part (set_timers x (tins t tk (timers x))) <= part x + tkw tk + 4.
Proof.
  unfold part. cbn [bud ready timers nw shut set_timers]. rewrite tmw_tins.
  pose proof (stale_le (tins t tk (timers x)) (nw x)). lia.
Qed.

Lemma end_task_pm m how s tk : pm m (x_w (end_task m how s tk)) = pm m (x_w s).
Proof. reflexivity. Qed.

Lemma fold_end_task_pm m : forall l s, pm m (x_w (fold_left (end_task m 0) l s)) = pm m (x_w s).
Proof. induction l as [|tk l IH]; intros s; cbn [fold_left]; [reflexivity|]. rewrite IH. apply end_task_pm. Qed.

Lemma poll1_pm k now m s tk : pm m (x_w (poll1 k now m s tk)) <= pm m (x_w s) + tkw tk.
Proof.
  unfold poll1.
  match goal with |- context [run_prog true k now m ?who ?p ?s0] =>
    pose proof (run_prog_pm true k now m who p s0) as H; destruct (run_prog true k now m who p s0) as [s1 r] end.
  cbn [fst snd say x_w] in H. unfold tkw. destruct r; cbn [inflight] in H; rewrite ?end_task_pm; cbn [on_w x_w]; try lia.
  - rewrite pm_set_mod.
    pose proof (part_tins (w_mod (x_w s1) m) (now + d) {| tk_id := tk_id tk; tk_inc := tk_inc tk; tk_new := false; tk_rest := rest |}) as E.
    unfold tkw in E. cbn [tk_rest] in E. unfold pm in H at 1. lia.
Qed.

Lemma fold_poll1_pm k now m : forall l s, pm m (x_w (fold_left (poll1 k now m) l s)) <= pm m (x_w s) + rdw l.
Proof.
  induction l as [|tk l IH]; intros s; cbn [fold_left rdw]; [lia|].
  specialize (IH (poll1 k now m s tk)). pose proof (poll1_pm k now m s tk). lia.
Qed.

Lemma poll_ready_pm k now m s : pm m (x_w (poll_ready k now m s)) <= pm m (x_w s).
Proof.
  unfold poll_ready.
  pose proof (fold_poll1_pm k now m (ready (w_mod (x_w s) m)) (on_w (fun w => set_mod w m (set_ready (w_mod w m) [])) s)) as H.
  cbn [on_w x_w] in H. rewrite pm_set_mod in H. pose proof (part_set_ready (w_mod (x_w s) m) []) as E. cbn [rdw] in E.
  unfold pm at 2. lia.
Qed.

(* the tasks at_sim_start(0) spawns *)
Definition spw (ps : list prog) : N := fold_right (fun p a => 4 * N.of_nat (length p) + a) 0 ps.

Lemma spawn_all_pm m ps w : pm m (spawn_all m ps w) = pm m w + spw (map snd ps).
Proof.
  unfold spawn_all. rewrite pm_set_mod. unfold pm, part. cbn [bud ready timers nw shut set_ready set_hnd]. rewrite rdw_app.
  assert (E : forall n, rdw (map (fun ip => {| tk_id := N.of_nat (fst ip); tk_inc := inc (w_mod w m); tk_new := true; tk_rest := snd (snd ip) |})
                                (combine (seq n (length ps)) ps)) = spw (map snd ps)).
  { induction ps as [|p ps IH]; intros n; cbn [length seq combine map rdw spw fold_right]; [reflexivity|].
    rewrite IH. unfold tkw. cbn [tk_rest snd]. reflexivity. }
  rewrite E. lia.
Qed.

Lemma c_spawn_snd c : map snd (c_spawn c) = c_tasks c.
Proof.
  unfold c_spawn. rewrite map_map. cbn [snd]. generalize 0%nat. induction (c_tasks c) as [|p l IH]; intros n; [reflexivity|].
  cbn [length seq combine map snd]. rewrite IH. reflexivity.
Qed.

Lemma exec_pm k now m c sp p s : pm m (x_w (fst (exec k now m c sp p s))) <= pm m (x_w s) + spw (map snd sp).
Proof.
  unfold exec.
  match goal with |- context [run_prog false k now m 0 p ?s0] =>
    pose proof (run_prog_pm false k now m 0 p s0) as H; destruct (run_prog false k now m 0 p s0) as [s2 r] end.
  cbn [fst say say_all on_w x_w] in H. rewrite spawn_all_pm in H.
  destruct r; cbn [fst].
  - pose proof (poll_ready_pm k now m s2). lia.
  - lia.
  - rewrite fold_end_task_pm. cbn [on_w x_w]. rewrite pm_set_mod. pose proof (part_set_ready (w_mod (x_w s2) m) []) as E. cbn [rdw] in E.
    unfold pm in H at 1. lia.
  - pose proof (poll_ready_pm k now m s2). lia.
Qed.

Lemma catch_pm c m p w : pm m (fst (catch c m p w)) = pm m w.
Proof.
  unfold catch. destruct p; cbn [fst]; [|reflexivity].
  destruct (catchf (w_mod w m)); cbn [fst]; unfold pm; cbn [w_mod w_buf w_fes set_err set_mod]; rewrite N.eqb_refl; reflexivity.
Qed.

Lemma at_sim_start_pm k c now m stage s :
  pm m (x_w (fst (at_sim_start k c now m stage s))) <= pm m (x_w s) + (if stage =? 0 then spw (c_tasks c) else 0).
Proof.
  rewrite at_sim_start_eq. cbv zeta. rewrite fst_pair. cbn [x_w]. rewrite catch_pm.
  pose proof (exec_pm k now m (CbStart stage) (fst (start_prog c stage (inc (w_mod (x_w s) m)))) (snd (start_prog c stage (inc (w_mod (x_w s) m)))) s) as H.
  unfold start_prog in *. destruct (stage =? 0); cbn [fst snd spw fold_right map] in H; rewrite ?c_spawn_snd in H; exact H.
Qed.

Definition zeros (l : list N) : N := fold_right (fun st a => (if st =? 0 then 1 else 0) + a) 0 l.

Lemma restart_fold_pm k c now m : forall l s e,
  pm m (x_w (fst (fold_left (fun (acc : xs * bool) stage => if snd acc then acc else restart_stage k c now m stage (fst acc)) l (s, e)))) <=
  pm m (x_w s) + zeros l * spw (c_tasks c).
Proof.
  induction l as [|st l IH]; intros s e; cbn [fold_left fst snd zeros fold_right]; [lia|].
  destruct e.
  - specialize (IH s true). fold (zeros l). nia.
  - pose proof (at_sim_start_pm k c now m st s) as H1.
    change (restart_stage k c now m st s) with
      (fst (at_sim_start k c now m st s), snd (at_sim_start k c now m st s) || negb (active (w_mod (x_w (fst (at_sim_start k c now m st s))) m))).
    destruct (at_sim_start k c now m st s) as [s1 e1]. cbn [fst snd] in *.
    specialize (IH s1 (e1 || negb (active (w_mod (x_w s1) m)))). fold (zeros l). destruct (st =? 0); nia.
Qed.

Lemma zeros_stage_list n : zeros (stage_list n) <= 1.
Proof.
  unfold stage_list. destruct (N.to_nat n) as [|k]; [cbn; lia|]. cbn [seq map zeros fold_right N.of_nat N.eqb].
  assert (G : forall j i, (1 <= i)%nat -> fold_right (fun st a => (if st =? 0 then 1 else 0) + a) 0 (map N.of_nat (seq i j)) = 0).
  { induction j as [|j IH]; intros i Hi; cbn [seq map fold_right]; [reflexivity|]. rewrite IH by lia.
    destruct (N.of_nat i =? 0) eqn:E; [apply N.eqb_eq in E; lia|reflexivity]. }
  rewrite (G k 1%nat) by lia. lia.
Qed.

Lemma module_restart_pm k c now m s :
  pm m (x_w (module_restart k c now m s)) <= pm m (x_w s) + spw (c_tasks c).
Proof.
  unfold module_restart.
  pose proof (restart_fold_pm k c now m (stage_list (c_stages c)) (on_w (fun w => set_mod w m (set_active (w_mod w m) true)) s) false) as H.
  cbn [on_w x_w] in H. rewrite pm_set_mod in H. change (part (set_active (w_mod (x_w s) m) true)) with (part (w_mod (x_w s) m)) in H. fold (pm m (x_w s)) in H.
  pose proof (N.mul_le_mono_r _ _ (spw (c_tasks c)) (zeros_stage_list (c_stages c))). lia.
Qed.

Lemma handle_message_pm k c now m x s : pm m (x_w (handle_message k c now m x s)) <= pm m (x_w s).
Proof.
  unfold handle_message. destruct (active (w_mod (x_w s) m)); [|lia].
  pose proof (exec_pm k now m (CbMsg x) [] (pick_msg c x) s) as H.
  destruct (exec k now m (CbMsg x) [] (pick_msg c x) s) as [s1 p]. cbn [fst spw fold_right map x_w] in *. rewrite catch_pm. lia.
Qed.

Lemma async_wakeup_pm k now m s : pm m (x_w (async_wakeup k now m s)) <= pm m (x_w s).
Proof. unfold async_wakeup. destruct (active (w_mod (x_w s) m)); [apply poll_ready_pm|lia]. Qed.

End Pot.
