(* Forward simulation between the event loop of Life/Sim.v (over the two-list event-set specification
   [fes]) and the generic event loop of Life/ModelCq.v over ANY event-set implementation whose add and
   fetch simulate [fes_add] / [fes_fetch] -- the add only for times that are not before the set's
   clock: that every add of the life-cycle model is of that kind is the "nothing is scheduled into
   the past" invariant FW of Life/Future.v.  Result: both loops produce the same [result]. *)
From Coq Require Import List NArith PArith Bool Lia.
From DesVerif Require Import Common.Fuel Life.Model Life.Base Life.Step Life.Trace Life.Agree Life.Strip
  Life.Wake Life.Walk Life.Future Life.ModelCq Life.CqComm.
Import ListNotations.
Open Scope N_scope.

(* the world without its event set *)
Definition core (w : world) : world := set_fes w fnil.

(* a callback that does not touch the event set *)
Definition Comm (f : xs -> xs) : Prop := forall fe s, f (sf fe s) = sf fe (f s).

Section Sim.
Variable Q : Type.
Variable q_add : N -> fev -> Q -> Q.
Variable q_fetch : Q -> option (N * fev * Q).
Variable RQ : fes -> Q -> Prop.
Hypothesis H_add : forall f q t e, RQ f q -> f_tcur f <= t -> RQ (fes_add t e f) (q_add t e q).
Hypothesis H_fetch : forall f q, RQ f q ->
  match fes_fetch f with
  | Some (t, e, f') => exists q', q_fetch q = Some (t, e, q') /\ RQ f' q'
  | None => q_fetch q = None
  end.

Notation gw := (gworld Q).
Notation qfl := (q_flush Q q_add).

Lemma qfl_app a b q : qfl (a ++ b) q = qfl b (qfl a q).
Proof. unfold q_flush. apply fold_left_app. Qed.

Lemma flush_sim ps : forall f q, RQ f q -> Forall (fun p => f_tcur f <= fst p) ps -> RQ (fes_flush ps f) (qfl ps q).
Proof.
  induction ps as [|p ps IH]; intros f q HR Hall; cbn [fes_flush q_flush fold_left]; [exact HR|].
  inversion Hall as [|? ? Hp Hps]; subst. apply IH; [apply H_add; assumption|]. rewrite fes_add_tcur. exact Hps.
Qed.

(* ---- the event-set layer, equationally: the generic functions do to (core w, q) what the functions of Sim.v
   do to w, and add to q what those add to w_fes w ---- *)
Lemma gdeactivate_eq m w q :
  gdeactivate Q q_add m (core w, q) = (core (deactivate m w), qfl (wake_of m (w_mod w m)) q).
Proof.
  unfold gdeactivate, deactivate, wake_of, core. cbn [fst snd set_fes w_mod].
  destruct (timers (w_mod w m)) as [|[t tk] r]; [reflexivity|]. destruct (lt_nw t (nw (w_mod w m))); reflexivity.
Qed.

Lemma gshutdown_eq c now m w q :
  gshutdown_part Q q_add c now m (core w, q) =
  ((core (fst (shutdown_part c now m w)), qfl (restart_of m (w_mod w m)) q), snd (shutdown_part c now m w)).
Proof.
  unfold gshutdown_part, shutdown_part, restart_of, core. cbn [fst snd set_fes w_mod].
  destruct (shut (w_mod w m)) as [[t|]|]; [| |reflexivity]; destruct (c_rsend c); reflexivity.
Qed.

Lemma gbuf_eq c now m w q :
  gbuf_process Q q_add c now m (core w, q) =
  ((core (fst (buf_process c now m w)), qfl (w_buf w ++ restart_of m (w_mod w m)) q), snd (buf_process c now m w)).
Proof.
  unfold gbuf_process, buf_process. cbn [fst snd].
  change (set_buf (core w) []) with (core (set_buf (set_fes w (fes_flush (w_buf w) (w_fes w))) [])).
  rewrite gshutdown_eq, qfl_app. reflexivity.
Qed.

Lemma garound_eq sc now i f w q : Comm f ->
  garound Q q_add sc now i f (core w, q) =
  ((core (fst (around sc now i f w)), qfl (adds_of now i f w) q), snd (around sc now i f w)).
Proof.
  intros Hc. unfold garound, around, adds_of. cbn [fst snd]. change (activate now i (core w)) with (activate now i (set_fes w fnil)). rewrite activate_sf.
  change {| x_w := set_fes (activate now i w) fnil; x_log := [] |} with (sf fnil {| x_w := activate now i w; x_log := [] |}).
  rewrite Hc. set (s := f {| x_w := activate now i w; x_log := [] |}). cbn [sf x_w x_log].
  change (set_fes (x_w s) fnil) with (core (x_w s)). rewrite gdeactivate_eq, gbuf_eq.
  destruct (buf_process (cfg sc i) now i (deactivate i (x_w s))) as [w' l]. cbn [fst snd].
  rewrite <- !qfl_app, deactivate_buf. reflexivity.
Qed.

(* ---- the simulation ---- *)
Definition Rel (w : world) (g : gw) : Prop := fst g = core w /\ RQ (w_fes w) (snd g).

Lemma around_sim sc now i f w g :
  FW now w -> CbOK i f -> (forall s, FC now i s -> FC now i (f s)) -> Comm f -> Rel w g ->
  Rel (fst (around sc now i f w)) (fst (garound Q q_add sc now i f g)) /\
  snd (around sc now i f w) = snd (garound Q q_add sc now i f g).
Proof.
  intros HW Hok Hfc Hc [E HR]. destruct g as [wc q]. cbn [fst snd] in E, HR. subst wc.
  rewrite (garound_eq sc now i f w q Hc), !fst_pair, snd_pair. split; [|reflexivity]. split; [apply fst_pair|]. rewrite snd_pair.
  rewrite (around_adds sc now i f w Hok).
  apply flush_sim; [exact HR|]. rewrite (fw_clock _ _ HW). apply adds_ge, Hfc, activate_FC, HW.
Qed.

Lemma callback_comm sc m now knd f : callback sc m now knd f -> Comm f.
Proof.
  intros [stage|t x|t|t] fe s; [unfold start_cb; rewrite at_sim_start_sf; reflexivity|apply handle_message_sf|apply async_wakeup_sf|apply module_restart_sf].
Qed.

Lemma module_event_sim sc now i knd f w g : FW now w -> callback sc i now knd f -> Rel w g ->
  Rel (fst (around sc now i f w)) (fst (garound Q q_add sc now i f g)) /\
  snd (around sc now i f w) = snd (garound Q q_add sc now i f g).
Proof.
  intros HW Hcb. apply around_sim; [exact HW|apply (callback_ok _ _ _ _ _ Hcb)|apply (callback_FC _ _ _ _ _ Hcb)|apply (callback_comm _ _ _ _ _ Hcb)].
Qed.

Lemma process_sim sc w g t ev : FW t w -> Rel w g ->
  Rel (fst (process sc w t ev)) (fst (gprocess Q q_add sc g t ev)) /\ snd (process sc w t ev) = snd (gprocess Q q_add sc g t ev).
Proof.
  intros HW HRel. destruct ev as [m far x|m x|m|m]; cbn [process gprocess].
  - destruct HRel as [E HR]. destruct g as [wc q]. cbn [fst snd] in *. subst wc. change (walk (nmods sc) (core w) m far) with (walk (nmods sc) w m far).
    destruct (walk (nmods sc) w m far); (split; [|reflexivity]); split; cbn [fst snd set_fes w_fes]; try reflexivity; try exact HR.
    apply H_add; [exact HR|]. rewrite (fw_clock _ _ HW). lia.
  - apply (module_event_sim sc t m _ _ w g HW (cb_msg sc m t x) HRel).
  - apply (module_event_sim sc t m _ _ w g HW (cb_wake sc m t) HRel).
  - apply (module_event_sim sc t m _ _ w g HW (cb_restart sc m t) HRel).
Qed.

(* ---- start-up ---- *)
Definition Rel0 (a : world * list erec) (b : gw * list erec) : Prop :=
  Rel (fst a) (fst b) /\ snd a = snd b /\ FW 0 (fst a).

Lemma start_one_sim sc stage m a b : Rel0 a b -> Rel0 (start_one sc stage m a) (gstart_one Q q_add sc stage m b).
Proof.
  destruct a as [w tr], b as [g tr']. unfold Rel0. cbn [fst snd]. intros (HRel & <- & HW).
  pose proof (start_one_FW sc stage m (w, tr) HW) as HW'.
  unfold start_one, gstart_one in *. destruct HRel as [E HR]. rewrite E. change (w_mod (core w) m) with (w_mod w m).
  destruct ((stage <? c_stages (cfg sc m)) && active (w_mod w m)); [|cbn [fst snd] in *; split; [split; assumption|split; [reflexivity|exact HW]]].
  destruct (module_event_sim sc 0 m _ _ w g HW (cb_start sc m stage) (conj E HR)) as [S1 S2]. unfold start_cb in S1, S2.
  destruct (around sc 0 m _ w) as [w' l], (garound Q q_add sc 0 m _ g) as [g' l']. cbn [fst snd] in *. subst l'.
  split; [exact S1|split; [reflexivity|exact HW']].
Qed.

Lemma sim_start_sim sc w g : Rel w g -> FW 0 w -> Rel0 (sim_start sc w) (gsim_start Q q_add sc g).
Proof.
  intros HRel HW. unfold sim_start, gsim_start.
  assert (G : forall stages a b, Rel0 a b ->
    Rel0 (fold_left (fun acc stage => fold_left (fun acc m => start_one sc stage m acc) (mods sc) acc) stages a)
         (fold_left (fun acc stage => fold_left (fun acc m => gstart_one Q q_add sc stage m acc) (mods sc) acc) stages b)).
  { induction stages as [|st stages IH]; intros a b H; cbn [fold_left]; [exact H|]. apply IH.
    generalize (mods sc). intros ms. revert a b H. induction ms as [|m ms IHm]; intros a b H; cbn [fold_left]; [exact H|].
    apply IHm, start_one_sim, H. }
  apply G. split; [exact HRel|split; [reflexivity|exact HW]].
Qed.

(* ---- tear-down: what it adds to the event set is never looked at ---- *)
Lemma end_one_sim sc now m a b :
  fst (fst b) = core (fst a) -> snd a = snd b ->
  fst (fst (gend_one Q q_add sc now m b)) = core (fst (end_one sc now m a)) /\ snd (end_one sc now m a) = snd (gend_one Q q_add sc now m b).
Proof.
  destruct a as [w tr], b as [[wc q] tr']. cbn [fst snd]. intros -> <-. unfold end_one, gend_one. cbn [fst snd].
  change (activate now m (core w)) with (activate now m (set_fes w fnil)). rewrite activate_sf.
  change {| x_w := set_fes (activate now m w) fnil; x_log := [] |} with (sf fnil {| x_w := activate now m w; x_log := [] |}).
  rewrite at_sim_end_sf. cbn [sf x_w x_log]. change (set_fes ?x fnil) with (core x). rewrite gdeactivate_eq. cbn [fst snd]. split; reflexivity.
Qed.

Lemma sim_end_sim sc now w g : fst g = core w ->
  fst (fst (gsim_end Q q_add sc now g)) = core (fst (sim_end sc now w)) /\ snd (sim_end sc now w) = snd (gsim_end Q q_add sc now g).
Proof.
  intros E. unfold sim_end, gsim_end.
  assert (G : forall ms a b, fst (fst b) = core (fst a) -> snd a = snd b ->
    fst (fst (fold_left (fun acc m => gend_one Q q_add sc now m acc) ms b)) = core (fst (fold_left (fun acc m => end_one sc now m acc) ms a)) /\
    snd (fold_left (fun acc m => end_one sc now m acc) ms a) = snd (fold_left (fun acc m => gend_one Q q_add sc now m acc) ms b)).
  { induction ms as [|m ms IH]; intros a b H1 H2; cbn [fold_left]; [split; assumption|].
    destruct (end_one_sim sc now m a b H1 H2) as [A B]. apply IH; assumption. }
  apply G; [exact E|reflexivity].
Qed.

(* ---- the main loop ---- *)
Definition RelL (a : lstate) (b : glstate Q) : Prop :=
  Rel (fst (fst a)) (fst (fst b)) /\ snd (fst a) = snd (fst b) /\ snd a = snd b /\ FW (snd (fst a)) (fst (fst a)).

Definition RelS (a : lstate + lstate) (b : glstate Q + glstate Q) : Prop :=
  match a, b with inl x, inl y => RelL x y | inr x, inr y => RelL x y | _, _ => False end.

Lemma loop_step_sim sc a b : RelL a b -> RelS (loop_step sc a) (gloop_step Q q_add q_fetch sc b).
Proof.
  destruct a as [[w now] tr], b as [[g now'] tr']. unfold RelL. cbn [fst snd]. intros (HRel & <- & <- & HW).
  pose proof HRel as [E HR]. unfold loop_step, gloop_step. pose proof (H_fetch _ _ HR) as HF.
  destruct (fes_fetch (w_fes w)) as [[[t ev] f]|] eqn:Ef.
  - destruct HF as (q' & -> & HR'). pose proof (fetch_FW now w t ev f HW Ef) as HW1.
    assert (HRel' : Rel (set_fes w f) (fst g, q')) by (split; [rewrite E; reflexivity|exact HR']).
    destruct (process_sim sc (set_fes w f) (fst g, q') t ev HW1 HRel') as [P1 P2].
    pose proof (proj1 (loop_FW sc now w t ev f HW Ef)) as HW2. unfold loop_rec in HW2. cbn [fst] in HW2.
    destruct (process sc (set_fes w f) t ev) as [w' l], (gprocess Q q_add sc (fst g, q') t ev) as [g' l'].
    cbn [fst snd RelS] in *. subst l'. unfold RelL. cbn [fst snd]. destruct P1 as [P1 P1']. rewrite P1.
    change (mask sc (core w')) with (mask sc w'). split; [split; assumption|split; [reflexivity|split; [reflexivity|exact HW2]]].
  - rewrite HF. cbn [RelS]. unfold RelL. cbn [fst snd]. auto.
Qed.

Lemma iter_sim sc k a b : RelL a b ->
  RelS (iter_nat k (loop_step sc) a) (iter_nat k (gloop_step Q q_add q_fetch sc) b).
Proof. exact (iter_nat_sim RelL RelL _ _ (loop_step_sim sc) k a b). Qed.

Theorem run_script_sim q0 sc : RQ fnil q0 -> grun_script Q q_add q_fetch q0 sc = run_script sc.
Proof.
  intros H0. unfold grun_script, run_script.
  assert (HI : Rel (init_world sc) (ginit_world Q q_add q0 sc)).
  { split; [reflexivity|]. cbn [snd ginit_world init_world w_fes]. apply flush_sim; [exact H0|].
    apply Forall_forall. intros p _. cbn [fnil f_tcur]. lia. }
  pose proof (sim_start_sim sc _ _ HI (init_FW sc)) as (S1 & S2 & S3).
  destruct (sim_start sc (init_world sc)) as [w0 tr0], (gsim_start Q q_add sc (ginit_world Q q_add q0 sc)) as [g0 tr0'].
  cbn [fst snd] in *. subst tr0'. rewrite !iter_until_nat.
  assert (Em : mask sc (fst g0) = mask sc w0) by (rewrite (proj1 S1); reflexivity). rewrite Em.
  set (boot := {| e_kind := KBoot; e_time := 0; e_items := [ISample 0 (mask sc w0)] |}).
  pose proof (iter_sim sc (Pos.to_nat (fuel sc)) (w0, 0, tr0 ++ [boot]) (g0, 0, tr0 ++ [boot])) as HL.
  specialize (HL ltac:(unfold RelL; cbn [fst snd]; auto)).
  destruct (iter_nat (Pos.to_nat (fuel sc)) (loop_step sc) (w0, 0, tr0 ++ [boot])) as [[[w now] tr]|[[w now] tr]],
           (iter_nat (Pos.to_nat (fuel sc)) (gloop_step Q q_add q_fetch sc) (g0, 0, tr0 ++ [boot])) as [[[g now'] tr']|[[g now'] tr']];
    cbn [RelS] in HL; try contradiction; destruct HL as ([E _] & En & Et & _); cbn [fst snd] in *; subst now' tr'.
  - rewrite E. reflexivity.
  - destruct (sim_end_sim sc now w g E) as [A B].
    destruct (sim_end sc now w) as [w' tr1], (gsim_end Q q_add sc now g) as [g' tr1']. cbn [fst snd] in *. subst tr1'. rewrite A. reflexivity.
Qed.
End Sim.
