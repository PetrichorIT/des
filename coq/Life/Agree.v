(* Relational reading of the script interpreter: an event of module i reads module i's own
   state, the active flags of the other modules (gate walks) and the event buffer, nothing
   else.  Two worlds that agree on these compute the same log and agree again afterwards
   (Life/Silent.v, C13 others_as_if_silent).  The interpreter is walked once, for two runs under an abstract
   relation ([Walk] below); agreement is one instance, equality up to a shift of the instant (Life/TearDown.v) another. *)
From Coq Require Import List NArith Bool.
From DesVerif Require Import Life.Model Life.Base Life.Step.
Import ListNotations.
Open Scope N_scope.

Record Agree (i : N) (w w' : world) : Prop := {
  ag_mod : w_mod w i = w_mod w' i;
  ag_act : forall j, active (w_mod w j) = active (w_mod w' j);
  ag_buf : w_buf w = w_buf w' }.

Definition AgreeX (i : N) (s s' : xs) : Prop := Agree i (x_w s) (x_w s') /\ x_log s = x_log s'.

(* the same update of module i in both worlds *)
Lemma Agree_upd i w w' (g : mst -> mst) : Agree i w w' ->
  Agree i (set_mod w i (g (w_mod w i))) (set_mod w' i (g (w_mod w' i))).
Proof.
  intros [a b c]. constructor; cbn [w_buf set_mod]; [rewrite !mod_same, a; reflexivity| |exact c].
  intros j. cbn [w_mod set_mod]. destruct (j =? i); [rewrite a; reflexivity|apply b].
Qed.

Lemma Agree_buf_push i p w w' : Agree i w w' -> Agree i (buf_push p w) (buf_push p w').
Proof. intros [a b c]. constructor; cbn [buf_push set_buf w_mod w_buf]; [exact a|exact b|rewrite c; reflexivity]. Qed.

Lemma Agree_set_err i w w' e e' : Agree i w w' -> Agree i (set_err w e) (set_err w' e').
Proof. intros [a b c]. constructor; assumption. Qed.

Lemma walk_agree k i far w w' : Agree i w w' -> walk k w i far = walk k w' i far.
Proof. intros [a b c]. unfold walk. rewrite (b i), (b (next k i)). reflexivity. Qed.

Lemma buf_send_at_agree k now i far d x w w' : Agree i w w' ->
  Agree i (buf_send_at k now i far d x w) (buf_send_at k now i far d x w').
Proof.
  intros H. unfold buf_send_at. rewrite (walk_agree k i far w w' H). destruct (d =? 0); [|apply Agree_buf_push, H].
  destruct (walk k w' i far); [apply Agree_buf_push, H|exact H].
Qed.

Lemma AgreeX_say i it s s' : AgreeX i s s' -> AgreeX i (say it s) (say it s').
Proof. intros [a b]. split; [exact a|]. cbn [say x_log]. rewrite b. reflexivity. Qed.

Lemma AgreeX_on_w i f f' s s' : AgreeX i s s' -> Agree i (f (x_w s)) (f' (x_w s')) -> AgreeX i (on_w f s) (on_w f' s').
Proof. intros [a b] H. split; [exact H|exact b]. Qed.

Lemma AgreeX_upd i (g : mst -> mst) s s' : AgreeX i s s' ->
  AgreeX i (on_w (fun w => set_mod w i (g (w_mod w i))) s) (on_w (fun w => set_mod w i (g (w_mod w i))) s').
Proof. intros H. apply AgreeX_on_w; [exact H|apply Agree_upd, H]. Qed.

Lemma AgreeX_say_all i l s s' : AgreeX i s s' -> AgreeX i (say_all l s) (say_all l s').
Proof. intros [a b]. split; [exact a|]. cbn [say_all x_log]. rewrite b. reflexivity. Qed.

Lemma spawn_all_agree i ps w w' : Agree i w w' -> Agree i (spawn_all i ps w) (spawn_all i ps w').
Proof.
  intros H. unfold spawn_all.
  apply (Agree_upd i w w' (fun x => set_hnd (set_ready x (ready x ++ map (fun ip => {| tk_id := N.of_nat (fst ip); tk_inc := inc x; tk_new := true; tk_rest := snd (snd ip) |})
                                                                (combine (seq 0 (length ps)) ps)))
                                             (hnd x ++ map (fun i0 => (inc x, N.of_nat i0)) (seq 0 (length ps)))) H).
Qed.

Lemma activate_agree now i w w' : Agree i w w' -> Agree i (activate now i w) (activate now i w').
Proof.
  intros H. pose proof H as [a b c]. unfold activate. rewrite a.
  destruct (split_due now (timers (w_mod w' i))) as [d q].
  assert (G : Agree i (set_mod w i (set_nw (set_ready (set_timers (w_mod w' i) q) (ready (w_mod w' i) ++ d)) (nw_bump now (nw (w_mod w' i)))))
                      (set_mod w' i (set_nw (set_ready (set_timers (w_mod w' i) q) (ready (w_mod w' i) ++ d)) (nw_bump now (nw (w_mod w' i)))))).
  { pose proof (Agree_upd i w w' (fun x => set_nw (set_ready (set_timers x q) (ready x ++ d)) (nw_bump now (nw x))) H) as G.
    cbv beta in G. rewrite a in G. exact G. }
  destruct G as [g1 g2 g3]. constructor; assumption.
Qed.

(* the events deactivate and buf_process add to the event set, in order *)
Definition wake_of (i : N) (x : mst) : list (N * fev) :=
  match timers x with
  | (t, _) :: _ => if lt_nw t (nw x) then [(t, EvWake i)] else []
  | [] => []
  end.
Definition restart_of (i : N) (x : mst) : list (N * fev) :=
  match shut x with Some (Some t) => [(t, EvRestart i)] | _ => [] end.

Lemma fes_flush_app a b f : fes_flush (a ++ b) f = fes_flush b (fes_flush a f).
Proof. unfold fes_flush. apply fold_left_app. Qed.

Lemma deactivate_fes i w : w_fes (deactivate i w) = fes_flush (wake_of i (w_mod w i)) (w_fes w).
Proof.
  unfold deactivate, wake_of. destruct (timers (w_mod w i)) as [|[t tk] r]; [reflexivity|].
  destruct (lt_nw t (nw (w_mod w i))); reflexivity.
Qed.

(* One event of module i read in two runs at once, the left at instant [now], the right at [now'], under a relation [R]
   between the two states that fixes what the interpreter branches on ([view]) and is kept by each elementary change of
   state done on both sides.  Then [R] is kept by every callback, and the flags they return are equal. *)
Definition view (x : mst) : bool * N * N * list task * bool * bool :=
  (active x, inc x, bud x, ready x, catchf x, match shut x with None => true | Some _ => false end).

Section Walk.
Context {k now now' i : N} {R : xs -> xs -> Prop}.

Record Walk : Prop := {
  wk_view : forall s s', R s s' -> view (w_mod (x_w s) i) = view (w_mod (x_w s') i);
  wk_say : forall it s s', R s s' -> R (say it s) (say it s');
  wk_say_all : forall l s s', R s s' -> R (say_all l s) (say_all l s');
  wk_call : forall c a s s', R s s' -> R (say (ICall i c now a) s) (say (ICall i c now' a) s');
  wk_spend : forall s s', R s s' -> R (on_w (spend i) s) (on_w (spend i) s');
  wk_send : forall far d x s s', R s s' -> R (on_w (buf_send_at k now i far d x) s) (on_w (buf_send_at k now' i far d x) s');
  wk_sched : forall d x s s', R s s' -> R (on_w (buf_schedule_at now i d x) s) (on_w (buf_schedule_at now' i d x) s');
  wk_req0 : forall s s', R s s' -> R (on_w (request i None) s) (on_w (request i None) s');
  wk_req : forall d s s', R s s' -> R (on_w (request i (Some (now + d))) s) (on_w (request i (Some (now' + d))) s');
  wk_catchf : forall b s s', R s s' ->
    R (on_w (fun w => set_mod w i (set_catchf (w_mod w i) b)) s) (on_w (fun w => set_mod w i (set_catchf (w_mod w i) b)) s');
  wk_ready0 : forall s s', R s s' ->
    R (on_w (fun w => set_mod w i (set_ready (w_mod w i) [])) s) (on_w (fun w => set_mod w i (set_ready (w_mod w i) [])) s');
  wk_active : forall b s s', R s s' ->
    R (on_w (fun w => set_mod w i (set_active (w_mod w i) b)) s) (on_w (fun w => set_mod w i (set_active (w_mod w i) b)) s');
  wk_spawn : forall ps s s', R s s' -> R (on_w (spawn_all i ps) s) (on_w (spawn_all i ps) s');
  wk_sleep : forall d tk s s', R s s' ->
    R (on_w (fun w => set_mod w i (set_timers (w_mod w i) (tins (now + d) tk (timers (w_mod w i))))) s)
      (on_w (fun w => set_mod w i (set_timers (w_mod w i) (tins (now' + d) tk (timers (w_mod w i))))) s');
  wk_fin : forall e s s', R s s' -> R (on_w (fun w => set_fin w (w_fin w ++ e)) s) (on_w (fun w => set_fin w (w_fin w ++ e)) s');
  wk_err : forall e e' s s', R s s' -> R (on_w (fun w => set_err w (e w)) s) (on_w (fun w => set_err w (e' w)) s') }.

Context (W : Walk).

Lemma do_act_walk who a s s' : R s s' -> R (do_act k now i who a s) (do_act k now' i who a s').
Proof.
  intros H. injection (wk_view W _ _ H) as _ _ Eb _ _ _. unfold do_act, broke. rewrite Eb.
  destruct a; try exact H; try (destruct (bud (w_mod (x_w s') i) =? 0); [exact H|]); apply (wk_say W).
  - exact H.
  - exact (wk_send W _ _ _ _ _ (wk_spend W _ _ H)).
  - exact (wk_sched W _ _ _ _ (wk_spend W _ _ H)).
  - exact (wk_req0 W _ _ (wk_spend W _ _ H)).
  - exact (wk_req W _ _ _ (wk_spend W _ _ H)).
  - exact (wk_catchf W _ _ _ H).
Qed.

Lemma quiet_walk s s' : R s s' -> R (quiet i s) (quiet i s').
Proof.
  intros H. injection (wk_view W _ _ H) as _ _ _ _ _ Es. unfold quiet.
  destruct (shut (w_mod (x_w s) i)), (shut (w_mod (x_w s') i)); try discriminate; apply (wk_say W); [exact H|exact (wk_req0 W _ _ H)].
Qed.

Lemma run_prog_walk tk who : forall p s s', R s s' ->
  R (fst (run_prog tk k now i who p s)) (fst (run_prog tk k now' i who p s')) /\
  snd (run_prog tk k now i who p s) = snd (run_prog tk k now' i who p s').
Proof.
  induction p as [|a p IH]; intros s s' H; cbn [run_prog fst snd]; [auto|].
  destruct a; try (apply IH, do_act_walk, H).
  - destruct (tk && (0 <? d)); cbn [fst snd]; [auto|apply IH, H].
  - cbn [fst snd]. injection (wk_view W _ _ H) as _ _ _ _ Ec _. rewrite Ec. split; [apply (wk_say W), H|reflexivity].
  - destruct tk; cbn [fst snd]; [apply IH, H|]. split; [apply quiet_walk, H|reflexivity].
Qed.

Lemma end_task_walk how s s' tk : R s s' -> R (end_task i how s tk) (end_task i how s' tk).
Proof. intros H. apply (wk_say W), (wk_fin W), H. Qed.

Lemma fold_end_task_walk : forall l s s', R s s' -> R (fold_left (end_task i 0) l s) (fold_left (end_task i 0) l s').
Proof. induction l as [|tk l IH]; intros s s' H; cbn [fold_left]; [exact H|]. apply IH, end_task_walk, H. Qed.

Lemma poll1_walk s s' tk : R s s' -> R (poll1 k now i s tk) (poll1 k now' i s' tk).
Proof.
  intros H. injection (wk_view W _ _ H) as Ea _ _ _ _ _. unfold poll1. rewrite Ea.
  destruct (run_prog_walk true (1 + tk_id tk) (tk_rest tk) _ _
              (wk_call W (if tk_new tk then CbTask (tk_id tk) (tk_inc tk) else CbTimer (tk_id tk) (tk_inc tk)) (active (w_mod (x_w s') i)) _ _ H))
    as [H1 H2].
  destruct (run_prog true k now i _ _ _) as [s1 r], (run_prog true k now' i _ _ _) as [s1' r']. cbn [fst snd] in H1, H2. subst r'.
  destruct r; try (apply end_task_walk, H1). apply (wk_sleep W), H1.
Qed.

Lemma fold_poll1_walk : forall l s s', R s s' -> R (fold_left (poll1 k now i) l s) (fold_left (poll1 k now' i) l s').
Proof. induction l as [|tk l IH]; intros s s' H; cbn [fold_left]; [exact H|]. apply IH, poll1_walk, H. Qed.

Lemma poll_ready_walk s s' : R s s' -> R (poll_ready k now i s) (poll_ready k now' i s').
Proof.
  intros H. injection (wk_view W _ _ H) as _ _ _ Er _ _. unfold poll_ready. rewrite Er. apply fold_poll1_walk, (wk_ready0 W), H.
Qed.

Lemma exec_walk c sp p s s' : R s s' ->
  R (fst (exec k now i c sp p s)) (fst (exec k now' i c sp p s')) /\ snd (exec k now i c sp p s) = snd (exec k now' i c sp p s').
Proof.
  intros H. injection (wk_view W _ _ H) as Ea Ei _ _ _ _. unfold exec. rewrite Ea, Ei.
  destruct (run_prog_walk false 0 p _ _ (wk_say_all W (spawn_items i (inc (w_mod (x_w s') i)) sp) _ _
              (wk_spawn W sp _ _ (wk_call W c (active (w_mod (x_w s') i)) _ _ H)))) as [H1 H2].
  destruct (run_prog false k now i 0 p _) as [s2 r], (run_prog false k now' i 0 p _) as [s2' r']. cbn [fst snd] in H1, H2. subst r'.
  destruct r; cbn [fst snd]; (split; [|reflexivity]); try exact H1; try (apply poll_ready_walk, H1).
  injection (wk_view W _ _ H1) as _ _ _ Er _ _. rewrite Er. apply fold_end_task_walk, (wk_ready0 W), H1.
Qed.

Lemma catch_walk c p s s' : R s s' ->
  R {| x_w := fst (catch c i p (x_w s)); x_log := x_log s |} {| x_w := fst (catch c i p (x_w s')); x_log := x_log s' |} /\
  snd (catch c i p (x_w s)) = snd (catch c i p (x_w s')).
Proof.
  intros H. injection (wk_view W _ _ H) as _ _ _ _ Ec _. unfold catch. rewrite Ec. destruct p; cbn [fst snd].
  - destruct (catchf (w_mod (x_w s') i)); cbn [fst snd]; (split; [|reflexivity]).
    + exact (wk_active W false _ _ H).
    + exact (wk_err W (fun w => w_err w ++ [(0, i)]) (fun w => w_err w ++ [(0, i)]) _ _ (wk_active W false _ _ H)).
  - split; [|reflexivity]. destruct s, s'. exact H.
Qed.

Lemma at_sim_start_walk c stage s s' : R s s' ->
  R (fst (at_sim_start k c now i stage s)) (fst (at_sim_start k c now' i stage s')) /\
  snd (at_sim_start k c now i stage s) = snd (at_sim_start k c now' i stage s').
Proof.
  intros H. injection (wk_view W _ _ H) as _ Ei _ _ _ _. rewrite !at_sim_start_eq, Ei. cbv zeta. cbn [fst snd].
  destruct (exec_walk (CbStart stage) (fst (start_prog c stage (inc (w_mod (x_w s') i)))) (snd (start_prog c stage (inc (w_mod (x_w s') i)))) s s' H)
    as [H1 H2].
  rewrite H2. apply catch_walk, H1.
Qed.

Lemma module_restart_walk c s s' : R s s' -> R (module_restart k c now i s) (module_restart k c now' i s').
Proof.
  intros H. unfold module_restart. pose proof (wk_active W true _ _ H) as H0. revert H0.
  generalize (on_w (fun w => set_mod w i (set_active (w_mod w i) true)) s) (on_w (fun w => set_mod w i (set_active (w_mod w i) true)) s') false.
  induction (stage_list (c_stages c)) as [|st l IH]; intros s0 s0' e H0; cbn [fold_left fst snd]; [exact H0|].
  destruct e; [apply IH, H0|]. destruct (at_sim_start_walk c st s0 s0' H0) as [H1 H2]. unfold restart_stage.
  destruct (at_sim_start k c now i st s0) as [s1 e1], (at_sim_start k c now' i st s0') as [s1' e1']. cbn [fst snd] in *. subst e1'.
  injection (wk_view W _ _ H1) as Ea _ _ _ _ _. rewrite Ea. apply IH, H1.
Qed.

Lemma handle_message_walk c x s s' : R s s' -> R (handle_message k c now i x s) (handle_message k c now' i x s').
Proof.
  intros H. injection (wk_view W _ _ H) as Ea _ _ _ _ _. unfold handle_message. rewrite Ea.
  destruct (active (w_mod (x_w s') i)); [|exact H]. destruct (exec_walk (CbMsg x) [] (pick_msg c x) s s' H) as [H1 H2].
  destruct (exec k now i (CbMsg x) [] (pick_msg c x) s) as [s1 p], (exec k now' i (CbMsg x) [] (pick_msg c x) s') as [s1' p'].
  cbn [fst snd] in H1, H2. subst p'. apply catch_walk, H1.
Qed.

Lemma async_wakeup_walk s s' : R s s' -> R (async_wakeup k now i s) (async_wakeup k now' i s').
Proof.
  intros H. injection (wk_view W _ _ H) as Ea _ _ _ _ _. unfold async_wakeup. rewrite Ea.
  destruct (active (w_mod (x_w s') i)); [apply poll_ready_walk, H|exact H].
Qed.

Lemma at_sim_end_walk c s s' : R s s' -> R (at_sim_end k c now i s) (at_sim_end k c now' i s').
Proof.
  intros H. unfold at_sim_end. destruct (exec_walk CbEnd [] (c_end c) s s' H) as [H1 H2].
  destruct (exec k now i CbEnd [] (c_end c) s) as [s1 p], (exec k now' i CbEnd [] (c_end c) s') as [s1' p']. cbn [fst snd] in H1, H2. subst p'.
  destruct (catch_walk c p s1 s1' H1) as [C1 C2].
  destruct (catch c i p (x_w s1)) as [w2 e], (catch c i p (x_w s1')) as [w2' e']. cbn [fst snd] in C1, C2. subst e'.
  destruct e; [exact C1|]. apply (wk_err W), poll_ready_walk, C1.
Qed.
End Walk.

Lemma Agree_walk k now i : @Walk k now now i (AgreeX i).
Proof.
  constructor; intros.
  - rewrite (ag_mod _ _ _ (proj1 H)). reflexivity.
  - apply AgreeX_say, H.
  - apply AgreeX_say_all, H.
  - apply AgreeX_say, H.
  - exact (AgreeX_upd i (fun x => set_bud x (bud x - 1)) _ _ H).
  - apply AgreeX_on_w; [exact H|apply buf_send_at_agree, H].
  - apply AgreeX_on_w; [exact H|apply Agree_buf_push, H].
  - exact (AgreeX_upd i (fun x => set_shut x (Some None)) _ _ H).
  - exact (AgreeX_upd i (fun x => set_shut x (Some (Some (now + d)))) _ _ H).
  - exact (AgreeX_upd i (fun x => set_catchf x b) _ _ H).
  - exact (AgreeX_upd i (fun x => set_ready x []) _ _ H).
  - exact (AgreeX_upd i (fun x => set_active x b) _ _ H).
  - apply AgreeX_on_w; [exact H|apply spawn_all_agree, H].
  - exact (AgreeX_upd i (fun x => set_timers x (tins (now + d) tk (timers x))) _ _ H).
  - apply AgreeX_on_w; [exact H|]. destruct H as [[a b c] _]. constructor; assumption.
  - apply AgreeX_on_w; [exact H|apply Agree_set_err, H].
Qed.
