(* Basic facts about the model of coq/Life/Sim.v: record updates, and what the scripted user
   code of one module can touch (frame relations for the script interpreter). *)
From Coq Require Import List NArith Bool Lia.
From DesVerif Require Import Life.Model.
Import ListNotations.
Open Scope N_scope.

Ltac wsimpl := cbn [w_fes w_mod w_err w_cur w_buf w_fin set_fin set_fes set_mod set_err set_cur set_buf
  active inc bud shut nw timers ready hnd catchf set_active set_bud set_shut set_nw set_timers set_ready
  set_hnd set_catchf x_w x_log say say_all on_w fst snd] in *.

(* the same after the setters the scripted actions use have been unfolded *)
Ltac wset := cbv beta; repeat (unfold spend, request, buf_schedule_at, buf_push; wsimpl; rewrite ?N.eqb_refl); try reflexivity.

Lemma mod_same w m x : w_mod (set_mod w m x) m = x.
Proof. cbn [w_mod set_mod]. rewrite N.eqb_refl. reflexivity. Qed.

Lemma mod_other w m x i : i <> m -> w_mod (set_mod w m x) i = w_mod w i.
Proof. intros H. cbn [w_mod set_mod]. apply N.eqb_neq in H. rewrite H. reflexivity. Qed.

(* the module a log record belongs to *)
Definition item_mod (i : item) : option N :=
  match i with
  | ICall m _ _ _ | IReset m _ _ | ILog m _ _ | ISend m _ _ _ _ | ISched m _ _ _ | IShut m _ _
  | IPanic m _ _ | IQuiet m | ICancel m _ | ISetCatch m _ _ | ITaskEnd m _ _ _ | ISpawn m _ _ _ | IResetPanic m => Some m
  | ISample _ _ => None
  end.

Definition Own (m : N) (l : list item) : Prop := Forall (fun i => item_mod i = Some m) l.

Lemma Own_app m a b : Own m a -> Own m b -> Own m (a ++ b).
Proof. unfold Own. intros. apply Forall_app. auto. Qed.

(* events user code can buffer: messages on their way *)
Definition msg_ev (p : N * fev) : Prop := match snd p with EvExit _ _ _ | EvDeliver _ _ => True | _ => False end.

Lemma ext_nil {A} (P : A -> Prop) l : exists l', l = l ++ l' /\ Forall P l'.
Proof. exists []. rewrite app_nil_r. split; [reflexivity|constructor]. Qed.

Lemma fold_left_rel {A S} (R : S -> S -> Prop) (g : S -> A -> S) :
  (forall s, R s s) -> (forall s1 s2 s3, R s1 s2 -> R s2 s3 -> R s1 s3) -> (forall s x, R s (g s x)) ->
  forall l s, R s (fold_left g l s).
Proof. intros Hr Ht Hg. induction l as [|x l IH]; intros s; cbn [fold_left]; [apply Hr|]. eapply Ht; [apply Hg|apply IH]. Qed.

(* ---- what user code of module m can change ---- *)
Record Fr (m : N) (w w' : world) : Prop := {
  fr_fes : w_fes w' = w_fes w;
  fr_err : w_err w' = w_err w;
  fr_cur : w_cur w' = w_cur w;
  fr_oth : forall i, i <> m -> w_mod w' i = w_mod w i;
  fr_active : active (w_mod w' m) = active (w_mod w m);
  fr_inc : inc (w_mod w' m) = inc (w_mod w m);
  fr_nw : nw (w_mod w' m) = nw (w_mod w m);
  fr_buf : exists l, w_buf w' = w_buf w ++ l /\ Forall msg_ev l }.

Lemma Fr_refl m w : Fr m w w.
Proof. constructor; try reflexivity. apply ext_nil. Qed.

Lemma Fr_trans m w1 w2 w3 : Fr m w1 w2 -> Fr m w2 w3 -> Fr m w1 w3.
Proof.
  intros [a1 a2 a3 a4 a5 a6 a7 (la & a8 & a9)] [b1 b2 b3 b4 b5 b6 b7 (lb & b8 & b9)]. constructor; try congruence.
  - intros i Hi. rewrite b4, a4; auto.
  - exists (la ++ lb). rewrite b8, a8, app_assoc. split; [reflexivity|apply Forall_app; auto].
Qed.

(* a module's callback (not its tasks) moreover leaves its tasks and timers alone *)
Record FrP (m : N) (w w' : world) : Prop := {
  fp_fr : Fr m w w';
  fp_timers : timers (w_mod w' m) = timers (w_mod w m);
  fp_ready : ready (w_mod w' m) = ready (w_mod w m);
  fp_tp : hnd (w_mod w' m) = hnd (w_mod w m) }.

Lemma FrP_refl m w : FrP m w w.
Proof. constructor; [apply Fr_refl|reflexivity..]. Qed.

Lemma FrP_trans m w1 w2 w3 : FrP m w1 w2 -> FrP m w2 w3 -> FrP m w1 w3.
Proof. intros [a b c d] [a' b' c' d']. constructor; [eapply Fr_trans; eauto|congruence..]. Qed.

(* updating a field of module m that the relation does not mention *)
Lemma FrP_set m w x :
  active x = active (w_mod w m) -> inc x = inc (w_mod w m) -> nw x = nw (w_mod w m) ->
  timers x = timers (w_mod w m) -> ready x = ready (w_mod w m) -> hnd x = hnd (w_mod w m) ->
  FrP m w (set_mod w m x).
Proof.
  intros. constructor; [constructor|..]; try reflexivity; rewrite ?mod_same; auto.
  - intros i Hi. apply mod_other, Hi.
  - apply ext_nil.
Qed.

Lemma Fr_set m w x :
  active x = active (w_mod w m) -> inc x = inc (w_mod w m) -> nw x = nw (w_mod w m) -> Fr m w (set_mod w m x).
Proof.
  intros. constructor; try reflexivity; rewrite ?mod_same; auto.
  - intros i Hi. apply mod_other, Hi.
  - apply ext_nil.
Qed.


Lemma FrP_spend m w : FrP m w (spend m w).
Proof. unfold spend. apply FrP_set; reflexivity. Qed.

Lemma FrP_request m r w : FrP m w (request m r w).
Proof. unfold request. apply FrP_set; reflexivity. Qed.

Lemma FrP_buf_push m p w : msg_ev p -> FrP m w (buf_push p w).
Proof.
  intros Hp. constructor; [constructor|..]; try reflexivity.
  exists [p]. split; [reflexivity|constructor; [exact Hp|constructor]].
Qed.

Lemma buf_send_at_mod k now m far d x w i : w_mod (buf_send_at k now m far d x w) i = w_mod w i.
Proof. unfold buf_send_at. destruct (d =? 0); [destruct (walk k w m far)|]; reflexivity. Qed.

Lemma FrP_buf_send_at k now m far d x w : FrP m w (buf_send_at k now m far d x w).
Proof.
  unfold buf_send_at. destruct (d =? 0); [|apply FrP_buf_push; exact I].
  destruct (walk k w m far); [apply FrP_buf_push; exact I|apply FrP_refl].
Qed.

(* records written by the runtime rather than by user code *)
Definition is_sys (i : item) : bool :=
  match i with IReset _ _ _ | ICancel _ _ | ISample _ _ | IResetPanic _ => true | ITaskEnd _ _ _ how => how =? 2 | _ => false end.
Definition Usr (m : N) (i : item) : Prop := item_mod i = Some m /\ is_sys i = false.

Lemma Usr_Own m l : Forall (Usr m) l -> Own m l.
Proof. unfold Own. apply Forall_impl. intros i [H _]. exact H. Qed.

Definition LogExtP (P : item -> Prop) (s s' : xs) : Prop := exists l, x_log s' = x_log s ++ l /\ Forall P l.

Definition LogExt (m : N) : xs -> xs -> Prop := LogExtP (Usr m).

(* every call record but the callback's own is a task step *)
Definition task_cb (c : cb) : Prop := match c with CbTask _ _ | CbTimer _ _ => True | _ => False end.
Definition UsrC (m : N) (C : cb -> Prop) (i : item) : Prop := Usr m i /\ match i with ICall _ c _ _ => C c | _ => True end.
Definition Tsk (m : N) : item -> Prop := UsrC m task_cb.

Lemma LogExt_refl (P : item -> Prop) s : LogExtP P s s.
Proof. apply ext_nil. Qed.

Lemma LogExt_trans (P : item -> Prop) s1 s2 s3 : LogExtP P s1 s2 -> LogExtP P s2 s3 -> LogExtP P s1 s3.
Proof.
  intros (a & Ha & Oa) (b & Hb & Ob). exists (a ++ b). rewrite Hb, Ha, app_assoc. split; [reflexivity|apply Forall_app; auto].
Qed.

Lemma LogExt_say (P : item -> Prop) i s : P i -> LogExtP P s (say i s).
Proof. intros H. exists [i]. split; [reflexivity|constructor; [exact H|constructor]]. Qed.

Lemma LogExt_on_w (P : item -> Prop) f s : LogExtP P s (on_w f s).
Proof. apply (ext_nil P (x_log s)). Qed.

Lemma Tsk_LogExt m s s' : LogExtP (Tsk m) s s' -> LogExt m s s'.
Proof. intros (l & Hl & Tl). exists l. split; [exact Hl|]. eapply Forall_impl; [|exact Tl]. intros i [H _]. exact H. Qed.

(* ---- do_act / run_prog ---- *)
Lemma do_act_FrP k now m who a s : FrP m (x_w s) (x_w (do_act k now m who a s)).
Proof.
  destruct a; cbn [do_act]; try apply FrP_refl; try (destruct (broke m s); [apply FrP_refl|]); wsimpl.
  - eapply FrP_trans; [apply FrP_spend|apply FrP_buf_send_at].
  - eapply FrP_trans; [apply FrP_spend|apply FrP_buf_push; exact I].
  - eapply FrP_trans; [apply FrP_spend|apply FrP_request].
  - eapply FrP_trans; [apply FrP_spend|apply FrP_request].
  - apply FrP_set; reflexivity.
Qed.

Lemma do_act_LogExt C k now m who a s : LogExtP (UsrC m C) s (do_act k now m who a s).
Proof.
  destruct a; cbn [do_act]; try apply LogExt_refl; try (destruct (broke m s); [apply LogExt_refl|]);
    (eexists; cbn [say on_w x_log]; split; [reflexivity|constructor; [repeat split|constructor]]).
Qed.

Lemma quiet_FrP m s : FrP m (x_w s) (x_w (quiet m s)).
Proof. unfold quiet. wsimpl. destruct (shut (w_mod (x_w s) m)); wsimpl; [apply FrP_refl|apply FrP_request]. Qed.

Lemma quiet_LogExt C m s : LogExtP (UsrC m C) s (quiet m s).
Proof.
  unfold quiet. exists [IQuiet m]. destruct (shut (w_mod (x_w s) m)); cbn [say on_w x_log];
    (split; [reflexivity|constructor; [repeat split|constructor]]).
Qed.

Lemma run_prog_FrP tk k now m who : forall p s, FrP m (x_w s) (x_w (fst (run_prog tk k now m who p s))).
Proof.
  induction p as [|a p IH]; intros s; cbn [run_prog fst]; [apply FrP_refl|].
  destruct a; try (eapply FrP_trans; [apply (do_act_FrP k now m who)|apply IH]).
  - destruct (tk && (0 <? d)); cbn [fst]; [apply FrP_refl|apply IH].
  - cbn [fst]. wsimpl. apply FrP_refl.
  - destruct tk; cbn [fst]; [apply IH|apply quiet_FrP].
Qed.

(* a program writes no call record *)
Lemma run_prog_LogExt C tk k now m who : forall p s, LogExtP (UsrC m C) s (fst (run_prog tk k now m who p s)).
Proof.
  induction p as [|a p IH]; intros s; cbn [run_prog fst]; [apply LogExt_refl|].
  destruct a; try (eapply LogExt_trans; [apply (do_act_LogExt C k now m who)|apply IH]).
  - destruct (tk && (0 <? d)); cbn [fst]; [apply LogExt_refl|apply IH].
  - cbn [fst]. apply LogExt_say. repeat split.
  - destruct tk; cbn [fst]; [apply IH|apply quiet_LogExt].
Qed.

(* ---- tasks ---- *)
Lemma end_task_Fr m how s tk : Fr m (x_w s) (x_w (end_task m how s tk)).
Proof. unfold end_task. wsimpl. constructor; try reflexivity. apply ext_nil. Qed.

Lemma end_task_LogExt m how s tk : (how =? 2) = false -> LogExtP (Tsk m) s (end_task m how s tk).
Proof.
  intros H. unfold end_task. eapply LogExt_trans; [apply LogExt_on_w|apply LogExt_say].
  split; [split; [reflexivity|exact H]|exact I].
Qed.

Lemma LogExt_say_all (P : item -> Prop) l s : Forall P l -> LogExtP P s (say_all l s).
Proof. intros H. exists l. split; [reflexivity|exact H]. Qed.

Lemma spawn_items_Tsk m i ps : Forall (Tsk m) (spawn_items m i ps).
Proof. unfold spawn_items. apply Forall_forall. intros it H. apply in_map_iff in H. destruct H as (ip & <- & _). repeat split. Qed.

Lemma poll1_Fr k now m s tk : Fr m (x_w s) (x_w (poll1 k now m s tk)).
Proof.
  unfold poll1.
  match goal with |- context [run_prog true k now m ?who ?p ?s0] =>
    pose proof (run_prog_FrP true k now m who p s0) as H; destruct (run_prog true k now m who p s0) as [s1 r] end.
  cbn [fst] in H. wsimpl. destruct H as [H _ _ _].
  destruct r; wsimpl; try exact H; (eapply Fr_trans; [exact H|]); try apply end_task_Fr; apply Fr_set; reflexivity.
Qed.

Lemma poll1_LogExt k now m s tk : LogExtP (Tsk m) s (poll1 k now m s tk).
Proof.
  unfold poll1.
  match goal with |- context [run_prog true k now m ?who ?p ?s0] =>
    pose proof (run_prog_LogExt task_cb true k now m who p s0) as H; destruct (run_prog true k now m who p s0) as [s1 r] end.
  cbn [fst] in H.
  assert (H0 : LogExtP (Tsk m) s s1) by (eapply LogExt_trans; [|exact H]; apply LogExt_say; destruct (tk_new tk); repeat split).
  destruct r; try exact H0; (eapply LogExt_trans; [exact H0|]); try (apply end_task_LogExt; reflexivity); apply LogExt_on_w.
Qed.

Lemma poll_ready_Fr k now m s : Fr m (x_w s) (x_w (poll_ready k now m s)).
Proof.
  unfold poll_ready. eapply Fr_trans; [|apply (fold_left_rel (fun s s' => Fr m (x_w s) (x_w s'))); [intros; apply Fr_refl|intros ? ? ?; apply Fr_trans|apply poll1_Fr]].
  wsimpl. apply Fr_set; reflexivity.
Qed.

Lemma poll_ready_Tsk k now m s : LogExtP (Tsk m) s (poll_ready k now m s).
Proof.
  unfold poll_ready. eapply LogExt_trans; [apply LogExt_on_w|].
  apply fold_left_rel; [apply LogExt_refl|apply LogExt_trans|apply poll1_LogExt].
Qed.

Lemma poll_ready_LogExt k now m s : LogExt m s (poll_ready k now m s).
Proof. apply Tsk_LogExt, poll_ready_Tsk. Qed.

Lemma spawn_all_Fr m ps w : Fr m w (spawn_all m ps w).
Proof. unfold spawn_all. apply Fr_set; reflexivity. Qed.

(* ---- Harness::exec ---- *)
Lemma exec_Fr k now m c sp p s : Fr m (x_w s) (x_w (fst (exec k now m c sp p s))).
Proof.
  unfold exec.
  match goal with |- context [run_prog false k now m 0 p ?s0] =>
    pose proof (run_prog_FrP false k now m 0 p s0) as H; destruct (run_prog false k now m 0 p s0) as [s2 r] end.
  cbn [fst] in H. wsimpl. destruct H as [H _ _ _].
  assert (H0 : Fr m (x_w s) (x_w s2)) by (eapply Fr_trans; [apply spawn_all_Fr|exact H]).
  destruct r; cbn [fst]; try exact H0; try (eapply Fr_trans; [exact H0|apply poll_ready_Fr]).
  eapply Fr_trans; [exact H0|]. eapply Fr_trans; [|apply (fold_left_rel (fun s s' => Fr m (x_w s) (x_w s'))); [intros; apply Fr_refl|intros ? ? ?; apply Fr_trans|intros; apply end_task_Fr]].
  wsimpl. apply Fr_set; reflexivity.
Qed.

Lemma exec_LogExt_call k now m c sp p s :
  LogExtP (Tsk m) (say (ICall m c now (active (w_mod (x_w s) m))) s) (fst (exec k now m c sp p s)).
Proof.
  unfold exec.
  match goal with |- context [run_prog false k now m 0 p ?s0] =>
    pose proof (run_prog_LogExt task_cb false k now m 0 p s0) as H; destruct (run_prog false k now m 0 p s0) as [s2 r] end.
  cbn [fst] in H.
  assert (H0 : LogExtP (Tsk m) (say (ICall m c now (active (w_mod (x_w s) m))) s) s2).
  { eapply LogExt_trans; [apply LogExt_on_w|]. eapply LogExt_trans; [apply LogExt_say_all, spawn_items_Tsk|exact H]. }
  destruct r; cbn [fst]; try exact H0; try (eapply LogExt_trans; [exact H0|apply poll_ready_Tsk]).
  eapply LogExt_trans; [exact H0|]. eapply LogExt_trans; [apply LogExt_on_w|].
  apply fold_left_rel; [apply LogExt_refl|apply LogExt_trans|intros; apply end_task_LogExt; reflexivity].
Qed.

Lemma exec_LogExt k now m c sp p s : LogExt m s (fst (exec k now m c sp p s)).
Proof. eapply LogExt_trans; [|apply Tsk_LogExt, exec_LogExt_call]. apply LogExt_say. split; reflexivity. Qed.

Lemma exec_log_head k now m c sp p s :
  exists l, x_log (fst (exec k now m c sp p s)) = x_log s ++ ICall m c now (active (w_mod (x_w s) m)) :: l /\ Forall (Tsk m) l.
Proof.
  destruct (exec_LogExt_call k now m c sp p s) as (l & Hl & Tl). exists l. rewrite Hl. cbn [say x_log].
  rewrite <- app_assoc. auto.
Qed.
