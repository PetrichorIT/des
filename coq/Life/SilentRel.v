(* C13 others_as_if_silent, part 1: the relation between the run of a script and the run of its variant in which module m
   falls silent where its callbacks would have panicked.  Two phases: as long as m has not panicked the two worlds are
   equal ([Same]); after a panic that leaves m dead for good they agree on every other module and on the event set up to
   events that are inert for a dead m ([Dead]; [FesRel] of Life/Strip.v).  What each world satisfies on its own (event buffer drained,
   no pending request, well-formed event set) is [FW] of Life/Future.v.  Events of other modules, events a run dispatches
   alone, and the event of m itself in which the two runs part. *)
From Coq Require Import List NArith Bool Lia.
From DesVerif Require Import Common.Fuel Life.Model Life.Base Life.Step Life.Trace Life.Events
  Life.Restart Life.Agree Life.Strip Life.Quiet Life.SilentBase Life.Future.
Import ListNotations.
Open Scope N_scope.

Section SilentRel.
Variable m : N.

(* records of modules other than m *)
Definition others (l : list item) : list item :=
  filter (fun i => match item_mod i with Some j => negb (j =? m) | None => false end) l.

Lemma others_app a b : others (a ++ b) = others a ++ others b.
Proof. apply filter_app. Qed.

Lemma others_own l : Own m l -> others l = [].
Proof.
  unfold Own, others. induction 1 as [|i l Hi _ IH]; [reflexivity|]. cbn [filter]. rewrite Hi, N.eqb_refl. exact IH.
Qed.

Lemma others_sample t k : others [ISample t k] = [].
Proof. reflexivity. Qed.

Lemma others_snoc tr tr' e e' : others (items tr) = others (items tr') -> others (e_items e) = others (e_items e') ->
  others (items (tr ++ [e])) = others (items (tr' ++ [e'])).
Proof. intros H1 H2. rewrite !items_snoc, !others_app, H1, H2. reflexivity. Qed.

Lemma others_snoc_nil tr e : others (e_items e) = [] -> others (items (tr ++ [e])) = others (items tr).
Proof. intros H. rewrite items_snoc, others_app, H. apply app_nil_r. Qed.

(* ---- the two phases ---- *)
Record Same (w w' : world) : Prop := {
  sm_mod : forall i, w_mod w i = w_mod w' i;
  sm_fes : w_fes w = w_fes w' }.

Record Dead (w w' : world) : Prop := {
  dd_oth : forall i, i <> m -> w_mod w i = w_mod w' i;
  dd_act : active (w_mod w m) = false /\ active (w_mod w' m) = false;
  dd_fes : FesRel m (w_fes w) (w_fes w');
  dd_nr : restart_times m (w_fes w) = [] /\ restart_times m (w_fes w') = [];
  (* the silent run's horizon (Life/Future.v) is not later, and its m has no timer left *)
  dd_L : L (w_fes w') <= L (w_fes w);
  dd_tm : timers (w_mod w' m) = [] }.

Definition Rel (w w' : world) : Prop := Same w w' \/ Dead w w'.

Lemma Same_agree i w w' : Same w w' -> w_buf w = [] -> w_buf w' = [] -> Agree i w w'.
Proof. intros [a b] c d. constructor; [apply a|intros j; rewrite a; reflexivity|rewrite c, d; reflexivity]. Qed.

Lemma Dead_agree i w w' : i <> m -> Dead w w' -> w_buf w = [] -> w_buf w' = [] -> Agree i w w'.
Proof.
  intros Hi [a [b1 b2] _ _ _ _] c d. constructor; [apply a, Hi| |rewrite c, d; reflexivity].
  intros j. destruct (N.eq_dec j m) as [->|Hj]; [rewrite b1, b2; reflexivity|rewrite (a j Hj); reflexivity].
Qed.

Lemma Same_fes w w' f : Same w w' -> Same (set_fes w f) (set_fes w' f).
Proof. intros [a b]. constructor; [exact a|reflexivity]. Qed.

Lemma Dead_fes w w' f f' : Dead w w' -> FesRel m f f' -> restart_times m f = [] -> restart_times m f' = [] -> L f' <= L f ->
  Dead (set_fes w f) (set_fes w' f').
Proof. intros [a b _ _ _ t] R n n' l. constructor; cbn [w_mod w_fes set_fes]; auto. Qed.

(* ---- an event of a module other than m, on worlds that agree on it ---- *)
Lemma other_event sc sc' now i f w w' : cfg sc i = cfg sc' i -> Agree i w w' -> CbOK i f ->
  (forall s s', AgreeX i s s' -> AgreeX i (f s) (f s')) ->
  snd (around sc now i f w) = snd (around sc' now i f w') /\
  w_mod (fst (around sc now i f w)) i = w_mod (fst (around sc' now i f w')) i /\
  w_fes (fst (around sc' now i f w')) = fes_flush (adds_of now i f w) (w_fes w').
Proof.
  intros Ec Hag Hok Hf.
  destruct (Hf {| x_w := activate now i w; x_log := [] |} {| x_w := activate now i w'; x_log := [] |}) as [[Em _ Eb] El];
    [split; [apply activate_agree, Hag|reflexivity]|].
  split; [rewrite !around_log, !buf_process_items, !deactivate_mod_eq, Ec, Em, El; reflexivity|].
  fold (cb_out now i f w) (cb_out now i f w') in Em, Eb. split; [rewrite !around_mod, Em; reflexivity|].
  rewrite (around_adds sc' now i f w' Hok), !adds_of_eq, Em, Eb. reflexivity.
Qed.

Lemma same_other_event sc sc' now i f w w' : cfg sc i = cfg sc' i -> Same w w' -> w_buf w = [] -> w_buf w' = [] -> CbOK i f ->
  (forall s s', AgreeX i s s' -> AgreeX i (f s) (f s')) ->
  snd (around sc now i f w) = snd (around sc' now i f w') /\ Same (fst (around sc now i f w)) (fst (around sc' now i f w')).
Proof.
  intros Ec HS Hb Hb' Hok Hf.
  destruct (other_event sc sc' now i f w w' Ec (Same_agree i w w' HS Hb Hb') Hok Hf) as (E1 & E2 & E3).
  split; [exact E1|]. constructor; [|rewrite E3, (around_adds sc now i f w Hok), (sm_fes _ _ HS); reflexivity].
  intros j. destruct (N.eq_dec j i) as [->|Hj]; [exact E2|]. rewrite !around_oth by assumption. apply HS.
Qed.

Lemma dead_other_event sc sc' now i f w w' : i <> m -> cfg sc i = cfg sc' i -> Dead w w' -> w_buf w = [] -> w_buf w' = [] ->
  WF (w_fes w) -> WF (w_fes w') -> f_tcur (w_fes w) = f_tcur (w_fes w') -> CbOK i f ->
  (forall s s', AgreeX i s s' -> AgreeX i (f s) (f s')) ->
  snd (around sc now i f w) = snd (around sc' now i f w') /\ Dead (fst (around sc now i f w)) (fst (around sc' now i f w')).
Proof.
  intros Hi Ec HD Hb Hb' W W' Et Hok Hf. assert (Hm : m <> i) by (intros E; apply Hi; symmetry; exact E).
  destruct (other_event sc sc' now i f w w' Ec (Dead_agree i w w' Hi HD Hb Hb') Hok Hf) as (E1 & E2 & E3).
  destruct HD as [a b fr [n1 n2] hl htm]. split; [exact E1|]. constructor; rewrite ?E3, ?(around_adds sc now i f w Hok).
  - intros j Hj. destruct (N.eq_dec j i) as [->|Hji]; [exact E2|]. rewrite !around_oth by assumption. apply a, Hj.
  - rewrite !around_oth by assumption. exact b.
  - apply FesRel_flush; assumption.
  - rewrite !(adds_rt m now i f w) by auto. auto.
  - apply L_flush_mono, hl.
  - rewrite around_oth by assumption. exact htm.
Qed.

Lemma stutter_l sc now w w' t ev f1 : FW now w -> Dead w w' -> fes_fetch (w_fes w) = Some (t, ev, f1) -> inert m ev = true ->
  Dead (fst (loop_rec sc (set_fes w f1) t ev)) w' /\ others (e_items (snd (loop_rec sc (set_fes w f1) t ev))) = [].
Proof.
  intros HW [a [b1 b2] fr [n1 n2] hl htm] Hf Hi.
  destruct (inert_step m sc now w t ev f1 HW b1 n1 Hf Hi) as (I0 & I1 & I2 & I3 & I4 & _).
  destruct (loop_FW sc now w t ev f1 HW Hf) as (_ & HL & _). rewrite loop_rec_fst in *. rewrite loop_rec_items, I0. split; [|reflexivity]. constructor; auto; [|lia]. intros j Hj. rewrite I1 by exact Hj. apply a, Hj.
Qed.

Lemma stutter_r sc now w w' t ev f1 : FW now w' -> Dead w w' -> fes_fetch (w_fes w') = Some (t, ev, f1) -> inert m ev = true ->
  Dead w (fst (loop_rec sc (set_fes w' f1) t ev)) /\ others (e_items (snd (loop_rec sc (set_fes w' f1) t ev))) = [].
Proof.
  intros HW [a [b1 b2] fr [n1 n2] hl htm] Hf Hi.
  destruct (inert_step m sc now w' t ev f1 HW b2 n2 Hf Hi) as (I0 & I1 & I2 & I3 & I4 & I5). destruct (I5 htm) as [J1 J2].
  rewrite loop_rec_fst, loop_rec_items, I0. split; [|reflexivity]. constructor; auto.
  - intros j Hj. rewrite I1 by exact Hj. apply a, Hj.
  - apply FesRel_sym, I4, FesRel_sym, fr.
  - rewrite J1. pose proof (L_fetch_le _ _ _ _ Hf). lia.
Qed.

Definition Post (s s' : xs) : Prop :=
  Agree m (x_w s) (x_w s') \/ (Div m (x_w s) (x_w s') /\ active (w_mod (x_w s) m) = false).

Lemma Div_catch c w w' : Div m w w' ->
  Div m (fst (catch c m true w)) w' /\ active (w_mod (fst (catch c m true w)) m) = false.
Proof.
  intros [a b c0 d e f g gc h i]. unfold catch.
  assert (G : Div m (set_mod w m (set_active (w_mod w m) false)) w').
  { constructor; cbn [w_buf w_mod set_mod]; rewrite ?N.eqb_refl; cbn [timers nw inc bud hnd catchf shut set_active]; try assumption.
    intros j Hj. apply N.eqb_neq in Hj. rewrite Hj. apply b. apply N.eqb_neq, Hj. }
  destruct (catchf (w_mod w m)); cbn [fst]; (split; [|cbn [w_mod set_err set_mod]; rewrite N.eqb_refl; reflexivity]); [exact G|].
  destruct G as [a' b' c' d' e' f' g' gc' h' i']. constructor; assumption.
Qed.

Lemma at_sim_start0_flags k c now s s' : AgreeX m s s' ->
  (AgreeX m (fst (at_sim_start k c now m 0 s)) (fst (at_sim_start k (quiet_cfg c) now m 0 s')) /\
   snd (at_sim_start k c now m 0 s) = false /\ snd (at_sim_start k (quiet_cfg c) now m 0 s') = false) \/
  (Div m (x_w (fst (at_sim_start k c now m 0 s))) (x_w (fst (at_sim_start k (quiet_cfg c) now m 0 s'))) /\
   active (w_mod (x_w (fst (at_sim_start k c now m 0 s))) m) = false /\
   snd (at_sim_start k (quiet_cfg c) now m 0 s') = false).
Proof.
  intros H. pose proof H as [Ha Hl]. unfold at_sim_start. rewrite N.eqb_refl, pick_start_quiet.
  change (c_spawn (quiet_cfg c)) with (c_spawn c). rewrite <- (ag_mod _ _ _ Ha).
  destruct (exec_quiet k now m (CbStart 0) (c_spawn c) (pick_start c (inc (w_mod (x_w s) m))) s s' H)
    as [(E1 & E2 & E3)|(E1 & E2 & E3)];
    destruct (exec k now m (CbStart 0) (c_spawn c) (pick_start c (inc (w_mod (x_w s) m))) s) as [s1 p1];
    destruct (exec k now m (CbStart 0) (c_spawn c) (map quiet_act (pick_start c (inc (w_mod (x_w s) m)))) s') as [s1' p1'];
    cbn [fst snd] in *; subst p1 p1'.
  - left. cbn [catch fst snd x_w]. split; [split; [exact (proj1 E3)|exact (proj2 E3)]|auto].
  - right. destruct (Div_catch c _ _ E3) as [D1 D2]. cbn [catch] in *.
    destruct (catchf (w_mod (x_w s1) m)); cbn [fst snd x_w negb] in *; auto.
Qed.

(* start-up stages other than 0 run no program: the two scripts do the same *)
Lemma at_sim_start_later k c now stage s : stage <> 0 ->
  at_sim_start k (quiet_cfg c) now m stage s = at_sim_start k c now m stage s.
Proof. intros H. apply N.eqb_neq in H. unfold at_sim_start. rewrite H. reflexivity. Qed.

Lemma at_sim_start_post k c now stage s s' : AgreeX m s s' ->
  Post (fst (at_sim_start k c now m stage s)) (fst (at_sim_start k (quiet_cfg c) now m stage s')).
Proof.
  intros H. destruct (N.eq_dec stage 0) as [->|Hs].
  - destruct (at_sim_start0_flags k c now s s' H) as [([A _] & _)|(D & Ha & _)]; [left; exact A|right; split; assumption].
  - left. rewrite (at_sim_start_later k c now stage s' Hs). apply (at_sim_start_walk (Agree_walk k now m)), H.
Qed.

Lemma handle_message_post k c now x s s' : AgreeX m s s' ->
  Post (handle_message k c now m x s) (handle_message k (quiet_cfg c) now m x s').
Proof.
  intros H. pose proof H as [Ha Hl]. unfold handle_message. rewrite pick_msg_quiet, <- (ag_act _ _ _ Ha m).
  destruct (active (w_mod (x_w s) m)); [|left; exact Ha].
  destruct (exec_quiet k now m (CbMsg x) [] (pick_msg c x) s s' H) as [(E1 & E2 & E3)|(E1 & E2 & E3)];
    destruct (exec k now m (CbMsg x) [] (pick_msg c x) s) as [s1 p1];
    destruct (exec k now m (CbMsg x) [] (map quiet_act (pick_msg c x)) s') as [s1' p1'];
    cbn [fst snd] in *; subst p1 p1'.
  - left. cbn [catch fst x_w]. exact (proj1 E3).
  - right. destruct (Div_catch c _ _ E3) as [D1 D2]. cbn [x_w]. change (catch (quiet_cfg c) m false (x_w s1')) with (x_w s1', false).
    cbn [fst]. auto.
Qed.

Lemma restart_tail_agree k c now : forall tl s s' e, Forall (fun st => st <> 0) tl -> AgreeX m s s' ->
  AgreeX m (fst (fold_left (fun (acc : xs * bool) stage => if snd acc then acc else restart_stage k c now m stage (fst acc)) tl (s, e)))
           (fst (fold_left (fun (acc : xs * bool) stage => if snd acc then acc else restart_stage k (quiet_cfg c) now m stage (fst acc)) tl (s', e))).
Proof.
  induction tl as [|st tl IH]; intros s s' e Hne H; cbn [fold_left fst snd]; [exact H|].
  inversion Hne as [|x l Hx Hl]; subst. destruct e; [apply IH; assumption|]. unfold restart_stage at 2 4.
  rewrite at_sim_start_later by assumption.
  destruct (at_sim_start_walk (Agree_walk k now m) c st s s' H) as [H1 H2].
  destruct (at_sim_start k c now m st s) as [s1 e1], (at_sim_start k c now m st s') as [s1' e1'].
  cbn [fst snd] in *. subst e1'. rewrite (ag_act _ _ _ (proj1 H1) m). apply IH; assumption.
Qed.

Lemma restart_tail_div k c now w : forall tl s' e, Forall (fun st => st <> 0) tl -> Div m w (x_w s') ->
  Div m w (x_w (fst (fold_left (fun (acc : xs * bool) stage => if snd acc then acc else restart_stage k (quiet_cfg c) now m stage (fst acc)) tl (s', e)))).
Proof.
  induction tl as [|st tl IH]; intros s' e Hne H; cbn [fold_left fst snd]; [exact H|].
  inversion Hne as [|x l Hx Hl]; subst. destruct e; [apply IH; assumption|]. unfold restart_stage at 2.
  rewrite at_sim_start_later by assumption.
  destruct (at_sim_start_div m k c now st w s' Hx H) as [D1 D2].
  destruct (at_sim_start k c now m st s') as [s1 e1]. cbn [fst snd] in *. apply IH; assumption.
Qed.

Lemma module_restart_post k c now s s' : AgreeX m s s' ->
  Post (module_restart k c now m s) (module_restart k (quiet_cfg c) now m s').
Proof.
  intros H. unfold module_restart. change (c_stages (quiet_cfg c)) with (c_stages c).
  assert (H0 : AgreeX m (on_w (fun w => set_mod w m (set_active (w_mod w m) true)) s) (on_w (fun w => set_mod w m (set_active (w_mod w m) true)) s'))
    by (apply (wk_active (Agree_walk k now m)), H).
  destruct (N.eq_dec (c_stages c) 0) as [E0|E0]; [rewrite E0; left; exact (proj1 H0)|].
  destruct (stage_list_shape (c_stages c)) as (tl & Esl & Htl); [lia|]. rewrite Esl. cbn [fold_left fst snd].
  unfold restart_stage at 2 4.
  destruct (at_sim_start0_flags k c now _ _ H0) as [(A1 & A2 & A3)|(D1 & D2 & D4)].
  - destruct (at_sim_start k c now m 0 _) as [s1 e1], (at_sim_start k (quiet_cfg c) now m 0 _) as [s1' e1'].
    cbn [fst snd] in *. subst e1 e1'. left. rewrite (ag_act _ _ _ (proj1 A1) m).
    apply (proj1 (restart_tail_agree k c now tl s1 s1' _ Htl A1)).
  - (* the panicking run leaves the stage loop: the module is inactive *)
    destruct (at_sim_start k c now m 0 _) as [s1 e1], (at_sim_start k (quiet_cfg c) now m 0 _) as [s1' e1'].
    cbn [fst snd] in *. rewrite D2. cbn [negb]. rewrite orb_true_r, fold_stopped by (intros; reflexivity). cbn [fst]. right.
    split; [|exact D2]. apply restart_tail_div; assumption.
Qed.

(* The event of m in both runs while the two worlds are still equal, from the states the callbacks return.
   If they diverged the quiet run has a shutdown request where the panicking run has the request it had before, or
   none: the same events are added to the event set, and module m is either reset in both, or dead in both. *)
Lemma m_event sc sc' now f f' w w' : Same w w' -> w_buf w = [] ->
  (Div m (x_w (cb_out now m f w)) (x_w (cb_out now m f' w')) -> restart_times m (w_fes w) = []) -> CbOK m f -> CbOK m f' ->
  Post (cb_out now m f w) (cb_out now m f' w') ->
  Rel (fst (around sc now m f w)) (fst (around sc' now m f' w')).
Proof.
  intros HS Hb Hn0 Hok Hok' HP.
  pose proof (around_adds sc now m f w Hok) as Hf1. pose proof (around_adds sc' now m f' w' Hok') as Hf2. rewrite adds_of_eq in Hf1, Hf2.
  assert (Hoth : forall j, j <> m -> w_mod (fst (around sc now m f w)) j = w_mod (fst (around sc' now m f' w')) j)
    by (intros j Hj; rewrite !around_oth by assumption; apply HS).
  destruct HP as [HA|[HD Hact]].
  - left. constructor; [|rewrite Hf1, Hf2, (ag_mod _ _ _ HA), (ag_buf _ _ _ HA), (sm_fes _ _ HS); reflexivity].
    intros j. destruct (N.eq_dec j m) as [->|Hj]; [rewrite !around_mod, (ag_mod _ _ _ HA); reflexivity|apply Hoth, Hj].
  - pose proof (Hn0 HD) as Hn. destruct HD as [vb va vt vn vi vbu vtp vc vr vs].
    assert (Er : restart_of m (w_mod (x_w (cb_out now m f' w')) m) = restart_of m (w_mod (x_w (cb_out now m f w)) m))
      by (unfold restart_of; rewrite vs; destruct (shut (w_mod (x_w (cb_out now m f w)) m)); reflexivity).
    assert (Ef : w_fes (fst (around sc now m f w)) = w_fes (fst (around sc' now m f' w')))
      by (rewrite Hf1, Hf2; unfold wake_of; rewrite Er, <- vb, <- vt, <- vn, (sm_fes _ _ HS); reflexivity).
    assert (Em : w_mod (fst (around sc' now m f' w')) m =
                 consumed now (set_nw (w_mod (x_w (cb_out now m f w)) m) (nw_after (w_mod (x_w (cb_out now m f w)) m))))
      by (rewrite around_mod; unfold settled, consumed, nw_after; rewrite vs; cbn [inc bud nw hnd catchf set_nw];
          rewrite vt, vn, vi, vbu, vtp, vc; reflexivity).
    pose proof (around_mod sc now m f w) as Em1. unfold settled in Em1.
    destruct (shut (w_mod (x_w (cb_out now m f w)) m)) as [r|] eqn:Es.
    + (* a request was pending: both consume it, the worlds are equal again *)
      left. constructor; [|exact Ef]. intros j. destruct (N.eq_dec j m) as [->|Hj]; [rewrite Em1, Em; reflexivity|apply Hoth, Hj].
    + (* no request: the panicking run keeps a dead module, the quiet run shuts it down for good *)
      assert (Hr : restart_times m (w_fes (fst (around sc now m f w))) = [])
        by (rewrite (around_adds sc now m f w Hok), adds_rt; [exact Hn|exact Hok|exact Hb|right; unfold restart_of; rewrite Es; reflexivity]).
      right. constructor; [exact Hoth| | |rewrite <- Ef; auto|rewrite Ef; apply N.le_refl|rewrite Em; reflexivity].
      * rewrite Em1, Em. cbn [active set_nw consumed]. auto.
      * rewrite Ef. apply FesRel_refl.
Qed.

End SilentRel.
