(* Helper facts for Life/Silent.v: what one module event ([around]) leaves behind, component by component; the
   callback of a dispatched event; an event of an inactive module. *)
From Coq Require Import List NArith Bool.
From DesVerif Require Import Life.Model Life.Base Life.Step Life.Trace Life.Frame Life.Inert Life.Events Life.Restart Life.Agree Life.Strip
  Life.Quiet Life.Future.
Import ListNotations.
Open Scope N_scope.

Lemma stage_list_1 : stage_list 1 = [0].
Proof. reflexivity. Qed.

Lemma rt_after_fetch m f t ev f1 : fes_fetch f = Some (t, ev, f1) -> restart_times m f = [] -> restart_times m f1 = [].
Proof.
  intros Hf Hn. pose proof (fes_fetch_order _ _ _ _ Hf) as Ho. unfold restart_times in *. rewrite Ho in Hn. unfold rtimes in *.
  cbn [filter] in Hn. destruct (is_restart m (t, ev)); [discriminate|exact Hn].
Qed.

Lemma live_event_other m f t ev f1 i : fes_fetch f = Some (t, ev, f1) -> restart_times m f = [] -> inert m ev = false ->
  ev_mod ev = Some i -> i <> m.
Proof.
  intros Hf Hn Hi Ei ->. pose proof (fes_fetch_order _ _ _ _ Hf) as Ho. unfold restart_times in Hn. rewrite Ho in Hn.
  destruct ev; try discriminate; injection Ei as ->; cbn [inert] in Hi; rewrite ?N.eqb_refl in Hi; try discriminate.
  unfold rtimes in Hn. cbn [filter is_restart snd] in Hn. rewrite N.eqb_refl in Hn. discriminate.
Qed.

Definition cb_out (now i : N) (f : xs -> xs) (w : world) : xs := f {| x_w := activate now i w; x_log := [] |}.

Definition nw_after (x : mst) : option N :=
  match timers x with (t, _) :: _ => if lt_nw t (nw x) then Some t else nw x | [] => nw x end.

Lemma deactivate_mod_eq i w : w_mod (deactivate i w) i = set_nw (w_mod w i) (nw_after (w_mod w i)).
Proof.
  unfold deactivate, nw_after. destruct (timers (w_mod w i)) as [|[t tk] r].
  - cbn [w_mod set_cur]. destruct (w_mod w i); reflexivity.
  - destruct (lt_nw t (nw (w_mod w i))).
    + wsimpl. rewrite N.eqb_refl. reflexivity.
    + cbn [w_mod set_cur]. destruct (w_mod w i); reflexivity.
Qed.

Definition consumed (now : N) (x : mst) : mst :=
  {| active := false; inc := inc x + 1; bud := bud x; shut := None; nw := nw_bump now (nw x);
     timers := []; ready := []; hnd := hnd x; catchf := catchf x |}.

(* module i after its event, from its state [x] after the callback: next_wakeup set by deactivate, then a requested
   shutdown consumed *)

Definition settled (now : N) (x : mst) : mst :=
  match shut x with Some _ => consumed now (set_nw x (nw_after x)) | None => set_nw x (nw_after x) end.

Lemma around_mod sc now i f w : w_mod (fst (around sc now i f w)) i = settled now (w_mod (x_w (cb_out now i f w)) i).
Proof. rewrite around_world, Step.buf_process_self, deactivate_mod_eq. reflexivity. Qed.

Lemma adds_of_eq now i f w :
  adds_of now i f w = wake_of i (w_mod (x_w (cb_out now i f w)) i) ++ w_buf (x_w (cb_out now i f w)) ++
                      restart_of i (w_mod (x_w (cb_out now i f w)) i).
Proof. unfold adds_of. cbv zeta. rewrite deactivate_mod_eq. reflexivity. Qed.

Lemma adds_rt m now i f w f0 : CbOK i f -> w_buf w = [] -> i <> m \/ restart_of i (w_mod (x_w (cb_out now i f w)) i) = [] ->
  restart_times m (fes_flush (adds_of now i f w) f0) = restart_times m f0.
Proof.
  intros Hok Hb Hr. destruct (Hok {| x_w := activate now i w; x_log := [] |}) as [[_ _ _ _ _ (l & Hl & Ml)] _].
  cbn [x_w] in Hl. rewrite activate_buf, Hb in Hl. fold (cb_out now i f w) in Hl.
  apply flush_rt. rewrite adds_of_eq, Hl. apply Forall_app. split; [|apply Forall_app; split].
  - unfold wake_of. destruct (timers _) as [|[t tk] r]; [constructor|]. destruct (lt_nw _ _); repeat constructor.
  - eapply Forall_impl; [|exact Ml]. intros p Hp. apply msg_not_restart, Hp.
  - destruct Hr as [Hi| ->]; [|constructor]. unfold restart_of. destruct (shut _) as [[t|]|]; repeat constructor.
    unfold is_restart. cbn [snd]. apply N.eqb_neq, Hi.
Qed.

Lemma activate_shut now i w : shut (w_mod (activate now i w) i) = shut (w_mod w i).
Proof. apply (activate_field shut). reflexivity. Qed.

Lemma activate_timers_nil now i w : timers (w_mod w i) = [] -> timers (w_mod (activate now i w) i) = [].
Proof. intros H. unfold activate. rewrite H. cbn [split_due w_mod set_cur set_mod]. rewrite N.eqb_refl. reflexivity. Qed.

Lemma ev_restart_dec ev i : {ev = EvRestart i} + {ev <> EvRestart i}.
Proof.
  destruct ev as [j far x|j x|j|j]; try (right; discriminate).
  destruct (N.eq_dec j i) as [->|H]; [left; reflexivity|right; intros [= E]; contradiction].
Qed.

Lemma callback_agree sc i now knd f s s' : callback sc i now knd f -> AgreeX i s s' -> AgreeX i (f s) (f s').
Proof.
  intros [stage|t x|t|t].
  - apply (at_sim_start_walk (Agree_walk (nmods sc) 0 i)).
  - apply (handle_message_walk (Agree_walk (nmods sc) t i)).
  - apply (async_wakeup_walk (Agree_walk (nmods sc) t i)).
  - apply (module_restart_walk (Agree_walk (nmods sc) t i)).
Qed.

Lemma around_inactive sc now i f w : CbOK i f -> active (w_mod w i) = false -> shut (w_mod w i) = None -> w_buf w = [] ->
  cb_out now i f w = {| x_w := activate now i w; x_log := [] |} ->
  snd (around sc now i f w) = [] /\ active (w_mod (fst (around sc now i f w)) i) = false /\
  w_fes (fst (around sc now i f w)) = fes_flush (wake_of i (w_mod (activate now i w) i)) (w_fes w) /\
  (timers (w_mod w i) = [] -> w_fes (fst (around sc now i f w)) = w_fes w /\ timers (w_mod (fst (around sc now i f w)) i) = []).
Proof.
  intros Hok Ha Hs Hb E. rewrite around_log, buf_process_items, deactivate_mod_eq, around_mod, (around_adds sc now i f w Hok), adds_of_eq.
  fold (cb_out now i f w). rewrite E. unfold settled, restart_of. cbn [x_w x_log shut set_nw].
  rewrite activate_shut, Hs, activate_buf, Hb. cbn [app active timers set_nw]. rewrite !app_nil_r, activate_active.
  split; [reflexivity|]. split; [exact Ha|]. split; [reflexivity|].
  intros Ht. unfold wake_of. rewrite (activate_timers_nil now i w Ht). split; reflexivity.
Qed.

Lemma flush_wake m x f f' : WF f -> FesRel m f f' ->
  restart_times m (fes_flush (wake_of m x) f) = restart_times m f /\ FesRel m (fes_flush (wake_of m x) f) f'.
Proof.
  intros W R. unfold wake_of. destruct (timers x) as [|[t tk] r]; [auto|]. destruct (lt_nw t (nw x)); [|auto].
  cbn [fes_flush fold_left fst snd]. split; [apply fes_add_rt_other; reflexivity|].
  apply FesRel_add_l; [cbn [inert]; apply N.eqb_refl|exact R|exact W].
Qed.

Lemma inert_step m sc now w t ev f1 : FW now w -> active (w_mod w m) = false -> restart_times m (w_fes w) = [] ->
  fes_fetch (w_fes w) = Some (t, ev, f1) -> inert m ev = true ->
  snd (process sc (set_fes w f1) t ev) = [] /\
  (forall j, j <> m -> w_mod (fst (process sc (set_fes w f1) t ev)) j = w_mod w j) /\
  active (w_mod (fst (process sc (set_fes w f1) t ev)) m) = false /\
  restart_times m (w_fes (fst (process sc (set_fes w f1) t ev))) = [] /\
  (forall f', FesRel m (w_fes w) f' -> FesRel m (w_fes (fst (process sc (set_fes w f1) t ev))) f') /\
  (timers (w_mod w m) = [] ->
   w_fes (fst (process sc (set_fes w f1) t ev)) = f1 /\ timers (w_mod (fst (process sc (set_fes w f1) t ev)) m) = []).
Proof.
  intros HW Ha Hn Hf Hi. destruct (WF_fetch _ _ _ _ (fw_wf _ _ HW) Hf) as [W1 _].
  pose proof (rt_after_fetch m _ _ _ _ Hf Hn) as Hn1.
  assert (FR : forall f', FesRel m (w_fes w) f' -> FesRel m f1 f') by (intros f' R; eapply fetch_inert_l; eauto).
  destruct (process_cases sc (set_fes w f1) t ev) as [(i & far & x & ->)|(i & f & Ei & Hc & ->)].
  - cbn [inert] in Hi. apply N.eqb_eq in Hi. subst i.
    unfold process, walk. cbn [w_mod set_fes]. rewrite Ha. cbn [fst snd w_mod w_fes set_fes]. auto 7.
  - assert (Em : i = m /\ ev <> EvRestart m)
      by (destruct ev; cbn [inert ev_mod] in Hi, Ei; try discriminate; apply N.eqb_eq in Hi; injection Ei as <-; (split; [exact Hi|discriminate])).
    destruct Em as [-> Hr]. pose proof (callback_ok _ _ _ _ _ Hc) as Hok.
    assert (E : cb_out t m f (set_fes w f1) = {| x_w := activate t m (set_fes w f1); x_log := [] |})
      by (apply (callback_inactive sc m t ev f _ Hc Hr); cbn [x_w]; rewrite activate_active; exact Ha).
    destruct (around_inactive sc t m f (set_fes w f1) Hok Ha (fw_shut _ _ HW m) (fw_buf _ _ HW) E) as (A1 & A2 & A3 & A4).
    split; [exact A1|]. split; [intros j Hj; exact (around_oth sc t m f (set_fes w f1) j Hok Hj)|]. split; [exact A2|].
    split; [rewrite A3; exact (eq_trans (proj1 (flush_wake m _ f1 f1 W1 (FesRel_refl m f1))) Hn1)|].
    split; [intros f' R; rewrite A3; apply flush_wake; [exact W1|apply FR, R]|exact A4].
Qed.


(* the items of the step records, as rewrite rules (see Life/Trace.v) *)
Lemma start_rec_items sc stage i w : e_items (snd (start_rec sc stage i w)) = snd (around sc 0 i (start_cb sc stage i) w).
Proof. unfold start_rec. generalize (around sc 0 i (start_cb sc stage i) w). intros p. reflexivity. Qed.

Lemma loop_rec_items sc w t ev :
  e_items (snd (loop_rec sc w t ev)) = snd (process sc w t ev) ++ [ISample t (mask sc (fst (process sc w t ev)))].
Proof. unfold loop_rec. generalize (process sc w t ev). intros p. reflexivity. Qed.

(* what the generated worlds of the panicking run provide *)
Lemma gen_facts sc m w tr : Gen sc w tr ->
  (active (w_mod w m) = true -> restart_times m (w_fes w) = []) /\
  (forall t f1, fes_fetch (w_fes w) = Some (t, EvRestart m, f1) -> restart_times m f1 = []).
Proof.
  intros HG. pose proof (gen_RI sc w tr HG m) as HR. split.
  - intros Ha. destruct (pending m tr) eqn:Ep; [|exact HR]. exfalso.
    assert (Hd : Down m w) by (apply (gen_down sc m w tr HG), pending_down; rewrite Ep; discriminate).
    rewrite (dn_active _ _ Hd) in Ha. discriminate.
  - intros t f1 Hf. pose proof (fes_fetch_order _ _ _ _ Hf) as Ho. unfold restart_times in *. rewrite Ho in HR.
    unfold rtimes in *. cbn [filter is_restart snd] in HR. rewrite N.eqb_refl in HR. cbn [map fst] in HR.
    destruct (pending m tr); [injection HR as _ HR; exact HR|discriminate].
Qed.

Lemma at_sim_start_div m k c now stage w s' : stage <> 0 -> Div m w (x_w s') ->
  Div m w (x_w (fst (at_sim_start k c now m stage s'))) /\
  snd (at_sim_start k c now m stage s') = false.
Proof.
  intros H [vb va vt vn vi vbu vtp vc vr vs]. apply N.eqb_neq in H. unfold at_sim_start. rewrite H.
  unfold exec, spawn_all, poll_ready. cbn [combine seq length map run_prog fst snd].
  wsimpl. rewrite !N.eqb_refl. wsimpl. rewrite vr. cbn [app fold_left catch fst snd x_w].
  split; [|reflexivity].
  constructor; cbn [on_w say say_all x_w w_buf w_mod set_mod]; rewrite ?N.eqb_refl; cbn [w_mod set_mod]; rewrite ?N.eqb_refl;
    cbn [timers nw inc bud hnd catchf ready shut set_ready set_hnd]; rewrite ?app_nil_r; try assumption; try reflexivity.
  intros j Hj. pose proof (va j Hj) as Hv. apply N.eqb_neq in Hj. rewrite !Hj. exact Hv.
Qed.

Lemma fold_stopped {A} (f : xs * bool -> A -> xs * bool) (Hf : forall s a, f (s, true) a = (s, true)) :
  forall l s, fold_left f l (s, true) = (s, true).
Proof. induction l as [|a l IH]; intros s; cbn [fold_left]; [reflexivity|]. rewrite Hf. apply IH. Qed.
