(* One walk through the script interpreter of Life/Sim.v.  A preorder on callback states that holds across each
   primitive step of the interpreter ([Closed]) holds across every program, every poll and Harness::exec, hence
   ([Closed2], Life/Step.v) across every callback of ModuleRef.  Instances: Keep (Panic.v), JI (Errors.v), SI (Stereo.v), FC (Future.v); at the
   second level also PInv and the active flag (Panic.v) and the frame Fo /\ LogExt (Step.v).  Relations that hold only
   for the calls and tasks the interpreter really makes -- Fr, FrP (Base.v), CInv (Inv.v), the potential pm (Pot.v),
   the two-run relations of Agree.v -- walk the interpreter on their own.
   The way from such a relation R to a theorem about traces, as Errors.v and Stereo.v go it: the [Closed] instance;
   [callback_R] gives R across each callback; a lemma around_X turns that into a relation between the world before and
   after [around] and the items written; X_sample / X_nil cover the closing sample and the events without a callback;
   step_X by [step_cases], gen_X by [gen_inv] (Trace.v); the tear-down records by [at_sim_end_steps] and [run_decomp]. *)
From Coq Require Import List NArith Bool Lia.
From DesVerif Require Import Life.Model Life.Base Life.Step Life.Trace.
Import ListNotations.
Open Scope N_scope.

Lemma run_prog_sleep_pos tk k now j who : forall p s d r, snd (run_prog tk k now j who p s) = RSleep d r -> 0 < d.
Proof.
  induction p as [|a p IH]; intros s d r; cbn [run_prog snd]; [discriminate|].
  destruct a; try apply IH; try discriminate.
  - destruct (tk && (0 <? d0)) eqn:E; cbn [snd]; [|apply IH]. intros H. injection H as <- _. apply andb_prop in E. apply N.ltb_lt, E.
  - destruct tk; cbn [snd]; [apply IH|discriminate].
Qed.

Section Steps.
Variables (k now m : N) (pw : N -> Prop) (R : xs -> xs -> Prop).

(* [pw who]: the relation holds across a panic record of the piece of code [who] (0: the callback, 1 + id: task id) *)
Record Closed : Prop := {
  r_refl : forall s, R s s;
  r_trans : forall s1 s2 s3, R s1 s2 -> R s2 s3 -> R s1 s3;
  r_act : forall who a s, R s (do_act k now m who a s);
  r_panic : forall who s, pw who -> R s (say (IPanic m who (catchf (w_mod (x_w s) m))) s);
  r_quiet : forall s, R s (quiet m s);
  r_call : forall c b s, R s (say (ICall m c now b) s);
  r_spawn : forall sp s, R s (say_all (spawn_items m (inc (w_mod (x_w s) m)) sp) (on_w (spawn_all m sp) s));
  r_ready : forall s, R s (on_w (fun w => set_mod w m (set_ready (w_mod w m) [])) s);
  r_end : forall how s tk, R s (end_task m how s tk);
  r_sleep : forall d tk s, 0 < d ->
    R s (on_w (fun w => set_mod w m (set_timers (w_mod w m) (tins (now + d) tk (timers (w_mod w m))))) s);
  r_catch : forall (c : modcfg) p s, R s {| x_w := fst (catch c m p (x_w s)); x_log := x_log s |};
  r_wake : forall s, R s (on_w (fun w => set_mod w m (set_active (w_mod w m) true)) s);
  r_join : forall c s, R s (on_w (fun w => set_err w (w_err w ++ join_errs c m (hnd (w_mod w m)) (w_fin w))) s) }.

Hypothesis H : Closed.

Lemma fold_R {A} (g : xs -> A -> xs) : (forall s x, R s (g s x)) -> forall l s, R s (fold_left g l s).
Proof.
  apply fold_left_rel; [apply (r_refl H)|apply (r_trans H)].
Qed.

Lemma run_prog_split tk who : forall p s, exists s1, R s s1 /\
  fst (run_prog tk k now m who p s) =
  match snd (run_prog tk k now m who p s) with RPanic => say (IPanic m who (catchf (w_mod (x_w s1) m))) s1 | _ => s1 end.
Proof.
  induction p as [|a p IH]; intros s; cbn [run_prog].
  { exists s. split; [apply (r_refl H)|reflexivity]. }
  assert (Ha : forall a, exists s1, R s s1 /\
    fst (run_prog tk k now m who p (do_act k now m who a s)) =
    match snd (run_prog tk k now m who p (do_act k now m who a s)) with
    | RPanic => say (IPanic m who (catchf (w_mod (x_w s1) m))) s1 | _ => s1 end).
  { intros a0. destruct (IH (do_act k now m who a0 s)) as (s1 & HR & E). exists s1. split; [|exact E].
    eapply (r_trans H); [apply (r_act H)|exact HR]. }
  destruct a.
  - apply Ha.
  - apply Ha.
  - apply Ha.
  - destruct (tk && (0 <? d)); [|apply IH]. exists s. split; [apply (r_refl H)|reflexivity].
  - apply Ha.
  - apply Ha.
  - exists s. split; [apply (r_refl H)|reflexivity].
  - apply Ha.
  - destruct tk; [apply IH|]. exists (quiet m s). split; [apply (r_quiet H)|reflexivity].
Qed.

Lemma run_prog_R tk who p s : pw who \/ snd (run_prog tk k now m who p s) <> RPanic -> R s (fst (run_prog tk k now m who p s)).
Proof.
  intros Hp. destruct (run_prog_split tk who p s) as (s1 & HR & E). rewrite E.
  destruct (snd (run_prog tk k now m who p s)); try exact HR.
  destruct Hp as [Hp|Hp]; [|contradiction]. eapply (r_trans H); [exact HR|apply (r_panic H), Hp].
Qed.

Hypothesis H_tasks : forall id, pw (1 + id).

Lemma poll1_R s tk : R s (poll1 k now m s tk).
Proof.
  unfold poll1.
  match goal with |- context [run_prog true k now m ?who ?p ?s0] =>
    pose proof (run_prog_R true who p s0 (or_introl (H_tasks _))) as H1;
    pose proof (run_prog_sleep_pos true k now m who p s0) as Hp; destruct (run_prog true k now m who p s0) as [s1 r] end.
  cbn [fst snd] in H1, Hp.
  assert (H0 : R s s1) by (eapply (r_trans H); [apply (r_call H)|exact H1]).
  destruct r; (eapply (r_trans H); [exact H0|]); try apply (r_end H). apply (r_sleep H), (Hp d rest eq_refl).
Qed.

Lemma poll_ready_R s : R s (poll_ready k now m s).
Proof. unfold poll_ready. eapply (r_trans H); [apply (r_ready H)|apply fold_R, poll1_R]. Qed.

Lemma exec_split c sp p s : exists s1, R s s1 /\
  fst (exec k now m c sp p s) =
  if snd (exec k now m c sp p s) then say (IPanic m 0 (catchf (w_mod (x_w s1) m))) s1 else s1.
Proof.
  unfold exec.
  match goal with |- context [run_prog false k now m 0 p ?s0] =>
    assert (H0 : R s s0) by (eapply (r_trans H); [apply (r_call H)|apply (r_spawn H sp (say _ s))]);
    destruct (run_prog_split false 0 p s0) as (s1 & H1 & E); destruct (run_prog false k now m 0 p s0) as [s2 r] end.
  cbn [fst snd] in E. assert (H2 : R s s1) by (eapply (r_trans H); eassumption).
  destruct r; cbn [fst snd]; subst s2.
  - exists (poll_ready k now m s1). split; [|reflexivity]. eapply (r_trans H); [exact H2|apply poll_ready_R].
  - exists s1. split; [exact H2|reflexivity].
  - eexists. split; [|reflexivity]. eapply (r_trans H); [exact H2|]. eapply (r_trans H); [apply (r_ready H)|apply fold_R, (r_end H)].
  - exists (poll_ready k now m s1). split; [|reflexivity]. eapply (r_trans H); [exact H2|apply poll_ready_R].
Qed.

Hypothesis H_cb : pw 0.

Lemma exec_R c sp p s : R s (fst (exec k now m c sp p s)).
Proof.
  destruct (exec_split c sp p s) as (s1 & HR & E). rewrite E. destruct (snd (exec k now m c sp p s)); [|exact HR].
  eapply (r_trans H); [exact HR|apply (r_panic H), H_cb].
Qed.

Lemma closed2 : Closed2 k now m R.
Proof.
  constructor; [apply (r_refl H)|apply (r_trans H)| |apply poll_ready_R].
  intros c cb sp p s. eapply (r_trans H); [apply exec_R|]. apply (r_catch H c (snd (exec k now m cb sp p s)) (fst (exec k now m cb sp p s))).
Qed.
End Steps.

Lemma callback_R2 sc m now knd f R : Closed2 (nmods sc) now m R ->
  (forall s, R s (on_w (fun w => set_mod w m (set_active (w_mod w m) true)) s)) ->
  callback sc m now knd f -> forall s, R s (f s).
Proof.
  intros H Hw Hc s. revert H Hw. destruct Hc as [stage|t x|t|t]; intros H Hw.
  - unfold start_cb. apply at_sim_start_R, H.
  - apply handle_message_R, H.
  - apply async_wakeup_R, H.
  - apply module_restart_R; assumption.
Qed.

Lemma callback_R sc m now knd f R : Closed (nmods sc) now m (fun _ => True) R -> callback sc m now knd f -> forall s, R s (f s).
Proof. intros H. apply callback_R2; [apply (closed2 _ _ _ _ _ H); intros; exact I|apply (r_wake _ _ _ _ _ H)]. Qed.

Lemma at_sim_end_steps k now m R : Closed k now m (fun _ => True) R -> forall c s, R s (at_sim_end k c now m s).
Proof. intros H. apply at_sim_end_R; [apply (closed2 _ _ _ _ _ H); intros; exact I|apply (r_join _ _ _ _ _ H)]. Qed.
