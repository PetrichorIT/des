(* The "falls silent" variant of a script ([quieten m sc]: module m's callbacks run quiet where
   they would have panicked) and how a callback of m behaves in the two scripts: identically up
   to the first panic / quiet, where the panicking one unwinds and the quiet one requests
   shutdown and drops its woken tasks. *)
From Coq Require Import List NArith Bool PeanoNat.
From DesVerif Require Import Life.Model Life.Step Life.Agree.
Import ListNotations.
Open Scope N_scope.

(* ---- the scripts ---- *)
Lemma upd_nth_length {A} (f : A -> A) : forall n l, length (upd_nth n f l) = length l.
Proof. induction n as [|n IH]; intros [|x l]; cbn [upd_nth length]; try reflexivity. rewrite IH. reflexivity. Qed.

Lemma nth_upd_nth {A} (f : A -> A) d : f d = d -> forall n k l,
  nth n (upd_nth k f l) d = if Nat.eqb n k then f (nth n l d) else nth n l d.
Proof.
  intros Hd. induction n as [|n IH]; intros k l; destruct l as [|x l]; destruct k as [|k]; cbn [upd_nth nth Nat.eqb]; try reflexivity.
  - rewrite Hd. reflexivity.
  - destruct (Nat.eqb n k); [rewrite Hd|]; reflexivity.
  - apply IH.
Qed.

Lemma quiet_cfg0 : quiet_cfg cfg0 = cfg0.
Proof. reflexivity. Qed.

Lemma cfg_quieten m sc i : cfg (quieten m sc) i = if i =? m then quiet_cfg (cfg sc i) else cfg sc i.
Proof.
  unfold cfg, quieten. cbn [s_mods]. rewrite (nth_upd_nth quiet_cfg cfg0 quiet_cfg0).
  destruct (N.eqb_spec i m) as [->|Hn]; [rewrite Nat.eqb_refl; reflexivity|].
  destruct (Nat.eqb_spec (N.to_nat i) (N.to_nat m)) as [E|_]; [|reflexivity]. apply Nnat.N2Nat.inj in E. contradiction.
Qed.

Lemma nmods_quieten m sc : nmods (quieten m sc) = nmods sc.
Proof. unfold nmods, quieten. cbn [s_mods]. rewrite upd_nth_length. reflexivity. Qed.

Lemma mods_quieten m sc : mods (quieten m sc) = mods sc.
Proof. unfold mods, quieten. cbn [s_mods]. rewrite upd_nth_length. reflexivity. Qed.

Lemma max_stage_quieten m sc : max_stage (quieten m sc) = max_stage sc.
Proof.
  unfold max_stage, quieten. cbn [s_mods]. generalize (N.to_nat m). intros n. revert n.
  induction (s_mods sc) as [|c l IH]; intros [|n]; cbn [upd_nth fold_right]; try reflexivity. rewrite IH. reflexivity.
Qed.

(* what the comparison of the two runs uses of [quieten m sc] *)
Record Quietened (m : N) (sc sc' : script) : Prop := {
  q_nmods : nmods sc' = nmods sc;
  q_mods : mods sc' = mods sc;
  q_stage : max_stage sc' = max_stage sc;
  q_inj : s_inj sc' = s_inj sc;
  q_cfg : forall i, cfg sc' i = if i =? m then quiet_cfg (cfg sc i) else cfg sc i }.

Lemma quieten_spec m sc : Quietened m sc (quieten m sc).
Proof.
  constructor; [apply nmods_quieten|apply mods_quieten|apply max_stage_quieten|reflexivity|apply cfg_quieten].
Qed.

Lemma pick_msg_quiet c x : pick_msg (quiet_cfg c) x = map quiet_act (pick_msg c x).
Proof.
  unfold pick_msg, quiet_cfg. cbn [c_msg]. destruct (c_msg c) as [|p l] eqn:E; [reflexivity|].
  cbn [map]. rewrite <- (map_cons (map quiet_act) p l), map_length. apply (map_nth (map quiet_act) (p :: l) []).
Qed.

Lemma pick_start_quiet c i : pick_start (quiet_cfg c) i = map quiet_act (pick_start c i).
Proof. unfold pick_start, quiet_cfg. cbn [c_start]. rewrite map_length. apply (map_nth (map quiet_act) (c_start c) []). Qed.

(* ---- one callback of m in the two scripts ---- *)
(* either both programs end alike, or they diverge: [s2] has just written its panic record, [s2'] has run quiet *)
Lemma run_prog_quiet k now i : forall p s s', AgreeX i s s' ->
  (snd (run_prog false k now i 0 p s) = snd (run_prog false k now i 0 (map quiet_act p) s') /\
   snd (run_prog false k now i 0 p s) <> RPanic /\
   AgreeX i (fst (run_prog false k now i 0 p s)) (fst (run_prog false k now i 0 (map quiet_act p) s'))) \/
  (snd (run_prog false k now i 0 p s) = RPanic /\ snd (run_prog false k now i 0 (map quiet_act p) s') = RQuiet /\
   exists s2 s2', AgreeX i s2 s2' /\ fst (run_prog false k now i 0 p s) = say (IPanic i 0 (catchf (w_mod (x_w s2) i))) s2 /\
                  fst (run_prog false k now i 0 (map quiet_act p) s') = quiet i s2').
Proof.
  induction p as [|a p IH]; intros s s' H; cbn [map run_prog fst snd].
  - left. split; [reflexivity|split; [discriminate|exact H]].
  - destruct a; cbn [quiet_act run_prog andb]; try (apply IH, (do_act_walk (Agree_walk k now i)), H).
    + apply IH, H.
    + right. cbn [fst snd]. split; [reflexivity|split; [reflexivity|]]. exists s, s'. auto.
    + left. cbn [fst snd]. split; [reflexivity|split; [discriminate|apply (quiet_walk (Agree_walk k now i)), H]].
Qed.

(* what is left of module i in the quiet run, compared with the panicking run, right after the
   callback (before Harness::catch) *)
Record Div (i : N) (w w' : world) : Prop := {
  dv_buf : w_buf w = w_buf w';
  dv_act : forall j, j <> i -> active (w_mod w j) = active (w_mod w' j);
  dv_timers : timers (w_mod w i) = timers (w_mod w' i);
  dv_nw : nw (w_mod w i) = nw (w_mod w' i);
  dv_inc : inc (w_mod w i) = inc (w_mod w' i);
  dv_bud : bud (w_mod w i) = bud (w_mod w' i);
  dv_tp : hnd (w_mod w i) = hnd (w_mod w' i);
  dv_catch : catchf (w_mod w i) = catchf (w_mod w' i);
  dv_ready : ready (w_mod w' i) = [];
  dv_shut : shut (w_mod w' i) = Some (match shut (w_mod w i) with Some r => r | None => None end) }.

Lemma fold_end_task_w m : forall l s, w_mod (x_w (fold_left (end_task m 0) l s)) = w_mod (x_w s) /\
  w_buf (x_w (fold_left (end_task m 0) l s)) = w_buf (x_w s).
Proof. induction l as [|tk l IH]; intros s; cbn [fold_left]; [auto|]. destruct (IH (end_task m 0 s tk)) as [a b]. rewrite a, b. auto. Qed.

Lemma exec_quiet k now i c sp p s s' : AgreeX i s s' ->
  (snd (exec k now i c sp p s) = false /\ snd (exec k now i c sp (map quiet_act p) s') = false /\
   AgreeX i (fst (exec k now i c sp p s)) (fst (exec k now i c sp (map quiet_act p) s'))) \/
  (snd (exec k now i c sp p s) = true /\ snd (exec k now i c sp (map quiet_act p) s') = false /\
   Div i (x_w (fst (exec k now i c sp p s))) (x_w (fst (exec k now i c sp (map quiet_act p) s')))).
Proof.
  intros H. pose proof H as [Ha Hl]. unfold exec. rewrite (ag_act _ _ _ Ha i), (ag_mod _ _ _ Ha).
  match goal with |- context [run_prog false k now i 0 p (say_all ?l (on_w ?f (say ?it s)))] =>
    assert (H0 : AgreeX i (say_all l (on_w f (say it s))) (say_all l (on_w f (say it s'))))
      by (apply AgreeX_say_all, AgreeX_on_w; [apply AgreeX_say, H|apply spawn_all_agree, Ha]);
    destruct (run_prog_quiet k now i p _ _ H0) as [(E1 & E2 & E3)|(E1 & E2 & s2 & s2' & E3 & E4 & E5)];
    destruct (run_prog false k now i 0 p (say_all l (on_w f (say it s)))) as [r1 res1];
    destruct (run_prog false k now i 0 (map quiet_act p) (say_all l (on_w f (say it s')))) as [r1' res1'] end; cbn [fst snd] in *.
  - left. subst res1'. destruct res1; cbn [fst snd].
    + split; [reflexivity|split; [reflexivity|apply (poll_ready_walk (Agree_walk k now i)), E3]].
    + exfalso. apply E2. reflexivity.
    + split; [reflexivity|split; [reflexivity|]]. rewrite (ag_mod _ _ _ (proj1 E3)). apply (fold_end_task_walk (Agree_walk k now i)).
      apply (wk_ready0 (Agree_walk k now i)), E3.
    + split; [reflexivity|split; [reflexivity|apply (poll_ready_walk (Agree_walk k now i)), E3]].
  - right. subst res1 res1' r1 r1'. cbn [fst snd]. split; [reflexivity|split; [reflexivity|]].
    destruct E3 as [[a b c0] _].
    match goal with |- Div i _ (x_w (fold_left ?f0 ?l0 ?s0)) => destruct (fold_end_task_w i l0 s0) as [Fm Fb]; generalize Fm Fb; generalize (x_w (fold_left f0 l0 s0)) end.
    intros wq Fm' Fb'. clear Fm Fb. unfold quiet in *.
    destruct (shut (w_mod (x_w s2') i)) as [r|] eqn:Es; unfold request in *; cbn [say on_w x_w] in *;
      constructor; rewrite ?Fm', ?Fb'; cbn [w_buf w_mod set_mod]; rewrite ?N.eqb_refl; cbn [w_mod set_mod]; rewrite ?N.eqb_refl;
      cbn [timers nw inc bud hnd catchf ready shut set_ready set_shut]; rewrite ?a, ?Es; try reflexivity; try exact c0;
      intros j Hj; apply N.eqb_neq in Hj; rewrite ?Hj; apply b.
Qed.
