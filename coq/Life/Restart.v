(* C09 restart_stages_once_at_time: the event set holds a restart event of module m exactly
   while a restart of m is pending, stamped with the requested time; so every restart event
   happens at exactly the time requested by the shutdown that precedes it, once; and when the
   run completes no restart is left pending.  The start-up stages of a restart run once each,
   in order, at the time of the restart event. *)
From Coq Require Import List NArith Bool Lia PeanoNat.
From DesVerif Require Import Life.Model Life.Base Life.Step Life.Trace Life.Walk Life.Frame Life.Inert Life.Inv Life.Events.
Import ListNotations.
Open Scope N_scope.

(* ---- restart events in the event set ---- *)
Definition is_restart (m : N) (p : N * fev) : bool := match snd p with EvRestart m' => m' =? m | _ => false end.
Definition rtimes (m : N) (l : list (N * fev)) : list N := map fst (filter (is_restart m) l).
Definition restart_times (m : N) (f : fes) : list N := rtimes m (fes_order f).

Lemma rtimes_app m a b : rtimes m (a ++ b) = rtimes m a ++ rtimes m b.
Proof. unfold rtimes. rewrite filter_app, map_app. reflexivity. Qed.

Lemma fes_add_rt_other m t ev f : is_restart m (t, ev) = false -> restart_times m (fes_add t ev f) = restart_times m f.
Proof.
  intros H. unfold restart_times. destruct (fes_add_order t ev f) as (l1 & l2 & -> & ->).
  rewrite !rtimes_app. unfold rtimes at 2. cbn [filter]. rewrite H. reflexivity.
Qed.

Lemma fes_add_rt_self m t f : restart_times m f = [] -> restart_times m (fes_add t (EvRestart m) f) = [t].
Proof.
  unfold restart_times. destruct (fes_add_order t (EvRestart m) f) as (l1 & l2 & -> & ->).
  rewrite !rtimes_app. intros H. apply app_eq_nil in H. destruct H as [H1 H2]. rewrite H1.
  unfold rtimes in *. cbn [filter is_restart snd]. rewrite N.eqb_refl. cbn [map fst app]. rewrite H2. reflexivity.
Qed.

Lemma msg_not_restart m p : msg_ev p -> is_restart m p = false.
Proof. destruct p as [t ev]. unfold msg_ev, is_restart. cbn [snd]. destruct ev; try reflexivity; intros []. Qed.

Lemma flush_rt m : forall ps f, Forall (fun p => is_restart m p = false) ps ->
  restart_times m (fes_flush ps f) = restart_times m f.
Proof.
  induction ps as [|[t e] ps IH]; intros f H; [reflexivity|]. inversion H; subst. cbn [fes_flush fold_left fst snd].
  fold (fes_flush ps (fes_add t e f)). rewrite IH by assumption. apply fes_add_rt_other. assumption.
Qed.

Lemma fes_flush_rt m ps f : Forall msg_ev ps -> restart_times m (fes_flush ps f) = restart_times m f.
Proof. intros H. apply flush_rt. eapply Forall_impl; [|exact H]. intros p. apply msg_not_restart. Qed.

Lemma fes_fetch_order f t ev f' : fes_fetch f = Some (t, ev, f') -> fes_order f = (t, ev) :: fes_order f'.
Proof.
  unfold fes_fetch, fes_order. destruct (f_zero f) as [|x z] eqn:Ez.
  - destruct (f_rest f) as [|x r] eqn:Er; [discriminate|]. intros H. injection H as <- <-. destruct x. reflexivity.
  - intros H. injection H as <- <-. destruct x. cbn [f_zero f_rest]. reflexivity.
Qed.

Lemma deactivate_rt m i w : restart_times i (w_fes (deactivate m w)) = restart_times i (w_fes w).
Proof.
  unfold deactivate. destruct (timers (w_mod w m)) as [|[t tk] r]; [reflexivity|].
  destruct (lt_nw t (nw (w_mod w m))); [|reflexivity]. cbn [w_fes set_cur set_fes]. apply fes_add_rt_other. reflexivity.
Qed.

(* ---- the request a record consumed, read from its own log ---- *)
Lemma shut_step_sys now acc i : is_sys i = true -> shut_step now acc i = acc.
Proof. destruct i; try discriminate; reflexivity. Qed.

Lemma shut_of_sys_tail now l l' : Forall (fun i => is_sys i = true) l' -> shut_of now (l ++ l') = shut_of now l.
Proof.
  intros H. induction l' as [|i l' IH] using rev_ind; [rewrite app_nil_r; reflexivity|].
  apply Forall_app in H. destruct H as [H1 H2]. inversion H2; subst.
  rewrite app_assoc, shut_of_snoc, IH, shut_step_sys by assumption. reflexivity.
Qed.

Definition req_time (now : N) (l : list item) : option N :=
  match shut_of now l with Some (Some T) => Some T | _ => None end.

(* what one module event does to the restart events of the event set *)
Lemma around_fes sc now m f w : TI m w -> w_buf w = [] -> CbOK m f ->
  (forall s, CInv false now m (inc (w_mod w m)) s -> x_log s = [] -> CInv false now m (inc (w_mod w m)) (f s)) ->
  let w' := fst (around sc now m f w) in let l := snd (around sc now m f w) in
  (forall i, i <> m -> restart_times i (w_fes w') = restart_times i (w_fes w)) /\
  (existsb (is_reset m) l = false -> restart_times m (w_fes w') = restart_times m (w_fes w)) /\
  (existsb (is_reset m) l = true -> restart_times m (w_fes w) = [] ->
     restart_times m (w_fes w') = match req_time now l with Some T => [T] | None => [] end).
Proof.
  intros HT Hb Hok Hf. cbn zeta.
  pose proof (ci_shut _ _ _ _ _ (Hf _ (activate_CInv now m w HT) eq_refl)) as Hsh.
  destruct (Hok {| x_w := activate now m w; x_log := [] |}) as [[_ Ffes _ _ _ (lb & Hlb & Mlb)] _].
  cbn [x_w] in Ffes, Hlb. rewrite activate_buf, Hb in Hlb. rewrite activate_fes in Ffes.
  assert (Hnr : existsb (is_reset m) (x_log (f {| x_w := activate now m w; x_log := [] |})) = false)
    by (apply (usr_no_reset m m), cb_log, Hok).
  rewrite around_world, around_log, buf_process_items, buf_process_events.
  set (s := f {| x_w := activate now m w; x_log := [] |}) in *.
  assert (Hfl : forall i, restart_times i (fes_flush (w_buf (deactivate m (x_w s))) (w_fes (deactivate m (x_w s)))) = restart_times i (w_fes w)).
  { intros i. rewrite deactivate_buf, Hlb, fes_flush_rt, deactivate_rt, Ffes by exact Mlb. reflexivity. }
  destruct (deactivate_mod m (x_w s)) as (n & ->). cbn [shut inc set_nw].
  destruct (shut (w_mod (x_w s) m)) as [r|].
  - split; [|split].
    + intros i Hi. destruct r as [T|]; [rewrite fes_add_rt_other|]; try apply Hfl.
      unfold is_restart. cbn [snd]. apply N.eqb_neq. auto.
    + intros Hx. rewrite !existsb_app in Hx. cbn [existsb is_reset] in Hx. rewrite N.eqb_refl, !orb_true_r in Hx. discriminate.
    + intros _ Hnil. unfold req_time. rewrite shut_of_sys_tail, <- Hsh.
      2:{ apply Forall_app. split; [apply cancelled_sys|constructor; [reflexivity|apply rpanic_sys]]. }
      destruct r as [T|]; [apply fes_add_rt_self|]; rewrite Hfl; exact Hnil.
  - rewrite app_nil_r. split; [intros i _; apply Hfl|]. split; [intros _; apply Hfl|].
    intros Hx. rewrite Hnr in Hx. discriminate.
Qed.

(* ---- the pending restart, read from the trace ---- *)
Definition pend_step (m : N) (p : option N) (e : erec) : option N :=
  if resets m e then req_time (e_time e) (e_items e) else if starts m e then None else p.
Definition pending (m : N) (tr : list erec) : option N := fold_left (pend_step m) tr None.

Lemma pending_snoc m tr e : pending m (tr ++ [e]) = pend_step m (pending m tr) e.
Proof. unfold pending. rewrite fold_left_app. reflexivity. Qed.

Lemma pending_down m : forall tr, pending m tr <> None -> down_after m tr = true.
Proof.
  induction tr as [|e tr IH] using rev_ind; [intros H; exfalso; apply H; reflexivity|].
  rewrite pending_snoc, down_after_snoc. unfold pend_step, down_step.
  destruct (resets m e); [reflexivity|]. destruct (starts m e); [intros H; exfalso; apply H; reflexivity|exact IH].
Qed.

Lemma pending_resets m : forall tr, pending m tr <> None -> (0 < count_resets m (items tr))%nat.
Proof.
  induction tr as [|e tr IH] using rev_ind; [intros H; exfalso; apply H; reflexivity|].
  rewrite pending_snoc, items_snoc, count_resets_app. unfold pend_step.
  destruct (resets m e) eqn:Er.
  - intros _. unfold resets in Er. apply existsb_exists in Er. destruct Er as (i & Hi & Hr).
    assert (0 < count_resets m (e_items e))%nat; [|lia].
    unfold count_resets. apply in_split in Hi. destruct Hi as (l1 & l2 & ->). rewrite filter_app, app_length. cbn [filter]. rewrite Hr. cbn [length]. lia.
  - destruct (starts m e); [intros H; exfalso; apply H; reflexivity|]. intros H. specialize (IH H). lia.
Qed.

Definition RI (w : world) (tr : list erec) : Prop :=
  forall m, restart_times m (w_fes w) = match pending m tr with Some T => [T] | None => [] end.

Lemma req_time_sample now l t k : req_time now (l ++ [ISample t k]) = req_time now l.
Proof. unfold req_time. rewrite shut_of_sys_tail; [reflexivity|constructor; [reflexivity|constructor]]. Qed.

Lemma resets_sample m knd tm l t k :
  resets m {| e_kind := knd; e_time := tm; e_items := l ++ [ISample t k] |} = existsb (is_reset m) l.
Proof. unfold resets. cbn [e_items]. rewrite existsb_app. cbn [existsb is_reset]. rewrite !orb_false_r. reflexivity. Qed.

(* a start-up stage other than 0 on a module that is down writes a single call record *)
Lemma start_down_items sc stage m w : stage <> 0 -> Down m w ->
  snd (around sc 0 m (start_cb sc stage m) w) = [ICall m (CbStart stage) 0 false].
Proof.
  intros Hs0 Hd. destruct (around_down sc 0 m (start_cb sc stage m) w Hd) as [_ ->].
  { intros s Hs. apply (start_cb_down sc stage m s Hs0 Hs). }
  destruct (start_cb_down sc stage m {| x_w := activate 0 m w; x_log := [] |} Hs0) as [_ ->];
    [cbn [x_w]; apply activate_down, Hd|]. reflexivity.
Qed.

(* the event set the callback starts from holds the pending restarts, except that of m1 if this very record
   starts m1 *)
Lemma mod_event_RI sc w_in tr now m1 f knd :
  let l := snd (around sc now m1 f w_in) in
  let e := {| e_kind := knd; e_time := now; e_items := l |} in
  TI m1 w_in -> w_buf w_in = [] -> CbOK m1 f ->
  (forall s, CInv false now m1 (inc (w_mod w_in m1)) s -> x_log s = [] -> CInv false now m1 (inc (w_mod w_in m1)) (f s)) ->
  (forall m, m <> m1 -> starts m e = false /\
     restart_times m (w_fes w_in) = match pending m tr with Some T => [T] | None => [] end) ->
  restart_times m1 (w_fes w_in) = (if starts m1 e then [] else match pending m1 tr with Some T => [T] | None => [] end) ->
  (starts m1 e = false -> pending m1 tr <> None -> existsb (is_reset m1) l = false) ->
  RI (fst (around sc now m1 f w_in)) (tr ++ [e]).
Proof.
  intros l e HT Hb Hok Hf Hoth H1 Hnr m.
  destruct (around_fes sc now m1 f w_in HT Hb Hok Hf) as (A1 & A2 & A3). fold l in A2, A3.
  pose proof (around_own sc now m1 f w_in Hok) as Ho. fold l in Ho.
  rewrite pending_snoc. unfold pend_step, resets. change (e_items e) with l. change (e_time e) with now.
  destruct (N.eq_dec m m1) as [->|Hn].
  - destruct (existsb (is_reset m1) l) eqn:Er.
    + apply A3; [reflexivity|]. rewrite H1. destruct (starts m1 e) eqn:Est; [reflexivity|].
      destruct (pending m1 tr) eqn:Ep; [|reflexivity]. discriminate Hnr; [reflexivity|discriminate].
    + rewrite (A2 eq_refl), H1. destruct (starts m1 e); reflexivity.
  - destruct (Hoth m Hn) as [Hst Hrt]. rewrite (own_no_reset m1 m l Ho), Hst, (A1 m Hn) by auto. exact Hrt.
Qed.

Lemma sample_RI w' tr knd tm l t k :
  RI w' (tr ++ [{| e_kind := knd; e_time := tm; e_items := l |}]) ->
  RI w' (tr ++ [{| e_kind := knd; e_time := tm; e_items := l ++ [ISample t k] |}]).
Proof.
  intros H m. rewrite (H m), !pending_snoc. unfold pend_step. rewrite resets_sample. cbn [e_items e_time]. rewrite req_time_sample.
  reflexivity.
Qed.

Lemma fetch_rt m f t ev f1 : fes_fetch f = Some (t, ev, f1) ->
  restart_times m f = (if is_restart m (t, ev) then [t] else []) ++ restart_times m f1.
Proof.
  intros Hf. unfold restart_times. rewrite (fes_fetch_order _ _ _ _ Hf). unfold rtimes. cbn [filter]. destruct (is_restart m (t, ev)); reflexivity.
Qed.

Lemma is_restart_other m m1 t ev : ev_mod ev = Some m1 -> m <> m1 -> is_restart m (t, ev) = false.
Proof. intros Em Hn. destruct ev; inversion Em; subst; try reflexivity. apply N.eqb_neq. auto. Qed.

Lemma event_RI sc w tr t ev f m1 cb : Gen sc w tr -> RI w tr -> fes_fetch (w_fes w) = Some (t, ev, f) -> callback sc m1 t (KLoop ev) cb ->
  RI (fst (around sc t m1 cb (set_fes w f)))
     (tr ++ [{| e_kind := KLoop ev; e_time := t; e_items := snd (around sc t m1 cb (set_fes w f)) |}]).
Proof.
  intros HG HR Hf E. pose proof (callback_mod _ _ _ _ _ E) as Em. pose proof (callback_ok _ _ _ _ _ E) as Hok.
  assert (HWin : WI (set_fes w f) tr) by exact (gen_WI sc w tr HG).
  assert (Hst : forall m l, starts m {| e_kind := KLoop ev; e_time := t; e_items := l |} = is_restart m (t, ev)) by reflexivity.
  apply (mod_event_RI sc (set_fes w f)); [apply HWin|apply (globals_released_gen sc w tr HG)|exact Hok|
    intros s Hc Hl; apply (loop_cb_CInv sc t ev m1 cb _ s E Hc Hl)|..]; rewrite ?Hst; cbn [w_fes set_fes].
  - intros m Hn. rewrite Hst, <- HR, (fetch_rt m _ _ _ _ Hf), (is_restart_other m m1 t ev Em Hn). auto.
  - pose proof (HR m1) as H. rewrite (fetch_rt m1 _ _ _ _ Hf) in H. destruct (is_restart m1 (t, ev)); [|exact H].
    destruct (pending m1 tr); [injection H as _ H; exact H|discriminate].
  - intros Hnr Hp.
    assert (Hd : Down m1 (set_fes w f)) by (eapply Down_ext; [|apply (gen_down sc m1 w tr HG), pending_down, Hp]; reflexivity).
    destruct (around_inert sc t m1 cb (set_fes w f) Hd) as [_ ->]; [|reflexivity].
    intros s. apply (callback_inactive sc m1 t ev cb s E). intros ->. cbn [is_restart snd] in Hnr. rewrite N.eqb_refl in Hnr. discriminate.
Qed.

Lemma start_RI sc w tr stage m1 : Gen sc w tr -> RI w tr -> (stage = 0 -> w_mod w m1 = mst0 (cfg sc m1)) ->
  RI (fst (around sc 0 m1 (start_cb sc stage m1) w))
     (tr ++ [{| e_kind := KStart stage m1; e_time := 0; e_items := snd (around sc 0 m1 (start_cb sc stage m1) w) |}]).
Proof.
  intros HG HR Hfresh. pose proof (gen_WI sc w tr HG) as HW.
  apply mod_event_RI; [apply HW|apply (globals_released_gen sc w tr HG)|apply start_cb_ok|intros s Hc Hl; apply start_cb_CInv; assumption|..];
    cbn [starts e_kind]; rewrite ?N.eqb_refl, ?andb_true_r.
  - intros m Hn. split; [|apply HR]. apply N.eqb_neq in Hn. rewrite (N.eqb_sym m1 m), Hn. apply andb_false_r.
  - rewrite HR. destruct (stage =? 0) eqn:E0; [|reflexivity].
    apply N.eqb_eq in E0. destruct (pending m1 tr) eqn:Ep; [|reflexivity].
    exfalso. pose proof (pending_resets m1 tr) as Hc. rewrite Ep in Hc. specialize (Hc ltac:(discriminate)).
    destruct (HW m1) as [_ Hi]. rewrite (Hfresh E0) in Hi. cbn [inc mst0] in Hi. lia.
  - intros E0 Hp. apply N.eqb_neq in E0.
    rewrite (start_down_items sc stage m1 w E0 (gen_down sc m1 w tr HG (pending_down m1 tr Hp))). reflexivity.
Qed.

Lemma step_RI sc w tr e w' : Gen sc w tr -> RI w tr -> step sc w e w' ->
  RI w' (tr ++ [e]) /\ (forall m, e_kind e = KLoop (EvRestart m) -> pending m tr = Some (e_time e)).
Proof.
  intros HG HR Hs. revert HG HR. pattern w, e, w'. revert w e w' Hs. apply step_cases.
  - intros stage m1 w Hfresh _ HG HR. split; [apply start_RI; assumption|discriminate].
  - intros w _ HR. split; [|discriminate]. intros m. rewrite pending_snoc. apply HR.
  - intros w t ev f m1 cb Hf E HG HR. split; [apply sample_RI, event_RI; assumption|].
    intros m Ek. cbn [e_kind e_time] in *. injection Ek as ->. pose proof (HR m) as H. rewrite (fetch_rt m _ _ _ _ Hf) in H.
    cbn [is_restart snd] in H. rewrite N.eqb_refl in H. destruct (pending m tr); [injection H as -> _; reflexivity|discriminate].
  - intros w t m1 far x f w1 Hf Hw _ HR. split; [|discriminate]. intros m. rewrite pending_snoc. unfold pend_step, resets, starts.
    cbn [e_items e_kind existsb is_reset orb]. rewrite <- HR, (fetch_rt m _ _ _ _ Hf).
    destruct Hw as [->|(dst & ->)]; cbn [w_fes set_fes]; [|apply fes_add_rt_other]; reflexivity.
Qed.

Lemma gen_RI sc : forall w tr, Gen sc w tr -> RI w tr.
Proof.
  apply (gen_inv sc (fun w tr => RI w tr)).
  - intros m. unfold restart_times, init_world. cbn [w_fes pending fold_left].
    assert (G : forall l f, restart_times m f = [] -> restart_times m (fes_flush (map (fun p => (fst p, inj_ev (snd p))) l) f) = []).
    { induction l as [|p l IHl]; intros f H; cbn [map fes_flush fold_left]; [exact H|]. apply IHl.
      rewrite fes_add_rt_other; [exact H|]. unfold is_restart. cbn [fst snd]. destruct (snd p); reflexivity. }
    apply G. reflexivity.
  - intros w tr e w' HG IH Hs. apply (step_RI sc w tr e w' HG IH Hs).
Qed.

(* ---- C09 restart_stages_once_at_time, part 1: when ---- *)
(* [pending m pre]: the restart time named by the last shutdown request of m that was consumed
   (the request is read from the log of the record that reset m), None once m was (re)started. *)
Theorem restart_at_requested_time sc pre e post m :
  trace sc = pre ++ e :: post -> e_kind e = KLoop (EvRestart m) -> pending m pre = Some (e_time e).
Proof.
  intros E Hk. destruct (trace_cases sc pre e post E) as [(w1 & w2 & HG & Hs)|(w & tr & now & ms1 & m1 & ms2 & _ & _ & _ & _ & ->)].
  - apply (proj2 (step_RI sc w1 pre e w2 HG (gen_RI sc w1 pre HG) Hs) m Hk).
  - discriminate.
Qed.

Lemma end_seq_pending sc now m : forall ms w p, fold_left (pend_step m) (snd (end_seq sc now ms w)) p = p.
Proof.
  intros ms w p. apply fold_left_fixed, end_seq_forall. intros m1 w1 p1. unfold pend_step.
  rewrite end_rec_resets, end_rec_starts. reflexivity.
Qed.

(* every requested restart is executed: when the run completes, none is left pending *)
Theorem no_restart_left_pending sc m : r_ok (run_script sc) = true -> pending m (trace sc) = None.
Proof.
  intros Hok. destruct (run_decomp sc) as (w & tr & HG & [(_ & Hf & now & Et & _)|(Hno & _)]); [|congruence].
  rewrite Et. unfold pending. rewrite fold_left_app, end_seq_pending. fold (pending m tr).
  pose proof (gen_RI sc w tr HG m) as H. unfold restart_times, fes_order in H.
  unfold fes_fetch in Hf. destruct (f_zero (w_fes w)); [|discriminate]. destruct (f_rest (w_fes w)); [|discriminate].
  cbn in H. destruct (pending m tr); [discriminate|reflexivity].
Qed.

(* ---- part 2: the start-up stages of a restart ---- *)
Definition is_start_call (i : item) : bool := match i with ICall _ (CbStart _) _ _ => true | _ => false end.
Definition start_calls (l : list item) : list item := filter is_start_call l.

Lemma start_calls_app a b : start_calls (a ++ b) = start_calls a ++ start_calls b.
Proof. apply filter_app. Qed.

Lemma start_calls_tsk m l : Forall (Tsk m) l -> start_calls l = [].
Proof.
  induction 1 as [|i l [_ Hi] _ IH]; [reflexivity|]. unfold start_calls in *. cbn [filter].
  destruct i as [m' c t a| | | | | | | | | | | | |]; try exact IH. destruct c; try exact IH. destruct Hi.
Qed.

Lemma at_sim_start_calls k c now m stage s :
  exists a, start_calls (x_log (fst (at_sim_start k c now m stage s))) = start_calls (x_log s) ++ [ICall m (CbStart stage) now a].
Proof.
  rewrite at_sim_start_eq. destruct (start_prog c stage (inc (w_mod (x_w s) m))) as [sp p]. cbn [fst snd x_log].
  destruct (exec_log_head k now m (CbStart stage) sp p s) as (l & -> & Tl). eexists.
  rewrite start_calls_app. unfold start_calls at 2. cbn [filter is_start_call]. fold (start_calls l).
  rewrite (start_calls_tsk m l Tl). reflexivity.
Qed.

Definition call_key (i : item) : N * N * N :=
  match i with ICall m' (CbStart st) t _ => (m', st, t) | _ => (0, 0, 0) end.

(* a stage ends the loop -- it returns an error or leaves the module inactive -- only by a panic of its callback *)
Lemma restart_stage_stop k c now m stage s : active (w_mod (x_w s) m) = true ->
  snd (restart_stage k c now m stage s) = true ->
  exists cc, In (IPanic m 0 cc) (x_log (fst (restart_stage k c now m stage s))).
Proof.
  intros Hact. unfold restart_stage. rewrite at_sim_start_eq. destruct (start_prog c stage (inc (w_mod (x_w s) m))) as [sp p].
  cbn [fst snd x_w x_log].
  assert (He2 : active (w_mod (x_w (fst (exec k now m (CbStart stage) sp p s))) m) = true)
    by (rewrite (fr_active _ _ _ (exec_Fr k now m (CbStart stage) sp p s)); exact Hact).
  assert (He1 : snd (exec k now m (CbStart stage) sp p s) = true ->
                exists cc, In (IPanic m 0 cc) (x_log (fst (exec k now m (CbStart stage) sp p s)))).
  { (* the trivial relation: only the shape of the log that [exec_split] gives is wanted *)
    destruct (exec_split k now m (fun _ => True) (fun _ _ => True)) with (c := CbStart stage) (sp := sp) (p := p) (s := s) as (s0 & _ & E);
      [constructor; auto|auto|]. intros Hp. rewrite E, Hp. eexists. apply in_or_app. right. left. reflexivity. }
  destruct (exec k now m (CbStart stage) sp p s) as [s1 pn]. cbn [fst snd] in *. unfold catch. destruct pn.
  - intros _. apply He1. reflexivity.
  - cbn [fst snd orb]. rewrite He2. discriminate.
Qed.

Lemma restart_stage_go k c now m stage s :
  snd (restart_stage k c now m stage s) = false -> active (w_mod (x_w (fst (restart_stage k c now m stage s))) m) = true.
Proof. unfold restart_stage. cbn [fst snd]. intros H. apply orb_false_elim in H. apply negb_false_iff, H. Qed.

Lemma restart_fold_stopped k c now m : forall l s,
  fst (fold_left (fun (acc : xs * bool) stage => if snd acc then acc else restart_stage k c now m stage (fst acc)) l (s, true)) = s.
Proof. induction l as [|st l IH]; intros s; cbn [fold_left fst snd]; [reflexivity|apply IH]. Qed.

(* the stages that ran: a prefix of 0 .. n-1, each once, in order, at the time of the event; the rest is skipped
   only after a panic of a stage's callback *)
Lemma restart_fold_calls k c now m : forall l s, active (w_mod (x_w s) m) = true ->
  let r := fst (fold_left (fun (acc : xs * bool) stage => if snd acc then acc else restart_stage k c now m stage (fst acc)) l (s, false)) in
  exists n, map call_key (start_calls (x_log r)) = map call_key (start_calls (x_log s)) ++ map (fun st => (m, st, now)) (firstn n l) /\
            (l <> [] -> (0 < n)%nat) /\ ((n < length l)%nat -> exists cc, In (IPanic m 0 cc) (x_log r)).
Proof.
  induction l as [|st l IH]; intros s Hact; cbn [fold_left fst snd].
  - exists 0%nat. cbn. rewrite app_nil_r. repeat split; [intros H; contradiction|intros H; inversion H].
  - destruct (at_sim_start_calls k c now m st s : exists a, start_calls (x_log (fst (restart_stage k c now m st s))) = _) as (a & Ha).
    pose proof (restart_stage_stop k c now m st s Hact) as Hstop. pose proof (restart_stage_go k c now m st s) as Hgo.
    destruct (restart_stage k c now m st s) as [s1 b1]. cbn [fst snd] in *. destruct b1.
    + exists 1%nat. rewrite restart_fold_stopped, Ha, map_app. cbn [map firstn call_key].
      repeat split; [intros _; lia|intros _; apply Hstop; reflexivity].
    + destruct (IH s1 (Hgo eq_refl)) as (n & Hn & _ & Hp). exists (S n). rewrite Hn, Ha, map_app. cbn [map firstn call_key length].
      rewrite <- app_assoc. repeat split; [intros _; lia|]. intros Hlt. apply Hp. lia.
Qed.

Lemma start_calls_sys l : Forall (fun i => is_sys i = true) l -> start_calls l = [].
Proof.
  induction 1 as [|i l Hi _ IH]; [reflexivity|]. unfold start_calls in *. cbn [filter].
  destruct i; try discriminate; exact IH.
Qed.

(* C09 restart_stages_once_at_time, part 2: in a restart event of module m the start-up
   stages run in order 0, 1, .. each exactly once, stamped with the time of the event: at least
   stage 0, and all c_stages of them unless a stage panicked *)
Theorem restart_runs_stages_once sc e m : In e (trace sc) -> e_kind e = KLoop (EvRestart m) ->
  (exists n, (stage_list (c_stages (cfg sc m)) <> [] -> (0 < n)%nat) /\
     map call_key (start_calls (e_items e)) = map (fun st => (m, st, e_time e)) (firstn n (stage_list (c_stages (cfg sc m))))) /\
  ((forall cc, ~ In (IPanic m 0 cc) (e_items e)) ->
     map call_key (start_calls (e_items e)) = map (fun st => (m, st, e_time e)) (stage_list (c_stages (cfg sc m)))).
Proof.
  intros Hin Hk. apply in_split in Hin. destruct Hin as (pre & post & E).
  destruct (trace_cases sc pre e post E) as [(w1 & w2 & HG & Hs)|(w & tr & now & ms1 & m1 & ms2 & _ & _ & _ & _ & ->)];
    [|rewrite end_rec_snd in Hk; discriminate].
  destruct (step_loop_inv sc w1 e w2 _ Hs Hk) as (f & _ & -> & _). set (t := e_time e).
  cbn [process]. rewrite around_log, !start_calls_app, (start_calls_sys _ (buf_process_sys _ _ _ _)), !app_nil_r.
  unfold module_restart.
  set (s0 := on_w (fun w0 => set_mod w0 m (set_active (w_mod w0 m) true)) {| x_w := activate t m (set_fes w1 f); x_log := [] |}).
  assert (Hact : active (w_mod (x_w s0) m) = true) by (unfold s0; cbn [on_w x_w]; rewrite mod_same; reflexivity).
  destruct (restart_fold_calls (nmods sc) (cfg sc m) t m (stage_list (c_stages (cfg sc m))) s0 Hact) as (n & Hn & Hpos & Hp).
  split; [exists n; split; [exact Hpos|exact Hn]|].
  intros Hnp. rewrite Hn. destruct (Nat.lt_ge_cases n (length (stage_list (c_stages (cfg sc m))))) as [Hlt|Hge].
  - exfalso. destruct (Hp Hlt) as (cc & C). apply (Hnp cc). apply in_or_app. left. apply in_or_app. left. exact C.
  - rewrite firstn_all2 by exact Hge. reflexivity.
Qed.

Lemma restart_step sc pre e post m : trace sc = pre ++ e :: post -> e_kind e = KLoop (EvRestart m) ->
  exists w1 f1, Gen sc w1 pre /\ Down m w1 /\ fes_fetch (w_fes w1) = Some (e_time e, EvRestart m, f1) /\
    e_items e = snd (process sc (set_fes w1 f1) (e_time e) (EvRestart m)) ++
                [ISample (e_time e) (mask sc (fst (process sc (set_fes w1 f1) (e_time e) (EvRestart m))))].
Proof.
  intros E Hk. pose proof (restart_at_requested_time sc pre e post m E Hk) as Hp.
  destruct (trace_cases sc pre e post E) as [(w & w2 & HG & Hs)|(w & tr & now & ms1 & m1 & ms2 & _ & _ & _ & _ & ->)];
    [|rewrite end_rec_snd in Hk; discriminate].
  destruct (step_loop_inv sc w e w2 _ Hs Hk) as (f & Hf & Hi & _).
  exists w, f. split; [exact HG|]. split; [|split; [exact Hf|exact Hi]].
  apply (gen_down sc m w pre HG), pending_down. rewrite Hp. discriminate.
Qed.

(* C09 fresh_after_restart, the state of m: when a restart event of module m is dispatched, m is down:
   inactive, without tasks, without pending timers, without pending request.  The incarnation
   that the replayed start-up stages build starts from the same task / timer state as the very
   first one; what persists is what des keeps by design (the user struct, here: budget and
   incarnation counter), the driver's next_wakeup and the try_join handles. *)
Theorem fresh_after_restart sc pre e post m :
  trace sc = pre ++ e :: post -> e_kind e = KLoop (EvRestart m) ->
  exists w1 f1, Gen sc w1 pre /\ Down m w1 /\ fes_fetch (w_fes w1) = Some (e_time e, EvRestart m, f1).
Proof. intros E Hk. destruct (restart_step sc pre e post m E Hk) as (w & f & HG & HD & Hf & _). eauto. Qed.
