(* Termination of the event loop of coq/Life/Sim.v: every dispatched event lowers the
   potential of Life/Pot.v, so the fuel of [run_script] is never exhausted. *)
From Coq Require Import List NArith PArith Bool Lia PeanoNat Compare_dec.
From DesVerif Require Import Common.Fuel Life.Model Life.Base Life.Step Life.Trace Life.Frame Life.Pot.
Import ListNotations.
Open Scope N_scope.

Section Term.
Variable sc : script.
Notation pm := (pm sc).
Notation part := (part sc).
Notation wsum := (wsum sc).
Notation wl := (wl sc).
Notation wt := (wt sc).
Notation RR := (RR sc).

(* ---- activate / deactivate / buf_process ---- *)
Lemma split_due_pm now : forall l n,
  rdw (fst (split_due now l)) + tmw (snd (split_due now l)) + nwf (nw_bump now n) + stale (snd (split_due now l)) (nw_bump now n) <=
  tmw l + nwf n + stale l n.
Proof.
  assert (Hb : forall n, nwf (nw_bump now n) <= nwf n) by (intros [u|]; cbn [nw_bump nwf]; [destruct (u <=? now); cbn [nwf]|]; lia).
  intros l n. destruct l as [|[t tk] r]; cbn [split_due fst snd]; [cbn [rdw tmw stale]; specialize (Hb n); lia|].
  destruct (t <=? now) eqn:E.
  - (* the head is due: it (and possibly more) moves to the ready queue, which pays for a stale queue *)
    assert (G : forall l0, rdw (fst (split_due now l0)) + tmw (snd (split_due now l0)) <= tmw l0).
    { induction l0 as [|[t0 tk0] r0 IH]; cbn [split_due fst snd rdw tmw]; [lia|].
      destruct (t0 <=? now); [|cbn [fst snd rdw tmw]; lia].
      destruct (split_due now r0) as [d q]. cbn [fst snd rdw] in *. lia. }
    specialize (G r). destruct (split_due now r) as [d q]. cbn [fst snd rdw tmw] in *.
    pose proof (stale_le q (nw_bump now n)). specialize (Hb n). lia.
  - (* nothing is due *)
    cbn [fst snd rdw tmw stale]. apply N.leb_gt in E. specialize (Hb n).
    destruct n as [u|]; cbn [nw_bump nwf] in *; [|lia].
    destruct (u <=? now) eqn:Eu; cbn [nwf]; [|lia].
    apply N.leb_le in Eu. destruct (u =? t) eqn:Eut; [apply N.eqb_eq in Eut; lia|lia].
Qed.

Lemma activate_pm now m w : pm m (activate now m w) <= pm m w.
Proof.
  unfold activate. pose proof (split_due_pm now (timers (w_mod w m)) (nw (w_mod w m))) as H.
  destruct (split_due now (timers (w_mod w m))) as [d q]. cbn [fst snd] in H.
  unfold Pot.pm at 1. cbn [w_mod w_buf w_fes set_cur set_mod]. rewrite N.eqb_refl. unfold Pot.pm, Pot.part.
  cbn [bud ready timers nw shut set_nw set_ready set_timers]. rewrite rdw_app. lia.
Qed.

Lemma deactivate_pm m w : pm m (deactivate m w) <= pm m w.
Proof.
  unfold deactivate. destruct (timers (w_mod w m)) as [|[t tk] r] eqn:Et; [apply N.le_refl|].
  destruct (lt_nw t (nw (w_mod w m))) eqn:El; [|apply N.le_refl].
  unfold Pot.pm at 1. cbn [w_mod w_buf w_fes set_cur set_fes set_mod]. rewrite N.eqb_refl, wsum_add.
  unfold Pot.pm, Pot.part. cbn [bud ready timers nw shut set_nw wt]. rewrite Et. cbn [stale nwf]. rewrite N.eqb_refl.
  destruct (nw (w_mod w m)) as [u|]; cbn [lt_nw nwf] in *; [|lia].
  apply N.ltb_lt in El. destruct (u =? t) eqn:E; [apply N.eqb_eq in E; lia|lia].
Qed.

(* Module::reset drops the tasks and the request; the restart event is what the request was worth *)
Lemma part_reset now x r : shut x = Some r ->
  part {| active := false; inc := inc x + 1; bud := bud x; shut := None; nw := nw_bump now (nw x);
          timers := []; ready := []; hnd := hnd x; catchf := catchf x |} + shw sc (Some r) <= part x.
Proof.
  intros Es. unfold Pot.part. cbn [bud ready timers nw shut rdw tmw stale]. rewrite Es.
  assert (Hb : nwf (nw_bump now (nw x)) <= nwf (nw x)) by (destruct (nw x) as [u|]; cbn [nw_bump nwf]; [destruct (u <=? now); cbn [nwf]|]; lia).
  cbn [shw]. lia.
Qed.

Lemma buf_process_pm c now m w : pm m (fst (buf_process c now m w)) <= pm m w.
Proof.
  unfold Pot.pm. rewrite buf_process_self, buf_process_events. destruct (buf_process_glob c now m w) as (_ & -> & _).
  destruct (shut (w_mod w m)) as [r|] eqn:Es.
  - pose proof (part_reset now (w_mod w m) r Es) as E. destruct r; rewrite ?wsum_add, wsum_flush; cbn [shw wt Pot.wl] in *; lia.
  - rewrite wsum_flush. cbn [Pot.wl]. lia.
Qed.

Lemma around_pm now m f w extra : (forall s, pm m (x_w (f s)) <= pm m (x_w s) + extra) ->
  pm m (fst (around sc now m f w)) <= pm m w + extra.
Proof.
  intros Hf. rewrite around_world. specialize (Hf {| x_w := activate now m w; x_log := [] |}). cbn [x_w] in Hf.
  revert Hf. generalize (f {| x_w := activate now m w; x_log := [] |}). intros s Hf.
  pose proof (buf_process_pm (cfg sc m) now m (deactivate m (x_w s))). pose proof (deactivate_pm m (x_w s)). pose proof (activate_pm now m w). lia.
Qed.

(* ---- the whole world ---- *)
Definition sumparts (l : list N) (w : world) : N := fold_right (fun i a => part (w_mod w i) + a) 0 l.
Definition mu (w : world) : N := sumparts (mods sc) w + wl (w_buf w) + wsum (w_fes w).

Lemma sumparts_same l w w' : (forall i, In i l -> w_mod w' i = w_mod w i) -> sumparts l w' = sumparts l w.
Proof.
  induction l as [|i l IH]; intros H; cbn [sumparts fold_right]; [reflexivity|].
  fold (sumparts l w') (sumparts l w). rewrite IH by (intros j Hj; apply H; right; exact Hj).
  rewrite H by (left; reflexivity). reflexivity.
Qed.

Lemma sumparts_one m : forall l w w', NoDup l -> In m l -> (forall i, i <> m -> w_mod w' i = w_mod w i) ->
  sumparts l w' + part (w_mod w m) = sumparts l w + part (w_mod w' m).
Proof.
  induction l as [|i l IH]; intros w w' Hnd Hin Ho; [destruct Hin|]. cbn [sumparts fold_right]. fold (sumparts l w') (sumparts l w).
  inversion Hnd as [|x l0 Hni Hnd']; subst. destruct Hin as [->|Hin].
  - rewrite (sumparts_same l w w') by (intros j Hj; apply Ho; intros ->; contradiction). lia.
  - specialize (IH w w' Hnd' Hin Ho). rewrite (Ho i) by (intros ->; contradiction). lia.
Qed.

(* an event of a module of the script: the world potential moves like the module's view of it *)
Lemma mu_pm m w w' : In m (mods sc) -> (forall i, i <> m -> w_mod w' i = w_mod w i) ->
  mu w' + pm m w = mu w + pm m w'.
Proof.
  intros Hin Ho. pose proof (sumparts_one m (mods sc) w w' (mods_nodup sc) Hin Ho). unfold mu, Pot.pm. lia.
Qed.

(* ---- modules outside the script have the empty configuration and never do anything ---- *)
Definition Idle (i : N) (w : world) : Prop :=
  ready (w_mod w i) = [] /\ timers (w_mod w i) = [] /\ shut (w_mod w i) = None.
Definition Out (w : world) : Prop := forall i, ~ In i (mods sc) -> Idle i w.

Lemma cfg_out i : ~ In i (mods sc) -> cfg sc i = cfg0.
Proof.
  intros H. unfold cfg. apply nth_overflow. destruct (le_lt_dec (length (s_mods sc)) (N.to_nat i)) as [Hl|Hl]; [exact Hl|].
  exfalso. apply H. unfold mods. apply in_map_iff. exists (N.to_nat i). split; [apply Nnat.N2Nat.id|apply in_seq; lia].
Qed.

Lemma exec_nil_idle k now i c s : Idle i (x_w s) ->
  Idle i (x_w (fst (exec k now i c [] [] s))) /\ w_buf (x_w (fst (exec k now i c [] [] s))) = w_buf (x_w s) /\
  w_fes (x_w (fst (exec k now i c [] [] s))) = w_fes (x_w s) /\ snd (exec k now i c [] [] s) = false.
Proof.
  intros (a & b & c0). unfold exec, spawn_all, poll_ready. cbn [combine seq length map run_prog fst snd].
  wsimpl. rewrite !N.eqb_refl. wsimpl. rewrite a. cbn [app fold_left fst snd]. unfold Idle. wsimpl. rewrite !N.eqb_refl. wsimpl. auto.
Qed.

Definition IdleCb (i : N) (f : xs -> xs) : Prop := forall s, Idle i (x_w s) ->
  Idle i (x_w (f s)) /\ w_buf (x_w (f s)) = w_buf (x_w s).

Lemma at_sim_start_idle k now i stage : IdleCb i (fun s => fst (at_sim_start k cfg0 now i stage s)).
Proof.
  intros s H. unfold at_sim_start. change (c_spawn cfg0) with (@nil (bool * prog)). unfold pick_start. cbn [c_start cfg0].
  assert (E : forall n, nth n ([] : list prog) [] = []) by (intros [|n]; reflexivity).
  rewrite E. destruct (exec_nil_idle k now i (CbStart stage) s H) as (I1 & I2 & _ & I4).
  destruct (stage =? 0); destruct (exec k now i (CbStart stage) [] [] s) as [s1 p]; cbn [fst snd] in *; subst p; cbn [catch fst x_w]; auto.
Qed.

Lemma handle_message_idle k now i x : IdleCb i (handle_message k cfg0 now i x).
Proof.
  intros s H. unfold handle_message. destruct (active (w_mod (x_w s) i)); [|auto].
  unfold pick_msg. cbn [c_msg cfg0]. destruct (exec_nil_idle k now i (CbMsg x) s H) as (I1 & I2 & _ & I4).
  destruct (exec k now i (CbMsg x) [] [] s) as [s1 p]. cbn [fst snd] in *. subst p. cbn [catch fst x_w]. auto.
Qed.

Lemma async_wakeup_idle k now i : IdleCb i (async_wakeup k now i).
Proof.
  intros s H. unfold async_wakeup. destruct (active (w_mod (x_w s) i)); [|auto].
  destruct H as (a & b & c0). unfold poll_ready. rewrite a. cbn [fold_left]. unfold Idle. wsimpl. rewrite N.eqb_refl. wsimpl. auto.
Qed.

Lemma module_restart_idle k now i : IdleCb i (module_restart k cfg0 now i).
Proof.
  intros s H. unfold module_restart. cbn [c_stages cfg0]. change (stage_list 1) with [0]. cbn [fold_left fst snd restart_stage].
  destruct (at_sim_start_idle k now i 0 (on_w (fun w => set_mod w i (set_active (w_mod w i) true)) s)) as [I1 I2].
  { destruct H as (a & b & c0). unfold Idle. wsimpl. rewrite N.eqb_refl. wsimpl. auto. }
  split; [exact I1|]. rewrite I2. reflexivity.
Qed.

Lemma around_idle now i f w : cfg sc i = cfg0 -> IdleCb i f -> CbOK i f -> Idle i w -> w_buf w = [] ->
  Idle i (fst (around sc now i f w)) /\ w_fes (fst (around sc now i f w)) = w_fes w.
Proof.
  intros Hc Hf Hok (a & b & c0) Hb.
  assert (H0 : Idle i (activate now i w)).
  { unfold activate, Idle. rewrite b. cbn [split_due]. wsimpl. rewrite N.eqb_refl. wsimpl. rewrite a. auto. }
  destruct (Hf {| x_w := activate now i w; x_log := [] |} H0) as [(a1 & b1 & c1) Hbuf]. cbn [x_w] in Hbuf. rewrite activate_buf, Hb in Hbuf.
  pose proof (fo_fes _ _ _ (proj1 (Hok {| x_w := activate now i w; x_log := [] |}))) as Ff. cbn [x_w] in Ff. rewrite activate_fes in Ff.
  rewrite around_world. revert a1 b1 c1 Hbuf Ff. generalize (f {| x_w := activate now i w; x_log := [] |}). intros s a1 b1 c1 Hbuf Ff.
  assert (Ed : deactivate i (x_w s) = set_cur (x_w s) None) by (unfold deactivate; rewrite b1; reflexivity).
  unfold Idle. rewrite Ed, buf_process_self, buf_process_events. cbn [w_mod w_buf w_fes set_cur]. rewrite c1, Hbuf. auto.
Qed.

(* ---- one step ---- *)
Lemma pm_set_fes m w f : pm m (set_fes w f) + wsum (w_fes w) = pm m w + wsum f.
Proof. unfold Pot.pm. cbn [w_mod w_buf w_fes set_fes]. lia. Qed.

Lemma mu_set_fes w f : mu (set_fes w f) + wsum (w_fes w) = mu w + wsum f.
Proof. unfold mu. cbn [w_mod w_buf w_fes set_fes]. rewrite (sumparts_same (mods sc) w (set_fes w f)) by reflexivity. lia. Qed.

Lemma Out_other w w' : Out w -> (forall i, ~ In i (mods sc) -> w_mod w' i = w_mod w i) -> Out w'.
Proof. intros H E i Hi. unfold Idle. rewrite (E i Hi). apply H, Hi. Qed.

Lemma spw_le m : spw (c_tasks (cfg sc m)) <= RR.
Proof.
  assert (H1 : forall c, spw (c_tasks c) <= 4 * cfg_size c).
  { intros c. unfold cfg_size, prog_size. induction (c_tasks c) as [|p l IH]; cbn [spw fold_right]; [lia|]. fold (spw l). lia. }
  assert (H2 : forall l c, In c l -> cfg_size c <= fold_right (fun c a => N.max (cfg_size c) a) 0 l).
  { induction l as [|c0 l IH]; intros c Hin; [destruct Hin|]. cbn [fold_right]. destruct Hin as [->|Hin]; [lia|specialize (IH c Hin); lia]. }
  unfold Pot.RR, cfg_unit, cfg. destruct (nth_in_or_default (N.to_nat m) (s_mods sc) cfg0) as [Hin|E].
  - specialize (H1 (nth (N.to_nat m) (s_mods sc) cfg0)). specialize (H2 _ _ Hin). lia.
  - rewrite E. cbn. lia.
Qed.

(* what the callback behind a record of kind [knd] may add to the potential: the tasks a (re)start spawns *)
Definition cb_extra (knd : ekind) : N :=
  match knd with KStart st _ => if st =? 0 then RR else 0 | KLoop (EvRestart _) => RR | _ => 0 end.

Lemma callback_pm m now knd f : callback sc m now knd f -> forall s, pm m (x_w (f s)) <= pm m (x_w s) + cb_extra knd.
Proof.
  intros [stage|t x|t|t] s; cbn [cb_extra].
  - unfold start_cb. pose proof (at_sim_start_pm sc (nmods sc) (cfg sc m) 0 m stage s). pose proof (spw_le m). destruct (stage =? 0); lia.
  - pose proof (handle_message_pm sc (nmods sc) (cfg sc m) t m x s). lia.
  - pose proof (async_wakeup_pm sc (nmods sc) t m s). lia.
  - pose proof (module_restart_pm sc (nmods sc) (cfg sc m) t m s). pose proof (spw_le m). lia.
Qed.

Lemma callback_idle m now knd f : callback sc m now knd f -> cfg sc m = cfg0 -> IdleCb m f.
Proof.
  intros [stage|t x|t|t] E; [unfold start_cb|..]; rewrite ?E;
    [apply at_sim_start_idle|apply handle_message_idle|apply async_wakeup_idle|apply module_restart_idle].
Qed.

Lemma module_event now m knd f w : Out w -> w_buf w = [] -> callback sc m now knd f ->
  mu (fst (around sc now m f w)) <= mu w + cb_extra knd /\ Out (fst (around sc now m f w)).
Proof.
  intros HO Hb Hcb. pose proof (callback_ok _ _ _ _ _ Hcb) as Hok.
  assert (Hoth : forall i, i <> m -> w_mod (fst (around sc now m f w)) i = w_mod w i) by (intros i Hi; apply around_oth; assumption).
  destruct (in_dec N.eq_dec m (mods sc)) as [Hin|Hout].
  - split.
    + pose proof (mu_pm m w _ Hin Hoth). pose proof (around_pm now m f w _ (callback_pm _ _ _ _ Hcb)). lia.
    + apply (Out_other w); [exact HO|]. intros i Hi. apply Hoth. intros ->. contradiction.
  - destruct (around_idle now m f w (cfg_out m Hout) (callback_idle _ _ _ _ Hcb (cfg_out m Hout)) Hok (HO m Hout) Hb) as [I1 I2].
    destruct (around_glob sc now m f w) as [_ Hb'].
    split.
    + unfold mu. rewrite I2, Hb', Hb. rewrite (sumparts_same (mods sc) w) by (intros i Hi; apply Hoth; intros ->; contradiction). lia.
    + intros i Hi. destruct (N.eq_dec i m) as [->|Hn]; [exact I1|]. unfold Idle. rewrite (Hoth i Hn). apply HO, Hi.
Qed.

(* the weight of an event pays for what its callback adds *)
Lemma cb_extra_wt ev : cb_extra (KLoop ev) + 1 <= wt ev.
Proof. destruct ev; cbn [cb_extra Pot.wt]; lia. Qed.

Lemma loop_step_mu w t ev f1 : Out w -> w_buf w = [] -> fes_fetch (w_fes w) = Some (t, ev, f1) ->
  mu (fst (process sc (set_fes w f1) t ev)) + 1 <= mu w /\ Out (fst (process sc (set_fes w f1) t ev)).
Proof.
  intros HO Hb Hf. pose proof (wsum_fetch sc _ _ _ _ Hf) as Hw. pose proof (mu_set_fes w f1) as Hm.
  assert (HO1 : Out (set_fes w f1)) by exact HO.
  destruct (process_cases sc (set_fes w f1) t ev) as [(m & far & x & ->)|(m & fcb & _ & Hcb & ->)].
  - cbn [process fst Pot.wt] in *. split.
    + destruct (walk (nmods sc) (set_fes w f1) m far).
      * pose proof (mu_set_fes (set_fes w f1) (fes_add t (EvDeliver n x) f1)) as H2. cbn [w_fes set_fes] in H2.
        rewrite wsum_add in H2. cbn [Pot.wt] in H2.
        change (set_fes (set_fes w f1) (fes_add t (EvDeliver n x) (w_fes (set_fes w f1)))) with (set_fes (set_fes w f1) (fes_add t (EvDeliver n x) f1)). lia.
      * lia.
    + destruct (walk (nmods sc) (set_fes w f1) m far); exact HO.
  - destruct (module_event t m _ fcb (set_fes w f1) HO1 Hb Hcb) as [H1 H2]. split; [|exact H2].
    pose proof (cb_extra_wt ev). lia.
Qed.

(* ---- generated worlds: modules outside the script stay idle, the buffer is drained ---- *)
Lemma start_rec_mu stage m w : Out w -> w_buf w = [] ->
  mu (fst (start_rec sc stage m w)) <= mu w + (if stage =? 0 then RR else 0) /\ Out (fst (start_rec sc stage m w)).
Proof. intros HO Hb. rewrite start_rec_fst. apply (module_event 0 m _ _ w HO Hb (cb_start sc m stage)). Qed.

Lemma gen_out : forall w tr, Gen sc w tr -> Out w.
Proof.
  apply (gen_inv sc (fun w _ => Out w)).
  - intros i _. unfold Idle, init_world. cbn. auto.
  - intros w tr e w' HG IH Hs. destruct (globals_released_gen sc w tr HG) as [_ Hb]. destruct Hs as [stage m w Hfresh Hactive|w|w t ev f Hf].
    + apply (start_rec_mu stage m w IH Hb).
    + exact IH.
    + rewrite loop_rec_fst. apply (loop_step_mu w t ev f IH Hb Hf).
Qed.

(* ---- the loop ---- *)
Lemma loop_terminates : forall k w now tr, Gen sc w tr -> (N.to_nat (mu w) < k)%nat ->
  exists r, iter_nat k (loop_step sc) (w, now, tr) = inr r.
Proof.
  induction k as [|k IH]; intros w now tr HG Hk; [lia|]. cbn [iter_nat]. rewrite loop_step_eq.
  destruct (fes_fetch (w_fes w)) as [[[t ev] f]|] eqn:Hf; [|eexists; reflexivity].
  destruct (globals_released_gen sc w tr HG) as [_ Hb].
  destruct (loop_step_mu w t ev f (gen_out w tr HG) Hb Hf) as [Hm _].
  apply IH; [eapply G1; [exact HG|apply S_loop, Hf]|rewrite loop_rec_fst; lia].
Qed.

Lemma start_one_mu stage m acc : Out (fst acc) /\ w_buf (fst acc) = [] ->
  (Out (fst (start_one sc stage m acc)) /\ w_buf (fst (start_one sc stage m acc)) = []) /\
  mu (fst (start_one sc stage m acc)) <= mu (fst acc) + (if stage =? 0 then RR else 0).
Proof.
  destruct acc as [w tr]. cbn [fst]. intros [HO Hb]. rewrite start_one_eq.
  destruct ((stage <? c_stages (cfg sc m)) && active (w_mod w m)); rewrite fst_pair; [|split; [auto|destruct (stage =? 0); lia]].
  destruct (start_rec_mu stage m w HO Hb) as [M O]. split; [split; [exact O|]|exact M]. rewrite start_rec_fst. apply around_glob.
Qed.

Lemma start_stage_mu stage : forall ms acc, Out (fst acc) /\ w_buf (fst acc) = [] ->
  (Out (fst (fold_left (fun acc m => start_one sc stage m acc) ms acc)) /\
   w_buf (fst (fold_left (fun acc m => start_one sc stage m acc) ms acc)) = []) /\
  mu (fst (fold_left (fun acc m => start_one sc stage m acc) ms acc)) <=
  mu (fst acc) + (if stage =? 0 then RR * N.of_nat (length ms) else 0).
Proof.
  induction ms as [|m ms IH]; intros acc H; cbn [fold_left length]; [split; [exact H|destruct (stage =? 0); lia]|].
  destruct (start_one_mu stage m acc H) as [H1 M1]. destruct (IH _ H1) as [H2 M2].
  split; [exact H2|]. destruct (stage =? 0); lia.
Qed.

Lemma sim_start_mu : mu (fst (sim_start sc (init_world sc))) <= mu (init_world sc) + RR * N.of_nat (length (mods sc)).
Proof.
  unfold sim_start. set (X := RR * N.of_nat (length (mods sc))).
  assert (G : forall stages acc, Out (fst acc) /\ w_buf (fst acc) = [] ->
              mu (fst (fold_left (fun acc stage => fold_left (fun acc m => start_one sc stage m acc) (mods sc) acc) stages acc)) <=
              mu (fst acc) + zeros stages * X).
  { induction stages as [|st stages IH]; intros acc H; cbn [fold_left zeros fold_right]; [lia|]. fold (zeros stages).
    destruct (start_stage_mu st (mods sc) acc H) as [H1 M1]. specialize (IH _ H1). fold X in M1. destruct (st =? 0); lia. }
  specialize (G (stage_list (max_stage sc)) (init_world sc, []) (conj (gen_out _ _ (G0 sc)) eq_refl)). cbn [fst] in G.
  pose proof (N.mul_le_mono_r _ _ X (zeros_stage_list (max_stage sc))). lia.
Qed.

(* ---- the bound ---- *)
Lemma part_mst0 c : part (mst0 c) = UU sc * c_bud c.
Proof. unfold Pot.part, mst0. cbn. lia. Qed.

Lemma sumparts_init : sumparts (mods sc) (init_world sc) = UU sc * fold_right (fun c a => c_bud c + a) 0 (s_mods sc).
Proof.
  unfold mods, sumparts, init_world. cbn [w_mod]. unfold cfg.
  assert (G : forall l pre, fold_right (fun i a => part (mst0 (nth (N.to_nat i) (pre ++ l) cfg0)) + a) 0
                              (map N.of_nat (seq (length pre) (length l))) = UU sc * fold_right (fun c a => c_bud c + a) 0 l).
  { induction l as [|c l IH]; intros pre; cbn [length seq map fold_right]; [lia|].
    rewrite Nnat.Nat2N.id, app_nth2, PeanoNat.Nat.sub_diag by lia. cbn [nth]. rewrite part_mst0.
    specialize (IH (pre ++ [c])). rewrite <- app_assoc, app_length in IH. cbn [length app] in IH.
    replace (length pre + 1)%nat with (S (length pre)) in IH by lia. rewrite IH. lia. }
  apply (G (s_mods sc) []).
Qed.

Lemma wl_inj l : wl (map (fun p : N * inj => (fst p, inj_ev (snd p))) l) <= 2 * N.of_nat (length l).
Proof.
  induction l as [|p l IH]; cbn [map Pot.wl length]; [lia|]. destruct (snd p); cbn [inj_ev snd Pot.wt]; lia.
Qed.

Lemma mu_init_bound : mu (fst (sim_start sc (init_world sc))) <= fuel_bound sc.
Proof.
  pose proof sim_start_mu as H.
  assert (Hinit : mu (init_world sc) = UU sc * fold_right (fun c a => c_bud c + a) 0 (s_mods sc) +
                                       wl (map (fun p : N * inj => (fst p, inj_ev (snd p))) (s_inj sc))).
  { unfold mu. rewrite sumparts_init. unfold init_world. cbn [w_buf w_fes Pot.wl]. rewrite wsum_flush.
    unfold Pot.wsum. cbn [f_zero f_rest Pot.wl]. lia. }
  rewrite Hinit in H. pose proof (wl_inj (s_inj sc)) as Hi. unfold mods in H. rewrite map_length, seq_length in H.
  unfold fuel_bound. unfold Pot.UU, Pot.RR in *.
  assert (Hs : forall l : list modcfg, fold_right (fun c a => c_bud c + 1 + a) 0 l =
               fold_right (fun c a => c_bud c + a) 0 l + N.of_nat (length l)).
  { induction l as [|c l IH]; cbn [fold_right length]; [reflexivity|]. rewrite IH. lia. }
  rewrite (Hs (s_mods sc)). clear Hs Hinit. set (X := cfg_unit sc) in *. set (B := fold_right (fun c a => c_bud c + a) 0 (s_mods sc)) in *.
  set (K := N.of_nat (length (s_mods sc))) in *. set (J := N.of_nat (length (s_inj sc))) in *. nia.
Qed.

(* every run ends: the fuel of the event loop is never exhausted *)
Theorem run_terminates : r_ok (run_script sc) = true.
Proof.
  unfold run_script. pose proof mu_init_bound as Hb. pose proof (boot_gen sc) as HB. unfold boot_trace, boot_rec in HB.
  destruct (sim_start sc (init_world sc)) as [w0 tr0]. cbn [fst snd] in *. rewrite iter_until_nat.
  destruct (loop_terminates (Pos.to_nat (fuel sc)) w0 0 _ HB) as [[[w now] tr] Hr].
  - unfold fuel. assert (E : Pos.to_nat (N.succ_pos (fuel_bound sc)) = S (N.to_nat (fuel_bound sc))) by (destruct (fuel_bound sc); cbn; lia).
    rewrite E. lia.
  - rewrite Hr. destruct (sim_end sc now w). reflexivity.
Qed.
End Term.
