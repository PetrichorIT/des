(* The time driver's wake-ups: whenever a module has a live timer, a wake-up event for it is queued
   (Driver::next_wakeup names a queued AsyncWakeupEvent, and is set whenever timers are pending).
   Consequence: when the event set has run empty, no module has a pending timer or a next_wakeup. *)
From Coq Require Import List NArith Bool Lia.
From DesVerif Require Import Common.Fuel Life.Model Life.Step Life.Trace Life.Restart.
Import ListNotations.
Open Scope N_scope.

Definition InF (p : N * fev) (f : fes) : Prop := In p (fes_order f).

Lemma InF_add p t e f : InF p (fes_add t e f) <-> p = (t, e) \/ InF p f.
Proof.
  unfold InF. destruct (fes_add_order t e f) as (l1 & l2 & E1 & E2). rewrite E1, E2, !in_app_iff. cbn [In].
  split; [intros [H|[H|H]]; auto|intros [H|[H|H]]; auto].
Qed.

Lemma InF_flush p : forall l f, InF p (fes_flush l f) <-> In p l \/ InF p f.
Proof.
  induction l as [|q l IH]; intros f; cbn [fes_flush fold_left In]; [tauto|].
  fold (fes_flush l (fes_add (fst q) (snd q) f)). rewrite IH, InF_add. destruct q as [t e]. cbn [fst snd]. split; intros H; intuition auto.
Qed.

Lemma fetch_none_order f : fes_fetch f = None -> fes_order f = [].
Proof. unfold fes_fetch, fes_order. destruct (f_zero f); [|discriminate]. destruct (f_rest f); [reflexivity|discriminate]. Qed.

(* per module: next_wakeup names a queued wake-up; pending timers imply a next_wakeup *)
Definition Wk (j : N) (w : world) : Prop :=
  (forall u, nw (w_mod w j) = Some u -> InF (u, EvWake j) (w_fes w)) /\
  (timers (w_mod w j) <> [] -> nw (w_mod w j) <> None).

Lemma deactivate_fes_mono m w p : InF p (w_fes w) -> InF p (w_fes (deactivate m w)).
Proof.
  intros H. unfold deactivate. cbn [w_fes set_cur]. destruct (timers (w_mod w m)) as [|[t tk] r]; [exact H|].
  destruct (lt_nw t (nw (w_mod w m))); [|exact H]. cbn [w_fes set_fes]. apply InF_add. right. exact H.
Qed.

Lemma buf_process_fes_mono c now m w p : InF p (w_fes w) -> InF p (w_fes (fst (buf_process c now m w))).
Proof.
  intros H. unfold buf_process, shutdown_part. cbn [w_mod set_buf set_fes].
  assert (H1 : InF p (fes_flush (w_buf w) (w_fes w))) by (apply InF_flush; right; exact H).
  destruct (shut (w_mod w m)) as [[t|]|]; cbn [fst]; rewrite ?ifse_fes; cbn [w_fes set_fes set_fin set_mod set_buf]; [apply InF_add; right|..]; exact H1.
Qed.

(* deactivate queues the wake-up of the earliest timer; buf_process keeps or drops next_wakeup with the timers *)
Lemma deactivate_Wk i w : (forall u, nw (w_mod w i) = Some u -> InF (u, EvWake i) (w_fes w)) -> Wk i (deactivate i w).
Proof.
  intros Ha. unfold deactivate, Wk. destruct (timers (w_mod w i)) as [|[t tk] r] eqn:Et; cbn [w_mod w_fes set_cur].
  - rewrite Et. split; [exact Ha|intros C; contradiction].
  - destruct (lt_nw t (nw (w_mod w i))) eqn:El; cbn [w_mod w_fes set_fes set_mod]; rewrite ?N.eqb_refl; cbn [nw timers set_nw].
    + split; [|intros _; discriminate]. intros u Hu. injection Hu as <-. apply InF_add. left. reflexivity.
    + split; [exact Ha|]. intros _. destruct (nw (w_mod w i)); [discriminate|]. cbn [lt_nw] in El. discriminate.
Qed.

Lemma buf_process_Wk c now i w : Wk i w -> Wk i (fst (buf_process c now i w)).
Proof.
  intros [D1 D2]. unfold Wk. rewrite buf_process_self, buf_process_events.
  assert (F1 : forall u, nw (w_mod w i) = Some u -> InF (u, EvWake i) (fes_flush (w_buf w) (w_fes w))) by (intros u Hu; apply InF_flush; right; apply D1, Hu).
  destruct (shut (w_mod w i)) as [r|]; [|split; [exact F1|exact D2]]. cbn [nw timers].
  split; [|intros C; contradiction]. intros u Hu.
  assert (G : InF (u, EvWake i) (fes_flush (w_buf w) (w_fes w))).
  { destruct (nw (w_mod w i)) as [u0|]; [|discriminate]. cbn [nw_bump] in Hu. destruct (u0 <=? now); [discriminate|].
    injection Hu as <-. apply F1. reflexivity. }
  destruct r as [t|]; [apply InF_add; right|]; exact G.
Qed.

(* one module event *)
Lemma around_Wk sc now i f w : CbOK i f ->
  (forall j, j <> i -> Wk j w) ->
  (forall u, nw (w_mod w i) = Some u -> now < u -> InF (u, EvWake i) (w_fes w)) ->
  forall j, Wk j (fst (around sc now i f w)).
Proof.
  intros Hok Hoth Hi j.
  destruct (Hok {| x_w := activate now i w; x_log := [] |}) as [[_ Ff _ _ Fnw _] _]. cbn [x_w] in Ff, Fnw. rewrite activate_fes in Ff.
  destruct (N.eq_dec j i) as [->|Hj].
  2:{ destruct (Hoth j Hj) as [A B]. unfold Wk. rewrite (around_oth sc now i f w j Hok Hj). split; [|exact B].
      intros u Hu. rewrite around_world. apply buf_process_fes_mono, deactivate_fes_mono. rewrite Ff. apply A, Hu. }
  rewrite around_world. apply buf_process_Wk, deactivate_Wk.
  (* next_wakeup after the callback: bumped by activate *)
  intros u. rewrite Ff, Fnw. unfold activate. destruct (split_due now (timers (w_mod w i))) as [d q].
  cbn [w_mod set_cur set_mod]. rewrite N.eqb_refl. cbn [nw set_nw]. intros Hu.
  destruct (nw (w_mod w i)) as [u0|] eqn:En; [|discriminate]. cbn [nw_bump] in Hu.
  destruct (u0 <=? now) eqn:El; [discriminate|]. injection Hu as <-. apply Hi; [reflexivity|]. apply N.leb_gt, El.
Qed.

Lemma gen_Wk sc : forall w tr, Gen sc w tr -> forall j, Wk j w.
Proof.
  apply (gen_inv sc (fun w _ => forall j, Wk j w)).
  - intros j. split; [discriminate|intros C; contradiction].
  - intros w tr e w' _ H S. revert H. pattern w, e, w'. revert w e w' S.
    (* the queued wake-ups named by a next_wakeup, once the event (t, ev) has been fetched *)
    assert (Hin : forall w t ev f, fes_fetch (w_fes w) = Some (t, ev, f) -> (forall j, Wk j w) ->
                  forall j u, nw (w_mod w j) = Some u -> (u, EvWake j) = (t, ev) \/ InF (u, EvWake j) f).
    { intros w t ev f Hf H j u Hu. pose proof (proj1 (H j) u Hu) as Hi. unfold InF in Hi.
      rewrite (fes_fetch_order _ _ _ _ Hf) in Hi. destruct Hi as [<-|Hi]; auto. }
    apply step_cases.
    + intros stage m w _ _ H. apply around_Wk; [apply start_cb_ok|intros j _; apply H|]. intros u Hu _. apply (proj1 (H m)), Hu.
    + auto.
    + intros w t ev f m cb Hf E H. pose proof (callback_mod _ _ _ _ _ E) as Em. pose proof (callback_ok _ _ _ _ _ E) as Hok. apply around_Wk; [exact Hok| |].
      * intros j Hj. split; [|apply (proj2 (H j))]. cbn [w_mod w_fes set_fes]. intros u Hu.
        destruct (Hin w t ev f Hf H j u Hu) as [E'|Hi]; [|exact Hi]. injection E' as _ <-. injection Em as <-. contradiction.
      * cbn [w_mod w_fes set_fes]. intros u Hu Hlt. destruct (Hin w t ev f Hf H m u Hu) as [E'|Hi]; [|exact Hi]. injection E' as -> _. lia.
    + intros w t m far x f w1 Hf Hw H j.
      assert (Em : w_mod w1 = w_mod w) by (destruct Hw as [->|(dst & ->)]; reflexivity).
      unfold Wk. rewrite Em. split; [|apply (proj2 (H j))]. intros u Hu.
      destruct (Hin w t _ f Hf H j u Hu) as [E'|Hi]; [discriminate|].
      destruct Hw as [->|(dst & ->)]; cbn [w_fes set_fes]; [|apply InF_add; right]; exact Hi.
Qed.

(* when the event set is empty, every timer has fired *)
Theorem idle_at_end sc w tr : Gen sc w tr -> fes_fetch (w_fes w) = None ->
  forall j, timers (w_mod w j) = [] /\ nw (w_mod w j) = None.
Proof.
  intros HG Hf j. destruct (gen_Wk sc w tr HG j) as [A B]. pose proof (fetch_none_order _ Hf) as Ho.
  assert (Hn : nw (w_mod w j) = None).
  { destruct (nw (w_mod w j)) as [u|] eqn:En; [|reflexivity]. specialize (A u eq_refl). unfold InF in A. rewrite Ho in A. destruct A. }
  split; [|exact Hn]. destruct (timers (w_mod w j)) as [|x l] eqn:Et; [reflexivity|]. exfalso. apply B; [discriminate|exact Hn].
Qed.
