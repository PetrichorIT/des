(* C13 others_as_if_silent, part 2: one dispatched event in both runs; the two event loops as a stuttering simulation
   (either run may dispatch events that are inert for a dead m on its own); the start-up phase in lock step; both runs up
   to the tear-down.  The second script is any [sc'] that differs from [sc] as [quieten m sc] does ([Quietened],
   Life/Quiet.v). *)
From Coq Require Import List NArith Bool Lia PeanoNat.
From DesVerif Require Export Life.SilentRel.
From DesVerif Require Import Common.Fuel Life.Model Life.Step Life.Trace Life.Frame Life.Inert Life.Events
  Life.Restart Life.Agree Life.Strip Life.Quiet Life.SilentBase Life.Future.
Import ListNotations.
Open Scope N_scope.

(* the trace without its tear-down records; the same list as [body] of Life/Errors.v *)
Definition events_of (tr : list erec) : list erec := filter (fun e => negb (is_end e)) tr.

Section Silent.
Variables (sc sc' : script) (m : N).
Hypothesis Q : Quietened m sc sc'.

Lemma cfg_other i : i <> m -> cfg sc' i = cfg sc i.
Proof. intros H. rewrite (q_cfg _ _ _ Q). apply N.eqb_neq in H. rewrite H. reflexivity. Qed.

Lemma cfg_self : cfg sc' m = quiet_cfg (cfg sc m).
Proof. rewrite (q_cfg _ _ _ Q), N.eqb_refl. reflexivity. Qed.

Lemma callback_quiet i now knd f : callback sc i now knd f ->
  exists f', callback sc' i now knd f' /\ (i <> m -> f' = f) /\
             (i = m -> forall s s', AgreeX m s s' -> Post m (f s) (f' s')).
Proof.
  intros [stage|t x|t|t]; eexists; (split; [constructor|]); unfold start_cb; rewrite (q_nmods _ _ _ Q);
    (split; [intros H; rewrite ?(cfg_other i H); reflexivity|intros -> s s' H; rewrite ?cfg_self]).
  - apply at_sim_start_post, H.
  - apply handle_message_post, H.
  - left. apply (async_wakeup_walk (Agree_walk (nmods sc) t m)), H.
  - apply module_restart_post, H.
Qed.

(* A callback of module i on related worlds.  If i = m the worlds are still equal, and either no restart of m is queued
   or the callback is one that an inactive module does not run. *)
Lemma event_sim now i knd f v v' : callback sc i now knd f -> FW now v -> FW now v' -> Rel m v v' ->
  (i = m -> Same v v' /\ (restart_times m (w_fes v) = [] \/
                          exists ev, knd = KLoop ev /\ ev <> EvRestart m /\ active (w_mod v m) = false)) ->
  exists f', callback sc' i now knd f' /\ Rel m (fst (around sc now i f v)) (fst (around sc' now i f' v')) /\
             others m (snd (around sc now i f v)) = others m (snd (around sc' now i f' v')).
Proof.
  intros Hc HW HW' HR Hm. destruct (callback_quiet i now knd f Hc) as (f' & Hc' & Hne & Hpost). exists f'. split; [exact Hc'|].
  pose proof (callback_ok _ _ _ _ _ Hc) as Hok. pose proof (callback_ok _ _ _ _ _ Hc') as Hok'.
  pose proof (fw_buf _ _ HW) as Hb. pose proof (fw_buf _ _ HW') as Hb'. destruct (N.eq_dec i m) as [->|Hi].
  - destruct (Hm eq_refl) as [HS Hrt].
    rewrite (others_own m _ (around_own sc now m f v Hok)), (others_own m _ (around_own sc' now m f' v' Hok')). split; [|reflexivity].
    apply (m_event m sc sc' now f f' v v' HS Hb); [|exact Hok|exact Hok'|].
    + (* the runs cannot part in a callback that is not run *)
      intros HD. destruct Hrt as [Hrt|(ev & -> & Hev & Ha)]; [exact Hrt|]. exfalso.
      pose proof (dv_shut _ _ _ HD) as vs. unfold cb_out in vs. rewrite (callback_inactive sc' m now ev f' _ Hc' Hev) in vs.
      * cbn [x_w] in vs. rewrite activate_shut, (fw_shut _ _ HW' m) in vs. discriminate.
      * cbn [x_w]. rewrite activate_active, <- (sm_mod _ _ HS). exact Ha.
    + apply (Hpost eq_refl). split; [apply activate_agree, Same_agree; assumption|reflexivity].
  - rewrite (Hne Hi). destruct HR as [HS|HD].
    + destruct (same_other_event sc sc' now i f v v' (eq_sym (cfg_other i Hi)) HS Hb Hb' Hok (fun s s' => callback_agree sc i now knd f s s' Hc))
        as [E R].
      split; [left; exact R|rewrite E; reflexivity].
    + destruct (dead_other_event m sc sc' now i f v v' Hi (eq_sym (cfg_other i Hi)) HD Hb Hb' (fw_wf _ _ HW) (fw_wf _ _ HW')
                  (eq_trans (fw_clock _ _ HW) (eq_sym (fw_clock _ _ HW'))) Hok (fun s s' => callback_agree sc i now knd f s s' Hc)) as [E R].
      split; [right; exact R|rewrite E; reflexivity].
Qed.

Lemma step_same tr now now' w w' t ev f1 : Gen sc w tr -> FW now w -> FW now' w' -> Same w w' ->
  fes_fetch (w_fes w) = Some (t, ev, f1) ->
  Rel m (fst (loop_rec sc (set_fes w f1) t ev)) (fst (loop_rec sc' (set_fes w' f1) t ev)) /\
  others m (e_items (snd (loop_rec sc (set_fes w f1) t ev))) = others m (e_items (snd (loop_rec sc' (set_fes w' f1) t ev))).
Proof.
  intros HG HW HW' HS Hf. assert (Hf' : fes_fetch (w_fes w') = Some (t, ev, f1)) by (rewrite <- (sm_fes _ _ HS); exact Hf).
  pose proof (fetch_FW now w t ev f1 HW Hf) as HV. pose proof (fetch_FW now' w' t ev f1 HW' Hf') as HV'.
  pose proof (Same_fes w w' f1 HS) as HS1.
  rewrite !loop_rec_fst, !loop_rec_items, !others_app, !others_sample, !app_nil_r.
  destruct (process_cases sc (set_fes w f1) t ev) as [(i & far & x & ->)|(i & f & _ & Hc & ->)].
  - (* a message leaving a connection *)
    unfold process. cbn [fst snd].
    rewrite (q_nmods _ _ _ Q), <- (walk_agree (nmods sc) i far _ _ (Same_agree i _ _ HS1 (fw_buf _ _ HV) (fw_buf _ _ HV'))).
    split; [|reflexivity]. left. destruct (walk (nmods sc) (set_fes w f1) i far); [apply (Same_fes _ _ _ HS1)|exact HS1].
  - destruct (event_sim t i (KLoop ev) f _ _ Hc HV HV' (or_introl HS1)) as (f' & Hc' & R & O).
    + (* module m is active, or this is its restart: no further restart is queued *)
      intros ->. split; [exact HS1|]. destruct (gen_facts sc m w tr HG) as (Q2 & Q3).
      destruct (active (w_mod w m)) eqn:Ea; [left; exact (rt_after_fetch m _ _ _ _ Hf (Q2 eq_refl))|].
      destruct (ev_restart_dec ev m) as [E|E]; [left; rewrite E in Hf; exact (Q3 _ _ Hf)|right; exists ev; auto].
    + rewrite (callback_process sc' i t ev f' _ Hc'). split; assumption.
Qed.

Lemma step_dead now now' w w' t ev f1 f1' : FW now w -> FW now' w' -> Dead m w w' ->
  fes_fetch (w_fes w) = Some (t, ev, f1) -> fes_fetch (w_fes w') = Some (t, ev, f1') -> inert m ev = false -> FesRel m f1 f1' ->
  Rel m (fst (loop_rec sc (set_fes w f1) t ev)) (fst (loop_rec sc' (set_fes w' f1') t ev)) /\
  others m (e_items (snd (loop_rec sc (set_fes w f1) t ev))) = others m (e_items (snd (loop_rec sc' (set_fes w' f1') t ev))).
Proof.
  intros HW HW' HD Hf Hf' Hi FR. destruct (dd_nr _ _ _ HD) as [n1 n2].
  pose proof (fetch_FW now w t ev f1 HW Hf) as HV. pose proof (fetch_FW now' w' t ev f1' HW' Hf') as HV'.
  pose proof (rt_after_fetch m _ _ _ _ Hf n1) as n3. pose proof (rt_after_fetch m _ _ _ _ Hf' n2) as n3'.
  assert (HD1 : Dead m (set_fes w f1) (set_fes w' f1')).
  { apply Dead_fes; try assumption. destruct (loop_FW sc now w t ev f1 HW Hf) as (_ & _ & ->).
    pose proof (L_fetch_le _ _ _ _ Hf'). pose proof (dd_L _ _ _ HD). lia. }
  rewrite !loop_rec_fst, !loop_rec_items, !others_app, !others_sample, !app_nil_r.
  destruct (process_cases sc (set_fes w f1) t ev) as [(i & far & x & ->)|(i & f & Ei & Hc & ->)].
  - cbn [inert] in Hi. apply N.eqb_neq in Hi. unfold process. cbn [fst snd].
    rewrite (q_nmods _ _ _ Q), <- (walk_agree (nmods sc) i far _ _ (Dead_agree m i _ _ Hi HD1 (fw_buf _ _ HV) (fw_buf _ _ HV'))).
    split; [|reflexivity]. right. destruct (walk (nmods sc) (set_fes w f1) i far) as [dst|]; [|exact HD1].
    apply (Dead_fes m _ _ _ _ HD1); cbn [w_fes set_fes].
    + apply FesRel_add; [exact FR|exact (fw_wf _ _ HV)|exact (fw_wf _ _ HV')|].
      exact (eq_trans (fw_clock _ _ HV) (eq_sym (fw_clock _ _ HV'))).
    + rewrite fes_add_rt_other by reflexivity. exact n3.
    + rewrite fes_add_rt_other by reflexivity. exact n3'.
    + rewrite !L_add. pose proof (dd_L _ _ _ HD1) as hl. cbn [w_fes set_fes] in hl. lia.
  - destruct (event_sim t i (KLoop ev) f _ _ Hc HV HV' (or_intror HD1)) as (f' & Hc' & R & O).
    + intros E. exfalso. exact (live_event_other m _ _ _ _ i Hf n1 Hi Ei E).
    + rewrite (callback_process sc' i t ev f' _ Hc'). split; assumption.
Qed.

Lemma sim_loop : forall K n n' w w' now now' tr tr' wf nf trf wf' nf' trf',
  (n + n' <= K)%nat -> Gen sc w tr -> FW now w -> FW now' w' -> Rel m w w' -> others m (items tr) = others m (items tr') ->
  iter_nat n (loop_step sc) (w, now, tr) = inr (wf, nf, trf) ->
  iter_nat n' (loop_step sc') (w', now', tr') = inr (wf', nf', trf') ->
  others m (items trf) = others m (items trf') /\ Rel m wf wf'.
Proof.
  induction K as [|K IH]; intros n n' w w' now now' tr tr' wf nf trf wf' nf' trf' Hle HG HW HW' HR Ho Hn0 Hn0'.
  - assert (n = 0%nat) by lia. subst n. discriminate.
  - destruct n as [|n]; [discriminate|]. destruct n' as [|n']; [discriminate|].
    pose proof Hn0 as Hn. pose proof Hn0' as Hn'. cbn [iter_nat] in Hn, Hn'. rewrite loop_step_eq in Hn, Hn'.
    assert (HG1 : forall t ev f1, fes_fetch (w_fes w) = Some (t, ev, f1) ->
                    Gen sc (fst (loop_rec sc (set_fes w f1) t ev)) (tr ++ [snd (loop_rec sc (set_fes w f1) t ev)]))
      by (intros t ev f1 Hf; eapply G1; [exact HG|apply (S_loop sc w t ev f1 Hf)]).
    destruct HR as [HS|HD].
    +
      rewrite <- (sm_fes _ _ HS) in Hn'. destruct (fes_fetch (w_fes w)) as [[[t ev] f1]|] eqn:Hf.
      * assert (Hf' : fes_fetch (w_fes w') = Some (t, ev, f1)) by (rewrite <- (sm_fes _ _ HS); exact Hf).
        destruct (step_same tr now now' w w' t ev f1 HG HW HW' HS Hf) as [R O].
        apply (IH n n' _ _ t t _ _ _ _ _ _ _ _ ltac:(lia) (HG1 _ _ _ eq_refl) (proj1 (loop_FW sc now w t ev f1 HW Hf))
                 (proj1 (loop_FW sc' now' w' t ev f1 HW' Hf')) R (others_snoc m _ _ _ _ Ho O) Hn Hn').
      * injection Hn as <- <- <-. injection Hn' as <- <- <-. split; [exact Ho|left; exact HS].
    +
      assert (SR : forall t' ev' f1', fes_fetch (w_fes w') = Some (t', ev', f1') -> inert m ev' = true ->
                     others m (items trf) = others m (items trf') /\ Rel m wf wf').
      { (* the quiet run dispatches an inert event on its own *)
        intros t' ev' f1' Hf' Hi'. rewrite Hf' in Hn'. destruct (stutter_r m sc' now' w w' t' ev' f1' HW' HD Hf' Hi') as [D O].
        apply (IH (S n) n' _ _ now t' _ _ _ _ _ _ _ _ ltac:(lia) HG HW (proj1 (loop_FW sc' now' w' t' ev' f1' HW' Hf')) (or_intror D)
                 (eq_trans Ho (eq_sym (others_snoc_nil m _ _ O))) Hn0 Hn'). }
      destruct (fes_fetch (w_fes w)) as [[[t ev] f1]|] eqn:Hf; [destruct (inert m ev) eqn:Hi|].
      * (* the panicking run dispatches an inert event on its own *)
        destruct (stutter_l m sc now w w' t ev f1 HW HD Hf Hi) as [D O].
        apply (IH n (S n') _ _ t now' _ _ _ _ _ _ _ _ ltac:(lia) (HG1 _ _ _ eq_refl) (proj1 (loop_FW sc now w t ev f1 HW Hf)) HW' (or_intror D)
                 (eq_trans (others_snoc_nil m _ _ O) Ho) Hn Hn0').
      * destruct (fes_fetch (w_fes w')) as [[[t' ev'] f1']|] eqn:Hf'; [destruct (inert m ev') eqn:Hi'|].
        -- exact (SR _ _ _ eq_refl Hi').
        -- (* both dispatch the same event *)
           destruct (fetch_common m _ _ _ _ _ _ _ _ (dd_fes _ _ _ HD) Hf Hi Hf' Hi') as (-> & -> & FR).
           destruct (step_dead now now' w w' t ev f1 f1' HW HW' HD Hf Hf' Hi FR) as [R O].
           apply (IH n n' _ _ t t _ _ _ _ _ _ _ _ ltac:(lia) (HG1 _ _ _ eq_refl) (proj1 (loop_FW sc now w t ev f1 HW Hf))
                    (proj1 (loop_FW sc' now' w' t ev f1' HW' Hf')) R (others_snoc m _ _ _ _ Ho O) Hn Hn').
        -- exfalso. pose proof (fetch_none_r m _ _ _ _ _ Hf' (dd_fes _ _ _ HD) Hf) as C. congruence.
      * destruct (fes_fetch (w_fes w')) as [[[t' ev'] f1']|] eqn:Hf'.
        -- exact (SR _ _ _ eq_refl (fetch_none_l m _ _ _ _ _ Hf (dd_fes _ _ _ HD) Hf')).
        -- injection Hn as <- <- <-. injection Hn' as <- <- <-. split; [exact Ho|right; exact HD].
Qed.

(* ---- the start-up phase, in lock step ---- *)
Record SI (acc acc' : world * list erec) : Prop := {
  si_gen : Gen sc (fst acc) (snd acc);
  si_fw : FW 0 (fst acc) /\ FW 0 (fst acc');
  si_rel : Rel m (fst acc) (fst acc');
  si_oth : others m (items (snd acc)) = others m (items (snd acc')) }.

Lemma SI_intro w tr w' tr' : Gen sc w tr -> FW 0 w -> FW 0 w' -> Rel m w w' ->
  others m (items tr) = others m (items tr') -> SI (w, tr) (w', tr').
Proof. intros. constructor; [|split|..]; assumption. Qed.

Lemma start_step stage i acc acc' : SI acc acc' -> (stage = 0 -> w_mod (fst acc) i = mst0 (cfg sc i)) ->
  SI (start_one sc stage i acc) (start_one sc' stage i acc').
Proof.
  intros [HG [HW HW'] HR Ho] Hfr. destruct acc as [w tr], acc' as [w' tr']. cbn [fst snd] in *.
  pose proof (fw_buf _ _ HW) as Hb. pose proof (fw_buf _ _ HW') as Hb'.
  assert (Es : c_stages (cfg sc' i) = c_stages (cfg sc i)) by (rewrite (q_cfg _ _ _ Q); destruct (i =? m); reflexivity).
  assert (Eact : active (w_mod w' i) = active (w_mod w i)).
  { destruct HR as [HS|HD]; [rewrite (sm_mod _ _ HS); reflexivity|].
    destruct (N.eq_dec i m) as [->|Hi]; [destruct (dd_act _ _ _ HD) as [-> ->]; reflexivity|rewrite (dd_oth _ _ _ HD i Hi); reflexivity]. }
  rewrite !start_one_eq, Es, Eact.
  destruct ((stage <? c_stages (cfg sc i)) && active (w_mod w i)) eqn:Els; [|apply SI_intro; assumption].
  apply andb_true_iff in Els. destruct Els as [_ Ha].
  assert (HG' : Gen sc (fst (start_rec sc stage i w)) (tr ++ [snd (start_rec sc stage i w)])) by (eapply G1; [exact HG|apply S_start; [exact Hfr|exact Ha]]).
  destruct (event_sim 0 i (KStart stage i) _ w w' (cb_start sc i stage) HW HW' HR) as (f' & Hc' & R & O).
  { (* a stage of module m itself: it is active, so the two worlds are still equal *)
    intros ->. destruct HR as [HS|HD]; [|destruct (dd_act _ _ _ HD) as [b1 _]; congruence].
    split; [exact HS|left; exact (proj1 (gen_facts sc m w tr HG) Ha)]. }
  inversion Hc'; subst f'.
  apply SI_intro.
  - exact HG'.
  - rewrite start_rec_fst. apply (module_event_FW sc 0 i _ _ w HW (cb_start sc i stage)).
  - rewrite start_rec_fst. apply (module_event_FW sc' 0 i _ _ w' HW' (cb_start sc' i stage)).
  - rewrite !start_rec_fst. exact R.
  - apply others_snoc; [exact Ho|]. rewrite !start_rec_items. exact O.
Qed.

Lemma start_stage_sim stage : forall ms acc acc', NoDup ms -> SI acc acc' ->
  (stage = 0 -> forall i, In i ms -> w_mod (fst acc) i = mst0 (cfg sc i)) ->
  SI (fold_left (fun acc i => start_one sc stage i acc) ms acc) (fold_left (fun acc i => start_one sc' stage i acc) ms acc').
Proof.
  induction ms as [|i ms IH]; intros acc acc' Hnd H Hf; cbn [fold_left]; [exact H|].
  inversion Hnd as [|x l Hnin Hnd']; subst. apply IH; [exact Hnd'| |].
  - apply start_step; [exact H|]. intros E. apply Hf; [exact E|left; reflexivity].
  - intros E j Hin. rewrite start_one_oth; [apply Hf; [exact E|right; exact Hin]|]. intros ->. contradiction.
Qed.

Lemma sim_start_sim : SI (sim_start sc (init_world sc)) (sim_start sc' (init_world sc')).
Proof.
  unfold sim_start. rewrite (q_stage _ _ _ Q), (q_mods _ _ _ Q).
  destruct (stage_list_shape (max_stage sc) (max_stage_ge1 sc)) as (tl & -> & Htl). cbn [fold_left].
  assert (G : forall stages acc acc', Forall (fun st => st <> 0) stages -> SI acc acc' ->
              SI (fold_left (fun acc stage => fold_left (fun acc i => start_one sc stage i acc) (mods sc) acc) stages acc)
                 (fold_left (fun acc stage => fold_left (fun acc i => start_one sc' stage i acc) (mods sc) acc) stages acc')).
  { induction stages as [|st stages IH]; intros acc acc' Hne H; cbn [fold_left]; [exact H|].
    inversion Hne; subst. apply IH; [assumption|]. apply start_stage_sim; [apply mods_nodup|exact H|]. intros E. contradiction. }
  apply G; [exact Htl|]. apply start_stage_sim; [apply mods_nodup| |intros _ i _; reflexivity].
  apply SI_intro; [apply G0|apply init_FW|apply init_FW| |reflexivity]. left. unfold init_world. constructor.
  - intros i. cbn [w_mod]. rewrite (q_cfg _ _ _ Q). destruct (i =? m); reflexivity.
  - cbn [w_fes]. rewrite (q_inj _ _ _ Q). reflexivity.
Qed.

(* ---- both runs, up to the tear-down ---- *)
(* the two event loops end in related worlds, having produced the same records for the other modules *)
Lemma silent_final :
  r_ok (run_script sc) = true -> r_ok (run_script sc') = true ->
  exists w n tr w' n' tr', Gen sc w tr /\ Gen sc' w' tr' /\ fes_fetch (w_fes w) = None /\ fes_fetch (w_fes w') = None /\
    Rel m w w' /\ others m (items tr) = others m (items tr') /\
    trace sc = tr ++ snd (end_seq sc n (mods sc) w) /\ trace sc' = tr' ++ snd (end_seq sc' n' (mods sc') w') /\
    FW n w /\ FW n' w'.
Proof.
  unfold trace, run_script. pose proof sim_start_sim as [HG [HW0 HW0'] HR Ho].
  pose proof (boot_gen sc) as HB. pose proof (boot_gen sc') as HB'. unfold boot_trace, boot_rec in HB, HB'.
  destruct (sim_start sc (init_world sc)) as [w0 tr0]. destruct (sim_start sc' (init_world sc')) as [w0' tr0']. cbn [fst snd] in *.
  rewrite !iter_until_nat.
  pose proof (iter_gen sc (Pos.to_nat (fuel sc)) w0 0 _ HB) as I1.
  pose proof (iter_gen sc' (Pos.to_nat (fuel sc')) w0' 0 _ HB') as I2.
  destruct (iter_nat (Pos.to_nat (fuel sc)) (loop_step sc) _) as [[[w n] tr]|[[w n] tr]] eqn:E1; [cbn; discriminate|].
  destruct (iter_nat (Pos.to_nat (fuel sc')) (loop_step sc') _) as [[[w' n'] tr']|[[w' n'] tr']] eqn:E2; [cbn; discriminate|].
  intros _ _. destruct I1 as [I1 F1]. destruct I2 as [I2 F2].
  unfold sim_end. rewrite !sim_end_eq. cbn [app r_trace].
  assert (Ho0 : others m (items (tr0 ++ [{| e_kind := KBoot; e_time := 0; e_items := [ISample 0 (mask sc w0)] |}])) =
                others m (items (tr0' ++ [{| e_kind := KBoot; e_time := 0; e_items := [ISample 0 (mask sc' w0')] |}])))
    by (rewrite !items_snoc, !others_app, Ho; reflexivity).
  destruct (sim_loop _ _ _ w0 w0' 0 0 _ _ _ _ _ _ _ _ (Nat.le_refl _) HB HW0 HW0' HR Ho0 E1 E2) as [O R].
  destruct (iter_FW sc _ _ _ _ _ _ _ HW0 E1) as [FWa _]. destruct (iter_FW sc' _ _ _ _ _ _ _ HW0' E2) as [FWb _].
  exists w, n, tr, w', n', tr'. repeat (split; [assumption||reflexivity|]). exact FWb.
Qed.
End Silent.
