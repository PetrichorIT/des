(* C09 fresh_after_restart, whole-trace form.  A module's records depend on its own state only: two worlds -- of two
   scripts, with whatever other modules, event sets, buffers -- that agree on module m ([Mrel]) stay in agreement and
   produce the same records of m under the same sequence of events ([mlog_local]).  A restart event of a
   single-stage module is the start-up step of a fresh module built around the kept pieces, taken at the time of
   the restart ([restart_as_fresh_start]).  Hence the records of m from the restart on are those of such a fresh
   module in any environment that delivers the same events to it. *)
From Coq Require Import List NArith Bool Lia.
From DesVerif Require Import Common.Fuel Life.Model Life.Base Life.Step Life.Trace Life.Restart Life.Agree
  Life.SilentBase Life.TearDown Life.Fresh.
Import ListNotations.
Open Scope N_scope.

Section Local.
Variables (j now : N).

Lemma TS_refl x : TS now now x x.
Proof.
  constructor; try reflexivity.
  - induction (timers x) as [|a l IH]; constructor; [split; [reflexivity|left; auto]|exact IH].
  - unfold sh_rel. destruct (shut x) as [[t|]|]; try exact I. left. auto.
Qed.

Lemma dl_rel_eq t t' : dl_rel now now t t' -> t = t'.
Proof. intros [[_ H]|(d & -> & ->)]; [exact H|reflexivity]. Qed.

Lemma TS_eq x x' : TS now now x x' -> x = x'.
Proof.
  intros [a b c d e f g h i].
  assert (Ht : timers x = timers x').
  { induction h as [|p q l l' [H1 H2] _ IH]; [reflexivity|]. rewrite IH. destruct p, q. cbn [fst snd] in *. rewrite H1, (dl_rel_eq _ _ H2). reflexivity. }
  assert (Hs : shut x = shut x').
  { unfold sh_rel in i. destruct (shut x) as [[t|]|], (shut x') as [[t'|]|]; try contradiction; try reflexivity. rewrite (dl_rel_eq _ _ i). reflexivity. }
  destruct x, x'. cbn in *. subst. reflexivity.
Qed.

(* two interpreter states that agree on module j *)
Definition RXe (s s' : xs) : Prop := RX j now now s s'.

Lemma RXe_intro s s' : w_mod (x_w s) j = w_mod (x_w s') j -> x_log s = x_log s' -> RXe s s'.
Proof.
  intros A B. split; [rewrite A; apply TS_refl|]. rewrite B. clear. generalize (x_log s'). induction l as [|i l IH]; constructor; [apply irel_refl|exact IH].
Qed.

Lemma RXe_elim s s' : RXe s s' -> w_mod (x_w s) j = w_mod (x_w s') j /\ x_log s = x_log s'.
Proof. intros [A B]. split; [apply TS_eq, A|apply (irel_logs now now _ _ B), eq_refl]. Qed.

Lemma activate_local w w' : w_mod w j = w_mod w' j -> w_mod (activate now j w) j = w_mod (activate now j w') j.
Proof.
  intros E. unfold activate. rewrite E. destruct (split_due now (timers (w_mod w' j))) as [d q]. cbn [w_mod set_cur set_mod].
  rewrite !N.eqb_refl. reflexivity.
Qed.

(* one event of module j in two worlds that agree on j, under callbacks that respect the agreement *)
Lemma around_local sc sc' f f' w w' : cfg sc j = cfg sc' j -> w_mod w j = w_mod w' j ->
  (forall s s', RXe s s' -> RXe (f s) (f' s')) ->
  snd (around sc now j f w) = snd (around sc' now j f' w') /\
  w_mod (fst (around sc now j f w)) j = w_mod (fst (around sc' now j f' w')) j.
Proof.
  intros Ec E Hf.
  assert (H0 : RXe {| x_w := activate now j w; x_log := [] |} {| x_w := activate now j w'; x_log := [] |})
    by (apply RXe_intro; [apply activate_local, E|reflexivity]).
  destruct (RXe_elim _ _ (Hf _ _ H0)) as [A B].
  split.
  - rewrite !Step.around_log, !Step.buf_process_items, !deactivate_mod_eq, A, B, Ec. reflexivity.
  - rewrite !Step.around_world. set (s := f _) in *. set (s' := f' _) in *. rewrite !Step.buf_process_self, !deactivate_mod_eq, A. reflexivity.
Qed.
End Local.

(* ---- worlds that agree on module m ---- *)
Definition Mrel (m : N) (w w' : world) : Prop := w_mod w m = w_mod w' m.

Section Sim.
Variables (sc sc' : script) (m : N).
Hypothesis Hcfg : cfg sc m = cfg sc' m.
Hypothesis Hk : nmods sc = nmods sc'.

(* a dispatched event of m: same records, agreement kept *)
Lemma process_local w w' t ev : ev_mod ev = Some m -> Mrel m w w' ->
  snd (process sc w t ev) = snd (process sc' w' t ev) /\ Mrel m (fst (process sc w t ev)) (fst (process sc' w' t ev)).
Proof.
  intros Em E. destruct ev as [i far x|i x|i|i]; cbn [ev_mod] in Em; try discriminate; injection Em as ->; cbn [process]; rewrite <- ?Hk, <- ?Hcfg.
  - apply (around_local m t sc sc'); [exact Hcfg|exact E|intros s s'; apply (handle_message_walk (RX_walk m t t (nmods sc)))].
  - apply (around_local m t sc sc'); [exact Hcfg|exact E|intros s s'; apply (async_wakeup_walk (RX_walk m t t (nmods sc)))].
  - apply (around_local m t sc sc'); [exact Hcfg|exact E|intros s s'; apply (module_restart_walk (RX_walk m t t (nmods sc)))].
Qed.

(* an event of another module (possibly a different one in each world): nothing of m *)
Lemma process_other w w' t t' ev ev' : ev_mod ev <> Some m -> ev_mod ev' <> Some m -> Mrel m w w' ->
  Mrel m (fst (process sc w t ev)) (fst (process sc' w' t' ev')).
Proof. intros H H' E. unfold Mrel. rewrite !process_oth by assumption. exact E. Qed.

(* a start-up stage and the tear-down of m *)
Lemma start_local w w' t stage : Mrel m w w' ->
  let cb := fun sc0 s => fst (at_sim_start (nmods sc0) (cfg sc0 m) t m stage s) in
  snd (around sc t m (cb sc) w) = snd (around sc' t m (cb sc') w') /\ Mrel m (fst (around sc t m (cb sc) w)) (fst (around sc' t m (cb sc') w')).
Proof.
  intros E cb. unfold cb. rewrite <- Hk, <- Hcfg. apply (around_local m t sc sc'); [exact Hcfg|exact E|]. intros s s' H. apply (at_sim_start_walk (RX_walk m t t (nmods sc))), H.
Qed.

Lemma end_local w w' t : Mrel m w w' -> e_items (snd (end_rec sc t m w)) = e_items (snd (end_rec sc' t m w')).
Proof.
  intros E. rewrite !end_rec_snd. cbn [e_items]. rewrite <- Hk, <- Hcfg.
  apply (RXe_elim m t), at_sim_end_RX, RXe_intro; [apply activate_local, E|reflexivity].
Qed.

(* a whole sequence of dispatched events, each with the event set it leaves behind: the records of m's events *)
Definition is_m (ev : fev) : bool := match ev_mod ev with Some i => i =? m | None => false end.

Fixpoint mlog (sc0 : script) (w : world) (evs : list (N * fev * fes)) : list (list item) :=
  match evs with
  | [] => []
  | (t, ev, f) :: r =>
    (if is_m ev then [snd (process sc0 (set_fes w f) t ev)] else []) ++ mlog sc0 (fst (process sc0 (set_fes w f) t ev)) r
  end.

Lemma process_step_local w w' t ev : Mrel m w w' ->
  (if is_m ev then [snd (process sc w t ev)] else []) = (if is_m ev then [snd (process sc' w' t ev)] else []) /\
  Mrel m (fst (process sc w t ev)) (fst (process sc' w' t ev)).
Proof.
  intros E. unfold is_m. destruct (ev_mod ev) as [i|] eqn:Em.
  - destruct (N.eqb_spec i m) as [->|Hi].
    + destruct (process_local _ _ t ev Em E) as [-> B]. auto.
    + split; [reflexivity|]. apply process_other; try exact E; rewrite Em; intros C; injection C as ->; contradiction.
  - split; [reflexivity|]. apply process_other; try exact E; rewrite Em; discriminate.
Qed.

(* the same events (times and kinds; the event sets may differ) on two worlds that agree on m *)
Theorem mlog_local : forall evs evs' w w', map fst evs = map fst evs' -> Mrel m w w' -> mlog sc w evs = mlog sc' w' evs'.
Proof.
  induction evs as [|[[t ev] f] r IH]; intros [|[[t' ev'] f'] r'] w w' Hm E; cbn [map] in Hm; try discriminate; [reflexivity|].
  cbn [fst] in Hm. injection Hm as <- <- Hm. cbn [mlog].
  destruct (process_step_local (set_fes w f) (set_fes w' f') t ev E) as [A B]. rewrite A, (IH _ _ _ Hm B). reflexivity.
Qed.

(* the world after such a sequence *)
Fixpoint mrun (sc0 : script) (w : world) (evs : list (N * fev * fes)) : world :=
  match evs with [] => w | (t, ev, f) :: r => mrun sc0 (fst (process sc0 (set_fes w f) t ev)) r end.

Lemma mrun_local : forall evs evs' w w', map fst evs = map fst evs' -> Mrel m w w' -> Mrel m (mrun sc w evs) (mrun sc' w' evs').
Proof.
  induction evs as [|[[t ev] f] r IH]; intros [|[[t' ev'] f'] r'] w w' Hm E; cbn [map] in Hm; try discriminate; [exact E|].
  cbn [fst] in Hm. injection Hm as <- <- Hm. cbn [mrun]. apply IH; [exact Hm|].
  apply (process_step_local (set_fes w f) (set_fes w' f') t ev E).
Qed.
End Sim.

(* ---- the event loop of a run is such a sequence ---- *)
(* the records of m's dispatched events in a trace, without the is_active sample that closes each record *)
Definition mrecords (m : N) (tr : list erec) : list (list item) :=
  flat_map (fun e => match e_kind e with KLoop ev => if is_m m ev then [removelast (e_items e)] else [] | _ => [] end) tr.

Lemma mrecords_app m a b : mrecords m (a ++ b) = mrecords m a ++ mrecords m b.
Proof. apply flat_map_app. Qed.

Theorem loop_is_mlog sc m : forall k w now tr wf nf trf, iter_nat k (loop_step sc) (w, now, tr) = inr (wf, nf, trf) ->
  exists evs, mrecords m trf = mrecords m tr ++ mlog m sc w evs.
Proof.
  induction k as [|k IH]; intros w now tr wf nf trf E; cbn [iter_nat] in E; [discriminate|].
  rewrite Trace.loop_step_eq in E. destruct (fes_fetch (w_fes w)) as [[[t ev] f1]|] eqn:Hf.
  - destruct (IH _ _ _ _ _ _ E) as (evs & He). exists ((t, ev, f1) :: evs). rewrite He, mrecords_app, <- app_assoc. f_equal.
    cbn [mlog mrecords flat_map]. rewrite loop_rec_snd, loop_rec_fst. cbn [e_kind e_items]. rewrite app_nil_r, removelast_last.
    destruct (is_m m ev); reflexivity.
  - injection E as <- <- <-. exists []. cbn [mlog]. rewrite app_nil_r. reflexivity.
Qed.

(* ---- a restart is the start of a fresh module ---- *)
(* single stage: the restart event on a world in which m is [fresh v false], and the start-up step -- at_sim_start(0) inside
   activate / deactivate / buf_process, as in the start-up sweep -- taken at the same time on a world in which m is the
   newly created [fresh v true]: same records, same state of m afterwards *)
Theorem restart_as_fresh_start sc sc' m t v w w' : cfg sc m = cfg sc' m -> nmods sc = nmods sc' -> c_stages (cfg sc m) = 1 ->
  w_mod w m = fresh v false -> w_mod w' m = fresh v true ->
  snd (process sc w t (EvRestart m)) = snd (around sc' t m (fun s => fst (at_sim_start (nmods sc') (cfg sc' m) t m 0 s)) w') /\
  Mrel m (fst (process sc w t (EvRestart m))) (fst (around sc' t m (fun s => fst (at_sim_start (nmods sc') (cfg sc' m) t m 0 s)) w')).
Proof.
  intros Hc Hk H1 Ew Ew'. cbn [process]. rewrite <- Hk, <- Hc.
  assert (Ef : forall s, module_restart (nmods sc) (cfg sc m) t m s =
                         fst (at_sim_start (nmods sc) (cfg sc m) t m 0 (on_w (fun w0 => set_mod w0 m (set_active (w_mod w0 m) true)) s)))
    by (intros s; apply module_restart_single, H1).
  (* agreement after activate and the setting of the active flag *)
  assert (H0 : RXe m t (on_w (fun w0 => set_mod w0 m (set_active (w_mod w0 m) true)) {| x_w := activate t m w; x_log := [] |})
                       {| x_w := activate t m w'; x_log := [] |}).
  { apply RXe_intro; [|reflexivity]. cbn [on_w x_w]. rewrite mod_same. unfold activate. rewrite Ew, Ew'. cbn [fresh timers split_due w_mod set_cur set_mod].
    rewrite !N.eqb_refl. reflexivity. }
  destruct (at_sim_start_walk (RX_walk m t t (nmods sc)) (cfg sc m) 0 _ _ H0) as [H2 _]. destruct (RXe_elim m t _ _ H2) as [A B].
  unfold Mrel. rewrite !Step.around_world, !Step.around_log, !Ef, !Step.buf_process_items, !Step.buf_process_self, !deactivate_mod_eq, A, B, Hc. auto.
Qed.

(* ... and from then on the two modules cannot be told apart: whatever events are dispatched afterwards -- the same
   times and kinds in both worlds, in whatever environments --, the records of m are the same *)
Theorem restarted_as_fresh sc sc' m t v w w' : cfg sc m = cfg sc' m -> nmods sc = nmods sc' -> c_stages (cfg sc m) = 1 ->
  w_mod w m = fresh v false -> w_mod w' m = fresh v true ->
  let wa := fst (process sc w t (EvRestart m)) in
  let wb := fst (around sc' t m (fun s => fst (at_sim_start (nmods sc') (cfg sc' m) t m 0 s)) w') in
  snd (process sc w t (EvRestart m)) = snd (around sc' t m (fun s => fst (at_sim_start (nmods sc') (cfg sc' m) t m 0 s)) w') /\
  (forall evs evs', map fst evs = map fst evs' -> mlog m sc wa evs = mlog m sc' wb evs') /\
  (forall evs evs' tend, map fst evs = map fst evs' ->
     e_items (snd (end_rec sc tend m (mrun sc wa evs))) = e_items (snd (end_rec sc' tend m (mrun sc' wb evs')))).
Proof.
  intros Hc Hk H1 Ew Ew' wa wb. destruct (restart_as_fresh_start sc sc' m t v w w' Hc Hk H1 Ew Ew') as [A B].
  split; [exact A|]. split.
  - intros evs evs' He. apply (mlog_local sc sc' m Hc Hk); assumption.
  - intros evs evs' tend He. apply (end_local sc sc' m Hc Hk), (mrun_local sc sc' m Hc Hk); assumption.
Qed.

(* a module created around trivial kept pieces is a module as first created *)
Lemma fresh_is_mst0 c v : k_inc v = 0 -> k_bud v = c_bud c -> k_nw v = None -> k_hnd v = [] -> k_catch v = c_catch c ->
  fresh v true = mst0 c.
Proof. destruct v. cbn. intros -> -> -> -> ->. reflexivity. Qed.
