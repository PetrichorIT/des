(* C13 others_as_if_silent, including the tear-down: what the other modules do in their at_sim_end does not
   depend on whether module m panicked or fell silent either -- up to the instant the simulation ends at, which the
   left-over wake-ups of a dead module may move.  A module's at_sim_end started from the same module state at two
   different instants writes the same records except for the time stamps of its call records ([rt]). *)
From Coq Require Import List NArith Bool Lia.
From DesVerif Require Import Common.Fuel Life.Model Life.Base Life.Step Life.Trace Life.Inert Life.Inv Life.Events Life.Restart
  Life.Agree Life.Quiet Life.SilentBase Life.Future Life.Silent Life.Term Life.Wake Life.Errors.
Import ListNotations.
Open Scope N_scope.

(* a record without the time stamp of a call *)
Definition rt (i : item) : item := match i with ICall m c _ a => ICall m c 0 a | _ => i end.

Section Shift.
Variables (j now now' : N).

(* two deadlines: the same delay after [now] / [now']; or, if the two instants coincide, the same deadline *)
Definition dl_rel (t t' : N) : Prop := (now = now' /\ t = t') \/ exists d, t = now + d /\ t' = now' + d.
Definition tm_rel (a b : N * task) : Prop := snd a = snd b /\ dl_rel (fst a) (fst b).
Definition sh_rel (a b : option (option N)) : Prop :=
  match a, b with
  | None, None => True
  | Some None, Some None => True
  | Some (Some t), Some (Some t') => dl_rel t t'
  | _, _ => False
  end.
(* two records: equal up to the time stamp of a call, and equal if the two instants coincide *)
Definition irel (i i' : item) : Prop := rt i = rt i' /\ (now = now' -> i = i').

Lemma irel_refl i : irel i i.
Proof. split; reflexivity. Qed.

Lemma dl_rel_lt t t' d : dl_rel t t' -> (now + d <? t) = (now' + d <? t').
Proof.
  intros [[-> ->]|(d0 & -> & ->)]; [reflexivity|].
  destruct (now + d <? now + d0) eqn:X, (now' + d <? now' + d0) eqn:Y; try reflexivity; rewrite ?N.ltb_lt, ?N.ltb_ge in *; lia.
Qed.

(* the module's state in the two runs: equal up to the deadlines set since [now] / [now'] *)
Record TS (x x' : mst) : Prop := {
  ts_active : active x = active x'; ts_inc : inc x = inc x'; ts_bud : bud x = bud x'; ts_nw : nw x = nw x';
  ts_ready : ready x = ready x'; ts_hnd : hnd x = hnd x'; ts_catch : catchf x = catchf x';
  ts_timers : Forall2 tm_rel (timers x) (timers x'); ts_shut : sh_rel (shut x) (shut x') }.

Definition RX (s s' : xs) : Prop := TS (w_mod (x_w s) j) (w_mod (x_w s') j) /\ Forall2 irel (x_log s) (x_log s').

Lemma RX_say i i' s s' : irel i i' -> RX s s' -> RX (say i s) (say i' s').
Proof. intros Hi [A B]. split; [exact A|]. cbn [say x_log]. apply Forall2_app; [exact B|constructor; [exact Hi|constructor]]. Qed.

Lemma RX_say_all l s s' : RX s s' -> RX (say_all l s) (say_all l s').
Proof.
  intros [A B]. split; [exact A|]. cbn [say_all x_log]. apply Forall2_app; [exact B|].
  induction l as [|i l IH]; constructor; [apply irel_refl|exact IH].
Qed.

Lemma irel_logs l l' : Forall2 irel l l' -> map rt l = map rt l' /\ (now = now' -> l = l').
Proof.
  induction 1 as [|i i' l l' [Hi1 Hi2] _ [IH1 IH2]]; [auto|]. cbn [map]. rewrite Hi1, IH1. split; [reflexivity|].
  intros E. rewrite (Hi2 E), (IH2 E). reflexivity.
Qed.

Lemma RX_on_w f f' s s' : RX s s' -> TS (w_mod (f (x_w s)) j) (w_mod (f' (x_w s')) j) -> RX (on_w f s) (on_w f' s').
Proof. intros [_ B] H. split; [exact H|exact B]. Qed.

Lemma TS_upd x x' y y' : TS x x' ->
  active y = active x -> active y' = active x' -> inc y = inc x -> inc y' = inc x' -> nw y = nw x -> nw y' = nw x' ->
  hnd y = hnd x -> hnd y' = hnd x' -> bud y = bud y' -> ready y = ready y' -> catchf y = catchf y' ->
  Forall2 tm_rel (timers y) (timers y') -> sh_rel (shut y) (shut y') -> TS y y'.
Proof. intros [a b c d e f g h i]. intros. constructor; congruence. Qed.

Ltac ts H := apply (TS_upd _ _ _ _ H); wsimpl; rewrite ?N.eqb_refl; wsimpl; try reflexivity; try apply H;
  try (rewrite (ts_bud _ _ H); reflexivity); try (rewrite (ts_ready _ _ H); reflexivity).

Lemma tins_rel d tk : forall l l', Forall2 tm_rel l l' -> Forall2 tm_rel (tins (now + d) tk l) (tins (now' + d) tk l').
Proof.
  assert (Hn : tm_rel (now + d, tk) (now' + d, tk)) by (split; [reflexivity|right; exists d; auto]).
  induction 1 as [|a b l l' Hab Hl IH]; cbn [tins]; [constructor; [exact Hn|constructor]|].
  destruct Hab as [Hs Hd]. rewrite <- (dl_rel_lt _ _ d Hd). destruct (now + d <? fst a).
  - constructor; [exact Hn|]. constructor; [split; assumption|exact Hl].
  - constructor; [split; assumption|exact IH].
Qed.

Lemma RX_walk k : @Walk k now now' j RX.
Proof.
  constructor; intros; try (apply RX_on_w; [exact H|]); pose proof (proj1 H) as A.
  - unfold view. rewrite (ts_active _ _ A), (ts_inc _ _ A), (ts_bud _ _ A), (ts_ready _ _ A), (ts_catch _ _ A). f_equal.
    pose proof (ts_shut _ _ A) as Hs. unfold sh_rel in Hs.
    destruct (shut (w_mod (x_w s) j)) as [[t|]|], (shut (w_mod (x_w s') j)) as [[t'|]|]; try contradiction; reflexivity.
  - apply RX_say; [apply irel_refl|exact H].
  - apply RX_say_all, H.
  - apply RX_say; [split; [reflexivity|intros E; rewrite E; reflexivity]|exact H].
  - unfold spend. ts A.
  - rewrite !buf_send_at_mod. exact A.
  - exact A.
  - unfold request. ts A; try exact I.
  - unfold request. ts A; try (right; exists d; auto).
  - ts A.
  - ts A.
  - destruct A as [a1 a2 a3 a4 a5 a6 a7 a8 a9].
    constructor; cbn [w_mod set_mod]; rewrite ?N.eqb_refl; cbn [active inc bud nw ready hnd catchf timers shut set_active];
      try assumption; reflexivity.
  - unfold spawn_all. rewrite (ts_inc _ _ A). destruct A as [a1 a2 a3 a4 a5 a6 a7 a8 a9].
    constructor; cbn [w_mod set_mod]; rewrite ?N.eqb_refl; cbn [active inc bud nw ready hnd catchf timers shut set_ready set_hnd];
      rewrite ?a5, ?a6; try assumption; reflexivity.
  - ts A. apply tins_rel, (ts_timers _ _ A).
  - exact A.
  - exact A.
Qed.

Lemma at_sim_end_RX k c s s' : RX s s' -> RX (at_sim_end k c now j s) (at_sim_end k c now' j s').
Proof. apply (at_sim_end_walk (RX_walk k)). Qed.
End Shift.

(* a module that is idle when the simulation ends: its tear-down record at two different instants *)
Lemma end_rec_retime sc now now' j w w' : w_mod w j = w_mod w' j ->
  timers (w_mod w j) = [] -> nw (w_mod w j) = None -> shut (w_mod w j) = None ->
  map rt (e_items (snd (end_rec sc now j w))) = map rt (e_items (snd (end_rec sc now' j w'))).
Proof.
  intros E Ht Hn Hs. unfold end_rec. cbn [snd e_items].
  assert (R : RX j now now' (at_sim_end (nmods sc) (cfg sc j) now j {| x_w := activate now j w; x_log := [] |})
                            (at_sim_end (nmods sc) (cfg sc j) now' j {| x_w := activate now' j w'; x_log := [] |})).
  { apply at_sim_end_RX. split; [|constructor]. cbn [x_w].
    unfold activate. rewrite <- E, Ht. cbn [split_due w_mod set_cur set_mod]. rewrite !N.eqb_refl. rewrite Hn.
    constructor; cbn [active inc bud nw ready hnd catchf timers shut set_nw set_ready set_timers nw_bump]; try reflexivity.
    - constructor.
    - rewrite Hs. exact I. }
  exact (proj1 (irel_logs now now' _ _ (proj2 R))).
Qed.

(* ---- the tear-down sweep ---- *)
Lemma end_seq_pick sc now j : forall ms w, NoDup ms -> In j ms ->
  exists w1, w_mod w1 j = w_mod w j /\ ends_of j (snd (end_seq sc now ms w)) = [snd (end_rec sc now j w1)].
Proof.
  induction ms as [|m0 ms IH]; intros w Hnd Hin; [destruct Hin|]. inversion Hnd as [|x y Hm Hnd']; subst. cbn [end_seq].
  pose proof (end_seq_recs sc now ms (fst (end_rec sc now m0 w))) as HR.
  destruct (N.eq_dec m0 j) as [->|Hne].
  - exists w. split; [reflexivity|]. destruct (recs_foreign j _ ms Hm HR) as (F & _ & _).
    destruct (end_seq sc now ms (fst (end_rec sc now j w))) as [w2 es]. cbn [snd] in *.
    unfold ends_of in *. cbn [filter]. unfold end_rec at 1. cbn [snd e_kind]. rewrite N.eqb_refl, F. reflexivity.
  - destruct Hin as [E|Hin]; [contradiction|]. destruct (IH (fst (end_rec sc now m0 w)) Hnd' Hin) as (w1 & E1 & E2).
    exists w1. split; [rewrite E1; apply end_rec_oth; auto|].
    destruct (end_seq sc now ms (fst (end_rec sc now m0 w))) as [w2 es]. cbn [snd] in *.
    unfold ends_of in *. cbn [filter]. unfold end_rec at 1. cbn [snd e_kind]. apply N.eqb_neq in Hne. rewrite Hne. exact E2.
Qed.

Lemma end_seq_times sc0 now : forall ms w e, In e (snd (end_seq sc0 now ms w)) -> e_time e = now.
Proof.
  intros ms w. apply Forall_forall, end_seq_forall. intros i w0. rewrite end_rec_snd. reflexivity.
Qed.

Section Quietened.
Variables (sc sc' : script) (m : N).
Hypothesis Q : Quietened m sc sc'.

Lemma others_events : r_ok (run_script sc) = true -> r_ok (run_script sc') = true ->
  others m (items (events_of (trace sc))) = others m (items (events_of (trace sc'))).
Proof.
  intros H1 H2. destruct (silent_final sc sc' m Q H1 H2) as (w & n & tr & w' & n' & tr' & G & G' & _ & _ & _ & O & -> & -> & _).
  unfold events_of. rewrite !filter_app, (gen_no_end sc w tr G), (gen_no_end sc' w' tr' G'), !end_seq_all_end, !app_nil_r. exact O.
Qed.

Lemma others_ends j : j <> m -> map rt (items (ends_of j (trace sc))) = map rt (items (ends_of j (trace sc'))).
Proof.
  intros Hj.
  destruct (silent_final sc sc' m Q (run_terminates sc) (run_terminates sc'))
    as (w & n & tr & w' & n' & tr' & G & G' & F & _ & R & _ & Et & Et' & HW & _).
  rewrite Et, Et', !ends_of_app, (gen_no_ends sc j w tr G), (gen_no_ends sc' j w' tr' G'), (q_mods _ _ _ Q). cbn [app].
  destruct (in_dec N.eq_dec j (mods sc)) as [Hin|Hnin].
  - destruct (end_seq_pick sc n j (mods sc) w (mods_nodup sc) Hin) as (w1 & E1 & ->).
    destruct (end_seq_pick sc' n' j (mods sc) w' (mods_nodup sc) Hin) as (w1' & E1' & ->).
    cbn [items flat_map]. rewrite !app_nil_r.
    assert (Ew : w_mod w j = w_mod w' j) by (destruct R as [HS|HD]; [apply (sm_mod _ _ HS)|apply (dd_oth _ _ _ HD j Hj)]).
    destruct (idle_at_end sc w tr G F j) as [Ht Hn].
    assert (Ec : end_rec sc' n' j w1' = end_rec sc n' j w1').
    { unfold end_rec. rewrite (q_nmods _ _ _ Q), (q_cfg _ _ _ Q). apply N.eqb_neq in Hj. rewrite Hj. reflexivity. }
    rewrite Ec. apply end_rec_retime; rewrite ?E1; [rewrite E1'; exact Ew|exact Ht|exact Hn|exact (fw_shut _ _ HW j)].
  - destruct (recs_foreign j _ (mods sc) Hnin (end_seq_recs sc n (mods sc) w)) as (-> & _ & _).
    destruct (recs_foreign j _ (mods sc) Hnin (end_seq_recs sc' n' (mods sc) w')) as (-> & _ & _). reflexivity.
Qed.

Lemma ends_no_later e e' : In e (trace sc) -> In e' (trace sc') -> is_end e = true -> is_end e' = true -> e_time e' <= e_time e.
Proof.
  intros Hin Hin' He He'.
  destruct (silent_final sc sc' m Q (run_terminates sc) (run_terminates sc'))
    as (w & n & tr & w' & n' & tr' & G & G' & F & F' & R & _ & Et & Et' & HW & HW').
  assert (Hn : forall sc0 w0 tr0 n0 e0, Gen sc0 w0 tr0 -> In e0 (tr0 ++ snd (end_seq sc0 n0 (mods sc0) w0)) -> is_end e0 = true -> e_time e0 = n0).
  { intros sc0 w0 tr0 n0 e0 G0 H0 E0. apply in_app_or in H0. destruct H0 as [H0|H0]; [|eapply end_seq_times; exact H0].
    exfalso. pose proof (gen_no_end sc0 w0 tr0 G0) as Hne. rewrite <- Hne in H0. apply filter_In in H0. destruct H0 as [_ H0]. rewrite E0 in H0. discriminate. }
  rewrite Et in Hin. rewrite Et' in Hin'. rewrite (Hn _ _ _ _ _ G Hin He), (Hn _ _ _ _ _ G' Hin' He').
  rewrite <- (end_time_L n w HW F), <- (end_time_L n' w' HW' F').
  destruct R as [HS|HD]; [rewrite (sm_fes _ _ HS); apply N.le_refl|apply (dd_L _ _ _ HD)].
Qed.
End Quietened.

Section Final.
Variables (sc : script) (m : N).
Let sc' := quieten m sc.

(* the records of the other modules during start-up and event dispatch (Life/Silent.v) ... *)
Theorem others_as_if_silent :
  r_ok (run_script sc) = true -> r_ok (run_script sc') = true ->
  others m (items (events_of (trace sc))) = others m (items (events_of (trace sc'))).
Proof. apply others_events, quieten_spec. Qed.

(* ... and their tear-down records: the same up to the time stamps of the calls *)
Theorem others_teardown j : j <> m ->
  map rt (items (ends_of j (trace sc))) = map rt (items (ends_of j (trace sc'))).
Proof. apply others_ends, quieten_spec. Qed.
(* ... and the run in which m falls silent does not end later: every tear-down record of it is stamped no later than every
   tear-down record of the run in which m panics *)
Theorem silent_ends_no_later e e' : In e (trace sc) -> In e' (trace sc') -> is_end e = true -> is_end e' = true ->
  e_time e' <= e_time e.
Proof. apply (ends_no_later sc sc' m), quieten_spec. Qed.
End Final.
