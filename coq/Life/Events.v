(* C09 handler_runs_only_if_active, old_incarnation_silent, reset_once_per_shutdown: the
   invariant of Life/Inv.v lifted from callbacks to events and to the whole trace. *)
From Coq Require Import List NArith Bool Lia PeanoNat.
From DesVerif Require Import Life.Model Life.Base Life.Step Life.Trace Life.Frame Life.Inert Life.Inv.
Import ListNotations.
Open Scope N_scope.

(* every live task of m was spawned by m's current incarnation; no request is pending *)
Definition TI (m : N) (w : world) : Prop :=
  Forall (fun tk => tk_inc tk = inc (w_mod w m)) (ready (w_mod w m)) /\
  Forall (fun p => tk_inc (snd p) = inc (w_mod w m)) (timers (w_mod w m)) /\
  shut (w_mod w m) = None.

Lemma TI_ext m w w' : w_mod w' m = w_mod w m -> TI m w -> TI m w'.
Proof. intros E. unfold TI. rewrite E. auto. Qed.

Definition count_resets (m : N) (l : list item) : nat := length (filter (is_reset m) l).

Lemma count_resets_app m a b : count_resets m (a ++ b) = (count_resets m a + count_resets m b)%nat.
Proof. unfold count_resets. rewrite filter_app, app_length. reflexivity. Qed.

Lemma count_resets_none m l : existsb (is_reset m) l = false -> count_resets m l = 0%nat.
Proof.
  unfold count_resets. induction l as [|i l IH]; cbn [existsb filter]; [reflexivity|].
  intros H. apply orb_false_iff in H. destruct H as [H1 H2]. rewrite H1. apply IH, H2.
Qed.

Lemma split_due_forall (P : task -> Prop) now : forall l, Forall (fun p => P (snd p)) l ->
  Forall P (fst (split_due now l)) /\ Forall (fun p => P (snd p)) (snd (split_due now l)).
Proof.
  induction l as [|x r IH]; intros H; cbn [split_due]; [split; constructor|].
  inversion H; subst. destruct (fst x <=? now); [|split; [constructor|exact H]].
  destruct (IH H3) as [H4 H5]. destruct (split_due now r) as [d q]. cbn [fst snd] in *. split; [constructor|]; assumption.
Qed.

Lemma activate_CInv now m w : TI m w -> CInv false now m (inc (w_mod w m)) {| x_w := activate now m w; x_log := [] |}.
Proof.
  intros (Hr & Ht & Hs). unfold activate.
  destruct (split_due_forall (fun tk => tk_inc tk = inc (w_mod w m)) now _ Ht) as [H1 H2].
  destruct (split_due now (timers (w_mod w m))) as [d q]. cbn [fst snd] in *.
  constructor; cbn [x_w x_log]; wsimpl; rewrite ?N.eqb_refl; wsimpl; try reflexivity.
  - apply Forall_app. auto.
  - exact H2.
  - constructor.
  - discriminate.
  - exact Hs.
Qed.

Lemma sys_tag j c m x : Forall (tag_ok j) (cancelled m c x).
Proof.
  apply Forall_forall. intros i Hi. destruct (cancelled_in _ _ _ _ Hi) as [(id & ->)|(id & ->)]; exact I.
Qed.

Lemma cancelled_no_reset m' m c x : existsb (is_reset m') (cancelled m c x) = false.
Proof.
  apply not_true_is_false. intros H. apply existsb_exists in H. destruct H as (i & Hi & Hr).
  destruct (cancelled_in _ _ _ _ Hi) as [(id & ->)|(id & ->)]; discriminate.
Qed.

Lemma cancelled_no_req m c x : existsb is_req (cancelled m c x) = false.
Proof.
  apply not_true_is_false. intros H. apply existsb_exists in H. destruct H as (i & Hi & Hr).
  destruct (cancelled_in _ _ _ _ Hi) as [(id & ->)|(id & ->)]; discriminate.
Qed.

(* what one module event does, given that its callback keeps the invariant *)
Lemma around_inv sc now m f w : TI m w -> CbOK m f ->
  (forall s, CInv false now m (inc (w_mod w m)) s -> x_log s = [] -> CInv false now m (inc (w_mod w m)) (f s)) ->
  let w' := fst (around sc now m f w) in let l := snd (around sc now m f w) in
  TI m w' /\ Forall (tag_ok (inc (w_mod w m))) l /\
  inc (w_mod w' m) = inc (w_mod w m) + N.of_nat (count_resets m l) /\
  count_resets m l = (if existsb is_req l then 1 else 0)%nat.
Proof.
  intros HT Hok Hf. cbn zeta.
  destruct (Hf _ (activate_CInv now m w HT) eq_refl) as [ci cr ct cg _ csh].
  assert (Hnr : count_resets m (x_log (f {| x_w := activate now m w; x_log := [] |})) = 0%nat)
    by (apply count_resets_none, (usr_no_reset m m), cb_log, Hok).
  unfold TI. rewrite around_world, around_log, buf_process_items, !buf_process_self.
  set (s := f {| x_w := activate now m w; x_log := [] |}) in *.
  destruct (deactivate_mod m (x_w s)) as (n & ->). cbn [shut inc set_nw].
  pose proof (shut_of_req now (x_log s)) as cq. rewrite <- csh in cq.
  destruct (shut (w_mod (x_w s) m)) as [r|] eqn:Es; cbn [some_b ready timers shut inc set_nw] in *.
  - assert (Hrp : count_resets m (rpanic (cfg sc m) m) = 0%nat /\ Forall (tag_ok (inc (w_mod w m))) (rpanic (cfg sc m) m))
      by (unfold rpanic; destruct (c_rsend (cfg sc m)); repeat split; repeat constructor).
    destruct Hrp as [Hr1 Hr3].
    rewrite !count_resets_app, Hnr, (count_resets_none m _ (cancelled_no_reset m m _ _)), Hr1.
    unfold count_resets at 1 2. cbn [filter is_reset]. rewrite N.eqb_refl. cbn [length].
    repeat split; try constructor.
    + apply Forall_app. split; [exact cg|]. apply Forall_app. split; [apply sys_tag|constructor; [exact I|exact Hr3]].
    + rewrite ci. lia.
    + rewrite existsb_app, <- cq. reflexivity.
  - rewrite app_nil_r, Hnr, <- cq, ci, N.add_0_r. repeat split; assumption.
Qed.

(* other modules: untouched, and no reset record of theirs *)
Lemma around_other sc now m f w i : CbOK m f -> i <> m ->
  w_mod (fst (around sc now m f w)) i = w_mod w i /\ count_resets i (snd (around sc now m f w)) = 0%nat.
Proof.
  intros Hok Hi. split; [apply around_oth; assumption|].
  apply count_resets_none, (own_no_reset m i); [apply around_own, Hok|auto].
Qed.

(* ---- the world invariant and the trace ---- *)
Definition items (tr : list erec) : list item := flat_map e_items tr.

Lemma items_snoc tr e : items (tr ++ [e]) = items tr ++ e_items e.
Proof. unfold items. rewrite flat_map_app. cbn [flat_map]. rewrite app_nil_r. reflexivity. Qed.

(* [WI w tr], the invariant of the generated worlds: every module satisfies [TI] and its incarnation counter is the
   number of its reset records so far.  [StepOK w e], what one step from w guarantees of its record e; its three clauses
   are C09 old_incarnation_silent, reset_once_per_shutdown and handler_runs_only_if_active for that record. *)
Definition WI (w : world) (tr : list erec) : Prop :=
  forall m, TI m w /\ inc (w_mod w m) = N.of_nat (count_resets m (items tr)).

Definition StepOK (w : world) (e : erec) : Prop :=
  (forall m c t a, In (ICall m c t a) (e_items e) ->
     match c with CbTask _ j | CbTimer _ j => j = inc (w_mod w m) | _ => True end) /\
  (forall m, count_resets m (e_items e) =
             (if existsb (fun i => is_req i && of_mod m i) (e_items e) then 1 else 0)%nat) /\
  (is_end e = false -> act_st false (e_items e) <> None).

Lemma own_req m1 m l : Own m1 l -> existsb (fun i => is_req i && of_mod m i) l = if m1 =? m then existsb is_req l else false.
Proof.
  intros Ho. induction l as [|i l IH]; cbn [existsb]; [destruct (m1 =? m); reflexivity|].
  inversion Ho; subst. rewrite (IH H2). unfold of_mod at 1. rewrite H1.
  destruct (m1 =? m); [rewrite andb_true_r; reflexivity|rewrite andb_false_r; reflexivity].
Qed.

Lemma own_tags m1 j l : Own m1 l -> Forall (tag_ok j) l ->
  forall m c t a, In (ICall m c t a) l -> m = m1 /\ match c with CbTask _ j' | CbTimer _ j' => j' = j | _ => True end.
Proof.
  intros Ho Ht m c t a Hin. unfold Own in Ho. rewrite Forall_forall in Ho, Ht.
  specialize (Ho _ Hin). specialize (Ht _ Hin). cbn [item_mod] in Ho. injection Ho as ->.
  split; [reflexivity|]. destruct c; try exact I; exact Ht.
Qed.

Lemma act_st_sample p l t k : act_st p (l ++ [ISample t k]) <> None <-> act_st p l <> None.
Proof. rewrite act_st_app. destruct (act_st p l); cbn [act_st]; split; intros H; try exact H; discriminate. Qed.

Lemma act_st_sys_tail p l c m x t i : act_st p l <> None -> act_st p (l ++ cancelled m c x ++ [IReset m t i] ++ rpanic c m) <> None.
Proof.
  rewrite act_st_app. destruct (act_st p l) as [q|]; [intros _|intros H; exact H].
  rewrite act_st_app. assert (E : act_st q (cancelled m c x) = Some q).
  { pose proof (cancelled_in m c x) as Hin. induction (cancelled m c x) as [|i0 l0 IH]; [reflexivity|].
    destruct (Hin i0 (or_introl eq_refl)) as [(id & ->)|(id & ->)]; cbn [act_st]; apply IH; intros i1 H1; apply Hin; right; exact H1. }
  rewrite E. unfold rpanic. destruct (c_rsend c); discriminate.
Qed.

(* the items of an event split into the callback's log and the runtime's records *)
Lemma around_scan sc now m f w : scan_ok (f {| x_w := activate now m w; x_log := [] |}) ->
  act_st false (snd (around sc now m f w)) <> None.
Proof.
  intros Hs. rewrite around_log, buf_process_items. destruct (shut _).
  - apply act_st_sys_tail, Hs.
  - rewrite app_nil_r. exact Hs.
Qed.

Lemma start_cb_CInv sc stage m j s : CInv false 0 m j s -> x_log s = [] ->
  CInv false 0 m j (start_cb sc stage m s) /\ (active (w_mod (x_w s) m) = true -> scan_ok (start_cb sc stage m s)).
Proof.
  intros Hc Hl. split; [apply at_sim_start_CInv, Hc|]. intros Ha.
  apply (CInv_scan 0 m j), (at_sim_start_CInv true), CInv_strengthen; assumption.
Qed.

Lemma loop_cb_CInv sc t ev m f j s : callback sc m t (KLoop ev) f -> CInv false t m j s -> x_log s = [] ->
  CInv false t m j (f s) /\ scan_ok (f s).
Proof. intros H. inversion H; subst; [apply handle_message_CInv|apply async_wakeup_CInv|apply module_restart_CInv]. Qed.

Lemma around_step sc w tr now m1 f knd : WI w tr -> CbOK m1 f ->
  (forall s, CInv false now m1 (inc (w_mod w m1)) s -> x_log s = [] -> CInv false now m1 (inc (w_mod w m1)) (f s)) ->
  scan_ok (f {| x_w := activate now m1 w; x_log := [] |}) ->
  let e1 := {| e_kind := knd; e_time := now; e_items := snd (around sc now m1 f w) |} in
  StepOK w e1 /\ WI (fst (around sc now m1 f w)) (tr ++ [e1]).
Proof.
  intros HW Hok Hf Hsc e1. unfold StepOK. cbn [e_items e1].
  destruct (HW m1) as [HT1 Hi1].
  destruct (around_inv sc now m1 f w HT1 Hok Hf) as (T1 & Tg & Hinc & Hcnt).
  pose proof (around_own sc now m1 f w Hok) as Ho.
  pose proof (around_scan sc now m1 f w Hsc) as Hscan.
  set (l := snd (around sc now m1 f w)) in *. set (w1 := fst (around sc now m1 f w)) in *.
  split; [split; [|split; [|intros _; exact Hscan]]|].
  - intros m c t a Hin. destruct (own_tags m1 _ l Ho Tg m c t a Hin) as [-> H]. exact H.
  - intros m. rewrite (own_req m1 m l Ho).
    destruct (N.eq_dec m1 m) as [->|Hn]; [rewrite N.eqb_refl; exact Hcnt|].
    apply N.eqb_neq in Hn. rewrite Hn. apply count_resets_none, (own_no_reset m1 m); [exact Ho|apply N.eqb_neq, Hn].
  - intros m. rewrite items_snoc. cbn [e_items e1]. rewrite count_resets_app.
    destruct (N.eq_dec m m1) as [->|Hn].
    + split; [exact T1|]. rewrite Hinc, Hi1. lia.
    + destruct (around_other sc now m1 f w m Hok Hn) as [Em Ec]. destruct (HW m) as [HTm Him].
      split; [eapply TI_ext; [exact Em|exact HTm]|]. fold l in Ec. fold w1 in Em. rewrite Em, Ec, Him. lia.
Qed.

Lemma sample_step w w' tr knd tm l t k :
  StepOK w {| e_kind := knd; e_time := tm; e_items := l |} /\ WI w' (tr ++ [{| e_kind := knd; e_time := tm; e_items := l |}]) ->
  StepOK w {| e_kind := knd; e_time := tm; e_items := l ++ [ISample t k] |} /\
  WI w' (tr ++ [{| e_kind := knd; e_time := tm; e_items := l ++ [ISample t k] |}]).
Proof.
  unfold StepOK, WI. cbn [e_items]. intros [(A & B & C) D]. split; [split; [|split]|].
  - intros m c t' a Hin. apply in_app_or in Hin. destruct Hin as [Hin|[Hin|[]]]; [apply (A m c t' a Hin)|discriminate].
  - intros m. rewrite count_resets_app, existsb_app, Nat.add_0_r, orb_false_r. apply B.
  - intros He. apply act_st_sample, C, He.
  - intros m. specialize (D m). rewrite items_snoc in *. cbn [e_items] in *. rewrite app_assoc, count_resets_app, Nat.add_0_r. exact D.
Qed.

Lemma idle_step w w1 tr e t k : e_items e = [ISample t k] -> w_mod w1 = w_mod w -> WI w tr -> StepOK w e /\ WI w1 (tr ++ [e]).
Proof.
  intros Ei Em HW. unfold StepOK. rewrite Ei. split; [split; [|split]|].
  - intros m c t' a [Hin|[]]. discriminate.
  - intros m. reflexivity.
  - discriminate.
  - intros m. rewrite items_snoc, Ei, count_resets_app. cbn. rewrite Nat.add_0_r.
    destruct (HW m) as [HT Hi]. rewrite Em. split; [eapply TI_ext; [|exact HT]; rewrite Em; reflexivity|exact Hi].
Qed.

Lemma step_inv sc w tr e w' : WI w tr -> step sc w e w' -> StepOK w e /\ WI w' (tr ++ [e]).
Proof.
  intros HW Hs. revert HW. pattern w, e, w'. revert w e w' Hs. apply step_cases.
  - intros stage m w _ Hactive HW.
    pose proof (start_cb_CInv sc stage m _ _ (activate_CInv 0 m w (proj1 (HW m))) eq_refl) as [_ Hsc].
    apply around_step; [exact HW|apply start_cb_ok|intros s Hc Hl; apply start_cb_CInv; assumption|].
    apply Hsc. cbn [x_w]. rewrite activate_active. exact Hactive.
  - intros w HW. apply (idle_step w w tr _ 0 (mask sc w)); auto.
  - intros w t ev f m cb _ E HW. assert (HW' : WI (set_fes w f) tr) by exact HW.
    apply (sample_step (set_fes w f)), around_step; [exact HW'|apply (callback_ok _ _ _ _ _ E)|intros s Hc Hl; apply (loop_cb_CInv sc t ev m cb _ s E Hc Hl)|].
    apply (loop_cb_CInv sc t ev m cb _ _ E (activate_CInv t m (set_fes w f) (proj1 (HW' m))) eq_refl).
  - intros w t m far x f w1 _ Hw HW. apply (idle_step w w1 tr _ t (mask sc w1)); [reflexivity| |exact HW].
    destruct Hw as [->|(dst & ->)]; reflexivity.
Qed.

Lemma init_WI sc : WI (init_world sc) [].
Proof. intros m. unfold TI. cbn. repeat split; constructor. Qed.

Lemma gen_WI sc : forall w tr, Gen sc w tr -> WI w tr.
Proof.
  apply (gen_inv sc WI); [apply init_WI|]. intros w tr e w' _ HW Hs. apply (step_inv sc w tr e w' HW Hs).
Qed.

(* ---- tear-down records ---- *)
Lemma end_rec_inv sc now m w : TI m w ->
  let e := snd (end_rec sc now m w) in
  (forall m' c t a, In (ICall m' c t a) (e_items e) ->
     m' = m /\ match c with CbTask _ j | CbTimer _ j => j = inc (w_mod w m) | _ => True end) /\
  (forall m', count_resets m' (e_items e) = 0%nat).
Proof.
  intros HT. pose proof (at_sim_end_CInv (nmods sc) (cfg sc m) now m _ _ (activate_CInv now m w HT)) as HC. split.
  - apply own_tags; [apply end_rec_own|]. rewrite end_rec_snd. apply (ci_tags _ _ _ _ _ HC).
  - intros m'. apply count_resets_none, (usr_no_reset m m'), end_rec_usr.
Qed.

Lemma end_seq_no_resets sc now m : forall ms w, count_resets m (items (snd (end_seq sc now ms w))) = 0%nat.
Proof.
  intros ms w.
  assert (H : Forall (fun e => count_resets m (e_items e) = 0%nat) (snd (end_seq sc now ms w)))
    by (apply end_seq_forall; intros m1 w1; apply count_resets_none, (usr_no_reset m1 m), end_rec_usr).
  induction H as [|e es He _ IH]; [reflexivity|]. cbn [items flat_map]. rewrite count_resets_app, He. exact IH.
Qed.

(* ---- C09 old_incarnation_silent ----
   Every step of a task (its first poll or the completion of one of its timers) is logged
   with the incarnation that spawned the task, and that is the module's current incarnation:
   the number of resets of the module so far.  A task or timer created before a shutdown
   (a reset) therefore never acts after it. *)
Theorem old_incarnation_silent sc pre e post m c t a :
  trace sc = pre ++ e :: post -> In (ICall m c t a) (e_items e) ->
  match c with
  | CbTask _ j | CbTimer _ j => j = N.of_nat (count_resets m (items pre))
  | _ => True
  end.
Proof.
  intros E Hin. destruct (trace_cases sc pre e post E) as [(w1 & w2 & HG & Hs)|(w & tr & now & ms1 & m1 & ms2 & HG & _ & Ems & -> & ->)].
  - pose proof (gen_WI sc w1 pre HG) as HW. destruct (step_inv sc w1 pre e w2 HW Hs) as [(A & _ & _) _].
    specialize (A m c t a Hin). destruct (HW m) as [_ Hi]. destruct c; try exact I; rewrite A; exact Hi.
  - pose proof (gen_WI sc w tr HG) as HW. destruct (HW m1) as [HT Hi].
    assert (HT' : TI m1 (fst (end_seq sc now ms1 w))) by (eapply TI_ext; [apply (end_seq_mod sc now ms1 m1 ms2 w Ems)|exact HT]).
    destruct (end_rec_inv sc now m1 _ HT') as [A _]. destruct (A m c t a Hin) as [-> H].
    unfold items. rewrite flat_map_app. fold (items tr). fold (items (snd (end_seq sc now ms1 w))).
    rewrite count_resets_app, end_seq_no_resets, Nat.add_0_r, <- Hi.
    rewrite (end_seq_mod sc now ms1 m1 ms2 w Ems) in H. exact H.
Qed.

(* ---- C09 reset_once_per_shutdown ----
   A record of the start-up phase or of a dispatched event holds exactly one reset of module m
   if it holds a shutdown request of m (shutdown(), shutdow_and_restart_in(), quiet), and none
   otherwise; tear-down records hold none. *)
Definition requests (m : N) (e : erec) : bool := existsb (fun i => is_req i && of_mod m i) (e_items e).

Theorem reset_once_per_shutdown sc e m : In e (trace sc) ->
  count_resets m (e_items e) = (if requests m e && negb (is_end e) then 1 else 0)%nat.
Proof.
  intros Hin. apply in_split in Hin. destruct Hin as (pre & post & E).
  destruct (trace_cases sc pre e post E) as [(w1 & w2 & HG & Hs)|(w & tr & now & ms1 & m1 & ms2 & HG & _ & Ems & -> & ->)].
  - pose proof (gen_WI sc w1 pre HG) as HW. destruct (step_inv sc w1 pre e w2 HW Hs) as [(_ & B & _) _].
    rewrite B. unfold requests.
    assert (Hk : is_end e = false) by (destruct Hs; reflexivity). rewrite Hk, andb_true_r. reflexivity.
  - pose proof (gen_WI sc w tr HG) as HW. destruct (HW m1) as [HT Hi].
    assert (HT' : TI m1 (fst (end_seq sc now ms1 w))) by (eapply TI_ext; [apply (end_seq_mod sc now ms1 m1 ms2 w Ems)|exact HT]).
    destruct (end_rec_inv sc now m1 _ HT') as [_ B]. rewrite B.
    rewrite end_rec_snd. cbn [is_end e_kind negb]. rewrite andb_false_r. reflexivity.
Qed.

(* ---- C09 handler_runs_only_if_active ----
   In every record of the start-up sweep and in every dispatched event, every callback record
   (start-up stage, message handler, task step, timer completion) carries is_active = true, the only exception
   being records that follow a panic of the module's callback within the same event
   (Harness::catch has deactivated the module by then; C13). *)
Theorem handler_runs_only_if_active sc e : In e (trace sc) -> is_end e = false ->
  act_st false (e_items e) <> None.
Proof.
  intros Hin Hk. apply in_split in Hin. destruct Hin as (pre & post & E).
  destruct (trace_cases sc pre e post E) as [(w1 & w2 & HG & Hs)|(w & tr & now & ms1 & m1 & ms2 & HG & _ & Ems & -> & ->)].
  - pose proof (gen_WI sc w1 pre HG) as HW. destruct (step_inv sc w1 pre e w2 HW Hs) as [(_ & _ & C) _]. apply C, Hk.
  - discriminate.
Qed.

(* scripts without panics: every such record carries is_active = true *)
Lemma act_st_no_panic l : (forall m c, ~ In (IPanic m 0 c) l) -> act_st false l <> None ->
  forall m c t a, In (ICall m c t a) l -> a = true.
Proof.
  induction l as [|i l IH]; intros Hn Hs m c t a Hin; [destruct Hin|].
  assert (Hn' : forall m c, ~ In (IPanic m 0 c) l) by (intros m0 c1 C; apply (Hn m0 c1); right; exact C).
  destruct Hin as [->|Hin].
  - cbn [act_st] in Hs. destruct a; [reflexivity|]. cbn [orb] in Hs. contradiction.
  - destruct i as [m0 c0 t0 a0| | | | | |m0 who cc| | | | | | |]; cbn [act_st] in Hs; try (eapply IH; eauto; fail).
    + destruct a0; cbn [orb] in Hs; [eapply IH; eauto|contradiction].
    + destruct who; [exfalso; apply (Hn m0 cc); left; reflexivity|eapply IH; eauto].
Qed.
