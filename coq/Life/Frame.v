(* What the gate walk depends on, when a delivered message reaches its handler (C09 delivery_independent_of_m),
   and that every step leaves the context slot empty and the event buffer drained (C13 globals_released). *)
From Coq Require Import List NArith Bool Lia.
From DesVerif Require Import Life.Model Life.Base Life.Step Life.Trace.
Import ListNotations.
Open Scope N_scope.

(* ---- whether a message reaches its receiver depends only on the owners of the gates of its
   own chain (the sender's gate, and the transit gate for "far") ... ---- *)
Theorem walk_depends_on_chain k w1 w2 m far :
  active (w_mod w1 m) = active (w_mod w2 m) ->
  (far = true -> active (w_mod w1 (next k m)) = active (w_mod w2 (next k m))) ->
  walk k w1 m far = walk k w2 m far.
Proof.
  intros H1 H2. unfold walk. rewrite H1. destruct (active (w_mod w2 m)); [|reflexivity].
  destruct far; [|reflexivity]. rewrite (H2 eq_refl). reflexivity.
Qed.

Corollary walk_ignores_others k w m far i x :
  i <> m -> (far = true -> i <> next k m) -> walk k (set_mod w i x) m far = walk k w m far.
Proof.
  intros H1 H2. apply walk_depends_on_chain; [rewrite mod_other; auto|].
  intros F. rewrite mod_other; [reflexivity|]. intros E. apply (H2 F). symmetry. exact E.
Qed.

(* the walk itself: dropped iff one of those owners is inactive *)
Theorem walk_spec k w m far :
  walk k w m far =
  if active (w_mod w m) && (negb far || active (w_mod w (next k m)))
  then Some (if far then next k (next k m) else next k m) else None.
Proof. unfold walk. destruct (active (w_mod w m)), far; cbn [andb orb negb]; try reflexivity; destruct (active (w_mod w (next k m))); reflexivity. Qed.

(* ... and on the receiver's own active flag: handle_message runs iff the receiver is active *)
Lemma activate_active now m w : active (w_mod (activate now m w) m) = active (w_mod w m).
Proof. apply (activate_field active). reflexivity. Qed.

Theorem deliver_iff_active sc w t m x :
  (active (w_mod w m) = true ->
     exists l, snd (process sc w t (EvDeliver m x)) = ICall m (CbMsg x) t true :: l) /\
  (active (w_mod w m) = false ->
     forall c t' a, ~ In (ICall m c t' a) (snd (process sc w t (EvDeliver m x)))).
Proof.
  cbn [process]. rewrite around_log.
  split; intros H; rewrite <- (activate_active t m w) in H.
  - destruct (handle_message_log (nmods sc) (cfg sc m) t m x {| x_w := activate t m w; x_log := [] |} H) as (l & ->).
    eexists. reflexivity.
  - rewrite handle_message_inactive by exact H. cbn [x_log x_w app]. intros c t' a Hin.
    pose proof (buf_process_sys (cfg sc m) t m (deactivate m (activate t m w))) as Hs.
    rewrite Forall_forall in Hs. apply Hs in Hin. discriminate.
Qed.

(* ---- C13 globals_released: after start-up step and after every dispatched event -- panicking
   ones included -- the module-context slot is empty and the event buffer is drained ---- *)
Theorem globals_released_gen sc : forall w tr, Gen sc w tr -> w_cur w = None /\ w_buf w = [].
Proof.
  apply (gen_inv sc (fun w _ => w_cur w = None /\ w_buf w = [])); [split; reflexivity|].
  intros w tr e w' _ H Hs. revert H. pattern w, e, w'. revert w e w' Hs. apply step_cases.
  - intros. apply around_glob.
  - auto.
  - intros. apply around_glob.
  - intros w t m far x f w1 _ [->|(dst & ->)]; auto.
Qed.

(* tear-down: the context slot is released after every module's at_sim_end as well (the buffer
   is not drained any more: "no buf_process since no further events will be processed") *)
Lemma end_seq_cur sc now : forall ms w, w_cur w = None -> w_cur (fst (end_seq sc now ms w)) = None.
Proof.
  induction ms as [|m ms IH]; intros w H; [exact H|]. rewrite end_seq_fst. apply IH. rewrite end_rec_fst. reflexivity.
Qed.
