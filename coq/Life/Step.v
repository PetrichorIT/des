(* One event of the model: what activate / the callbacks / deactivate / buf_process touch.
   Frame lemmas: an event of module m changes no other module; the global slots are released
   after every event; consuming a shutdown request (C09 shutdown_frame).  Also here: [Closed2], the second level of
   the ladder of Life/Walk.v -- a preorder that holds across exec + catch and across a yield holds across every
   callback of ModuleRef; the frame facts of the callbacks (the *_ok lemmas) are its first instance. *)
From Coq Require Import List NArith Bool Lia.
From DesVerif Require Import Life.Model Life.Base.
Import ListNotations.
Open Scope N_scope.

(* [Fo] is [Fr] of Base.v without fr_err and fr_active: those two hold across Harness::exec, but Harness::catch
   deactivates the module and records the PanicError, module_restart sets the flag, the join section adds errors.
   ([FrP], also Base.v, is [Fr] plus "tasks, timers and handles untouched": the callback's own program only.) *)
Record Fo (m : N) (w w' : world) : Prop := {
  fo_oth : forall i, i <> m -> w_mod w' i = w_mod w i;
  fo_fes : w_fes w' = w_fes w;
  fo_cur : w_cur w' = w_cur w;
  fo_inc : inc (w_mod w' m) = inc (w_mod w m);
  fo_nw : nw (w_mod w' m) = nw (w_mod w m);
  fo_buf : exists l, w_buf w' = w_buf w ++ l /\ Forall msg_ev l }.

Lemma Fo_refl m w : Fo m w w.
Proof. constructor; try reflexivity. apply ext_nil. Qed.

Lemma Fo_trans m w1 w2 w3 : Fo m w1 w2 -> Fo m w2 w3 -> Fo m w1 w3.
Proof.
  intros [a1 a2 a3 a4 a5 (la & a6 & a7)] [b1 b2 b3 b4 b5 (lb & b6 & b7)]. constructor; try congruence.
  - intros i Hi. rewrite b1, a1; auto.
  - exists (la ++ lb). rewrite b6, a6, app_assoc. split; [reflexivity|apply Forall_app; auto].
Qed.

Lemma Fr_Fo m w w' : Fr m w w' -> Fo m w w'.
Proof. intros [a1 a2 a3 a4 a5 a6 a7 a8]. constructor; auto. Qed.

Lemma Fo_set_active m w a : Fo m w (set_mod w m (set_active (w_mod w m) a)).
Proof.
  constructor; try reflexivity; rewrite ?mod_same; try reflexivity.
  - intros i Hi. apply mod_other, Hi.
  - apply ext_nil.
Qed.

Lemma Fo_set_err m w e : Fo m w (set_err w e).
Proof. constructor; try reflexivity. apply ext_nil. Qed.

Lemma catch_Fo c m p w : Fo m w (fst (catch c m p w)).
Proof.
  unfold catch. destruct p; cbn [fst]; [|apply Fo_refl].
  destruct (catchf (w_mod w m)); cbn [fst]; [apply Fo_set_active|].
  eapply Fo_trans; [apply Fo_set_active|apply Fo_set_err].
Qed.

Lemma exec_Fo k now m c sp p s : Fo m (x_w s) (x_w (fst (exec k now m c sp p s))).
Proof. apply Fr_Fo, exec_Fr. Qed.

(* callbacks as state transformers: frame + log extension *)
Definition CbOK (m : N) (f : xs -> xs) : Prop := forall s, Fo m (x_w s) (x_w (f s)) /\ LogExt m s (f s).

Lemma fst_pair {A B} (a : A) (b : B) : fst (a, b) = a.
Proof. reflexivity. Qed.

Lemma snd_pair {A B} (a : A) (b : B) : snd (a, b) = b.
Proof. reflexivity. Qed.

(* at_sim_start is exec followed by catch; only stage 0 spawns tasks and runs a program *)
Definition start_prog (c : modcfg) (stage i : N) : list (bool * prog) * prog :=
  if stage =? 0 then (c_spawn c, pick_start c i) else ([], []).

Lemma at_sim_start_eq k c now m stage s :
  at_sim_start k c now m stage s =
  let sp := start_prog c stage (inc (w_mod (x_w s) m)) in
  let e := exec k now m (CbStart stage) (fst sp) (snd sp) s in
  ({| x_w := fst (catch c m (snd e) (x_w (fst e))); x_log := x_log (fst e) |}, snd (catch c m (snd e) (x_w (fst e)))).
Proof.
  unfold at_sim_start, start_prog. destruct (stage =? 0); cbn [fst snd];
    (destruct (exec k now m (CbStart stage) _ _ s) as [s1 p]; cbn [fst snd]; destruct (catch c m p (x_w s1)); reflexivity).
Qed.

Lemma restart_fold_rel k c now m (R : xs -> xs -> Prop) :
  (forall s, R s s) -> (forall s1 s2 s3, R s1 s2 -> R s2 s3 -> R s1 s3) ->
  (forall stage s, R s (fst (at_sim_start k c now m stage s))) ->
  forall l s b, R s (fst (fold_left (fun (acc : xs * bool) stage => if snd acc then acc else restart_stage k c now m stage (fst acc)) l (s, b))).
Proof.
  intros Hr Ht Hs. induction l as [|st l IH]; intros s b; cbn [fold_left fst snd]; [apply Hr|].
  destruct b; [apply IH|]. eapply Ht; [apply (Hs st s)|apply IH].
Qed.

Section Callbacks.
Variables (k now m : N) (R : xs -> xs -> Prop).

Record Closed2 : Prop := {
  c_refl : forall s, R s s;
  c_trans : forall s1 s2 s3, R s1 s2 -> R s2 s3 -> R s1 s3;
  c_exec : forall (c : modcfg) cb sp p s,
    R s {| x_w := fst (catch c m (snd (exec k now m cb sp p s)) (x_w (fst (exec k now m cb sp p s))));
           x_log := x_log (fst (exec k now m cb sp p s)) |};
  c_poll : forall s, R s (poll_ready k now m s) }.

Hypothesis H : Closed2.

Lemma at_sim_start_R c stage s : R s (fst (at_sim_start k c now m stage s)).
Proof. rewrite at_sim_start_eq. cbv zeta. rewrite fst_pair. apply (c_exec H). Qed.

Lemma restart_fold_R c : forall l s b,
  R s (fst (fold_left (fun (acc : xs * bool) stage => if snd acc then acc else restart_stage k c now m stage (fst acc)) l (s, b))).
Proof. apply restart_fold_rel; [apply (c_refl H)|apply (c_trans H)|intros; apply at_sim_start_R]. Qed.

Lemma handle_message_R c x s : R s (handle_message k c now m x s).
Proof.
  unfold handle_message. destruct (active (w_mod (x_w s) m)); [|apply (c_refl H)].
  pose proof (c_exec H c (CbMsg x) [] (pick_msg c x) s) as G.
  destruct (exec k now m (CbMsg x) [] (pick_msg c x) s) as [s1 pn]. exact G.
Qed.

Lemma async_wakeup_R s : R s (async_wakeup k now m s).
Proof. unfold async_wakeup. destruct (active (w_mod (x_w s) m)); [apply (c_poll H)|apply (c_refl H)]. Qed.

(* ModuleRef::module_restart begins by setting the active flag *)
Hypothesis H_wake : forall s, R s (on_w (fun w => set_mod w m (set_active (w_mod w m) true)) s).

Lemma module_restart_R c s : R s (module_restart k c now m s).
Proof. unfold module_restart. eapply (c_trans H); [apply H_wake|apply restart_fold_R]. Qed.

(* ModuleRef::at_sim_end ends with the join section *)
Hypothesis H_join : forall c s, R s (on_w (fun w => set_err w (w_err w ++ join_errs c m (hnd (w_mod w m)) (w_fin w))) s).

Lemma at_sim_end_R c s : R s (at_sim_end k c now m s).
Proof.
  unfold at_sim_end. pose proof (c_exec H c CbEnd [] (c_end c) s) as G.
  destruct (exec k now m CbEnd [] (c_end c) s) as [s1 pn]. cbn [fst snd] in G. destruct (catch c m pn (x_w s1)) as [w2 e]. cbn [fst] in G.
  destruct e; [exact G|]. eapply (c_trans H); [exact G|]. eapply (c_trans H); [apply (c_poll H)|apply H_join].
Qed.
End Callbacks.

Lemma ok_closed2 k now m : Closed2 k now m (fun s s' => Fo m (x_w s) (x_w s') /\ LogExt m s s').
Proof.
  constructor.
  - intros s. split; [apply Fo_refl|apply LogExt_refl].
  - intros s1 s2 s3 [H1 H2] [H3 H4]. split; [eapply Fo_trans; eauto|eapply LogExt_trans; eauto].
  - intros c cb sp p s. cbn [x_w]. split; [eapply Fo_trans; [apply exec_Fo|apply catch_Fo]|].
    destruct (exec_LogExt k now m cb sp p s) as (l & Hl & Ol). exists l. auto.
  - intros s. split; [apply Fr_Fo, poll_ready_Fr|apply poll_ready_LogExt].
Qed.

Lemma at_sim_start_ok k c now m stage s :
  Fo m (x_w s) (x_w (fst (at_sim_start k c now m stage s))) /\ LogExt m s (fst (at_sim_start k c now m stage s)).
Proof. apply (at_sim_start_R _ _ _ _ (ok_closed2 k now m)). Qed.

Lemma start_cb_ok k c now m stage : CbOK m (fun s => fst (at_sim_start k c now m stage s)).
Proof. intros s. apply at_sim_start_ok. Qed.

Lemma handle_message_ok k c now m x : CbOK m (handle_message k c now m x).
Proof. intros s. apply (handle_message_R _ _ _ _ (ok_closed2 k now m)). Qed.

Lemma async_wakeup_ok k now m : CbOK m (async_wakeup k now m).
Proof. intros s. apply (async_wakeup_R _ _ _ _ (ok_closed2 k now m)). Qed.

Lemma ok_on_w m f s : Fo m (x_w s) (f (x_w s)) -> Fo m (x_w s) (x_w (on_w f s)) /\ LogExt m s (on_w f s).
Proof. intros H. split; [exact H|apply LogExt_on_w]. Qed.

Lemma module_restart_ok k c now m : CbOK m (module_restart k c now m).
Proof. intros s. apply (module_restart_R _ _ _ _ (ok_closed2 k now m)). intros s0. apply ok_on_w, Fo_set_active. Qed.

Lemma at_sim_end_ok k c now m : CbOK m (at_sim_end k c now m).
Proof. intros s. apply (at_sim_end_R _ _ _ _ (ok_closed2 k now m)). intros c0 s0. apply ok_on_w, Fo_set_err. Qed.

Lemma handle_message_inactive k c now m x s : active (w_mod (x_w s) m) = false -> handle_message k c now m x s = s.
Proof. intros H. unfold handle_message. rewrite H. reflexivity. Qed.

Lemma async_wakeup_inactive k now m s : active (w_mod (x_w s) m) = false -> async_wakeup k now m s = s.
Proof. intros H. unfold async_wakeup. rewrite H. reflexivity. Qed.

Lemma handle_message_log k c now m x s : active (w_mod (x_w s) m) = true ->
  exists l, x_log (handle_message k c now m x s) = x_log s ++ ICall m (CbMsg x) now true :: l.
Proof.
  intros H. unfold handle_message. rewrite H.
  destruct (exec_log_head k now m (CbMsg x) [] (pick_msg c x) s) as (l & Hl & _). rewrite H in Hl.
  destruct (exec k now m (CbMsg x) [] (pick_msg c x) s) as [s1 p]. exists l. exact Hl.
Qed.

(* ---- activate / deactivate / buf_process ---- *)
Lemma activate_oth now m w i : i <> m -> w_mod (activate now m w) i = w_mod w i.
Proof. intros H. unfold activate. destruct (split_due now (timers (w_mod w m))). wsimpl. apply N.eqb_neq in H. rewrite H. reflexivity. Qed.

Lemma activate_fes now m w : w_fes (activate now m w) = w_fes w.
Proof. unfold activate. destruct (split_due now (timers (w_mod w m))). reflexivity. Qed.

Lemma activate_buf now m w : w_buf (activate now m w) = w_buf w.
Proof. unfold activate. destruct (split_due now (timers (w_mod w m))). reflexivity. Qed.

Lemma activate_err now m w : w_err (activate now m w) = w_err w.
Proof. unfold activate. destruct (split_due now (timers (w_mod w m))). reflexivity. Qed.

Lemma deactivate_oth m w i : i <> m -> w_mod (deactivate m w) i = w_mod w i.
Proof.
  intros H. unfold deactivate. destruct (timers (w_mod w m)) as [|[t tk] r]; [reflexivity|].
  destruct (lt_nw t (nw (w_mod w m))); [|reflexivity]. wsimpl. apply N.eqb_neq in H. rewrite H. reflexivity.
Qed.

Lemma deactivate_mod m w : exists n, w_mod (deactivate m w) m = set_nw (w_mod w m) n.
Proof.
  unfold deactivate. destruct (timers (w_mod w m)) as [|[t tk] r].
  - exists (nw (w_mod w m)). cbn [w_mod set_cur]. destruct (w_mod w m); reflexivity.
  - destruct (lt_nw t (nw (w_mod w m))).
    + exists (Some t). wsimpl. rewrite N.eqb_refl. reflexivity.
    + exists (nw (w_mod w m)). cbn [w_mod set_cur]. destruct (w_mod w m); reflexivity.
Qed.

Lemma activate_mod now m w : exists q r n, w_mod (activate now m w) m = set_nw (set_ready (set_timers (w_mod w m) q) r) n.
Proof.
  unfold activate. destruct (split_due now (timers (w_mod w m))) as [d q]. exists q, (ready (w_mod w m) ++ d), (nw_bump now (nw (w_mod w m))).
  cbn [w_mod set_cur]. apply mod_same.
Qed.

Lemma activate_field {A} (g : mst -> A) now m w j :
  (forall x q r n, g (set_nw (set_ready (set_timers x q) r) n) = g x) -> g (w_mod (activate now m w) j) = g (w_mod w j).
Proof.
  intros Hg. destruct (N.eq_dec j m) as [->|Hj]; [|rewrite activate_oth by exact Hj; reflexivity].
  destruct (activate_mod now m w) as (q & r & n & ->). apply Hg.
Qed.

Lemma deactivate_field {A} (g : mst -> A) m w j : (forall x n, g (set_nw x n) = g x) -> g (w_mod (deactivate m w) j) = g (w_mod w j).
Proof.
  intros Hg. destruct (N.eq_dec j m) as [->|Hj]; [|rewrite deactivate_oth by exact Hj; reflexivity].
  unfold deactivate. cbn [w_mod set_cur]. destruct (timers (w_mod w m)) as [|[t tk] r]; [reflexivity|].
  destruct (lt_nw t (nw (w_mod w m))); [|reflexivity]. cbn [w_mod set_fes]. rewrite mod_same. apply Hg.
Qed.

Lemma deactivate_cur m w : w_cur (deactivate m w) = None.
Proof. reflexivity. Qed.

Lemma deactivate_buf m w : w_buf (deactivate m w) = w_buf w.
Proof.
  unfold deactivate. destruct (timers (w_mod w m)) as [|[t tk] r]; [reflexivity|].
  destruct (lt_nw t (nw (w_mod w m))); reflexivity.
Qed.

Lemma deactivate_err m w : w_err (deactivate m w) = w_err w.
Proof.
  unfold deactivate. destruct (timers (w_mod w m)) as [|[t tk] r]; [reflexivity|].
  destruct (lt_nw t (nw (w_mod w m))); reflexivity.
Qed.

Lemma shutdown_part_oth c now m w i : i <> m -> w_mod (fst (shutdown_part c now m w)) i = w_mod w i.
Proof.
  intros H. unfold shutdown_part. destruct (shut (w_mod w m)) as [r|]; [|reflexivity]. cbn [fst].
  apply N.eqb_neq in H. destruct r; destruct (c_rsend c); wsimpl; rewrite H; reflexivity.
Qed.

(* the world with / without the error of a panicking reset *)
Lemma ifse_fes (b : bool) w e : w_fes (if b then set_err w e else w) = w_fes w.
Proof. destruct b; reflexivity. Qed.
Lemma ifse_mod (b : bool) w e : w_mod (if b then set_err w e else w) = w_mod w.
Proof. destruct b; reflexivity. Qed.
Lemma ifse_buf (b : bool) w e : w_buf (if b then set_err w e else w) = w_buf w.
Proof. destruct b; reflexivity. Qed.
Lemma ifse_cur (b : bool) w e : w_cur (if b then set_err w e else w) = w_cur w.
Proof. destruct b; reflexivity. Qed.
Lemma ifse_fin (b : bool) w e : w_fin (if b then set_err w e else w) = w_fin w.
Proof. destruct b; reflexivity. Qed.
Lemma ifse_err (b : bool) w e : w_err (if b then set_err w (w_err w ++ e) else w) = w_err w ++ (if b then e else []).
Proof. destruct b; [reflexivity|symmetry; apply app_nil_r]. Qed.

(* the error a panicking Module::reset adds when the pending request of m is consumed *)
Definition rerr (c : modcfg) (m : N) (w : world) : list (N * N) :=
  match shut (w_mod w m) with Some _ => if c_rsend c then [(0, m)] else [] | None => [] end.

Lemma shutdown_part_glob c now m w :
  w_cur (fst (shutdown_part c now m w)) = w_cur w /\ w_buf (fst (shutdown_part c now m w)) = w_buf w /\
  w_err (fst (shutdown_part c now m w)) = w_err w ++ rerr c m w.
Proof.
  unfold shutdown_part, rerr. destruct (shut (w_mod w m)) as [r|]; cbn [fst]; [|rewrite app_nil_r; auto].
  rewrite ifse_cur, ifse_buf, ifse_err. destruct r; auto.
Qed.

Lemma rpanic_sys c m : Forall (fun i => is_sys i = true) (rpanic c m).
Proof. unfold rpanic. destruct (c_rsend c); repeat constructor. Qed.

Lemma buf_process_oth c now m w i : i <> m -> w_mod (fst (buf_process c now m w)) i = w_mod w i.
Proof. intros H. unfold buf_process. rewrite shutdown_part_oth by exact H. reflexivity. Qed.

Lemma buf_process_glob c now m w :
  w_cur (fst (buf_process c now m w)) = w_cur w /\ w_buf (fst (buf_process c now m w)) = [] /\
  w_err (fst (buf_process c now m w)) = w_err w ++ rerr c m w.
Proof. unfold buf_process. destruct (shutdown_part_glob c now m (set_buf (set_fes w (fes_flush (w_buf w) (w_fes w))) [])) as (a & b & d). auto. Qed.

Lemma cancelled_in m c x i : In i (cancelled m c x) -> (exists id, i = ICancel m id) \/ (exists id, i = ITaskEnd m id (inc x) 2).
Proof.
  unfold cancelled. intros Hi. apply in_app_or in Hi.
  destruct Hi as [Hi|Hi]; apply in_map_iff in Hi; destruct Hi as (j & <- & _); [left|right]; eexists; reflexivity.
Qed.

Lemma cancelled_own m c x : Own m (cancelled m c x).
Proof.
  unfold cancelled, Own. apply Forall_forall. intros i Hi. apply in_app_or in Hi.
  destruct Hi as [Hi|Hi]; apply in_map_iff in Hi; destruct Hi as (j & <- & _); reflexivity.
Qed.

Lemma shutdown_part_own c now m w : Own m (snd (shutdown_part c now m w)).
Proof.
  unfold shutdown_part. destruct (shut (w_mod w m)); cbn [snd]; [|constructor].
  apply Own_app; [apply cancelled_own|constructor; [reflexivity|]]. unfold rpanic. destruct (c_rsend c); repeat constructor.
Qed.

(* ---- around: one module event ---- *)
(* The two components of [around], and the records [buf_process] writes, as rewrite rules: proofs about [around]
   start from these instead of unfolding it. *)
Lemma around_world sc now m f w :
  fst (around sc now m f w) = fst (buf_process (cfg sc m) now m (deactivate m (x_w (f {| x_w := activate now m w; x_log := [] |})))).
Proof. unfold around. destruct (buf_process _ _ _ _). reflexivity. Qed.

Lemma around_log sc now m f w :
  snd (around sc now m f w) =
  x_log (f {| x_w := activate now m w; x_log := [] |}) ++
  snd (buf_process (cfg sc m) now m (deactivate m (x_w (f {| x_w := activate now m w; x_log := [] |})))).
Proof. unfold around. destruct (buf_process _ _ _ _). reflexivity. Qed.

Lemma buf_process_items c now m w : snd (buf_process c now m w) =
  match shut (w_mod w m) with Some _ => cancelled m c (w_mod w m) ++ [IReset m now (inc (w_mod w m) + 1)] ++ rpanic c m | None => [] end.
Proof. unfold buf_process, shutdown_part. cbn [w_mod set_buf set_fes]. destruct (shut (w_mod w m)); reflexivity. Qed.

Lemma shutdown_part_self c now m w :
  w_mod (fst (shutdown_part c now m w)) m =
  match shut (w_mod w m) with
  | Some _ => {| active := false; inc := inc (w_mod w m) + 1; bud := bud (w_mod w m); shut := None;
                 nw := nw_bump now (nw (w_mod w m)); timers := []; ready := []; hnd := hnd (w_mod w m);
                 catchf := catchf (w_mod w m) |}
  | None => w_mod w m
  end.
Proof.
  unfold shutdown_part. destruct (shut (w_mod w m)) as [[t|]|]; cbn [fst]; rewrite ?ifse_mod; cbn [w_mod set_fes set_fin]; rewrite ?mod_same; reflexivity.
Qed.

Lemma shutdown_part_events c now m w :
  w_fes (fst (shutdown_part c now m w)) = match shut (w_mod w m) with Some (Some t) => fes_add t (EvRestart m) (w_fes w) | _ => w_fes w end.
Proof. unfold shutdown_part. destruct (shut (w_mod w m)) as [[t|]|]; cbn [fst]; rewrite ?ifse_fes; reflexivity. Qed.

Lemma buf_process_self c now m w :
  w_mod (fst (buf_process c now m w)) m =
  match shut (w_mod w m) with
  | Some _ => {| active := false; inc := inc (w_mod w m) + 1; bud := bud (w_mod w m); shut := None;
                 nw := nw_bump now (nw (w_mod w m)); timers := []; ready := []; hnd := hnd (w_mod w m);
                 catchf := catchf (w_mod w m) |}
  | None => w_mod w m
  end.
Proof. unfold buf_process. exact (shutdown_part_self c now m (set_buf (set_fes w (fes_flush (w_buf w) (w_fes w))) [])). Qed.

Lemma buf_process_events c now m w :
  w_fes (fst (buf_process c now m w)) =
  match shut (w_mod w m) with
  | Some (Some t) => fes_add t (EvRestart m) (fes_flush (w_buf w) (w_fes w))
  | _ => fes_flush (w_buf w) (w_fes w)
  end.
Proof. unfold buf_process. exact (shutdown_part_events c now m (set_buf (set_fes w (fes_flush (w_buf w) (w_fes w))) [])). Qed.

Lemma buf_process_fin c now m w :
  w_fin (fst (buf_process c now m w)) =
  w_fin w ++ match shut (w_mod w m) with
             | Some _ => map (fun id => (m, inc (w_mod w m), id, 2)) (dropped c (w_mod w m))
             | None => []
             end.
Proof.
  unfold buf_process, shutdown_part. cbn [w_mod set_buf set_fes w_fin].
  destruct (shut (w_mod w m)) as [r|]; cbn [fst]; [|symmetry; apply app_nil_r]. rewrite ifse_fin. destruct r; reflexivity.
Qed.

Lemma buf_process_idle c now m w : shut (w_mod w m) = None -> snd (buf_process c now m w) = [].
Proof. intros H. rewrite buf_process_items, H. reflexivity. Qed.

Lemma cancelled_sys m c x : Forall (fun i => is_sys i = true) (cancelled m c x).
Proof.
  apply Forall_forall. intros i Hi. destruct (cancelled_in _ _ _ _ Hi) as [(id & ->)|(id & ->)]; reflexivity.
Qed.

Lemma buf_process_sys c now m w : Forall (fun i => is_sys i = true) (snd (buf_process c now m w)).
Proof.
  rewrite buf_process_items. destruct (shut (w_mod w m)); [|constructor].
  apply Forall_app. split; [apply cancelled_sys|constructor; [reflexivity|apply rpanic_sys]].
Qed.

Lemma cb_log m f w : CbOK m f -> Forall (Usr m) (x_log (f {| x_w := w; x_log := [] |})).
Proof. intros Hf. destruct (Hf {| x_w := w; x_log := [] |}) as [_ (l & Hl & Ul)]. rewrite Hl. exact Ul. Qed.

Lemma around_oth sc now m f w i : CbOK m f -> i <> m -> w_mod (fst (around sc now m f w)) i = w_mod w i.
Proof.
  intros Hf Hi. destruct (Hf {| x_w := activate now m w; x_log := [] |}) as [[F _ _ _ _ _] _].
  rewrite around_world, buf_process_oth, deactivate_oth, F by exact Hi. apply activate_oth, Hi.
Qed.

Lemma around_glob sc now m f w : w_cur (fst (around sc now m f w)) = None /\ w_buf (fst (around sc now m f w)) = [].
Proof. rewrite around_world. destruct (buf_process_glob (cfg sc m) now m (deactivate m (x_w (f {| x_w := activate now m w; x_log := [] |})))) as (a & b & _). rewrite a. auto. Qed.

Lemma around_own sc now m f w : CbOK m f -> Own m (snd (around sc now m f w)).
Proof.
  intros Hf. rewrite around_log. apply Own_app; [apply Usr_Own, cb_log, Hf|apply shutdown_part_own].
Qed.

Definition ev_mod (ev : fev) : option N :=
  match ev with EvExit _ _ _ => None | EvDeliver m _ | EvWake m | EvRestart m => Some m end.

Lemma process_exit sc w t m far x :
  process sc w t (EvExit m far x) = (w, []) \/
  exists dst, process sc w t (EvExit m far x) = (set_fes w (fes_add t (EvDeliver dst x) (w_fes w)), []).
Proof. cbn [process]. destruct (walk (nmods sc) w m far) as [dst|]; [right; exists dst|left]; reflexivity. Qed.

(* ---- C09 shutdown_frame ---- *)
Definition fes_order (f : fes) : list (N * fev) := f_zero f ++ f_rest f.

Lemma fes_ins_split t e : forall l, exists l1 l2, l = l1 ++ l2 /\ fes_ins t e l = l1 ++ (t, e) :: l2.
Proof.
  induction l as [|x r IH]; cbn [fes_ins]; [exists [], []; auto|].
  destruct (t <? fst x); [exists [], (x :: r); auto|].
  destruct IH as (l1 & l2 & -> & ->). exists (x :: l1), l2. auto.
Qed.

Lemma fes_add_order t e f : exists l1 l2, fes_order f = l1 ++ l2 /\ fes_order (fes_add t e f) = l1 ++ (t, e) :: l2.
Proof.
  unfold fes_order, fes_add. destruct (t =? f_tcur f); cbn [f_zero f_rest].
  - exists (f_zero f), (f_rest f). rewrite <- app_assoc. auto.
  - destruct (fes_ins_split t e (f_rest f)) as (l1 & l2 & H1 & H2). exists (f_zero f ++ l1), l2.
    rewrite H2, H1 at 1. rewrite !app_assoc. auto.
Qed.

(* Consuming module m's shutdown request changes no other module's state (its tasks and timers
   are part of that state), leaves the global slots alone, adds to the error list at most the
   PanicError of a panicking Module::reset, and changes the queued events only by inserting m's restart event (when a restart time was given): every other
   queued event keeps its place in the dispatch order. *)
Theorem shutdown_frame c now m w r : shut (w_mod w m) = Some r ->
  let w' := fst (shutdown_part c now m w) in
  (forall i, i <> m -> w_mod w' i = w_mod w i) /\
  w_cur w' = w_cur w /\ w_buf w' = w_buf w /\ w_err w' = w_err w ++ (if c_rsend c then [(0, m)] else []) /\
  match r with
  | None => w_fes w' = w_fes w
  | Some t => exists l1 l2, fes_order (w_fes w) = l1 ++ l2 /\ fes_order (w_fes w') = l1 ++ (t, EvRestart m) :: l2
  end /\
  (* and m itself ends up inactive, without tasks, timers or pending request *)
  active (w_mod w' m) = false /\ ready (w_mod w' m) = [] /\ timers (w_mod w' m) = [] /\ shut (w_mod w' m) = None.
Proof.
  intros Hs w'. split; [intros i Hi; apply shutdown_part_oth, Hi|].
  destruct (shutdown_part_glob c now m w) as (a & b & d). unfold rerr in d. rewrite Hs in d. repeat (split; [assumption|]).
  subst w'. rewrite shutdown_part_events, shutdown_part_self, Hs.
  split; [destruct r as [t|]; [apply fes_add_order|reflexivity]|auto].
Qed.
