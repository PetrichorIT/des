(* C13 contained and errors_exact.  A callback panic of module m is the record IPanic m 0.
   Harness::catch deactivates m in the same event; only a restart (requested by m itself
   before it panicked) makes it active again; while it is inactive no dispatched event produces
   a record of m.  The error list returned by the run holds one PanicError per callback panic of
   a module whose stereotype does not catch, in the order of the panics. *)
From Coq Require Import List NArith Bool Lia PeanoNat.
From DesVerif Require Import Life.Model Life.Base Life.Step Life.Trace Life.Frame Life.Inert Life.Events Life.Walk.
Import ListNotations.
Open Scope N_scope.

Definition is_p0 (m : N) (i : item) : bool := match i with IPanic m' 0 _ => m' =? m | _ => false end.
Definition p0s (m : N) (l : list item) : list item := filter (is_p0 m) l.

Lemma p0s_app m a b : p0s m (a ++ b) = p0s m a ++ p0s m b.
Proof. apply filter_app. Qed.

(* no callback panic of m is added to the log *)
Definition Keep (m : N) (s s' : xs) : Prop := p0s m (x_log s') = p0s m (x_log s).

Lemma Keep_refl m s : Keep m s s.
Proof. reflexivity. Qed.

Lemma Keep_trans m s1 s2 s3 : Keep m s1 s2 -> Keep m s2 s3 -> Keep m s1 s3.
Proof. unfold Keep. congruence. Qed.

Lemma Keep_say m i s : is_p0 m i = false -> Keep m s (say i s).
Proof. intros H. unfold Keep. cbn [say x_log]. rewrite p0s_app. unfold p0s at 2. cbn [filter]. rewrite H, app_nil_r. reflexivity. Qed.

Lemma do_act_Keep m' k now m who a s : Keep m' s (do_act k now m who a s).
Proof.
  destruct a; cbn [do_act]; try reflexivity; try (destruct (broke m s); [reflexivity|]);
    (eapply Keep_trans; [|apply Keep_say; reflexivity]); reflexivity.
Qed.

Lemma quiet_Keep m' m s : Keep m' s (quiet m s).
Proof. unfold quiet. destruct (shut (w_mod (x_w s) m)); (eapply Keep_trans; [|apply Keep_say; reflexivity]); reflexivity. Qed.

Lemma end_task_Keep m' m how s tk : Keep m' s (end_task m how s tk).
Proof. unfold end_task. eapply Keep_trans; [|apply Keep_say; reflexivity]. reflexivity. Qed.

Lemma spawn_items_p0 m' m i ps : p0s m' (spawn_items m i ps) = [].
Proof. unfold spawn_items. induction (combine (seq 0 (length ps)) ps) as [|x l IH]; [reflexivity|exact IH]. Qed.

(* only the panic record of the callback itself is a callback-panic record *)
Lemma Keep_closed m' k now m : Closed k now m (fun who => who <> 0) (Keep m').
Proof.
  constructor; try reflexivity.
  - apply Keep_trans.
  - apply do_act_Keep.
  - intros who s Hw. apply Keep_say. destruct who; [contradiction|reflexivity].
  - apply quiet_Keep.
  - intros c b s. apply Keep_say. reflexivity.
  - intros sp s. unfold Keep. cbn [say_all on_w x_log]. rewrite p0s_app, spawn_items_p0. apply app_nil_r.
  - apply end_task_Keep.
Qed.

Lemma who_task id : 1 + id <> 0.
Proof. lia. Qed.

Lemma poll_ready_Keep m' k now m s : Keep m' s (poll_ready k now m s).
Proof. apply (poll_ready_R _ _ _ _ _ (Keep_closed m' k now m) who_task). Qed.

(* Harness::exec: the result flag says whether a callback-panic record was added *)
Lemma exec_p0 m' k now m c sp p s :
  p0s m' (x_log (fst (exec k now m c sp p s))) =
  p0s m' (x_log s) ++ (if snd (exec k now m c sp p s) && (m =? m')
                       then [IPanic m 0 (catchf (w_mod (x_w (fst (exec k now m c sp p s))) m))] else []).
Proof.
  destruct (exec_split _ _ _ _ _ (Keep_closed m' k now m) who_task c sp p s) as (s1 & K & E).
  rewrite E. destruct (snd (exec k now m c sp p s)); cbn [andb]; [|rewrite app_nil_r; exact K].
  cbn [say x_log x_w]. rewrite p0s_app, K. unfold p0s at 2. cbn [filter is_p0]. destruct (m =? m'); reflexivity.
Qed.

(* ---- the callbacks: error list and active flag follow the panic records ---- *)
Definition perr (sc : script) (i : item) : list (N * N) :=
  match i with IPanic m 0 c => if c then [] else [(0, m)] | IResetPanic m => [(0, m)] | _ => [] end.
Definition perrs (sc : script) (l : list item) : list (N * N) := flat_map (perr sc) l.

Lemma perrs_app sc a b : perrs sc (a ++ b) = perrs sc a ++ perrs sc b.
Proof. apply flat_map_app. Qed.

Lemma perrs_p0 sc l m : (forall i, In i l -> Usr m i) -> perrs sc l = perrs sc (p0s m l).
Proof.
  intros H. induction l as [|i l IH]; [reflexivity|]. cbn [perrs flat_map p0s filter].
  assert (Hu : Usr m i) by (apply H; left; reflexivity). destruct Hu as [Hi Hs].
  assert (IH' : perrs sc l = perrs sc (p0s m l)) by (apply IH; intros j Hj; apply H; right; exact Hj).
  unfold perrs in *. destruct i as [| | | | | |m0 who cc| | | | | | |]; cbn [is_p0 perr app]; try exact IH'; try discriminate.
  destruct who; cbn [perr app]; [|exact IH'].
  cbn [item_mod] in Hi. injection Hi as ->. rewrite N.eqb_refl. cbn [flat_map perr]. rewrite IH'. reflexivity.
Qed.

(* [PInv e0 s]: the error list is e0 followed by the uncaught callback panics of the log, and
   the module is inactive once its callback has panicked *)
Record PInv (sc : script) (m : N) (e0 : list (N * N)) (s : xs) : Prop := {
  pi_err : w_err (x_w s) = e0 ++ perrs sc (p0s m (x_log s));
  pi_dead : p0s m (x_log s) <> [] -> active (w_mod (x_w s) m) = false }.

Lemma PInv_keep sc m e0 s s' : Keep m s s' -> w_err (x_w s') = w_err (x_w s) ->
  active (w_mod (x_w s') m) = active (w_mod (x_w s) m) -> PInv sc m e0 s -> PInv sc m e0 s'.
Proof. intros K He Ha [a b]. constructor; rewrite K, ?He, ?Ha; assumption. Qed.

Lemma PInv_init sc m s : x_log s = [] -> PInv sc m (w_err (x_w s)) s.
Proof. intros Hl. constructor; rewrite Hl; cbn [p0s filter perrs flat_map]; [rewrite app_nil_r; reflexivity|intros H; contradiction]. Qed.

Lemma PInv_closed2 sc k now m e0 : Closed2 k now m (fun s s' => PInv sc m e0 s -> PInv sc m e0 s').
Proof.
  constructor; [auto|auto| |].
  - intros c cb sp p s [a b]. pose proof (exec_p0 m k now m cb sp p s) as HP. pose proof (exec_Fr k now m cb sp p s) as HF.
    destruct (exec k now m cb sp p s) as [s1 pn]. cbn [fst snd] in *. rewrite N.eqb_refl, andb_true_r in HP.
    unfold catch. destruct pn; cbn [fst].
    + constructor; cbn [x_w x_log].
      * rewrite HP, perrs_app. cbn [perrs flat_map perr app]. destruct (catchf (w_mod (x_w s1) m)); cbn [fst w_err set_err set_mod].
        -- rewrite (fr_err _ _ _ HF), a, app_nil_r. reflexivity.
        -- rewrite (fr_err _ _ _ HF), a, app_assoc. reflexivity.
      * intros _. destruct (catchf (w_mod (x_w s1) m)); cbn [fst w_mod set_err]; rewrite mod_same; reflexivity.
    + constructor; cbn [x_w x_log]; rewrite HP, app_nil_r.
      * rewrite (fr_err _ _ _ HF). exact a.
      * rewrite (fr_active _ _ _ HF). exact b.
  - intros s. pose proof (poll_ready_Fr k now m s) as HF.
    apply PInv_keep; [apply poll_ready_Keep|apply (fr_err _ _ _ HF)|apply (fr_active _ _ _ HF)].
Qed.

(* by cases and not by [callback_R2]: PInv does not hold across the setting of the active flag in general, only here,
   where a restart sets it before any record is written *)
Lemma callback_PInv sc m now knd f : callback sc m now knd f -> forall s, x_log s = [] -> PInv sc m (w_err (x_w s)) (f s).
Proof.
  intros Hcb s Hl. pose proof (PInv_init sc m s Hl) as H0. revert H0. destruct Hcb as [stage|t x|t|t].
  - apply (at_sim_start_R _ _ _ _ (PInv_closed2 sc _ _ m _)).
  - apply (handle_message_R _ _ _ _ (PInv_closed2 sc _ _ m _)).
  - apply (async_wakeup_R _ _ _ _ (PInv_closed2 sc _ _ m _)).
  - intros _. unfold module_restart. apply (restart_fold_R _ _ _ _ (PInv_closed2 sc _ _ m _)).
    apply (PInv_init sc m (on_w (fun w => set_mod w m (set_active (w_mod w m) true)) s)), Hl.
Qed.

(* ---- one module event ---- *)
(* runtime records: no callback panic among them; the only error they stand for is that of a panicking Module::reset *)
Definition no_rp (i : item) : Prop := match i with IResetPanic _ => False | _ => True end.

Lemma sys_perrs sc l : Forall (fun i => is_sys i = true) l -> (Forall no_rp l -> perrs sc l = []) /\ forall m, p0s m l = [].
Proof.
  induction 1 as [|i l Hi _ [IH1 IH2]]; [split; reflexivity|]. split.
  - intros Hn. inversion Hn; subst. unfold perrs in *. cbn [flat_map]. rewrite IH1 by assumption. destruct i; try discriminate; try reflexivity. contradiction.
  - intros m. unfold p0s in *. cbn [filter]. rewrite IH2. destruct i; try discriminate; reflexivity.
Qed.

Lemma around_items sc now m f w :
  exists lsys, snd (around sc now m f w) = x_log (f {| x_w := activate now m w; x_log := [] |}) ++ lsys /\
               Forall (fun i => is_sys i = true) lsys /\
               perrs sc lsys = rerr (cfg sc m) m (deactivate m (x_w (f {| x_w := activate now m w; x_log := [] |}))).
Proof.
  rewrite around_log. eexists. split; [reflexivity|]. rewrite buf_process_items. unfold rerr.
  generalize (deactivate m (x_w (f {| x_w := activate now m w; x_log := [] |}))). intros w1.
  destruct (shut (w_mod w1 m)); [|split; [constructor|reflexivity]].
  assert (Hc : Forall (fun i => is_sys i = true) (cancelled m (cfg sc m) (w_mod w1 m)) /\ Forall no_rp (cancelled m (cfg sc m) (w_mod w1 m))).
  { split; apply Forall_forall; intros i Hi; destruct (cancelled_in _ _ _ _ Hi) as [(id & ->)|(id & ->)]; try reflexivity; exact I. }
  destruct Hc as [Hc1 Hc2]. split.
  - apply Forall_app. split; [exact Hc1|constructor; [reflexivity|apply rpanic_sys]].
  - rewrite perrs_app, (proj1 (sys_perrs sc _ Hc1) Hc2). cbn [app perrs flat_map perr]. unfold rpanic.
    destruct (c_rsend (cfg sc m)); reflexivity.
Qed.

Lemma around_active sc now m f w : active (w_mod (fst (around sc now m f w)) m) = true ->
  active (w_mod (x_w (f {| x_w := activate now m w; x_log := [] |})) m) = true.
Proof.
  rewrite around_world, buf_process_self. generalize (f {| x_w := activate now m w; x_log := [] |}). intros s.
  destruct (deactivate_mod m (x_w s)) as (n & ->). destruct (shut (set_nw (w_mod (x_w s) m) n)); [discriminate|exact (fun H => H)].
Qed.

Lemma around_panic sc now m f w : CbOK m f ->
  (forall s, x_log s = [] -> PInv sc m (w_err (x_w s)) (f s)) ->
  w_err (fst (around sc now m f w)) = w_err w ++ perrs sc (snd (around sc now m f w)) /\
  (p0s m (snd (around sc now m f w)) <> [] -> active (w_mod (fst (around sc now m f w)) m) = false).
Proof.
  intros Hok Hf. destruct (around_items sc now m f w) as (lsys & El & Hsys & Ps).
  destruct (sys_perrs sc lsys Hsys) as [_ Ps0].
  pose proof (Hf {| x_w := activate now m w; x_log := [] |} eq_refl) as [pe pd]. cbn [x_w] in pe, pd.
  destruct (Hok {| x_w := activate now m w; x_log := [] |}) as [_ (lu & Hlu & Uu)]. cbn [x_log app] in Hlu.
  split.
  - rewrite El, perrs_app, Ps, app_assoc.
    rewrite (perrs_p0 sc _ m) by (rewrite Hlu; intros i Hi; rewrite Forall_forall in Uu; apply (Uu i Hi)).
    rewrite <- (activate_err now m w), <- pe.
    rewrite around_world. destruct (buf_process_glob (cfg sc m) now m (deactivate m (x_w (f {| x_w := activate now m w; x_log := [] |})))) as (_ & _ & He).
    rewrite He, deactivate_err. reflexivity.
  - rewrite El, p0s_app, Ps0, app_nil_r. intros Hp. specialize (pd Hp).
    destruct (active (w_mod (fst (around sc now m f w)) m)) eqn:Ea; [|reflexivity].
    apply around_active in Ea. congruence.
Qed.

(* ---- the trace ---- *)
Definition panics (m : N) (e : erec) : bool := existsb (is_p0 m) (e_items e).
Definition dead_step (m : N) (d : bool) (e : erec) : bool :=
  if panics m e then true else if starts m e then false else d.
(* after the trace [tr] a callback of m has panicked and m was not (re)started since *)
Definition dead_after (m : N) (tr : list erec) : bool := fold_left (dead_step m) tr false.

Lemma dead_after_snoc m tr e : dead_after m (tr ++ [e]) = dead_step m (dead_after m tr) e.
Proof. unfold dead_after. rewrite fold_left_app. reflexivity. Qed.

Lemma panics_p0s m e : panics m e = true <-> p0s m (e_items e) <> [].
Proof.
  unfold panics, p0s. induction (e_items e) as [|i l IH]; cbn [existsb filter]; [split; [discriminate|intros H; contradiction]|].
  destruct (is_p0 m i); cbn [orb]; [split; [discriminate|reflexivity]|exact IH].
Qed.

Definition PI (sc : script) (w : world) (tr : list erec) : Prop :=
  w_err w = perrs sc (items tr) /\ forall m, dead_after m tr = true -> active (w_mod w m) = false.

Lemma own_p0s_other m1 m l : Own m1 l -> m1 <> m -> p0s m l = [].
Proof.
  intros Ho Hn. unfold p0s. induction l as [|i l IH]; [reflexivity|]. inversion Ho; subst. cbn [filter].
  rewrite (IH H2). destruct i as [| | | | | |m0 who cc| | | | | | |]; try reflexivity. destruct who; [|reflexivity].
  cbn [item_mod] in H1. injection H1 as ->. cbn [is_p0]. apply N.eqb_neq in Hn. rewrite Hn. reflexivity.
Qed.

Lemma catch_active c m p w : active (w_mod (fst (catch c m p w)) m) = true -> active (w_mod w m) = true.
Proof.
  unfold catch. destruct p; cbn [fst]; [|exact (fun H => H)].
  destruct (catchf (w_mod w m)); cbn [fst w_mod set_err]; rewrite mod_same; discriminate.
Qed.

Lemma active_closed2 k now m : Closed2 k now m (fun s s' => active (w_mod (x_w s') m) = true -> active (w_mod (x_w s) m) = true).
Proof.
  constructor; [auto|auto| |].
  - intros c cb sp p s H. cbn [x_w] in H. apply catch_active in H. rewrite (fr_active _ _ _ (exec_Fr k now m cb sp p s)) in H. exact H.
  - intros s. rewrite (fr_active _ _ _ (poll_ready_Fr k now m s)). exact (fun H => H).
Qed.

Lemma callback_active sc m now knd f l : callback sc m now knd f ->
  starts m {| e_kind := knd; e_time := now; e_items := l |} = false ->
  forall s, active (w_mod (x_w (f s)) m) = true -> active (w_mod (x_w s) m) = true.
Proof.
  intros [stage|t x|t|t] Hst s.
  - apply (at_sim_start_R _ _ _ _ (active_closed2 _ _ m)).
  - apply (handle_message_R _ _ _ _ (active_closed2 _ _ m)).
  - apply (async_wakeup_R _ _ _ _ (active_closed2 _ _ m)).
  - cbn [starts e_kind] in Hst. rewrite N.eqb_refl in Hst. discriminate.
Qed.

Lemma callback_starts sc m1 now knd f l m : callback sc m1 now knd f -> m <> m1 ->
  starts m {| e_kind := knd; e_time := now; e_items := l |} = false.
Proof.
  intros Hcb Hn. apply N.eqb_neq in Hn. rewrite N.eqb_sym in Hn.
  destruct Hcb; cbn [starts e_kind]; rewrite ?Hn, ?andb_false_r; reflexivity.
Qed.

Lemma mod_event_PI sc w tr now m1 f knd smp : callback sc m1 now knd f ->
  PI sc w tr -> Forall (fun i => is_sys i = true /\ no_rp i) smp ->
  PI sc (fst (around sc now m1 f w)) (tr ++ [{| e_kind := knd; e_time := now; e_items := snd (around sc now m1 f w) ++ smp |}]).
Proof.
  intros Hcb [He Hd] Hsmp0. pose proof (callback_ok _ _ _ _ _ Hcb) as Hok.
  set (l := snd (around sc now m1 f w)). set (e := {| e_kind := knd; e_time := now; e_items := l ++ smp |}).
  assert (Hsmp : Forall (fun i => is_sys i = true) smp) by (eapply Forall_impl; [|exact Hsmp0]; intros i [H _]; exact H).
  assert (Hnrp : Forall no_rp smp) by (eapply Forall_impl; [|exact Hsmp0]; intros i [_ H]; exact H).
  destruct (around_panic sc now m1 f w Hok (callback_PInv _ _ _ _ _ Hcb)) as [A1 A2]. fold l in A1, A2.
  destruct (sys_perrs sc smp Hsmp) as [Ps0' Ps0]. pose proof (Ps0' Hnrp) as Ps.
  pose proof (around_own sc now m1 f w Hok) as Ho. fold l in Ho.
  split.
  - rewrite items_snoc, perrs_app. cbn [e_items e]. rewrite perrs_app, Ps, app_nil_r, A1, He. reflexivity.
  - intros m. rewrite dead_after_snoc. unfold dead_step.
    assert (Hp : panics m e = true <-> p0s m l <> []).
    { rewrite panics_p0s. cbn [e_items e]. rewrite p0s_app, Ps0, app_nil_r. reflexivity. }
    destruct (N.eq_dec m m1) as [->|Hn].
    + destruct (panics m1 e) eqn:Ep; [intros _; apply A2, Hp; reflexivity|].
      destruct (starts m1 e) eqn:Est; [discriminate|]. intros Hdd. specialize (Hd m1 Hdd).
      destruct (active (w_mod (fst (around sc now m1 f w)) m1)) eqn:Ea; [|reflexivity].
      apply around_active, (callback_active _ _ _ _ _ _ Hcb Est) in Ea. cbn [x_w] in Ea. rewrite activate_active in Ea. congruence.
    + assert (Est : starts m e = false) by apply (callback_starts _ _ _ _ _ _ m Hcb Hn). rewrite Est.
      assert (Ep : panics m e = false).
      { apply not_true_is_false. intros Ep. apply Hp in Ep. apply Ep. apply (own_p0s_other m1 m l Ho). auto. }
      rewrite Ep. intros Hdd. rewrite around_oth by (try exact Hok; exact Hn). apply Hd, Hdd.
Qed.

Lemma step_PI sc w tr e w' : PI sc w tr -> step sc w e w' -> PI sc w' (tr ++ [e]).
Proof.
  intros HP Hs. revert HP. revert w e w' Hs. apply (step_cases sc (fun w e w' => PI sc w tr -> PI sc w' (tr ++ [e]))).
  - intros stage m1 w _ _ HP. rewrite <- (app_nil_r (snd (around sc 0 m1 (start_cb sc stage m1) w))).
    apply mod_event_PI; [apply cb_start|exact HP|constructor].
  - intros w [He Hd]. split.
    + rewrite items_snoc. cbn [boot_rec e_items]. rewrite perrs_app. cbn. rewrite app_nil_r. exact He.
    + intros m. rewrite dead_after_snoc. unfold dead_step, panics, starts. cbn. apply Hd.
  - intros w t ev f m1 cb _ E HP. apply mod_event_PI; [exact E|exact HP|].
    constructor; [split; [reflexivity|exact I]|constructor].
  - intros w t m1 far x f w1 _ Hw1 [He Hd]. split.
    + rewrite items_snoc. cbn [e_items]. rewrite perrs_app. cbn. rewrite app_nil_r. destruct Hw1 as [->|(dst & ->)]; exact He.
    + intros m. rewrite dead_after_snoc. unfold dead_step, panics, starts. cbn. intros H. destruct Hw1 as [->|(dst & ->)]; apply Hd, H.
Qed.

Lemma gen_PI sc : forall w tr, Gen sc w tr -> PI sc w tr.
Proof.
  apply (gen_inv sc (PI sc)).
  - split; [reflexivity|discriminate].
  - intros w tr e w' _ HP Hs. apply (step_PI sc w tr e w' HP Hs).
Qed.

Lemma around_dead sc now m f w : active (w_mod w m) = false -> shut (w_mod w m) = None ->
  (forall s, active (w_mod (x_w s) m) = false -> f s = s) -> snd (around sc now m f w) = [].
Proof.
  intros Ha Hsh Hid. rewrite around_log, Hid by (cbn [x_w]; rewrite activate_active; exact Ha). cbn [x_w x_log app].
  apply buf_process_idle. destruct (deactivate_mod m (activate now m w)) as (n & ->), (activate_mod now m w) as (q & r & n' & ->).
  exact Hsh.
Qed.

(* ---- C13 contained ----
   After a callback of module m has panicked, no start-up stage and no dispatched event produces
   any record of m (no handler, no wake-up, no task step, no send) until an event that restarts m --
   which only exists if m itself had requested shutdow_and_restart before it panicked. *)
Theorem contained sc m pre e post :
  trace sc = pre ++ e :: post -> dead_after m pre = true -> starts m e = false -> is_end e = false ->
  forallb (fun i => negb (of_mod m i)) (e_items e) = true.
Proof.
  intros E Hd Hst Hk.
  destruct (trace_cases sc pre e post E) as [(w1 & w2 & HG & Hs)|(w & tr & now & ms1 & m1 & ms2 & _ & _ & _ & _ & ->)]; [|discriminate].
  destruct (gen_PI sc w1 pre HG) as [_ Hdead]. specialize (Hdead m Hd).
  destruct (gen_WI sc w1 pre HG m) as [(_ & _ & Hshut) _].
  revert Hdead Hshut Hst. clear E Hk HG. revert w1 e w2 Hs.
  apply (step_cases sc (fun w e _ => active (w_mod w m) = false -> shut (w_mod w m) = None -> starts m e = false ->
                                     forallb (fun i => negb (of_mod m i)) (e_items e) = true)); cbn [e_items].
  - (* a start-up stage: the sweep skips inactive modules, so it is a stage of another module *)
    intros stage m1 w _ Hactive Hdead _ _. destruct (N.eq_dec m1 m) as [->|Hn]; [congruence|].
    apply (own_not_of_mod m1 m); [apply around_own, start_cb_ok|exact Hn].
  - reflexivity.
  - intros w t ev f m1 cb _ E Hdead Hshut Hst. destruct (N.eq_dec m1 m) as [->|Hn].
    + rewrite around_dead; [reflexivity|exact Hdead|exact Hshut|]. intros s. apply (callback_inactive _ _ _ _ _ _ E).
      intros ->. cbn [starts e_kind] in Hst. rewrite N.eqb_refl in Hst. discriminate.
    + rewrite forallb_app, (own_not_of_mod m1 m _ (around_own sc t m1 cb _ (callback_ok _ _ _ _ _ E)) Hn). reflexivity.
  - reflexivity.
Qed.

