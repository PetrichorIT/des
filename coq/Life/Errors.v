(* C13 errors_exact, complete form: the error list returned by the run, entry by entry.
   The join section of at_sim_end reads the module's JoinHandles and what became of their tasks; both are
   tied to the log here: the handles of module m are its [ISpawn] records, the fate of a task is its
   [ITaskEnd] record (none: still running). *)
From Coq Require Import List NArith Bool Lia.
From DesVerif Require Import Common.Fuel Life.Model Life.Base Life.Step Life.Trace Life.Inert Life.Events Life.Walk Life.Panic Life.Term.
Import ListNotations.
Open Scope N_scope.

(* ---- reading handles and task ends off a log ---- *)
Definition sp1 (m : N) (i : item) : list (N * N) :=
  match i with ISpawn m' id j _ => if m' =? m then [(j, id)] else [] | _ => [] end.
Definition spawned (m : N) (l : list item) : list (N * N) := flat_map (sp1 m) l.
Definition en1 (i : item) : list (N * N * N * N) :=
  match i with ITaskEnd m id j how => [(m, j, id, how)] | _ => [] end.
Definition ended (l : list item) : list (N * N * N * N) := flat_map en1 l.

Lemma spawned_app m a b : spawned m (a ++ b) = spawned m a ++ spawned m b.
Proof. apply flat_map_app. Qed.
Lemma ended_app a b : ended (a ++ b) = ended a ++ ended b.
Proof. apply flat_map_app. Qed.

(* records that are neither *)
Definition dull (i : item) : Prop := match i with ISpawn _ _ _ _ | ITaskEnd _ _ _ _ => False | _ => True end.

Lemma spawned_other i m l : i <> m -> Own i l -> spawned m l = [].
Proof.
  intros Hi Ho. unfold spawned. induction l as [|it l IH]; [reflexivity|]. inversion Ho; subst. cbn [flat_map]. rewrite (IH H2), app_nil_r.
  destruct it; try reflexivity. cbn [item_mod] in H1. injection H1 as ->. cbn [sp1]. apply N.eqb_neq in Hi. rewrite Hi. reflexivity.
Qed.

(* ---- inside a callback of module i ---- *)
Definition JI (i : N) (s s' : xs) : Prop :=
  exists l, x_log s' = x_log s ++ l /\ w_fin (x_w s') = w_fin (x_w s) ++ ended l /\
            hnd (w_mod (x_w s') i) = hnd (w_mod (x_w s) i) ++ spawned i l.

Lemma JI_same i s s' : x_log s' = x_log s -> w_fin (x_w s') = w_fin (x_w s) ->
  hnd (w_mod (x_w s') i) = hnd (w_mod (x_w s) i) -> JI i s s'.
Proof. intros A B C. exists []. cbn [ended spawned flat_map]. rewrite !app_nil_r. auto. Qed.

Lemma JI_refl i s : JI i s s.
Proof. apply JI_same; reflexivity. Qed.

Lemma JI_trans i s1 s2 s3 : JI i s1 s2 -> JI i s2 s3 -> JI i s1 s3.
Proof.
  intros (a & A1 & A2 & A3) (b & B1 & B2 & B3). exists (a ++ b).
  rewrite B1, A1, B2, A2, B3, A3, ended_app, spawned_app, !app_assoc. auto.
Qed.

Lemma JI_say i it s : dull it -> JI i s (say it s).
Proof.
  intros H. exists [it]. cbn [say x_w x_log ended spawned flat_map]. rewrite !app_nil_r.
  destruct it; try destruct H; cbn [en1 sp1]; rewrite !app_nil_r; auto.
Qed.

Lemma JI_on_w i f s : w_fin (f (x_w s)) = w_fin (x_w s) -> hnd (w_mod (f (x_w s)) i) = hnd (w_mod (x_w s) i) -> JI i s (on_w f s).
Proof. intros A B. apply JI_same; [reflexivity|exact A|exact B]. Qed.

Lemma buf_send_at_fin k now m far d x w : w_fin (buf_send_at k now m far d x w) = w_fin w.
Proof. unfold buf_send_at. destruct (d =? 0); [destruct (walk k w m far)|]; reflexivity. Qed.

Lemma do_act_JI k now i who a s : JI i s (do_act k now i who a s).
Proof.
  destruct a; cbn [do_act]; try apply JI_refl; try (destruct (broke i s); [apply JI_refl|]).
  - apply JI_say. exact I.
  - eapply JI_trans; [apply JI_on_w|apply JI_say; exact I]; cbv beta; rewrite ?buf_send_at_fin, ?buf_send_at_mod; wset.
  - eapply JI_trans; [apply JI_on_w|apply JI_say; exact I]; wset.
  - eapply JI_trans; [apply JI_on_w|apply JI_say; exact I]; wset.
  - eapply JI_trans; [apply JI_on_w|apply JI_say; exact I]; wset.
  - eapply JI_trans; [apply JI_on_w|apply JI_say; exact I]; wset.
Qed.

Lemma spawned_items i n ps : spawned i (spawn_items i n ps) = map (fun j => (n, N.of_nat j)) (seq 0 (length ps)) /\
  ended (spawn_items i n ps) = [].
Proof.
  unfold spawn_items, spawned, ended. generalize 0%nat. induction ps as [|p ps IH]; intros j; cbn [length seq combine map flat_map]; [auto|].
  destruct (IH (S j)) as [A B]. rewrite A, B. cbn [sp1 en1 fst]. rewrite N.eqb_refl. auto.
Qed.

Lemma catch_fin c i p w : w_fin (fst (catch c i p w)) = w_fin w /\ hnd (w_mod (fst (catch c i p w)) i) = hnd (w_mod w i).
Proof. unfold catch. destruct p; [|auto]. destruct (catchf (w_mod w i)); cbn [fst]; wsimpl; rewrite N.eqb_refl; auto. Qed.

Lemma JI_closed k now i : Closed k now i (fun _ => True) (JI i).
Proof.
  constructor.
  - apply JI_refl.
  - apply JI_trans.
  - apply do_act_JI.
  - intros who s _. apply JI_say. exact I.
  - intros s. unfold quiet. destruct (shut (w_mod (x_w s) i)); [apply JI_say; exact I|].
    eapply JI_trans; [apply JI_on_w|apply JI_say; exact I]; wset.
  - intros c b s. apply JI_say. exact I.
  - intros sp s. destruct (spawned_items i (inc (w_mod (x_w s) i)) sp) as [A B].
    exists (spawn_items i (inc (w_mod (x_w s) i)) sp). rewrite A, B, app_nil_r. unfold spawn_all. wsimpl. rewrite N.eqb_refl. wsimpl. auto.
  - intros s. apply JI_on_w; wset.
  - intros how s tk. unfold end_task. exists [ITaskEnd i (tk_id tk) (tk_inc tk) how].
    cbn [say on_w x_w x_log ended spawned flat_map en1 sp1 w_fin set_fin w_mod app]. rewrite !app_nil_r. auto.
  - intros d tk s _. apply JI_on_w; wset.
  - intros c p s. destruct (catch_fin c i p (x_w s)) as [A B]. apply JI_same; [reflexivity|exact A|exact B].
  - intros s. apply JI_on_w; wset.
  - intros c s. apply JI_on_w; reflexivity.
Qed.

Lemma callback_JI sc i now knd f : callback sc i now knd f -> forall s, JI i s (f s).
Proof. apply callback_R, JI_closed. Qed.

(* ---- the runtime around a callback ---- *)
Definition WJ (w : world) (l : list item) (w' : world) : Prop :=
  w_fin w' = w_fin w ++ ended l /\ forall m, hnd (w_mod w' m) = hnd (w_mod w m) ++ spawned m l.

Lemma activate_fin now m w : w_fin (activate now m w) = w_fin w /\ forall j, hnd (w_mod (activate now m w) j) = hnd (w_mod w j).
Proof.
  split; [|intros j; apply (activate_field hnd); reflexivity].
  unfold activate. destruct (split_due now (timers (w_mod w m))). reflexivity.
Qed.

Lemma deactivate_fin m w : w_fin (deactivate m w) = w_fin w /\ forall j, hnd (w_mod (deactivate m w) j) = hnd (w_mod w j).
Proof.
  split; [|intros j; apply (deactivate_field hnd); reflexivity].
  unfold deactivate. destruct (timers (w_mod w m)) as [|[t tk] r]; [reflexivity|]. destruct (lt_nw t (nw (w_mod w m))); reflexivity.
Qed.

Lemma ended_cancelled m c x : ended (cancelled m c x) = map (fun id => (m, inc x, id, 2)) (dropped c x) /\ spawned m (cancelled m c x) = [].
Proof.
  unfold cancelled, ended, spawned. rewrite !flat_map_app.
  assert (E1 : forall l, flat_map en1 (map (ICancel m) l) = []) by (induction l as [|a l IH]; [reflexivity|exact IH]).
  assert (E2 : forall l, flat_map en1 (map (fun id => ITaskEnd m id (inc x) 2) l) = map (fun id => (m, inc x, id, 2)) l)
    by (induction l as [|a l IH]; [reflexivity|cbn [map flat_map en1 app]; rewrite IH; reflexivity]).
  assert (E3 : forall l, flat_map (sp1 m) (map (ICancel m) l) = []) by (induction l as [|a l IH]; [reflexivity|exact IH]).
  assert (E4 : forall l, flat_map (sp1 m) (map (fun id => ITaskEnd m id (inc x) 2) l) = []) by (induction l as [|a l IH]; [reflexivity|exact IH]).
  rewrite E1, E2, E3, E4. auto.
Qed.

Lemma buf_process_WJ c now m w : WJ w (snd (buf_process c now m w)) (fst (buf_process c now m w)).
Proof.
  destruct (ended_cancelled m c (w_mod w m)) as [A B].
  assert (Hrp : ended (rpanic c m) = [] /\ forall j, spawned j (rpanic c m) = []) by (unfold rpanic; destruct (c_rsend c); split; reflexivity).
  destruct Hrp as [R1 R2]. rewrite buf_process_items.
  split.
  - rewrite buf_process_fin. destruct (shut (w_mod w m)); [|reflexivity].
    rewrite !ended_app, A, R1. cbn [ended flat_map en1 app]. rewrite !app_nil_r. reflexivity.
  - intros j.
    assert (Hh : hnd (w_mod (fst (buf_process c now m w)) j) = hnd (w_mod w j)).
    { destruct (N.eq_dec j m) as [->|Hj]; [|rewrite buf_process_oth by exact Hj; reflexivity].
      rewrite buf_process_self. destruct (shut (w_mod w m)); reflexivity. }
    rewrite Hh. destruct (shut (w_mod w m)); [|cbn [spawned flat_map]; rewrite app_nil_r; reflexivity].
    rewrite !spawned_app, R2. cbn [spawned flat_map sp1 app]. rewrite !app_nil_r.
    assert (E : spawned j (cancelled m c (w_mod w m)) = []).
    { destruct (N.eq_dec j m) as [->|Hj]; [exact B|]. apply (spawned_other m j); [auto|apply cancelled_own]. }
    rewrite E, app_nil_r. reflexivity.
Qed.

Lemma around_WJ sc now i f w : CbOK i f -> (forall s, JI i s (f s)) -> WJ w (snd (around sc now i f w)) (fst (around sc now i f w)).
Proof.
  intros Hok Hji. rewrite around_world, around_log. destruct (Hji {| x_w := activate now i w; x_log := [] |}) as (l & Hl & Hf & Hh).
  destruct (Hok {| x_w := activate now i w; x_log := [] |}) as [[Foth _ _ _ _ _] (lu & Hlu & Ulu)].
  revert Hl Hf Hh Foth Hlu. generalize (f {| x_w := activate now i w; x_log := [] |}). intros s Hl Hf Hh Foth Hlu.
  cbn [x_w x_log app] in Hl, Hf, Hh, Foth, Hlu.
  destruct (activate_fin now i w) as [A1 A2]. destruct (deactivate_fin i (x_w s)) as [D1 D2].
  destruct (buf_process_WJ (cfg sc i) now i (deactivate i (x_w s))) as [B1 B2].
  split.
  - rewrite B1, D1, Hf, A1, Hl, ended_app, app_assoc. reflexivity.
  - intros m. rewrite B2, D2, Hl, spawned_app, app_assoc. f_equal.
    destruct (N.eq_dec m i) as [->|Hm]; [rewrite Hh, A2; reflexivity|].
    rewrite Foth, A2 by exact Hm. rewrite (spawned_other i m l); [rewrite app_nil_r; reflexivity|auto|].
    rewrite Hl in Hlu. subst lu. apply Usr_Own, Ulu.
Qed.

Lemma WJ_nil w w' : w_fin w' = w_fin w -> (forall m, hnd (w_mod w' m) = hnd (w_mod w m)) -> WJ w [] w'.
Proof. intros A B. split; [cbn; rewrite app_nil_r; exact A|intros m; cbn; rewrite app_nil_r; apply B]. Qed.

Lemma WJ_sample w l w' t x : WJ w l w' -> WJ w (l ++ [ISample t x]) w'.
Proof. intros [A B]. split; [rewrite ended_app|intros m; rewrite spawned_app]; cbn; rewrite app_nil_r; auto. Qed.

Lemma step_WJ sc w e w' : step sc w e w' -> WJ w (e_items e) w'.
Proof.
  revert w e w'. apply step_cases; cbn [boot_rec e_items].
  - intros stage m w _ _. apply around_WJ; [apply start_cb_ok|apply (callback_JI sc m 0 _ _ (cb_start sc m stage))].
  - intros w. apply (WJ_sample w [] w), WJ_nil; reflexivity.
  - intros w t ev f m cb _ Hcb. apply WJ_sample.
    exact (around_WJ sc t m cb (set_fes w f) (callback_ok _ _ _ _ _ Hcb) (callback_JI _ _ _ _ _ Hcb)).
  - intros w t m far x f w1 _ Hw1. apply (WJ_sample w [] w1), WJ_nil; [|intros j]; destruct Hw1 as [->|(dst & ->)]; reflexivity.
Qed.

(* the world's bookkeeping is what the trace so far says *)
Definition JW (w : world) (l : list item) : Prop := w_fin w = ended l /\ forall m, hnd (w_mod w m) = spawned m l.

Lemma JW_step w l w' l' : JW w l -> WJ w l' w' -> JW w' (l ++ l').
Proof. intros [A B] [C D]. split; [rewrite C, A, ended_app; reflexivity|intros m; rewrite D, B, spawned_app; reflexivity]. Qed.

Lemma gen_JW sc : forall w tr, Gen sc w tr -> JW w (items tr).
Proof.
  apply gen_inv.
  - split; [reflexivity|intros m; reflexivity].
  - intros w tr e w' _ H S. rewrite items_snoc. apply (JW_step w _ w' _ H (step_WJ sc w e w' S)).
Qed.

(* ---- tear-down ---- *)
Lemma end_rec_WJ sc now m w : WJ w (e_items (snd (end_rec sc now m w))) (fst (end_rec sc now m w)).
Proof.
  pose proof (end_rec_oth sc now m w) as Ho. pose proof (end_rec_own sc now m w) as Hw. rewrite end_rec_fst, end_rec_snd in *. cbn [e_items] in *.
  destruct (at_sim_end_steps _ _ _ _ (JI_closed (nmods sc) now m) (cfg sc m) {| x_w := activate now m w; x_log := [] |}) as (l & Hl & Hf & Hh).
  cbn [x_w x_log app] in Hl, Hf, Hh. destruct (activate_fin now m w) as [A1 A2]. rewrite A1 in Hf. rewrite A2 in Hh.
  match goal with |- WJ w _ (deactivate m ?W) => destruct (deactivate_fin m W) as [D1 D2] end.
  split; [rewrite D1, Hf, Hl; reflexivity|]. intros j. rewrite D2. destruct (N.eq_dec j m) as [->|Hj]; [rewrite Hh, Hl; reflexivity|].
  rewrite <- D2, (Ho j Hj), (spawned_other m j); [rewrite app_nil_r; reflexivity|auto|exact Hw].
Qed.

Lemma catch_err c m p w : w_err (fst (catch c m p w)) = w_err w ++ (if snd (catch c m p w) then [(0, m)] else []).
Proof. unfold catch. destruct p; [|cbn; rewrite app_nil_r; reflexivity]. destruct (catchf (w_mod w m)); cbn; rewrite ?app_nil_r; reflexivity. Qed.

(* what one module's at_sim_end adds to the error: the PanicError of its callback, or else its join errors *)
Lemma end_rec_err sc now m w :
  w_err (fst (end_rec sc now m w)) = w_err w ++
    match perrs sc (e_items (snd (end_rec sc now m w))) with
    | [] => join_errs (cfg sc m) m (hnd (w_mod (fst (end_rec sc now m w)) m)) (w_fin (fst (end_rec sc now m w)))
    | l => l
    end.
Proof.
  rewrite end_rec_fst, end_rec_snd. cbn [e_items]. rewrite deactivate_err.
  match goal with |- context [deactivate m ?W] => destruct (deactivate_fin m W) as [D1 D2]; rewrite D1, D2; clear D1 D2 end.
  unfold at_sim_end. set (s0 := {| x_w := activate now m w; x_log := [] |}).
  assert (H0 : PInv sc m (w_err w) s0).
  { constructor; cbn [s0 x_w x_log p0s filter perrs flat_map]; [rewrite app_nil_r; apply activate_err|intros H; contradiction]. }
  pose proof (c_exec _ _ _ _ (PInv_closed2 sc (nmods sc) now m (w_err w)) (cfg sc m) CbEnd [] (c_end (cfg sc m)) s0 H0) as G.
  pose proof (exec_LogExt (nmods sc) now m CbEnd [] (c_end (cfg sc m)) s0) as (lu & Hlu & Uu).
  pose proof (exec_Fr (nmods sc) now m CbEnd [] (c_end (cfg sc m)) s0) as HF0.
  destruct (exec (nmods sc) now m CbEnd [] (c_end (cfg sc m)) s0) as [s1 pn]. cbn [fst snd] in Hlu, HF0, G. cbn [x_log s0 app] in Hlu.
  pose proof (catch_err (cfg sc m) m pn (x_w s1)) as Hce.
  destruct (catch (cfg sc m) m pn (x_w s1)) as [w2 e2] eqn:Ec. cbn [fst snd] in G, Hce. destruct G as [pe _]. cbn [x_w x_log] in pe.
  rewrite (fr_err _ _ _ HF0) in Hce. cbn [x_w s0] in Hce. rewrite activate_err in Hce. rewrite Hce in pe. apply app_inv_head in pe.
  assert (Hown : forall l, Forall (Usr m) l -> perrs sc l = perrs sc (p0s m l)).
  { intros l Hl. apply perrs_p0. intros i Hi. rewrite Forall_forall in Hl. apply (Hl i Hi). }
  destruct e2.
  - cbn [x_w x_log]. rewrite Hlu, (Hown lu Uu), <- Hlu, <- pe, Hce. reflexivity.
  - set (s2 := {| x_w := w2; x_log := x_log s1 |}).
    pose proof (poll_ready_Keep m (nmods sc) now m s2) as K. pose proof (poll_ready_Fr (nmods sc) now m s2) as HF.
    pose proof (poll_ready_LogExt (nmods sc) now m s2) as (l2 & Hl2 & U2).
    cbn [on_w x_w x_log w_err set_err w_fin w_mod]. rewrite (fr_err _ _ _ HF). cbn [x_w s2]. rewrite Hce, app_nil_r. f_equal.
    rewrite Hl2. cbn [x_log s2]. rewrite Hlu, (Hown (lu ++ l2)) by (apply Forall_app; auto).
    unfold Keep in K. rewrite Hl2 in K. cbn [x_log s2] in K. rewrite Hlu in K. rewrite K, <- Hlu, <- pe. reflexivity.
Qed.

(* entries of other modules do not matter to the handles of m *)
Lemma outcome_other fin extra m h : Forall (fun e => fst (fst (fst e)) <> m) extra -> outcome (fin ++ extra) m h = outcome fin m h.
Proof.
  intros H. unfold outcome. induction fin as [|e fin IH]; cbn [app find].
  - induction extra as [|e extra IH]; [reflexivity|]. inversion H; subst. cbn [find].
    assert (E : (fst (fst (fst e)) =? m) = false) by (apply N.eqb_neq; assumption). rewrite E. cbn [andb]. apply IH. assumption.
  - destruct ((fst (fst (fst e)) =? m) && (snd (fst (fst e)) =? fst h) && (snd (fst e) =? snd h)); [reflexivity|exact IH].
Qed.

Lemma join_errs_other c m hs fin extra : Forall (fun e => fst (fst (fst e)) <> m) extra ->
  join_errs c m hs (fin ++ extra) = join_errs c m hs fin.
Proof.
  intros H. unfold join_errs. f_equal; apply flat_map_ext; intros h; rewrite (outcome_other fin extra m h H); reflexivity.
Qed.

Lemma ended_own i m l : i <> m -> Own i l -> Forall (fun e => fst (fst (fst e)) <> m) (ended l).
Proof.
  intros Hi Ho. unfold ended. induction l as [|it l IH]; [constructor|]. inversion Ho; subst. cbn [flat_map]. apply Forall_app. split; [|apply IH; assumption].
  destruct it; try constructor; [|constructor]. cbn [item_mod] in H1. injection H1 as ->. cbn. exact Hi.
Qed.

(* ---- the tear-down sweep ---- *)
Definition ends_of (m : N) (tr : list erec) : list erec :=
  filter (fun e => match e_kind e with KEnd m' => m' =? m | _ => false end) tr.

Definition end_errs (sc : script) (m : N) (tr : list erec) : list (N * N) :=
  match perrs sc (items (ends_of m tr)) with
  | [] => join_errs (cfg sc m) m (spawned m (items tr)) (ended (items tr))
  | l => l
  end.

Lemma ends_of_app m a b : ends_of m (a ++ b) = ends_of m a ++ ends_of m b.
Proof. apply filter_app. Qed.

Lemma items_app a b : items (a ++ b) = items a ++ items b.
Proof. apply flat_map_app. Qed.

Lemma gen_no_ends sc m : forall w tr, Gen sc w tr -> ends_of m tr = [].
Proof.
  apply (gen_inv sc (fun _ tr => ends_of m tr = [])); [reflexivity|].
  intros w tr e w' _ H S. rewrite ends_of_app, H. destruct S; reflexivity.
Qed.

(* the records of the sweep over [ms]: one per module, the module's own *)
Lemma end_seq_recs sc now : forall ms w,
  Forall (fun e => exists m, In m ms /\ e_kind e = KEnd m /\ Own m (e_items e)) (snd (end_seq sc now ms w)).
Proof.
  induction ms as [|m ms IH]; intros w; [constructor|]. rewrite end_seq_snd. constructor.
  - exists m. split; [left; reflexivity|split; [reflexivity|apply end_rec_own]].
  - eapply Forall_impl; [|apply IH]. intros e (m' & Hin & Hk & Ho). exists m'. split; [right; exact Hin|auto].
Qed.

Lemma recs_foreign m es ms : ~ In m ms ->
  Forall (fun e : erec => exists m', In m' ms /\ e_kind e = KEnd m' /\ Own m' (e_items e)) es ->
  ends_of m es = [] /\ spawned m (items es) = [] /\ Forall (fun e => fst (fst (fst e)) <> m) (ended (items es)).
Proof.
  intros Hm H. induction es as [|e es IH]; [repeat split; constructor|]. inversion H as [|x y (m' & Hin & Hk & Ho) Hr]; subst.
  destruct (IH Hr) as (A & B & C). assert (Hne : m' <> m) by (intros ->; contradiction).
  split; [|split].
  - unfold ends_of in *. cbn [filter]. rewrite Hk. apply N.eqb_neq in Hne. rewrite Hne. exact A.
  - cbn [items flat_map]. fold (items es). rewrite spawned_app, B, (spawned_other m' m); auto.
  - cbn [items flat_map]. fold (items es). rewrite ended_app. apply Forall_app. split; [apply (ended_own m' m); auto|exact C].
Qed.

Lemma end_seq_errs sc now : forall ms w pre, NoDup ms -> JW w (items pre) -> (forall m, In m ms -> ends_of m pre = []) ->
  JW (fst (end_seq sc now ms w)) (items (pre ++ snd (end_seq sc now ms w))) /\
  w_err (fst (end_seq sc now ms w)) = w_err w ++ flat_map (fun m => end_errs sc m (pre ++ snd (end_seq sc now ms w))) ms.
Proof.
  induction ms as [|m ms IH]; intros w pre Hnd HJ Hpre; cbn [end_seq].
  - cbn [fst snd flat_map]. rewrite !app_nil_r. auto.
  - inversion Hnd as [|x y Hm Hnd']; subst.
    pose proof (end_rec_WJ sc now m w) as HW. pose proof (end_rec_err sc now m w) as HE.
    pose proof (end_seq_recs sc now ms (fst (end_rec sc now m w))) as HR.
    set (e := snd (end_rec sc now m w)) in *. set (w1 := fst (end_rec sc now m w)) in *.
    assert (HJ1 : JW w1 (items (pre ++ [e]))) by (rewrite items_snoc; apply (JW_step w _ w1 _ HJ HW)).
    assert (Hpre1 : forall m', In m' ms -> ends_of m' (pre ++ [e]) = []).
    { intros m' Hin. rewrite ends_of_app, (Hpre m' (or_intror Hin)). unfold ends_of, e, end_rec. cbn [filter snd e_kind].
      assert (Hne : (m =? m') = false) by (apply N.eqb_neq; intros ->; contradiction). rewrite Hne. reflexivity. }
    destruct (IH w1 (pre ++ [e]) Hnd' HJ1 Hpre1) as [J2 E2].
    destruct (end_seq sc now ms w1) as [w2 es]. cbn [fst snd] in *.
    rewrite <- app_assoc in J2, E2. cbn [app] in J2, E2. split; [exact J2|].
    rewrite E2, HE, <- app_assoc. f_equal. cbn [flat_map]. f_equal.
    destruct (recs_foreign m es ms Hm HR) as (F1 & F2 & F3). destruct HJ1 as [K1 K2].
    unfold end_errs. rewrite ends_of_app. cbn [ends_of filter]. fold (ends_of m es). rewrite (Hpre m (or_introl eq_refl)), F1.
    assert (Hk : e_kind e = KEnd m) by reflexivity. rewrite Hk, N.eqb_refl. cbn [app items flat_map]. rewrite app_nil_r.
    destruct (perrs sc (e_items e)); [|reflexivity].
    change (pre ++ e :: es) with (pre ++ [e] ++ es). rewrite app_assoc, items_app, spawned_app, ended_app, F2, app_nil_r.
    rewrite (join_errs_other _ _ _ _ _ F3), K1, K2. reflexivity.
Qed.

(* ---- C13 errors_exact, complete ---- *)
Definition body (tr : list erec) : list erec := filter (fun e => negb (is_end e)) tr.

Theorem errors_exact_full sc :
  r_err (run_script sc) = perrs sc (items (body (trace sc))) ++ flat_map (fun m => end_errs sc m (trace sc)) (mods sc).
Proof.
  destruct (run_decomp sc) as (w & tr & HG & [(_ & _ & now & Et & Ee)|(Hok & _ & _)]).
  - destruct (gen_PI sc w tr HG) as [He _].
    destruct (end_seq_errs sc now (mods sc) w tr (mods_nodup sc) (gen_JW sc w tr HG) (fun m _ => gen_no_ends sc m w tr HG)) as [_ E].
    rewrite Ee, Et, E, He. f_equal. unfold body. rewrite filter_app.
    rewrite (gen_no_end sc w tr HG), end_seq_all_end, app_nil_r. reflexivity.
  - pose proof (Term.run_terminates sc). congruence.
Qed.

(* run() returns Ok exactly when no callback panicked uncaught and no module has a join error *)
Corollary ok_iff sc : r_err (run_script sc) = [] <->
  perrs sc (items (body (trace sc))) = [] /\ forall m, In m (mods sc) -> end_errs sc m (trace sc) = [].
Proof.
  rewrite errors_exact_full. split.
  - intros H. apply app_eq_nil in H. destruct H as [A B]. split; [exact A|]. intros m Hin.
    induction (mods sc) as [|x l IH]; [destruct Hin|]. cbn [flat_map] in B. apply app_eq_nil in B. destruct B as [B1 B2].
    destruct Hin as [->|Hin]; [exact B1|apply IH; assumption].
  - intros [A B]. rewrite A. cbn [app]. induction (mods sc) as [|x l IH]; [reflexivity|]. cbn [flat_map].
    rewrite (B x (or_introl eq_refl)). apply IH. intros m Hin. apply B. right. exact Hin.
Qed.

Definition is_pe (e : N * N) : bool := fst e =? 0.

Lemma filter_perrs sc l : filter is_pe (perrs sc l) = perrs sc l.
Proof.
  induction l as [|i l IH]; [reflexivity|]. unfold perrs in *. cbn [flat_map]. rewrite filter_app, IH.
  destruct i as [| | | | | |m0 who cc| | | | | | |]; try reflexivity. destruct who; [|reflexivity]. cbn [perr]. destruct cc; reflexivity.
Qed.

Lemma filter_join_errs c m hs fin : filter is_pe (join_errs c m hs fin) = [].
Proof.
  unfold join_errs. rewrite filter_app.
  assert (G : forall f : N * N -> list (N * N), (forall h, filter is_pe (f h) = []) -> filter is_pe (flat_map f hs) = []).
  { intros f Hf. induction hs as [|h l IH]; [reflexivity|]. cbn [flat_map]. rewrite filter_app, Hf, IH. reflexivity. }
  rewrite !G; [reflexivity| |]; intros h; destruct (N.testbit (c_join c) (snd h)); try reflexivity;
    destruct (outcome fin m h) as [[|[[p|p|]|p|]]|]; reflexivity.
Qed.

Lemma end_seq_err sc now : forall ms w,
  filter is_pe (w_err (fst (end_seq sc now ms w))) = filter is_pe (w_err w) ++ perrs sc (items (snd (end_seq sc now ms w))).
Proof.
  induction ms as [|m ms IH]; intros w; [cbn; rewrite app_nil_r; reflexivity|].
  rewrite end_seq_fst, end_seq_snd. cbn [items flat_map].
  rewrite IH, (end_rec_err sc now m w), filter_app, perrs_app, <- app_assoc. f_equal. f_equal.
  destruct (perrs sc (e_items (snd (end_rec sc now m w)))) as [|p l] eqn:Ep; [apply filter_join_errs|].
  rewrite <- Ep. apply filter_perrs.
Qed.

Theorem errors_exact sc : filter is_pe (r_err (run_script sc)) = perrs sc (items (trace sc)).
Proof.
  destruct (run_decomp sc) as (w & tr & HG & [(_ & _ & now & Et & Ee)|(_ & Et & Ee)]); destruct (gen_PI sc w tr HG) as [He _].
  - rewrite Ee, Et, end_seq_err, He, filter_perrs. unfold items. rewrite flat_map_app, perrs_app. reflexivity.
  - rewrite Ee, Et, He, filter_perrs. reflexivity.
Qed.

Corollary ok_only_if_no_uncaught_panic sc : r_err (run_script sc) = [] -> perrs sc (items (trace sc)) = [].
Proof. intros H. rewrite <- errors_exact, H. reflexivity. Qed.
