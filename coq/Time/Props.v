(* The pair representation of simulated time is a faithful image of the natural numbers of nanoseconds
   below 2^64 * 10^9: every operation of Time/Model.v is the corresponding operation on N with a range
   check, and the whole script interpreter agrees with its nanosecond-level twin. *)
From Coq Require Import List NArith Lia.
From DesVerif Require Import Common.Codec Time.Model.
Import ListNotations.
Open Scope N_scope.


Definition to_ns (d : dur) : N := secs d * NPS + nanos d.
Definition of_ns (n : N) : dur := mkDur (n / NPS) (n mod NPS).
Definition LIMIT : N := U64 * NPS.          (* first nanosecond count that no Duration holds *)

Lemma NPS_pos : 0 < NPS. Proof. reflexivity. Qed.
Lemma NPS_val : NPS = 1000000000. Proof. reflexivity. Qed.
Lemma U64_val : U64 = 18446744073709551616. Proof. reflexivity. Qed.
Lemma LIMIT_val : LIMIT = 18446744073709551616000000000. Proof. reflexivity. Qed.

Ltac nums := rewrite ?NPS_val, ?U64_val, ?LIMIT_val in *.

Lemma to_ns_lt d : wf d -> to_ns d < LIMIT.
Proof. unfold wf, to_ns. intros [Hs Hn]. nums. lia. Qed.

Lemma of_ns_wf n : n < LIMIT -> wf (of_ns n).
Proof.
  unfold wf, of_ns; cbn [secs nanos]. intros H. split.
  - apply N.div_lt_upper_bound; [discriminate|]. nums. lia.
  - apply N.mod_lt. discriminate.
Qed.

Lemma to_of_ns n : to_ns (of_ns n) = n.
Proof.
  unfold to_ns, of_ns; cbn [secs nanos].
  pose proof (N.div_mod n NPS ltac:(discriminate)). lia.
Qed.

Lemma of_to_ns d : wf d -> of_ns (to_ns d) = d.
Proof.
  unfold wf, to_ns, of_ns. destruct d as [s n]; cbn [secs nanos]. intros [Hs Hn].
  f_equal.
  - symmetry. apply N.div_unique with n; [assumption|lia].
  - symmetry. apply N.mod_unique with s; [assumption|lia].
Qed.

Lemma to_ns_inj a b : wf a -> wf b -> to_ns a = to_ns b -> a = b.
Proof. intros Ha Hb H. rewrite <- (of_to_ns a Ha), <- (of_to_ns b Hb), H. reflexivity. Qed.

(* ---- single operations ---- *)

Lemma checked_add_spec a b : wf a -> wf b ->
  match dur_checked_add a b with
  | Some c => wf c /\ to_ns c = to_ns a + to_ns b
  | None => LIMIT <= to_ns a + to_ns b
  end.
Proof.
  unfold wf, dur_checked_add, to_ns. destruct a as [sa na], b as [sb nb]; cbn [secs nanos].
  intros [Hsa Hna] [Hsb Hnb].
  destruct (N.leb_spec U64 (sa + sb)) as [H1|H1].
  - nums. lia.
  - destruct (N.leb_spec NPS (na + nb)) as [H2|H2].
    + destruct (N.leb_spec U64 (sa + sb + 1)) as [H3|H3]; cbn [secs nanos].
      * nums. lia.
      * nums. repeat split; lia.
    + cbn [secs nanos]. nums. repeat split; lia.
Qed.

Lemma checked_sub_spec a b : wf a -> wf b ->
  match dur_checked_sub a b with
  | Some c => wf c /\ to_ns b <= to_ns a /\ to_ns c = to_ns a - to_ns b
  | None => to_ns a < to_ns b
  end.
Proof.
  unfold wf, dur_checked_sub, to_ns. destruct a as [sa na], b as [sb nb]; cbn [secs nanos].
  intros [Hsa Hna] [Hsb Hnb].
  destruct (N.ltb_spec sa sb) as [H1|H1].
  - nums. lia.
  - destruct (N.leb_spec nb na) as [H2|H2]; cbn [secs nanos].
    + nums. repeat split; lia.
    + destruct (N.eqb_spec (sa - sb) 0) as [H3|H3]; cbn [secs nanos].
      * nums. lia.
      * nums. repeat split; lia.
Qed.

Lemma cmp_spec a b : wf a -> wf b -> dur_cmp a b = (to_ns a ?= to_ns b).
Proof.
  unfold wf, dur_cmp, to_ns. destruct a as [sa na], b as [sb nb]; cbn [secs nanos].
  intros [Hsa Hna] [Hsb Hnb]. symmetry.
  destruct (N.compare_spec sa sb) as [H|H|H].
  - subst. destruct (N.compare_spec na nb) as [H|H|H].
    + subst. apply N.compare_refl.
    + apply N.compare_lt_iff. lia.
    + apply N.compare_gt_iff. lia.
  - apply N.compare_lt_iff. nums. lia.
  - apply N.compare_gt_iff. nums. lia.
Qed.

Lemma eqb_spec a b : wf a -> wf b -> dur_eqb a b = (to_ns a =? to_ns b).
Proof.
  intros Ha Hb. unfold dur_eqb.
  destruct (N.eqb_spec (to_ns a) (to_ns b)) as [H|H].
  - apply (to_ns_inj a b Ha Hb) in H. subst. rewrite !N.eqb_refl. reflexivity.
  - destruct (N.eqb_spec (secs a) (secs b)) as [H1|H1]; [|reflexivity].
    destruct (N.eqb_spec (nanos a) (nanos b)) as [H2|H2]; [|reflexivity].
    exfalso. apply H. unfold to_ns. rewrite H1, H2. reflexivity.
Qed.

Lemma dur_new_spec s n : s < U64 ->
  match dur_new s n with
  | Some d => wf d /\ to_ns d = s * NPS + n
  | None => LIMIT <= s * NPS + n
  end.
Proof.
  unfold dur_new, wf, to_ns. intros Hs.
  pose proof (N.div_mod n NPS ltac:(discriminate)) as Hdm.
  pose proof (N.mod_lt n NPS ltac:(discriminate)) as Hm.
  destruct (N.ltb_spec (s + n / NPS) U64) as [H|H]; cbn [secs nanos];
    set (q := n / NPS) in *; set (r := n mod NPS) in *; clearbody q r; nums.
  - repeat split; try assumption. lia.
  - lia.
Qed.

(* the two-atomics clock gives back exactly what was stored *)
Lemma clock_roundtrip t : wf t -> now (set_now t) = Some t.
Proof.
  unfold wf, now, set_now, dur_new. destruct t as [s n]; cbn [secs nanos clk_s clk_n]. intros [Hs Hn].
  rewrite N.div_small by assumption. rewrite N.add_0_r.
  destruct (N.ltb_spec s U64) as [_|H]; [|lia].
  rewrite N.mod_small by assumption. reflexivity.
Qed.

Lemma wf_zero : wf dur_zero. Proof. split; reflexivity. Qed.
Lemma wf_max : wf dur_max. Proof. split; reflexivity. Qed.
Lemma to_ns_max : to_ns dur_max = LIMIT - 1. Proof. reflexivity. Qed.
Lemma wf_mk s n : wf (mk s n).
Proof. split; cbn [mk secs nanos]; apply N.mod_lt; discriminate. Qed.

Lemma saturating_spec a b : wf a -> wf b ->
  wf (saturating_since a b) /\ to_ns (saturating_since a b) = to_ns a - to_ns b.
Proof.
  intros Ha Hb. unfold saturating_since, checked_since.
  pose proof (checked_sub_spec a b Ha Hb) as H. destruct (dur_checked_sub a b) as [c|].
  - destruct H as (Hw & _ & He). split; assumption.
  - split; [apply wf_zero|]. change (to_ns dur_zero) with 0. lia.
Qed.

Lemma diff_spec a b : wf a -> wf b ->
  wf (duration_diff a b) /\
  to_ns (duration_diff a b) = (to_ns a - to_ns b) + (to_ns b - to_ns a).
Proof.
  intros Ha Hb. unfold duration_diff, dur_gtb. rewrite (cmp_spec a b Ha Hb).
  destruct (N.compare_spec (to_ns a) (to_ns b)) as [H|H|H].
  - destruct (saturating_spec b a Hb Ha) as [Hw He]. split; [assumption|]. lia.
  - destruct (saturating_spec b a Hb Ha) as [Hw He]. split; [assumption|]. lia.
  - destruct (saturating_spec a b Ha Hb) as [Hw He]. split; [assumption|]. lia.
Qed.

Lemma ltb_spec a b : wf a -> wf b -> dur_ltb a b = (to_ns a <? to_ns b).
Proof.
  intros Ha Hb. unfold dur_ltb. rewrite (cmp_spec a b Ha Hb).
  destruct (N.compare_spec (to_ns a) (to_ns b)) as [H|H|H];
    destruct (N.ltb_spec (to_ns a) (to_ns b)); try reflexivity; lia.
Qed.

(* ---- the nanosecond-level interpreter ---- *)

Definition pn (n : N) : list N := [n / NPS; n mod NPS].

Definition aadd (x y : N) : option N := if x + y <? LIMIT then Some (x + y) else None.
Definition asub (x y : N) : option N := if y <=? x then Some (x - y) else None.
Definition adiff (x y : N) : N := (x - y) + (y - x).

Inductive aop :=
| ASet (d : N) | AAdd (d : N) | AAddAssign (d : N) | ASub (d : N) | ASubAssign (d : N)
| ACheckedAdd (d : N) | ACheckedSub (d : N) | ARelate (d : N) | AApprox (d e : N) | AClock | AConst (k : N).

Definition astep (cur : N) (o : aop) : N * list N :=
  match o with
  | ASet d => (d, 1 :: pn d)
  | AAdd d => match aadd cur d with Some c => (c, 2 :: 0 :: pn c) | None => (cur, [2; 9]) end
  | AAddAssign d => match aadd cur d with Some c => (c, 3 :: 0 :: pn c) | None => (cur, [3; 9]) end
  | ASub d => match asub cur d with Some c => (c, 4 :: 0 :: pn c) | None => (cur, [4; 9]) end
  | ASubAssign d => match asub cur d with Some c => (c, 5 :: 0 :: pn c) | None => (cur, [5; 9]) end
  | ACheckedAdd d => (cur, match aadd cur d with Some c => 6 :: 1 :: pn c | None => [6; 0] end)
  | ACheckedSub d => (cur, match asub cur d with Some c => 7 :: 1 :: pn c | None => [7; 0] end)
  | ARelate d =>
      (cur, [8; cmp_code (cur ?= d); b2n (cur =? d)]
            ++ (match asub cur d with Some x => 1 :: pn x | None => [0] end)
            ++ pn (cur - d)
            ++ pn (adiff cur d))
  | AApprox d e => (cur, [9; b2n (adiff cur d <? e)])
  | AClock => (cur, if (cur / WIDTH) * WIDTH + WIDTH <? LIMIT
                    then 10 :: 0 :: pn cur      (* the clock shows exactly the start time *)
                    else [10; 9])               (* the scan window would end beyond the representable range *)
  | AConst k => let d := if k =? 2 then LIMIT - 1 else 0 in (d, 11 :: pn d)
  end.

Fixpoint aexec (cur : N) (ops : list aop) : list N :=
  match ops with
  | [] => []
  | o :: r => let '(c, out) := astep cur o in out ++ aexec c r
  end.

Definition abs_op (o : op) : aop :=
  match o with
  | OSet d => ASet (to_ns d) | OAdd d => AAdd (to_ns d) | OAddAssign d => AAddAssign (to_ns d)
  | OSub d => ASub (to_ns d) | OSubAssign d => ASubAssign (to_ns d)
  | OCheckedAdd d => ACheckedAdd (to_ns d) | OCheckedSub d => ACheckedSub (to_ns d)
  | ORelate d => ARelate (to_ns d) | OApprox d e => AApprox (to_ns d) (to_ns e)
  | OClock => AClock | OConst k => AConst k
  end.

Definition wf_op (o : op) : Prop :=
  match o with
  | OSet d | OAdd d | OAddAssign d | OSub d | OSubAssign d | OCheckedAdd d | OCheckedSub d | ORelate d => wf d
  | OApprox d e => wf d /\ wf e
  | OClock | OConst _ => True
  end.

Lemma pd_pn d : wf d -> pd d = pn (to_ns d).
Proof.
  intros H. unfold pd, pn. pose proof (of_to_ns d H) as E. unfold of_ns in E.
  destruct d as [s n]. injection E as E1 E2. cbn [secs nanos]. rewrite E1, E2. reflexivity.
Qed.

(* [od], computed on pairs, is the optional nanosecond count [on] *)
Definition orel (od : option dur) (on : option N) : Prop :=
  match od, on with
  | Some c, Some n => wf c /\ to_ns c = n /\ pd c = pn n
  | None, None => True
  | _, _ => False
  end.

Lemma orel_some c : wf c -> orel (Some c) (Some (to_ns c)).
Proof. intros Hw. split; [exact Hw|]. split; [reflexivity|apply pd_pn; exact Hw]. Qed.

Lemma aadd_spec a b : wf a -> wf b -> orel (dur_checked_add a b) (aadd (to_ns a) (to_ns b)).
Proof.
  intros Ha Hb. pose proof (checked_add_spec a b Ha Hb) as H. unfold aadd.
  destruct (dur_checked_add a b) as [c|]; destruct (N.ltb_spec (to_ns a + to_ns b) LIMIT) as [L|L].
  - destruct H as [Hw <-]. apply orel_some; exact Hw.
  - destruct H as [Hw He]. pose proof (to_ns_lt c Hw). lia.
  - lia.
  - exact I.
Qed.

Lemma asub_spec a b : wf a -> wf b -> orel (dur_checked_sub a b) (asub (to_ns a) (to_ns b)).
Proof.
  intros Ha Hb. pose proof (checked_sub_spec a b Ha Hb) as H. unfold asub.
  destruct (dur_checked_sub a b) as [c|]; destruct (N.leb_spec (to_ns b) (to_ns a)) as [L|L].
  - destruct H as (Hw & _ & <-). apply orel_some; exact Hw.
  - destruct H as (_ & Hle & _). lia.
  - lia.
  - exact I.
Qed.

Lemma build_ok_spec t : wf t -> build_ok t = ((to_ns t / WIDTH) * WIDTH + WIDTH <? LIMIT).
Proof.
  intros Ht. unfold build_ok. fold (to_ns t).
  set (t0 := to_ns t / WIDTH * WIDTH).
  assert (Hle : t0 <= to_ns t).
  { unfold t0. rewrite N.mul_comm. apply N.mul_div_le. discriminate. }
  pose proof (to_ns_lt t Ht) as Hlt.
  assert (Hw0 : wf (of_ns t0)) by (apply of_ns_wf; lia).
  assert (Hww : wf (mkDur 0 WIDTH)) by (split; reflexivity).
  pose proof (checked_add_spec (of_ns t0) (mkDur 0 WIDTH) Hw0 Hww) as H.
  rewrite to_of_ns in H. change (to_ns (mkDur 0 WIDTH)) with WIDTH in H.
  change (mkDur (t0 / NPS) (t0 mod NPS)) with (of_ns t0).
  destruct (dur_checked_add (of_ns t0) (mkDur 0 WIDTH)) as [c|];
    destruct (N.ltb_spec (t0 + WIDTH) LIMIT) as [L|L]; try reflexivity.
  - destruct H as [Hw He]. pose proof (to_ns_lt c Hw). lia.
  - lia.
Qed.

(* the two shapes in which [step] prints a checked result: it replaces the
   variable (k 0 value | k 9), or it is only shown (k 1 value | k 0) *)
Lemma step_assign od on cur k : wf cur -> orel od on ->
  let r := match od with Some c => (c, k :: 0 :: pd c) | None => (cur, [k; 9]) end in
  let r' := match on with Some n => (n, k :: 0 :: pn n) | None => (to_ns cur, [k; 9]) end in
  wf (fst r) /\ to_ns (fst r) = fst r' /\ snd r = snd r'.
Proof.
  intros Hc H. destruct od as [c|], on as [n|]; try contradiction; cbn [fst snd].
  - destruct H as [Hw [He Hp]]. rewrite Hp. split; [exact Hw|split; [exact He|reflexivity]].
  - split; [exact Hc|split; reflexivity].
Qed.

Lemma step_show od on (k : N) : orel od on ->
  match od with Some c => k :: 1 :: pd c | None => [k; 0] end = match on with Some n => k :: 1 :: pn n | None => [k; 0] end.
Proof. intros H. destruct od as [c|], on as [n|]; try contradiction; [destruct H as [_ [_ ->]]|]; reflexivity. Qed.

Lemma step_astep cur o : wf cur -> wf_op o ->
  wf (fst (step cur o)) /\
  to_ns (fst (step cur o)) = fst (astep (to_ns cur) (abs_op o)) /\
  snd (step cur o) = snd (astep (to_ns cur) (abs_op o)).
Proof.
  intros Hc Ho. destruct o as [d|d|d|d|d|d|d|d|d e| |k]; cbn [wf_op] in Ho; cbn [step astep abs_op].
  - cbn [fst snd]. rewrite (pd_pn d Ho). split; [exact Ho|split; reflexivity].
  - apply step_assign, aadd_spec; assumption.
  - apply step_assign, aadd_spec; assumption.
  - apply step_assign, asub_spec; assumption.
  - apply step_assign, asub_spec; assumption.
  - cbn [fst snd]. rewrite (step_show _ _ 6 (aadd_spec cur d Hc Ho)). split; [exact Hc|split; reflexivity].
  - cbn [fst snd]. rewrite (step_show _ _ 7 (asub_spec cur d Hc Ho)). split; [exact Hc|split; reflexivity].
  - cbn [fst snd]. split; [assumption|]. split; [reflexivity|].
    rewrite (cmp_spec cur d Hc Ho), (eqb_spec cur d Hc Ho).
    destruct (saturating_spec cur d Hc Ho) as [Hsw Hse].
    destruct (diff_spec cur d Hc Ho) as [Hdw Hde].
    rewrite (pd_pn _ Hsw), (pd_pn _ Hdw), Hse, Hde. unfold adiff, checked_since.
    pose proof (asub_spec cur d Hc Ho) as H.
    destruct (dur_checked_sub cur d) as [c|]; destruct (asub (to_ns cur) (to_ns d)) as [n|]; try contradiction; [|reflexivity].
    destruct H as [_ [_ ->]]. reflexivity.
  - destruct Ho as [Hd He]. cbn [fst snd]. split; [assumption|]. split; [reflexivity|].
    unfold eq_approx. destruct (diff_spec cur d Hc Hd) as [Hdw Hde].
    rewrite (ltb_spec _ e Hdw He), Hde. reflexivity.
  - cbn [fst snd]. rewrite (clock_roundtrip cur Hc), (build_ok_spec cur Hc), (pd_pn cur Hc). split; [exact Hc|split; reflexivity].
  - cbn [fst snd]. destruct (k =? 2).
    + rewrite (pd_pn _ wf_max). split; [apply wf_max|split; reflexivity].
    + rewrite (pd_pn _ wf_zero). split; [apply wf_zero|split; reflexivity].
Qed.

Theorem exec_aexec ops : forall cur, wf cur -> Forall wf_op ops ->
  exec cur ops = aexec (to_ns cur) (map abs_op ops).
Proof.
  induction ops as [|o r IH]; intros cur Hc Hops; [reflexivity|].
  inversion Hops as [|? ? Ho Hr]; subst.
  cbn [exec aexec map].
  destruct (step_astep cur o Hc Ho) as (Hw & Hn & Hout).
  destruct (step cur o) as [c out]; destruct (astep (to_ns cur) (abs_op o)) as [c' out'].
  cbn [fst snd] in *. subst. f_equal. apply IH; assumption.
Qed.

(* each branch of dec1 builds its operands with [mk], which reduces them into range *)
Lemma dec1_wf l o r : dec1 l = Some (o, r) -> wf_op o.
Proof.
  unfold dec1. intros H.
  repeat (match type of H with
          | match ?x with _ => _ end = _ => destruct x; try discriminate
          end);
  injection H as <- _; cbn [wf_op]; auto using wf_mk.
Qed.

Lemma decode_with_wf fuel : forall l, Forall wf_op (decode_with fuel dec1 l).
Proof.
  induction fuel as [|f IH]; intros l; cbn [decode_with]; [constructor|].
  destruct l as [|x l']; [constructor|].
  destruct (dec1 (x :: l')) as [[o r]|] eqn:E; [|constructor].
  constructor; [eapply dec1_wf; eassumption|apply IH].
Qed.

Lemma decode_wf l : Forall wf_op (decode l).
Proof. apply decode_with_wf. Qed.

Theorem run_is_nanosecond_arithmetic script :
  run script = aexec 0 (map abs_op (decode script)).
Proof.
  unfold run. change 0 with (to_ns dur_zero).
  apply exec_aexec; [apply wf_zero|apply decode_wf].
Qed.

(* the representation is an order isomorphism onto [0, LIMIT) *)
Theorem repr_iso :
  (forall d, wf d -> to_ns d < LIMIT /\ of_ns (to_ns d) = d) /\
  (forall n, n < LIMIT -> wf (of_ns n) /\ to_ns (of_ns n) = n) /\
  (forall a b, wf a -> wf b -> dur_cmp a b = (to_ns a ?= to_ns b)).
Proof.
  split; [|split].
  - intros d Hd. split; [apply to_ns_lt|apply of_to_ns]; assumption.
  - intros n Hn. split; [apply of_ns_wf; assumption|apply to_of_ns].
  - apply cmp_spec.
Qed.
