(* SimTime / Duration arithmetic as the code performs it (des/src/time/mod.rs, des/src/time/duration.rs on
   top of std::time::Duration): a time value is a pair (secs : u64, nanos : u32 < 10^9); addition and
   subtraction carry/borrow between the two fields and are checked against the u64 range of the seconds;
   the derived order is lexicographic; the process-global clock is a pair of atomics written by
   SimTime::set_now and read back by SimTime::now through Duration::new.

   Every other model of this development writes simulated time as one natural number of nanoseconds.
   Time/Props.v proves that this is faithful: the pair-level interpreter [run] below and the
   nanosecond-level interpreter [aexec] produce the same output on every script.  The correspondence check
   runs [run] against the real SimTime on the same scripts (harness/src/bin/simtime.rs).  f64 conversions
   (From<f64>, Add<f64>, Div) and serde are not modelled. *)
From Coq Require Import List NArith Bool.
From DesVerif Require Import Common.Codec.
Import ListNotations.
Open Scope N_scope.

Definition NPS : N := 1000000000.
Definition U64 : N := 18446744073709551616.

Record dur := mkDur { secs : N; nanos : N }.

Definition wf (d : dur) : Prop := secs d < U64 /\ nanos d < NPS.

(* Duration::new(secs, nanos): carries whole seconds out of nanos, panics when the seconds overflow *)
Definition dur_new (s n : N) : option dur :=
  let s' := s + n / NPS in
  if s' <? U64 then Some (mkDur s' (n mod NPS)) else None.

(* Duration::checked_add *)
Definition dur_checked_add (a b : dur) : option dur :=
  let s := secs a + secs b in
  if U64 <=? s then None else
  let n := nanos a + nanos b in
  if NPS <=? n then
    (let s1 := s + 1 in if U64 <=? s1 then None else Some (mkDur s1 (n - NPS)))
  else Some (mkDur s n).

(* Duration::checked_sub *)
Definition dur_checked_sub (a b : dur) : option dur :=
  if secs a <? secs b then None else
  let s := secs a - secs b in
  if nanos b <=? nanos a then Some (mkDur s (nanos a - nanos b))
  else if s =? 0 then None else Some (mkDur (s - 1) (nanos a + NPS - nanos b)).

(* #[derive(PartialOrd, Ord)] on Duration { secs, nanos } *)
Definition dur_cmp (a b : dur) : comparison :=
  match secs a ?= secs b with
  | Eq => nanos a ?= nanos b
  | c => c
  end.

Definition dur_ltb (a b : dur) : bool := match dur_cmp a b with Lt => true | _ => false end.
Definition dur_gtb (a b : dur) : bool := match dur_cmp a b with Gt => true | _ => false end.
Definition dur_eqb (a b : dur) : bool := (secs a =? secs b) && (nanos a =? nanos b).

Definition dur_zero : dur := mkDur 0 0.
Definition dur_max : dur := mkDur (U64 - 1) (NPS - 1).

(* ---- SimTime (a transparent wrapper around Duration) ---- *)

(* SimTime::checked_duration_since / saturating_duration_since / duration_diff / eq_approx *)
Definition checked_since (a earlier : dur) : option dur := dur_checked_sub a earlier.
Definition saturating_since (a earlier : dur) : dur :=
  match checked_since a earlier with Some d => d | None => dur_zero end.
(* duration_diff: `if self > other { self.duration_since(other) } else { other.duration_since(self) }`;
   neither branch can panic *)
Definition duration_diff (a b : dur) : dur :=
  if dur_gtb a b then saturating_since a b else saturating_since b a.
Definition eq_approx (a b err : dur) : bool := dur_ltb (duration_diff a b) err.

(* the clock: static SIMTIME: (AtomicU64, AtomicU32) *)
Record clock := mkClock { clk_s : N; clk_n : N }.
Definition set_now (t : dur) : clock := mkClock (secs t) (nanos t).
Definition now (c : clock) : option dur := dur_new (clk_s c) (clk_n c).

(* Builder::build with start_time(t) (default calendar-queue options: bucket width 2.5 ms): CQueue::new_at
   places the scan window [t0, t0 + width] on the bucket that contains t, t0 computed in u128 nanoseconds;
   `t0 + width` is a panicking Duration addition, so a start time inside the last bucket width of the
   representable range cannot be built. *)
Definition WIDTH : N := 2500000.
Definition build_ok (t : dur) : bool :=
  let ns := secs t * NPS + nanos t in
  let t0 := (ns / WIDTH) * WIDTH in
  match dur_checked_add (mkDur (t0 / NPS) (t0 mod NPS)) (mkDur 0 WIDTH) with
  | Some _ => true
  | None => false
  end.

(* ---- scripts ---- *)
Inductive op :=
| OSet (d : dur)             (* cur := SimTime::from_duration(d) *)
| OAdd (d : dur)             (* cur = cur + d            (panics on overflow) *)
| OAddAssign (d : dur)       (* cur += d *)
| OSub (d : dur)             (* cur = cur - d            (panics on underflow) *)
| OSubAssign (d : dur)       (* cur -= d *)
| OCheckedAdd (d : dur)
| OCheckedSub (d : dur)
| ORelate (d : dur)          (* other = SimTime(d): cmp, ==, checked/saturating/panicking duration_since, duration_diff *)
| OApprox (d e : dur)        (* cur.eq_approx(SimTime(d), e) *)
| OClock                     (* a runtime built with start_time(cur): SimTime::now() afterwards *)
| OConst (k : N).            (* cur := ZERO | MIN | MAX *)

Definition pd (d : dur) : list N := [secs d; nanos d].
Definition cmp_code (c : comparison) : N := match c with Lt => 0 | Eq => 1 | Gt => 2 end.

(* state: the SimTime variable the script works on *)
Definition step (cur : dur) (o : op) : dur * list N :=
  match o with
  | OSet d => (d, 1 :: pd d)
  | OAdd d => match dur_checked_add cur d with
              | Some c => (c, 2 :: 0 :: pd c)
              | None => (cur, [2; 9])
              end
  | OAddAssign d => match dur_checked_add cur d with
                    | Some c => (c, 3 :: 0 :: pd c)
                    | None => (cur, [3; 9])
                    end
  | OSub d => match dur_checked_sub cur d with
              | Some c => (c, 4 :: 0 :: pd c)
              | None => (cur, [4; 9])
              end
  | OSubAssign d => match dur_checked_sub cur d with
                    | Some c => (c, 5 :: 0 :: pd c)
                    | None => (cur, [5; 9])
                    end
  | OCheckedAdd d => (cur, match dur_checked_add cur d with
                           | Some c => 6 :: 1 :: pd c
                           | None => [6; 0]
                           end)
  | OCheckedSub d => (cur, match dur_checked_sub cur d with
                           | Some c => 7 :: 1 :: pd c
                           | None => [7; 0]
                           end)
  | ORelate d =>
      (cur, [8; cmp_code (dur_cmp cur d); b2n (dur_eqb cur d)]
            ++ (match checked_since cur d with Some x => 1 :: pd x | None => [0] end)
            ++ pd (saturating_since cur d)
            ++ pd (duration_diff cur d))
  | OApprox d e => (cur, [9; b2n (eq_approx cur d e)])
  | OClock => (cur, if build_ok cur then
                      match now (set_now cur) with
                      | Some t => 10 :: 0 :: pd t
                      | None => [10; 9]
                      end
                    else [10; 9])
  | OConst k => let d := if k =? 2 then dur_max else dur_zero in (d, 11 :: pd d)
  end.

Fixpoint exec (cur : dur) (ops : list op) : list N :=
  match ops with
  | [] => []
  | o :: r => let '(c, out) := step cur o in out ++ exec c r
  end.

(* ---- wire format ----
   script := op*   with   op = code s n [s2 n2]
   operands are Duration::new(s mod 2^64, n mod 10^9): always valid, no carry *)
Definition mk (s n : N) : dur := mkDur (s mod U64) (n mod NPS).

Definition dec1 (l : list N) : option (op * list N) :=
  match l with
  | 1 :: s :: n :: r => Some (OSet (mk s n), r)
  | 2 :: s :: n :: r => Some (OAdd (mk s n), r)
  | 3 :: s :: n :: r => Some (OAddAssign (mk s n), r)
  | 4 :: s :: n :: r => Some (OSub (mk s n), r)
  | 5 :: s :: n :: r => Some (OSubAssign (mk s n), r)
  | 6 :: s :: n :: r => Some (OCheckedAdd (mk s n), r)
  | 7 :: s :: n :: r => Some (OCheckedSub (mk s n), r)
  | 8 :: s :: n :: r => Some (ORelate (mk s n), r)
  | 9 :: s :: n :: s2 :: n2 :: r => Some (OApprox (mk s n) (mk s2 n2), r)
  | 10 :: r => Some (OClock, r)
  | 11 :: k :: r => Some (OConst k, r)
  | _ => None
  end.

Definition decode (l : list N) : list op := decode_all dec1 l.

Definition run (script : list N) : list N := exec dur_zero (decode script).
