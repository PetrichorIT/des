(* C19 — what was false of the pinned code (findings F12, F13; repaired by the
   fix: commits 0df464e and 4342f5b), as witnesses by evaluation.  The pinned
   loops differ from coq/Topo/Model.v only in taking the work-list entry from
   the back (`Vec::pop`). *)
From Coq Require Import List Arith Lia.
From DesVerif Require Import Topo.Model Topo.Graph.
Import ListNotations.

(* ---- F12: dijkstra with a LIFO work list is depth-first ---- *)
Fixpoint dj_loop_lifo (fuel : nat) (t : topo) (visited : list nat) (queue : list qel) (mapping : list (nat * hop))
  : option (list (nat * hop)) :=
  match rev queue with
  | [] => Some mapping
  | cur :: rq =>
      match fuel with
      | O => None
      | S f =>
          let q := rev rq in
          if mem (q_idx cur) visited then dj_loop_lifo f t visited q mapping
          else
            let visited' := visited ++ [q_idx cur] in
            let mapping' := match q_next cur with
                            | Some h => (nth (q_idx cur) (nodes t) 0, h) :: mapping
                            | None => mapping
                            end in
            dj_loop_lifo f t visited' (q ++ dj_succ visited' cur (bundle t (q_idx cur))) mapping'
      end
  end.

Definition dijkstra_lifo (t : topo) (src : nat) : dj_result :=
  match position src (nodes t) with
  | None => DjPanic
  | Some s => match dj_loop_lifo (dj_fuel t) t [] [{| q_idx := s; q_dist := 0; q_next := None |}] [] with
              | Some m => DjOk m
              | None => DjOutOfFuel
              end
  end.

(* the triangle s-a, s-b, a-b; gates of s in the order to-b, to-a *)
Definition triangle : world :=
  [[Endpoint [(2, 0)]; Endpoint [(1, 0)]];
   [Endpoint [(0, 1)]; Endpoint [(2, 1)]];
   [Endpoint [(0, 0)]; Endpoint [(1, 1)]]].

(* b (node 2) is a direct neighbour of s, but the recorded first hop is the
   edge to a, which starts no minimum-hop path to b *)
Theorem C19_first_hop_refuted_for_lifo :
  let t := global_topology triangle in
  exists m e, dijkstra_lifo t 0 = DjOk m /\ lookup 2 m = Some (0, e) /\
    ~ exists p, walk t 0 (e :: p) 2 /\ forall q, walk t 0 q 2 -> length (e :: p) <= length q.
Proof.
  cbn zeta. eexists. eexists. split; [vm_compute; reflexivity|]. split; [vm_compute; reflexivity|].
  intros [p [W Hmin]].
  assert (D : walk (global_topology triangle) 0 [{| e_dst := 2; e_start := (0, 0); e_stop := (2, 0) |}] 2).
  { constructor; [vm_compute; left; reflexivity|constructor]. }
  specialize (Hmin _ D). cbn [length] in Hmin. destruct p as [|e' p']; [|cbn [length] in Hmin; lia].
  inversion W as [|u e0 p0 v0 _ W']. subst. cbn [e_dst] in W'. inversion W'.
Qed.
Print Assumptions C19_first_hop_refuted_for_lifo.

(* the repaired loop on the same input *)
Example C19_first_hop_fifo_on_witness :
  exists m, dijkstra (global_topology triangle) 0 = DjOk m /\
            lookup 2 m = Some (0, {| e_dst := 2; e_start := (0, 0); e_stop := (2, 0) |}).
Proof. eexists. split; vm_compute; reflexivity. Qed.

(* ---- F13: spanned with a LIFO work list hands out wrong indices ---- *)
Fixpoint sp_loop_lifo (fuel : nat) (w : world) (nds : list nat) (eds : list (list edge)) (queue : list nat)
  : option topo :=
  match rev queue with
  | [] => Some {| nodes := nds; edges := eds |}
  | m :: rq =>
      match fuel with
      | O => None
      | S f =>
          let q := rev rq in
          let nds' := nds ++ [m] in
          let src_idx := length nds' - 1 in
          let '(b, q') := sp_gates nds' src_idx m 0 (gates_of w m) q in
          sp_loop_lifo f w nds' (eds ++ [b]) q'
      end
  end.

Definition spanned_lifo (w : world) (root : nat) : option topo := sp_loop_lifo (S (length w)) w [] [] [root].

(* root s with two neighbours a, b that are not connected to each other *)
Definition star : world :=
  [[Endpoint [(1, 0)]; Endpoint [(2, 0)]]; [Endpoint [(0, 0)]]; [Endpoint [(0, 1)]]].

(* the edge that starts at s.to-a and ends at gate a.to-s points to the node of b *)
Theorem C19_spanned_refuted_for_lifo :
  exists t e, spanned_lifo star 0 = Some t /\ In e (bundle t 0) /\
              e_start e = (0, 0) /\ e_stop e = (1, 0) /\ nth_error (nodes t) (e_dst e) = Some 2.
Proof.
  eexists. exists {| e_dst := 1; e_start := (0, 0); e_stop := (1, 0) |}.
  split; [vm_compute; reflexivity|]. vm_compute. split; [left; reflexivity|]. repeat split.
Qed.
Print Assumptions C19_spanned_refuted_for_lifo.

(* hence the pinned result is no exact view *)
Theorem C19_spanned_lifo_not_exact :
  exists t, spanned_lifo star 0 = Some t /\ ~ exact_view star t.
Proof.
  destruct C19_spanned_refuted_for_lifo as [t [e [Ht [He [_ [Hstop Hd]]]]]]. exists t. split; [exact Ht|].
  intros Hv. rewrite (exact_view_edge _ _ _ 0 e Hv He), Hstop in Hd. discriminate.
Qed.
Print Assumptions C19_spanned_lifo_not_exact.

Example C19_spanned_fifo_on_witness :
  exists t, spanned star 0 = Some t /\ nodes t = [0; 1; 2] /\
            bundle t 0 = [{| e_dst := 1; e_start := (0, 0); e_stop := (1, 0) |}; {| e_dst := 2; e_start := (0, 1); e_stop := (2, 0) |}].
Proof. eexists. split; [vm_compute; reflexivity|]. vm_compute. split; reflexivity. Qed.

(* ---- an observation outside C19's quantifier (filter_edges is not among the
   property's observation points): after filter_edges on a multi-edge the
   node-level test of `bidirectional` differs from the gate-level wording of
   its documentation ("for each edge from gate-a to gate-b there exists an
   equivalent edge from gate-b to gate-a") ---- *)
Definition double_link : world :=
  [[Endpoint [(1, 0)]; Endpoint [(1, 1)]]; [Endpoint [(0, 0)]; Endpoint [(0, 1)]]].

Example C19_bidirectional_is_node_level :
  let t := filter_edges (fun src e => negb ((src =? 1) && (snd (e_start e) =? 0))) (global_topology double_link) in
  bidirectional t = true /\
  exists e, In e (bundle t 0) /\ forall e', In e' (bundle t (e_dst e)) -> e_stop e' <> e_start e.
Proof.
  vm_compute. split; [reflexivity|]. eexists. split; [left; reflexivity|].
  intros e' [E|[]]. subst e'. cbn. discriminate.
Qed.
