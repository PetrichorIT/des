(* C17 — witnesses: the statements of Properties/C17.v are false of the code without
   their guards.  Everything by evaluation of the model (which the correspondence check ties to
   des-net-utils on every run; the scripts are in corpus/C17 and tools/props/c17.py). *)
From Coq Require Import List NArith Bool.
From DesVerif Require Import Props.Spec Props.Model Props.Main Props.Comp.
Import ListNotations.
Open Scope N_scope.

Definition k_a : str := [97].                                             (* a *)
Definition k_a_any_x : str := [97;46;60;97;110;121;62;46;120].            (* a.<any>.x *)
Definition k_a_any : str := [97;46;60;97;110;121;62].                     (* a.<any> *)
Definition k_aanyb_c : str := [97;60;97;110;121;62;98;46;99].             (* a<any>b.c *)
Definition k_any_e_x : str := [60;97;110;121;62;46;46;120].               (* <any>..x *)
Definition z : str := [122].
Definition x : str := [120].

(* Known finding `entry_at_wildcard_prefix`: an entry keyed exactly by the text in front of another
   entry's wildcard.  `a: 1` next to `a.<any>.x: 2`: module a.z is entitled to x = 2 and receives nothing. *)
Definition known_cfg : list (str * N) := [(k_a, 1); (k_a_any_x, 2)].

Theorem C17_known_class_witness :
  wf_cfgb known_cfg = true /\ KnownClass known_cfg /\ wf_pathb [k_a; z] = true /\
  receives known_cfg [k_a; z] x 2 /\ capture_for_into (cfg_new known_cfg) [k_a; z] = [].
Proof.
  split; [reflexivity|]. split; [apply known_classb_ok; reflexivity|]. split; [reflexivity|].
  split; [apply spec_capture_ok; vm_compute; left; reflexivity|reflexivity].
Qed.

(* hence completeness without the `known_classb cfg = false` hypothesis is refuted *)
Theorem C17_complete_unguarded_refuted :
  ~ (forall cfg p name v, wf_cfgb cfg = true -> wf_pathb p = true -> receives cfg p name v ->
       exists v', In (name, EYaml (Scalar v')) (capture_for_into (cfg_new cfg) p)).
Proof.
  intros H. destruct C17_known_class_witness as [W [_ [P [R E]]]].
  destruct (H known_cfg [k_a; z] x 2 W P R) as [v' Hin]. rewrite E in Hin. exact Hin.
Qed.

(* the same in the other order of the two lines *)
Example C17_known_class_other_order :
  capture_for_into (cfg_new [(k_a_any_x, 2); (k_a, 1)]) [k_a; z] = [].
Proof. reflexivity. Qed.

(* Keys outside the quantifier (excluded by wf_cfgb): a key that ends in the wildcard gives the
   matching modules a property with the empty name ... *)
Theorem C17_trailing_wildcard_witness :
  wf_cfgb [(k_a_any, 5)] = false /\
  capture_for_into (cfg_new [(k_a_any, 5)]) [k_a; z] = [([], EYaml (Scalar 5))] /\
  spec_capture [(k_a_any, 5)] [k_a; z] = [].
Proof. repeat split; reflexivity. Qed.

(* ... a wildcard inside a segment is read as a segment of its own (module a.q.b gets c from `a<any>b.c`) ... *)
Theorem C17_wildcard_inside_segment_witness :
  wf_cfgb [(k_aanyb_c, 3)] = false /\
  capture_for_into (cfg_new [(k_aanyb_c, 3)]) [k_a; z; [98]] = [([99], EYaml (Scalar 3))] /\
  spec_capture [(k_aanyb_c, 3)] [k_a; z; [98]] = [].
Proof. repeat split; reflexivity. Qed.

(* ... and an empty segment next to a wildcard is dropped (`<any>..x` gives module z the property x, not .x) *)
Theorem C17_empty_segment_witness :
  wf_cfgb [(k_any_e_x, 3)] = false /\
  capture_for_into (cfg_new [(k_any_e_x, 3)]) [z] = [(x, EYaml (Scalar 3))] /\
  spec_capture [(k_any_e_x, 3)] [z] = [([46; 120], 3)].
Proof. repeat split; reflexivity. Qed.

(* soundness without the key guard is refuted by the first of these *)
Theorem C17_sound_unguarded_refuted :
  ~ (forall cfg p name e, known_classb cfg = false -> wf_pathb p = true ->
       In (name, e) (capture_for_into (cfg_new cfg) p) -> exists v, e = EYaml (Scalar v) /\ receives cfg p name v).
Proof.
  intros H. destruct C17_trailing_wildcard_witness as [_ [E S]].
  destruct (H [(k_a_any, 5)] [k_a; z] [] (EYaml (Scalar 5)) eq_refl eq_refl) as [v [_ R]]; [rewrite E; left; reflexivity|].
  apply spec_capture_ok in R. rewrite S in R. exact R.
Qed.
