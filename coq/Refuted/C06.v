(* F4: C06 as stated ("however many tasks or wake-ups the instant involves") is false of
   the pinned code.  Witnesses for EVERY value of the budgets, and the concrete instance
   for tokio 1.45.1 (61 / 61 / 128) with the log that shows the late execution. *)
From Coq Require Import List NArith.
From DesVerif Require Import Exec.Model Exec.Basics Exec.Budget Exec.Wake Exec.Witness.
Import ListNotations.
Open Scope N_scope.

(* B+1 tasks spawned with tokio::spawn in one callback (each returns at once, they do not
   interact): B+1 polls are needed, event_interval = B allows B, the (B+1)-th task is
   still queued when block_on returns. *)
Lemma C06_refuted : forall B, exists x,
  b_rt (e_b x) = B /\ polls_needed_rt x = S B /\ queue_after x <> [] /\ KnownClass x.
Proof.
  intros B. exists (fanout false {| b_local := 0; b_rt := B; b_coop := 0 |} 31 (S B)).
  destruct (fanout_rt 0 B 0 31) as [_ [H2 H3]]. cbn zeta in *.
  split; [reflexivity|]. split; [exact H2|].
  assert (Hq : queue_after (fanout false {| b_local := 0; b_rt := B; b_coop := 0 |} 31 (S B)) <> [])
    by (intros E; rewrite E in H3; discriminate).
  split; [exact Hq|apply leftover_known; exact Hq].
Qed.

(* the same with spawn_local and MAX_TASKS_PER_TICK = B *)
Lemma C06_refuted_local : forall B, exists x,
  b_local (e_b x) = B /\ polls_needed_local x = S B /\ queue_after x <> [] /\ KnownClass x.
Proof.
  intros B. exists (fanout true {| b_local := B; b_rt := 0; b_coop := 0 |} 31 (S B)).
  destruct (fanout_local B 0 0 31) as [H1 [_ H3]]. cbn zeta in *.
  split; [reflexivity|]. split; [exact H1|].
  assert (Hq : queue_after (fanout true {| b_local := B; b_rt := 0; b_coop := 0 |} 31 (S B)) <> [])
    by (intros E; rewrite E in H3; discriminate).
  split; [exact Hq|apply leftover_known; exact Hq].
Qed.

(* the witness lemma of the known class in the form  exists x, KnownClass x /\ ~ P x *)
Lemma C06_known_class_witness : forall B, exists x, b_rt (e_b x) = B /\ KnownClass x /\ ~ queue_after x = [].
Proof. intros B. destruct (C06_refuted B) as [x [H1 [_ [H3 H4]]]]. exists x. auto. Qed.

(* cooperative budget c: a task with c+1 messages waiting that receives c+1 times needs one
   poll with c+1 receives; under budget c it is suspended after c of them and its wake is
   deferred to the park, i.e. it continues at the module's next callback *)
Lemma C06_coop_refuted : forall c now,
  p_ops (snd (poll_task None true now 0 (receiver c now))) = c + 1 /\
  code_of 0 (fst (poll_task None true now 0 (receiver c now))) = None /\
  p_dfr (snd (poll_task (Some c) true now 0 (receiver c now))) = true.
Proof. exact coop_budget_defers. Qed.

(* tokio 1.45.1: 62 tokio::spawn in the callback of the event at t = 5, next event at t = 12:
   task 61 was made runnable at 5 and is polled at 12, and its Log records 12. *)
Definition tokio_budgets : budgets := {| b_local := 61; b_rt := 61; b_coop := 128 |}.

Lemma C06_as_stated_refuted :
  let log := run_model tokio_budgets 31 (idle_tasks false 62) [] [(5, false, [], spawn_all 62); (7, false, [], [])] in
  In (RPoll 61 5 12) log /\ ~ polls_timely log.
Proof.
  cbn zeta.
  (* the record's position in the log, so that no 69-way disjunction is built *)
  assert (HIn : In (RPoll 61 5 12)
      (run_model tokio_budgets 31 (idle_tasks false 62) [] [(5, false, [], spawn_all 62); (7, false, [], [])]))
    by (apply (nth_error_In _ 66); vm_compute; reflexivity).
  split; [exact HIn|].
  intros H. apply (proj1 (Forall_forall _ _) H) in HIn. discriminate HIn.
Qed.

(* tokio 1.45.1: a task receives 129 times from a channel holding 129 messages: the 129th
   receive happens at the next event *)
Lemma C06_coop_as_stated_refuted :
  let ts := [(true, repeat Recv 129 ++ [Log])] in
  let log := run_model tokio_budgets 31 ts [] [(5, false, [], repeat (ASend 0) 129 ++ [Spawn 0]); (7, false, [], [])] in
  In (RPoll 0 5 12) log /\ In (ROp 0 12) log.
Proof.
  cbn zeta. split; [apply (nth_error_In _ 134)|apply (nth_error_In _ 135)]; vm_compute; reflexivity.
Qed.
