(* C13: four pinned behaviours that violated it, all repaired since; (a), (b) against others_as_if_silent,
   (c) against errors_exact, (d) against containment.
   [trace_p sfix rfix]: the model with the start-up sweep as before (false) / after (true) 1526470 and the
   restart stage loop as before / after 9e87d89; [trace_p true true] is [trace] of coq/Life/Sim.v.  The
   real crate was checked to agree with the pinned variants at the respective commits on the witnesses.
   (a) Before 1526470 SimLifecycle::at_sim_start swept all stages over all modules without looking at
       is_active.  A module with two stages that panics in at_sim_start(0) after spawning a task was still
       given at_sim_start(1), whose yield polled the task: it asked for a restart and sent, and module 1
       received messages it does not receive when module 0 falls silent.
   (b) Before 9e87d89 ModuleRef::module_restart went on with the later stages after a panic that the
       stereotype catches (Harness::catch returns Ok): same effect inside a restart event. *)
From Coq Require Import List NArith Bool.
From DesVerif Require Import Common.Fuel Life.Model Life.Step Life.Events Life.Panic Life.Silent.
Import ListNotations.
Open Scope N_scope.

Definition start_one_p (sfix : bool) (sc : script) (stage m : N) (acc : world * list erec) : world * list erec :=
  let '(w, tr) := acc in
  if (stage <? c_stages (cfg sc m)) && (negb sfix || active (w_mod w m)) then
    let '(w', l) := around sc 0 m (fun s => fst (at_sim_start (nmods sc) (cfg sc m) 0 m stage s)) w in
    (w', tr ++ [{| e_kind := KStart stage m; e_time := 0; e_items := l |}])
  else acc.

Definition sim_start_p (sfix : bool) (sc : script) (w : world) : world * list erec :=
  fold_left (fun acc stage => fold_left (fun acc m => start_one_p sfix sc stage m acc) (mods sc) acc)
            (stage_list (max_stage sc)) (w, []).

Definition module_restart_pinned (k : N) (c : modcfg) (now m : N) (s : xs) : xs :=
  let s0 := on_w (fun w => set_mod w m (set_active (w_mod w m) true)) s in
  fst (fold_left (fun (acc : xs * bool) stage => if snd acc then acc else at_sim_start k c now m stage (fst acc))
                 (stage_list (c_stages c)) (s0, false)).

Definition process_p (rfix : bool) (sc : script) (w : world) (t : N) (ev : fev) : world * list item :=
  match ev with
  | EvRestart m => if rfix then process sc w t ev
                   else around sc t m (module_restart_pinned (nmods sc) (cfg sc m) t m) w
  | _ => process sc w t ev
  end.

Definition loop_step_p (rfix : bool) (sc : script) (st : lstate) : lstate + lstate :=
  let '(w, now, tr) := st in
  match fes_fetch (w_fes w) with
  | None => inr st
  | Some (t, ev, f) =>
    let '(w', l) := process_p rfix sc (set_fes w f) t ev in
    inl (w', t, tr ++ [{| e_kind := KLoop ev; e_time := t; e_items := l ++ [ISample t (mask sc w')] |}])
  end.

Definition trace_p (sfix rfix : bool) (sc : script) : list erec :=
  let '(w0, tr0) := sim_start_p sfix sc (init_world sc) in
  let boot := {| e_kind := KBoot; e_time := 0; e_items := [ISample 0 (mask sc w0)] |} in
  match iter_until (fuel sc) (loop_step_p rfix sc) (w0, 0, tr0 ++ [boot]) with
  | inr (w, now, tr) => tr ++ snd (sim_end sc now w)
  | inl (_, _, tr) => tr
  end.

Definition silent_ok (tr : script -> list erec) (sc : script) (m : N) : Prop :=
  others m (items (events_of (tr sc))) = others m (items (events_of (tr (quieten m sc)))).

Definition w_m1 : modcfg := {| c_catch := false; c_stages := 1; c_bud := 6; c_start := [[]];
  c_msg := [[ALog 2]]; c_tasks := []; c_end := []; c_join := 0; c_rsend := false |}.

(* (a) corpus/C13/multistage_panic.txt, line 1 *)
Definition w_m0 : modcfg := {| c_catch := false; c_stages := 2; c_bud := 6; c_start := [[APanic]; []];
  c_msg := [[ALog 1]]; c_tasks := [[ARestartIn 1; ASend false 3 0]]; c_end := []; c_join := 0; c_rsend := false |}.
Definition w_sc : script := {| s_mods := [w_m0; w_m1]; s_inj := [] |}.

Lemma C13_pinned_sweep_refuted : exists sc m, c_catch (cfg sc m) = false /\ ~ silent_ok (trace_p false false) sc m.
Proof. exists w_sc, 0. split; [reflexivity|]. unfold silent_ok. vm_compute. discriminate. Qed.

(* (b) corpus/C13/multistage_panic.txt, line 3: module 0 catches panics and has two stages; its first incarnation
   asks for a restart, the restart's at_sim_start(0) panics (caught), at_sim_start(1) of the same restart polls the
   task spawned before the panic, which asks for another restart and sends: module 1 handles a message at t = 13 *)
Definition c_m0 : modcfg := {| c_catch := true; c_stages := 2; c_bud := 9; c_start := [[ARestartIn 2]; [APanic]; []];
  c_msg := [[ALog 1]]; c_tasks := [[ARestartIn 3; ASend false 4 0]]; c_end := []; c_join := 0; c_rsend := false |}.
Definition c_sc : script := {| s_mods := [c_m0; w_m1]; s_inj := [] |}.

Lemma C13_pinned_restart_refuted : exists sc m, ~ silent_ok (trace_p true false) sc m.
Proof. exists c_sc, 0. unfold silent_ok. vm_compute. discriminate. Qed.

(* the repaired code: [trace_p true true] is the model, both witnesses satisfy the statement (as every script
   does: Properties/C13.v), and they do so non-vacuously: the runs differ from the pinned ones *)
Example C13_repaired_on_witnesses :
  trace_p true true w_sc = trace w_sc /\ trace_p true true c_sc = trace c_sc /\
  silent_ok trace w_sc 0 /\ silent_ok trace c_sc 0 /\
  others 0 (items (events_of (trace_p false false w_sc))) <> others 0 (items (events_of (trace w_sc))) /\
  others 0 (items (events_of (trace_p true false c_sc))) <> others 0 (items (events_of (trace c_sc))).
Proof. unfold silent_ok. vm_compute. repeat split; try reflexivity; discriminate. Qed.

(* (c) errors_exact / stereotype_in_force against a runtime that samples the stereotype BEFORE the callback
   (seeded change stereotype_snapshot_before_callback; the code reads it when the panic is caught, and so does
   [catch]).  One handle_message in isolation: the handler switches to the catching stereotype and panics; the
   snapshot variant still reports a PanicError although the stereotype in force at the panic catches. *)
Definition handle_message_snap (k : N) (c : modcfg) (now m x : N) (s : xs) : xs :=
  if active (w_mod (x_w s) m) then
    let snap := catchf (w_mod (x_w s) m) in
    let '(s1, p) := exec k now m (CbMsg x) [] (pick_msg c x) s in
    let w1 := set_mod (x_w s1) m (set_catchf (w_mod (x_w s1) m) snap) in    (* judge by the snapshot ... *)
    let w2 := fst (catch c m p w1) in
    {| x_w := set_mod w2 m (set_catchf (w_mod w2 m) (catchf (w_mod (x_w s1) m))); x_log := x_log s1 |}
  else s.

Definition s_m0 : modcfg := {| c_catch := false; c_stages := 1; c_bud := 3; c_start := [[]];
  c_msg := [[ASetCatch true; APanic]]; c_tasks := []; c_end := []; c_join := 0; c_rsend := false |}.
Definition s_sc : script := {| s_mods := [s_m0; w_m1]; s_inj := [] |}.
Definition s_st : xs := {| x_w := init_world s_sc; x_log := [] |}.

Definition s_snap : xs := handle_message_snap 2 s_m0 1 0 0 s_st.
Definition s_real : xs := handle_message 2 s_m0 1 0 0 s_st.     (* the model (the code as it is) on the same input *)

Lemma C13_pinned_snapshot_refuted :
  x_log s_snap = [ICall 0 (CbMsg 0) 1 true; ISetCatch 0 0 true; IPanic 0 0 true] /\
  w_err (x_w s_snap) = [(0, 0)] /\ perrs s_sc (x_log s_snap) = [] /\
  x_log s_real = x_log s_snap /\ w_err (x_w s_real) = [] /\ perrs s_sc (x_log s_real) = [].
Proof. vm_compute. repeat split; reflexivity. Qed.

(* (d) containment against current().shutdow_and_restart_at(t) with t in the past being ACCEPTED inside the callback, as
   before 09c7b16 (F19; the code now panics inside the call, and the model decodes the scripted call to [APanic]).  One event of
   module 0 in isolation at t = 5 whose callback registers a restart at t = 1 and returns: buf_process consumes the request
   and queues the restart event BEFORE the clock of the event set -- the invariant of Life/Future.v ("nothing is scheduled
   into the past", on which the event loop's time order rests) is broken.  The real event set answers exactly this insertion
   with panic!("Cannot add past event to calender queue"), after the callback and outside the panic harness: run() itself
   panicked, nothing was contained or attributed (corpus/C13/library_panics.txt line 3 crashes the runner on a166d25). *)
Definition r_w : world := set_fes (init_world s_sc) {| f_tcur := 5; f_zero := []; f_rest := [] |}.
Definition r_w' : world := fst (around s_sc 5 0 (fun s => on_w (request 0 (Some 1)) s) r_w).

Lemma C13_pinned_restart_at_past_refuted :
  fes_order (w_fes r_w') = [(1, EvRestart 0)] /\ f_tcur (w_fes r_w') = 5 /\
  ~ (forall p, In p (fes_order (w_fes r_w')) -> f_tcur (w_fes r_w') <= fst p).
Proof.
  assert (E : fes_order (w_fes r_w') = [(1, EvRestart 0)] /\ f_tcur (w_fes r_w') = 5) by (vm_compute; split; reflexivity).
  destruct E as [E1 E2]. split; [exact E1|split; [exact E2|]]. intros H. specialize (H (1, EvRestart 0)). rewrite E1, E2 in H.
  specialize (H (or_introl eq_refl)). vm_compute in H. apply H. reflexivity.
Qed.

