(* C07: statements that are false of the pinned code, witnessed on the model
   variants that describe it (Channel.Model.variant), by evaluation.

   F5 (fixed by 3b41f69): Channel::unbusy dequeued at most one message.  If that
   message has a transmission time of 0 ns the channel is idle again, no Unbusy
   event is pending, and the rest of the queue is stuck for good.
   F15 (fixed by f99a7c7): send_message scheduled the Unbusy event before the
   Exit event; with zero latency and jitter a queued zero-time message was then
   handed to the receiver before the message whose transmission just ended.
   F18 (fixed by 6d86248): Gate::connect used the caller's handle itself as the
   channel of the reverse direction, so the reverse directions of all links
   built from one handle were served by ONE instance: a message offered to a
   link that is idle was dropped because another link was transmitting. *)
From Coq Require Import List NArith.
From DesVerif Require Import CQueue.Model CQueue.Spec Channel.Model Channel.Queue Channel.Trace Channel.Multi Channel.Project.
Import ListNotations.
Open Scope N_scope.

(* 2 Tbit/s: a header-only message (64 B) takes 0.256 ns -> 0 ns, 1 kB + header takes 4 ns *)
Definition tx_2T (len : N) : N := if len =? 64 then 0 else 4.

Definition pinned_f5 : variant := {| drain_all := false; exit_first := false |}.
Definition pinned_f15 : variant := {| drain_all := true; exit_first := false |}.

(* idle_implies_queue_empty fails: the event set is empty, the channel idle, two messages queued *)
Lemma C07_pinned_unbusy_refuted :
  exists tx mt offs oracle,
    let bs := group offs 0 in
    let s := steps pinned_f5 enc_ev tx mt bs (fuel_for offs) (init enc_ev bs oracle) in
    step pinned_f5 enc_ev tx mt bs s = None /\ busy (ch s) = false /\ buffer (ch s) <> [].
Proof.
  exists tx_2T, {| m_lat := 1000000; m_jit := 0; m_pol := PQueue None |},
         [(0, 1088); (0, 64); (0, 64); (0, 64)], [].
  vm_compute. repeat split. discriminate.
Qed.

(* ... while the repaired unbusy delivers all four *)
Lemma C07_repaired_unbusy_same_script :
  let offs := [(0, 1088); (0, 64); (0, 64); (0, 64)] in
  let bs := group offs 0 in
  let s := steps current enc_ev tx_2T {| m_lat := 1000000; m_jit := 0; m_pol := PQueue None |} bs (fuel_for offs) (init enc_ev bs []) in
  rev (delivered (log s)) = [0; 1; 2; 3] /\ buffer (ch s) = [].
Proof. vm_compute. split; reflexivity. Qed.

(* zero_jitter_preserves_order fails: message 1 is delivered before message 0 *)
Lemma C07_pinned_exit_order_refuted :
  exists tx mt offs oracle,
    m_jit mt = 0 /\
    let bs := group offs 0 in
    let s := steps pinned_f15 enc_ev tx mt bs (fuel_for offs) (init enc_ev bs oracle) in
    rev (accepted (log s)) = [0; 1] /\ rev (delivered (log s)) = [1; 0].
Proof.
  exists tx_2T, {| m_lat := 0; m_jit := 0; m_pol := PQueue None |}, [(0, 1088); (0, 64)], [].
  vm_compute. repeat split.
Qed.

Lemma C07_repaired_exit_order_same_script :
  let offs := [(0, 1088); (0, 64)] in
  let bs := group offs 0 in
  let s := steps current enc_ev tx_2T {| m_lat := 0; m_jit := 0; m_pol := PQueue None |} bs (fuel_for offs) (init enc_ev bs []) in
  rev (delivered (log s)) = [0; 1].
Proof. vm_compute. reflexivity. Qed.

(* F18: the reverse directions (odd channels) of links built from one handle share instance 1 *)
Definition pinned_f18 (c : N) : N := if N.odd c then 1 else c.

Definition mt_8k : metrics := {| m_lat := 100000000; m_jit := 0; m_pol := PDrop |}.
Definition alone : list (N * list (N * N * N)) := [(10000000, [(3, 1, 64)])].
Definition with_other_link : list (N * list (N * N * N)) := [(0, [(1, 0, 64)]); (10000000, [(3, 1, 64)])].

(* links_independent fails: the two scripts agree on what is offered to channel 3 (message 1 at 10 ms),
   yet with traffic on the other link (channel 1) that message is dropped "because the channel was busy" *)
Lemma C07_pinned_shared_handle_refuted :
  exists tx mt b1 b2,
    pbursts b1 3 = pbursts b2 3 /\
    let run b := msteps pinned_f18 (fun _ => tx) (fun _ => mt) b 20 (minit b (fun _ => [])) in
    In (IDeliver 1 174000000) (map snd (mlog (run b1))) /\
    In (IDropBusy 1 64 10000000) (map snd (mlog (run b2))) /\ ~ In (IDeliver 1 174000000) (map snd (mlog (run b2))).
Proof.
  exists (fun _ => 64000000), mt_8k, alone, with_other_link. vm_compute.
  split; [reflexivity|]. split; [intuition|]. split; [intuition|]. intros H. intuition discriminate.
Qed.

(* ... while with one instance per direction and link it is delivered in both *)
Lemma C07_repaired_shared_handle_same_scripts :
  let run b := msteps own_instance (fun _ _ => 64000000) (fun _ => mt_8k) b 20 (minit b (fun _ => [])) in
  plog 3 (mlog (run alone)) = plog 3 (mlog (run with_other_link)) /\ In (IDeliver 1 174000000) (plog 3 (mlog (run with_other_link))).
Proof. vm_compute. split; [reflexivity|intuition]. Qed.
