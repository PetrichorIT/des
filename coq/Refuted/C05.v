(* Variants of the timer code that violate C05, each refuted by a concrete history:
   - next() looking at the front slot only ([fixed = false] in Driver.q_next; finding F3): the
     wake-up invariant fails, a timer is live, no wake-up is scheduled, the run ends
     (C05_pinned_next_refuted, C05_pinned_timer_lost);
   - a stored waker that is never replaced ([fixed = false] in Futures.sleep_poll_waker): a Sleep
     handed to another task wakes the wrong one (C05_pinned_waker_refuted, C05_pinned_hand_over_lost);
   - four seeded changes: activate clearing next_wakeup only after a non-empty bump, far-future
     Sleeps sharing one id (an illustration on a stand-alone list, see there), re-registration keyed
     on the task id, a waker cache that is never refreshed. *)
From Coq Require Import List NArith.
From DesVerif Require Import Timer.Driver Timer.Inv Timer.Exact Timer.Futures Timer.Model.
Import ListNotations.
Open Scope N_scope.

(* next() looking at the front slot only (event_body false): register a at 5, drop a, register b at 10
   (all in the event at time 0), deactivate *)
Lemma C05_pinned_next_refuted :
  exists ops, ops_wf 0 ops /\ Inv 0 new_driver /\
    let dr := snd (event_body false 0 ops new_driver) in
    live dr 2 10 /\ scheduled dr = [] /\ ~ Inv_wake 0 dr.
Proof.
  exists [Register 1 5; DropEntry 1 5; Register 2 10].
  split; [repeat constructor|]. split; [exact inv_init|].
  cbn zeta. set (dr := snd (event_body false 0 _ new_driver)). vm_compute in dr. subst dr.
  split; [exists [2]; split; [right; left; reflexivity|left; reflexivity]|]. split; [reflexivity|].
  intros H. destruct (H 10 [2]) as (w & [] & _); [right; left; reflexivity|discriminate|reflexivity].
Qed.

(* the same history under that next() as a complete run: the event set is empty although
   timer 2 is still registered -- it is never woken (JoinError NotFinished) *)
Lemma C05_pinned_timer_lost :
  exists tr, let '(now, dr, lg) := run_trace false (0, new_driver) tr in
    scheduled dr = [] /\ live dr 2 10 /\ lg = [].
Proof.
  exists [EOther 0 [Register 1 5; DropEntry 1 5; Register 2 10]].
  vm_compute. split; [reflexivity|]. split; [|reflexivity].
  exists [2]. split; [right; left; reflexivity|left; reflexivity].
Qed.

(* A waker stored with a timer entry that is never replaced (poll_seq false): a Sleep polled by
   task 0 and then polled (awaited) by task 1 is still woken through task 0; the code
   (poll_seq true) wakes task 1. *)
Lemma C05_pinned_waker_refuted :
  exists polls s, handle s = None /\ Forall (fun p => fst p < deadline s) polls /\
    waker_of (snd (poll_seq true polls s new_driver [])) (sid s) = Some 1%nat /\
    waker_of (snd (poll_seq false polls s new_driver [])) (sid s) = Some 0%nat.
Proof.
  exists [(0, 0%nat); (0, 1%nat)], (sleep_new 10 7).
  split; [reflexivity|]. split; [repeat constructor|]. vm_compute. split; reflexivity.
Qed.

(* ... in the composite model: task 0 polls a boxed sleep(10), hands it to task 1 and sleeps 30;
   task 1 receives it at 0 and awaits it.  With the never-replaced waker (run_gen false) the wake-up
   at 10 polls task 0; task 1 never resumes (log [0] only, not finished, run not Ok), whereas the
   code (run_gen true) resumes it at exactly 10.  (firstn: the task logs, run result and end time; the
   driver snapshots that follow in the output are not shown.) *)
Lemma C05_pinned_hand_over_lost :
  exists script,
    firstn 9 (run_gen false script) = [2; 0; 30; 1;  1; 0; 0;  0; 30] /\
    firstn 10 (run_gen true script) = [2; 0; 30; 1;  2; 0; 10; 1;  1; 30].
Proof.
  exists [0; 2; 7; 0; 0; 9; 0; 10; 1; 30; 4; 0; 0; 10; 0]. vm_compute. split; reflexivity.
Qed.

(* Seeded change `next_wakeup_stuck`: activate clears next_wakeup only when the bump popped a
   slot, instead of whenever the marker is due (the code as it is: Driver.activate). *)
Definition activate_mut (now : N) (dr : driver) : list slot * driver :=
  let '(w, rest) := q_bump now (pending dr) in
  (w, {| pending := rest;
         next_wakeup := match w with [] => next_wakeup dr | _ => None end;
         scheduled := scheduled dr |}).

Definition event_body_mut (t : N) (ops : list dop) (dr : driver) : list slot * driver :=
  let '(w, d1) := activate_mut t dr in (w, fst (deactivate true (apply_ops ops d1))).

(* register a@10 at 0 (wake-up 10 scheduled); a MESSAGE event at 2 drops a and registers b@20
   (20 is not earlier than the marker 10: nothing scheduled, correctly); the stale wake-up 10
   fires with nothing to bump.  The real activate clears the marker and deactivate schedules 20;
   the mutant keeps the marker 10 forever: b is live, no wake-up is scheduled, Inv_wake fails. *)
Lemma C05_mutant_activate_refuted :
  let ev0 body dr := snd (body 0 [Register 1 10] dr) in
  let ev2 body dr := snd (body 2 [DropEntry 1 10; Register 2 20] dr) in
  let ev10 body dr := snd (body 10 [] (sched_fire 10 dr)) in
  let good := ev10 (event_body true) (ev2 (event_body true) (ev0 (event_body true) new_driver)) in
  let bad := ev10 event_body_mut (ev2 event_body_mut (ev0 event_body_mut new_driver)) in
  (scheduled good = [20] /\ next_wakeup good = Some 20) /\
  (live bad 2 20 /\ scheduled bad = [] /\ next_wakeup bad = Some 10 /\ ~ Inv_wake 10 bad).
Proof.
  cbn zeta. split; [vm_compute; split; reflexivity|].
  set (bad := snd (event_body_mut 10 _ _)). vm_compute in bad. subst bad.
  split; [exists [2]; split; [left; reflexivity|left; reflexivity]|]. split; [reflexivity|]. split; [reflexivity|].
  intros H. destruct (H 20 [2]) as (w & [] & _); [left; reflexivity|discriminate|reflexivity].
Qed.

(* Seeded change `far_future_shared_id`: all far-future Sleeps share one id.  A slot identifies
   its entries by id only and remove(id) takes the first match.  Entries written with the task
   whose waker they hold: task B (1) registered first, then task A (0), both with id 7 for the
   same deadline.  A re-arms its timer: the removal it asks for takes out B's entry and leaves
   A's stale one -- at the deadline task A is woken, task B never is.  With distinct ids
   (7 and 8) B's entry stays.  The driver model keeps ids only (Driver.v: the waker is not part of a
   slot), so this is an illustration on a stand-alone list of (id, task) pairs with the removal rule
   of Driver.ents_remove, not a statement about a definition of the model. *)
Fixpoint remove_first (id : N) (es : list (N * nat)) : list (N * nat) :=
  match es with
  | [] => []
  | (i, k) :: r => if i =? id then r else (i, k) :: remove_first id r
  end.

Lemma C05_shared_id_refuted :
  remove_first 7 [(7, 1%nat); (7, 0%nat)] = [(7, 0%nat)] /\
  remove_first 8 [(7, 1%nat); (8, 0%nat)] = [(7, 1%nat)].
Proof. split; reflexivity. Qed.

(* Seeded change `partial_reregister_by_task_id`: the Sleep remembers the tokio TASK that registered
   it and takes a new waker only when it is polled under a different task id.  Waker identity is
   finer than task identity: wakers are written as numbers, [task_of w] is the task that waker
   w wakes (here w / 2: 2k is task k's own waker, 2k + 1 the waker that a sub-executor running
   in task k hands to its child).  Polled first under waker 0, then under waker 1 -- both of
   task 0 -- the entry keeps waker 0: at the deadline the task is woken, but its sub-executor is
   never told that its child is due, and the await does not return.  The code as it is
   (poll_seq true: Waker::will_wake decides) stores waker 1. *)
Definition sleep_poll_waker_by_task (task_of : nat -> nat) (now : N) (w : nat) (s : sleep) (tab : wakers) : wakers :=
  if now <? deadline s then
    match handle s with
    | None => (sid s, w) :: tab
    | Some _ => match waker_of tab (sid s) with
                | Some w0 => if Nat.eqb (task_of w0) (task_of w) then tab else (sid s, w) :: tab
                | None => (sid s, w) :: tab
                end
    end
  else tab.

Fixpoint poll_seq_by_task (task_of : nat -> nat) (polls : list (N * nat)) (s : sleep) (dr : driver) (tab : wakers)
  : sleep * driver * wakers :=
  match polls with
  | [] => (s, dr, tab)
  | (t, w) :: r =>
    let tab' := sleep_poll_waker_by_task task_of t w s tab in
    let '(_, s', dr') := sleep_poll t s dr in
    poll_seq_by_task task_of r s' dr' tab'
  end.

Lemma C05_reregister_by_task_id_refuted :
  exists polls s, handle s = None /\ Forall (fun p => fst p < deadline s) polls /\
    waker_of (snd (poll_seq true polls s new_driver [])) (sid s) = Some 1%nat /\
    waker_of (snd (poll_seq_by_task Nat.div2 polls s new_driver [])) (sid s) = Some 0%nat /\
    (* ... while a hand-over to ANOTHER task (wakers 0 and 2) does work under that rule *)
    waker_of (snd (poll_seq_by_task Nat.div2 [(0, 0%nat); (0, 2%nat)] s new_driver [])) (sid s) = Some 2%nat.
Proof.
  exists [(0, 0%nat); (0, 1%nat)], (sleep_new 10 7).
  split; [reflexivity|]. split; [repeat constructor|]. vm_compute. repeat split; reflexivity.
Qed.

(* A "partial fix" of the waker hand-over (seeded/C05/partial_waker_cache_never_refreshed): the
   entry handle remembers the waker the entry was REGISTERED with and skips the update when the
   polling waker equals that cache -- but the cache is never refreshed.  One hand-over A -> B
   works (B differs from the cache).  The round trip A, B, A does not: the third poll equals the
   stale cache, the update is skipped, the entry still wakes B; at the deadline B is woken and A,
   which awaits the Sleep, never resumes.  The code as it is (poll_seq true) stores the waker
   of the LAST poll, A. *)
Definition sleep_poll_waker_cached (now : N) (w : nat) (s : sleep) (cache : option nat) (tab : wakers)
  : wakers * option nat :=
  if now <? deadline s then
    match handle s with
    | None => ((sid s, w) :: tab, Some w)
    | Some _ => match cache with
                | Some c => if Nat.eqb c w then (tab, cache) else ((sid s, w) :: tab, cache)
                | None => ((sid s, w) :: tab, cache)
                end
    end
  else (tab, cache).

Fixpoint poll_seq_cached (polls : list (N * nat)) (s : sleep) (dr : driver) (cache : option nat) (tab : wakers)
  : sleep * driver * wakers :=
  match polls with
  | [] => (s, dr, tab)
  | (t, w) :: r =>
    let '(tab', cache') := sleep_poll_waker_cached t w s cache tab in
    let '(_, s', dr') := sleep_poll t s dr in
    poll_seq_cached r s' dr' cache' tab'
  end.

Lemma C05_waker_cache_never_refreshed_refuted :
  exists polls s, handle s = None /\ Forall (fun p => fst p < deadline s) polls /\
    (* round trip A = 0, B = 1, A: the code wakes A, the cached rule wakes B *)
    waker_of (snd (poll_seq true polls s new_driver [])) (sid s) = Some 0%nat /\
    waker_of (snd (poll_seq_cached polls s new_driver None [])) (sid s) = Some 1%nat /\
    (* ... while the single hand-over A -> B works under that rule, and so does A -> B -> C *)
    waker_of (snd (poll_seq_cached [(0, 0%nat); (0, 1%nat)] s new_driver None [])) (sid s) = Some 1%nat /\
    waker_of (snd (poll_seq_cached [(0, 0%nat); (0, 1%nat); (0, 2%nat)] s new_driver None [])) (sid s) = Some 2%nat /\
    (* ... A -> B -> C -> A ends with the wrong waker (C) under that rule as well; for comparison, the
       code stores the last poller (B) on A -> B -> A -> B *)
    waker_of (snd (poll_seq_cached [(0, 0%nat); (0, 1%nat); (0, 2%nat); (0, 0%nat)] s new_driver None [])) (sid s) = Some 2%nat /\
    waker_of (snd (poll_seq true [(0, 0%nat); (0, 1%nat); (0, 0%nat); (0, 1%nat)] s new_driver [])) (sid s) = Some 1%nat.
Proof.
  exists [(0, 0%nat); (1, 1%nat); (2, 0%nat)], (sleep_new 10 7).
  split; [reflexivity|]. split; [repeat constructor|]. vm_compute. repeat split; reflexivity.
Qed.

