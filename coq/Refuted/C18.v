(* F11 / F11b: the pinned code ([fx = false], see Transform.v) panics where the property demands an error;
   the same inputs are errors with [fx = true].  From F11c on: a known finding of [fx = true] -- a
   description that elaborates, whose wiring is realisable, and whose build panics. *)
From Coq Require Import List NArith.
From DesVerif Require Import Ndl.Bytes Ndl.Grammar Ndl.Def Ndl.Transform Ndl.Build Ndl.Denote Ndl.Realisable Ndl.Known Ndl.Model.
Import ListNotations.
Open Scope N_scope.

Definition nm (c : N) : ident := [c].
Definition A := nm 65. Definition B := nm 66. Definition G := nm 71. Definition I := nm 73.
Definition T := nm 84. Definition U := nm 85. Definition X := nm 88.
Definition fld (c : N) : FieldDef := {| fd_ident := nm c; fd_kard := Atom |}.
Definition plain (name : ident) (subs : list (FieldDef * TypClause ident)) : TypClause Generic * ModuleDef :=
  ({| tc_ident := name; tc_args := [] |}, {| md_inherit := None; md_gates := []; md_subs := subs; md_conns := [] |}).
Definition generic1 (name binding bound : ident) (subs : list (FieldDef * TypClause ident)) : TypClause Generic * ModuleDef :=
  ({| tc_ident := name; tc_args := [{| g_binding := binding; g_bound := bound |}] |},
   {| md_inherit := None; md_gates := []; md_subs := subs; md_conns := [] |}).
Definition tc (name : ident) (args : list ident) : TypClause ident := {| tc_ident := name; tc_args := args |}.

(* (a) the type clause "A(T <- I" *)
Lemma C18_pinned_unclosed_clause_panics :
  exists s, typclause_from_str false generic_from_str s = Panic P_ASSERT_ENDS_WITH_PAREN /\
            typclause_from_str true generic_from_str s = Err E_NO_CLOSING_PAREN.
Proof. exists [65; 40; 84; 32; 60; 45; 32; 73]. split; reflexivity. Qed.

(* (b) A(U <- I) { y: B(U) }, B(T <- I) { x: T }, I: the enclosing generic U passed on *)
Definition d_passed_on : Def :=
  {| d_entry := A;
     d_modules := [generic1 A U I [(fld 121, tc B [U])]; generic1 B T I [(fld 120, tc T [])]; plain I []];
     d_links := [] |}.
Lemma C18_pinned_generic_passed_on_panics :
  exists d, transform false d = Panic P_REPLACEMENT_LOOKUP /\ transform true d = Err K_GENERIC_PASSED_AS_TYP_ARGUMENT.
Proof. exists d_passed_on. split; vm_compute; reflexivity. Qed.

(* (c) A { y: B(G) }, B(T <- I) { x: T }, G(T <- I), I: a generic type as argument *)
Definition d_generic_arg : Def :=
  {| d_entry := A;
     d_modules := [plain A [(fld 121, tc B [G])]; generic1 B T I [(fld 120, tc T [])]; generic1 G T I []; plain I []];
     d_links := [] |}.
Lemma C18_pinned_generic_type_as_argument_panics :
  exists d, transform false d = Panic P_ASSERT_REPLACEMENT_DEPS /\ transform true d = Err K_INVALID_TYP_STATEMENT.
Proof. exists d_generic_arg. split; vm_compute; reflexivity. Qed.

(* (d) A(U <- I) { y: U(X) }, I, X: arguments applied to a generic parameter *)
Definition d_args_on_generic : Def :=
  {| d_entry := A;
     d_modules := [generic1 A U I [(fld 121, tc U [X])]; plain I []; plain X []];
     d_links := [] |}.
Lemma C18_pinned_arguments_on_generic_panics :
  exists d, transform false d = Panic P_GENERIC_BASE_LOOKUP /\ transform true d = Err K_INVALID_TYP_STATEMENT.
Proof. exists d_args_on_generic. split; vm_compute; reflexivity. Qed.

(* (b') with a global module named like the generic, the pinned code silently used the global one *)
Definition d_shadow : Def :=
  {| d_entry := A;
     d_modules := [plain I []; plain U []; generic1 B T I [(fld 120, tc T [])]; generic1 A U I [(fld 121, tc B [U])]];
     d_links := [] |}.
Lemma C18_pinned_generic_shadowed_by_global :
  exists d, (exists n, transform false d = Ok n) /\ transform true d = Err K_GENERIC_PASSED_AS_TYP_ARGUMENT.
Proof. exists d_shadow. split; [eexists|]; vm_compute; reflexivity. Qed.

(* F11b (fix: a6f4ffc): two submodule fields of one name (own + inherited) elaborated, and the
   instantiation then hit `assert!(self.get(path).is_none())` (des/src/net/ndl/mod.rs, raw_ndl); with
   [fx = true] transform reports SymbolAlreadyDefined.
   The document: entry M0; M0: inherit M2, submodules {x: M1}; M2: submodules {x: M1}; M1: gates [p] *)
Definition dup_doc : list N :=
  [1; 1; 2; 77; 48; 3; 2; 77; 48; 1; 2; 77; 50; 0; 1; 1; 120; 2; 77; 49; 0; 2; 77; 50; 0; 0; 1; 1; 120; 2; 77; 49; 0; 2; 77; 49; 0; 1; 1; 112; 0; 0; 0; 0].
Lemma C18_pinned_duplicate_submodule_path_panics :
  exists input, run_fx false input = 1 :: [2; 77; 48; 0; 2; 1; 120; 0; 2; 77; 49; 1; 1; 112; 0; 0; 0; 1; 120; 0; 2; 77; 49; 1; 1; 112; 0; 0; 0; 0] ++ [5; 9; 30] /\
               run input = [2; 2].
Proof. exists dup_doc. split; vm_compute; reflexivity. Qed.

(* the same for two cluster fields x[2], x[3] of one module, on the description level *)
Definition d_dup_clusters : Def :=
  {| d_entry := A;
     d_modules := [plain A [({| fd_ident := nm 120; fd_kard := Cluster 2 |}, tc B []); ({| fd_ident := nm 120; fd_kard := Cluster 3 |}, tc B [])];
                   plain B []];
     d_links := [] |}.
Lemma C18_pinned_duplicate_cluster_fields :
  exists d, (exists n, transform false d = Ok n /\ Build.build (fun _ => true) n = Panic Build.P_MODULE_EXISTS) /\
            transform true d = Err K_SYMBOL_ALREADY_DEFINED.
Proof. exists d_dup_clusters. split; [eexists; split|]; vm_compute; reflexivity. Qed.

(* F11c (known finding, [fx = true]): `transform succeeds and the wiring is realisable => the build succeeds` is false.
   Z { h: G(C) };  G(T <- I): inherit Q { x: T };  Q { gates [g]; y: T; y/z <-> g };  I { gates [p] };  C: inherit I;
   T { gates [z] }   -- Q's `y: T` is the GLOBAL module T.  Instantiating G(C) replaces every submodule whose symbol is
   "T", the inherited y included; the inherited connection y/z then names a gate that C does not have: the elaborated
   tree has an endpoint that does not resolve ([tree_ok] = false) although no statement connects a gate to itself or
   a third time, and the build hits access_gate(..).expect("gate"). *)
Definition Cc := nm 67. Definition Q := nm 81. Definition Zz := nm 90.
Definition gate1 (c : N) : FieldDef := {| fd_ident := nm c; fd_kard := Atom |}.
Definition d_f11c : Def :=
  {| d_entry := Zz;
     d_modules :=
       [plain Zz [(fld 104, tc G [Cc])];
        ({| tc_ident := G; tc_args := [{| g_binding := T; g_bound := I |}] |},
         {| md_inherit := Some Q; md_gates := []; md_subs := [(fld 120, tc T [])]; md_conns := [] |});
        ({| tc_ident := Q; tc_args := [] |},
         {| md_inherit := None; md_gates := [gate1 103]; md_subs := [(fld 121, tc T [])];
            md_conns := [{| cd_lhs := [gate1 121; gate1 122]; cd_rhs := [gate1 103]; cd_link := None |}] |});
        ({| tc_ident := I; tc_args := [] |}, {| md_inherit := None; md_gates := [gate1 112]; md_subs := []; md_conns := [] |});
        ({| tc_ident := Cc; tc_args := [] |}, {| md_inherit := Some I; md_gates := []; md_subs := []; md_conns := [] |});
        ({| tc_ident := T; tc_args := [] |}, {| md_inherit := None; md_gates := [gate1 122]; md_subs := []; md_conns := [] |})];
     d_links := [] |}.
Lemma C18_known_class_witness : KnownClass d_f11c /\ f11c_shape d_f11c = true.
Proof. split; [eexists; split; vm_compute; reflexivity|vm_compute; reflexivity]. Qed.

Lemma C18_build_fails_although_wiring_realisable :
  exists d n, transform true d = Ok n /\ wiring_ok (den_conns n []) [] = true /\ tree_ok n = false /\
              Build.build (fun _ => true) n = Panic Build.P_EXPECT_GATE.
Proof. exists d_f11c. eexists. split; [vm_compute; reflexivity|]. repeat split; vm_compute; reflexivity. Qed.

(* F11c, second shape: G(T <- I, I <- J) { h: T; s: I; h/p <-> s/q } instantiated as G(I, C) with the global I as first
   argument: h becomes I's tree, whose symbol is the name of the second parameter, and is replaced again by C *)
Definition J := nm 74.
Definition d_f11c_args : Def :=
  {| d_entry := Zz;
     d_modules :=
       [plain Zz [(fld 108, tc G [I; Cc])];
        ({| tc_ident := G; tc_args := [{| g_binding := T; g_bound := I |}; {| g_binding := I; g_bound := J |}] |},
         {| md_inherit := None; md_gates := []; md_subs := [(fld 104, tc T []); (fld 115, tc I [])];
            md_conns := [{| cd_lhs := [gate1 104; gate1 112]; cd_rhs := [gate1 115; gate1 113]; cd_link := None |}] |});
        ({| tc_ident := I; tc_args := [] |}, {| md_inherit := None; md_gates := [gate1 112]; md_subs := []; md_conns := [] |});
        ({| tc_ident := J; tc_args := [] |}, {| md_inherit := None; md_gates := [gate1 113]; md_subs := []; md_conns := [] |});
        ({| tc_ident := Cc; tc_args := [] |}, {| md_inherit := Some J; md_gates := []; md_subs := []; md_conns := [] |})];
     d_links := [] |}.
Lemma C18_known_class_witness_argument_shape :
  KnownClass d_f11c_args /\ f11c_shape d_f11c_args = true /\
  exists n, transform true d_f11c_args = Ok n /\ Build.build (fun _ => true) n = Panic Build.P_EXPECT_GATE.
Proof. split; [eexists; split; vm_compute; reflexivity|]. split; [vm_compute; reflexivity|]. eexists. split; vm_compute; reflexivity. Qed.
